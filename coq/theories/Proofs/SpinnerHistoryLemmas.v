(* C19, history-indexed statements about Model/Spinner.v.
   "Every write is frame c m for SOME message m" (any string) excludes nothing: a residue of a longer frame or two
   frames glued together are again "frame c m'" for a suitable m'.  Hence:
   * the screen after any write history is given EXACTLY (screen_of): every row is empty or is one of the frames
     written so far, whole, and the current line is the most recent write;
   * the frames written by the caller's thread show, in order, exactly the messages set (start message, every
     set_message up to a raise, end message on a normal exit);
   * every frame written by the spinner shows a message that the caller had set when the spinner formatted it: the
     message of a caller frame written before it, or of the caller's next frame after it (set already, frame still
     on its way to the stream).
   Manual mode: the frames are append-only, and the frame(s) an operation adds show the indicator position and the
   message that are current after that operation; the current message is the one most recently set. *)
From Coq Require Import Lia Arith.
From Clikit Require Import Base.Prelude Base.Res Base.Term Model.Spinner Proofs.TermLemmas Proofs.ListLemmas Proofs.SpinnerLemmas.

Fixpoint screen_of (R : list (list N)) (r : list N) (ws : list (option str)) : list (list N) :=
  match ws with
  | [] => R ++ [r]
  | Some f :: t => screen_of R f t           (* a frame replaces the current line, whatever it held *)
  | None :: t => screen_of (R ++ [r]) [] t   (* a line break keeps it and opens an empty line *)
  end.

Lemma screen_exact w (Hw : 1 <= w) : forall ws R r c, Forall (short w) ws ->
  rows (feed w {| rows := R ++ [r]; cr := length R; cc := c |} (flat_map emits_of_write ws)) = screen_of R r ws.
Proof.
  induction ws as [|x ws IH]; intros R r c Hs; cbn [flat_map screen_of].
  - reflexivity.
  - inversion Hs as [|? ? Sx Sws]; subst. rewrite feed_app. destruct x as [f|].
    + rewrite (frame_replaces_line w Hw R r c f Sx). apply IH, Sws.
    + rewrite newline_opens_row. apply IH, Sws.
Qed.

(* every row of that screen is a row it started with, or empty, or one of the frames written - whole *)
Lemma screen_of_rows : forall ws R r,
  Forall (fun x => In x (R ++ [r]) \/ x = [] \/ In (Some x) ws) (screen_of R r ws).
Proof.
  induction ws as [|x ws IH]; intros R r; cbn [screen_of].
  - apply Forall_forall. intros y Hy. left. exact Hy.
  - destruct x as [f|].
    + eapply Forall_impl; [|apply IH]. cbn beta. intros y [Hy|[Hy|Hy]].
      * apply in_app_or in Hy. destruct Hy as [Hy|[Hy|[]]]; [left; apply in_or_app; left; exact Hy|].
        subst y. right. right. left. reflexivity.
      * right. left. exact Hy.
      * right. right. right. exact Hy.
    + eapply Forall_impl; [|apply IH]. cbn beta. intros y [Hy|[Hy|Hy]].
      * apply in_app_or in Hy. destruct Hy as [Hy|[Hy|[]]]; [left; exact Hy|]. right. left. symmetry. exact Hy.
      * right. left. exact Hy.
      * right. right. right. exact Hy.
Qed.

(* the current line (last row) is the most recent write: that frame, or empty after a line break *)
Definition latest (r : list N) (ws : list (option str)) : list N :=
  match last ws (Some r) with Some f => f | None => [] end.
Lemma latest_cons r x ws : latest r (x :: ws) = latest (match x with Some f => f | None => [] end) ws.
Proof.
  unfold latest. destruct ws as [|y ws]; [destruct x; reflexivity|].
  change (last (x :: y :: ws) (Some r)) with (last (y :: ws) (Some r)). now rewrite (last_cons_indep ws y (Some r) (Some match x with Some f => f | None => [] end)).
Qed.
Lemma screen_of_last : forall ws R r, exists R', screen_of R r ws = R' ++ [latest r ws].
Proof.
  induction ws as [|x ws IH]; intros R r; cbn [screen_of].
  - exists R. reflexivity.
  - rewrite latest_cons. destruct x as [f|]; apply IH.
Qed.

(* a frame then a line break at the end of the history: the frame is the last line shown *)
Lemma screen_of_frame_nl f : forall ws R r, exists R', screen_of R r (ws ++ [Some f; None]) = R' ++ [f; []].
Proof. induction ws as [|[g|] ws IH]; intros R r; cbn [app screen_of]; [exists R; now rewrite <- app_assoc|apply IH..]. Qed.
Lemma last_frame_shown w (Hw : 1 <= w) (ws pre : list (bool * option str)) (f : str) :
  ws = pre ++ [(false, Some f); (false, None)] -> Forall (short w) (map snd ws) ->
  exists R, rows (feed w term_init (flat_map (fun x => emits_of_write (snd x)) ws)) = R ++ [f; []].
Proof.
  intros -> Hs. rewrite <- flat_map_map, (screen_exact w Hw _ [] [] 0) by exact Hs. rewrite map_app. apply screen_of_frame_nl.
Qed.

Definition msg_of (f : str) : str := skipn 3 f.
Lemma msg_of_frame c m : msg_of (frame c m) = m.
Proof. reflexivity. Qed.
Definition pmsg (p : pending) : option str := match p with PW (Some f) => Some (msg_of f) | _ => None end.
Fixpoint mmsgs (ws : list (bool * option str)) : list str :=
  match ws with
  | [] => []
  | (false, Some f) :: r => msg_of f :: mmsgs r
  | _ :: r => mmsgs r
  end.
Lemma mmsgs_app a b : mmsgs (a ++ b) = mmsgs a ++ mmsgs b.
Proof. induction a as [|[[|] [f|]] a IH]; cbn; auto. now rewrite IH. Qed.
Definition olist {X : Type} (o : option X) : list X := match o with Some x => [x] | None => [] end.
Lemma mmsgs_snoc_main ws t : mmsgs (ws ++ [(false, t)]) = mmsgs ws ++ olist (pmsg (PW t)).
Proof. rewrite mmsgs_app. destruct t; reflexivity. Qed.
Lemma mmsgs_snoc_spinner ws t : mmsgs (ws ++ [(true, t)]) = mmsgs ws.
Proof. rewrite mmsgs_app. destruct t; cbn; apply app_nil_r. Qed.

(* the messages the body sets before it raises (all of them when it does not) *)
Fixpoint until_raise (acts : list action) : list str :=
  match acts with
  | [] => []
  | ASet m :: r => m :: until_raise r
  | AWork _ :: r => until_raise r
  | ARaise :: _ => []
  end.

Definition future (s : st) : list str :=
  match mphase_ s with
  | MBody => until_raise (body s) ++ (if has_raise (body s) then [] else [end_msg s])
  | MAfterJoinExit => [end_msg s]
  | _ => []
  end.
(* constant along a run: the messages of the caller's frames written so far, of its pending write, and of the frames
   it has still to write (what the rest of the body sets before a raise, then the end message on a normal exit) *)
Definition caller_msgs (target : list str) (s : st) : Prop := mmsgs (writes s) ++ olist (pmsg (mp s)) ++ future s = target.

Lemma main_to_yield_future s :
  olist (pmsg (mp (main_to_yield s))) ++ future (main_to_yield s) = future s /\ writes (main_to_yield s) = writes s.
Proof.
  unfold main_to_yield, future. destruct (mphase_ s) as [| | | | |r]; cbn [mphase_ body upd_st mp end_msg writes pmsg olist app]; auto.
  destruct (body s) as [|[m|d|] rest]; cbn [mphase_ body upd_st mp end_msg writes pmsg olist app until_raise has_raise existsb orb msg_of frame skipn]; auto.
Qed.

Lemma perform_caller_msgs tg s : caller_msgs tg s -> mmsgs (writes (perform s)) ++ future (perform s) = tg.
Proof.
  unfold caller_msgs, perform, future. destruct (mp s) as [t|d| |]; cbn [writes upd_st mphase_ body end_msg pmsg olist app]; auto.
  now rewrite mmsgs_snoc_main, <- app_assoc.
Qed.
Lemma step_caller_msgs tg s b : caller_msgs tg s -> caller_msgs tg (step s b).
Proof.
  intros H. destruct b; cbn [step].
  - unfold step_spinner. destruct (sp s) as [t|d| |]; try exact H.
    + unfold caller_msgs, future in *. cbn [upd_st mp mphase_ body end_msg writes]. now rewrite mmsgs_snoc_spinner.
    + match goal with |- caller_msgs tg (spin_to_yield ?x) => destruct (spin_to_yield_eq x) as (c & u & p & -> & _) end. exact H.
  - rewrite step_main_eq. destruct (main_blocked s); [exact H|]. unfold caller_msgs.
    destruct (main_to_yield_future (perform s)) as [F1 F2]. rewrite F2, F1. apply perform_caller_msgs, H.
Qed.

(* the spinner's frames show a message the caller had set *)
Definition firstm (ws : list (bool * option str)) (pend : option str) : option str :=
  match mmsgs ws with m :: _ => Some m | [] => pend end.
Fixpoint sp_ok (seen : list str) (ws : list (bool * option str)) (pend : option str) : Prop :=
  match ws with
  | [] => True
  | (true, Some f) :: r => (exists c m, f = frame c m /\ (In m seen \/ firstm r pend = Some m)) /\ sp_ok seen r pend
  | (false, Some f) :: r => (exists c m, f = frame c m) /\ sp_ok (seen ++ [msg_of f]) r pend
  | (_, None) :: r => sp_ok seen r pend
  end.

Lemma sp_ok_snoc : forall ws seen pd x p',
  sp_ok seen ws pd ->
  (forall r m, firstm r pd = Some m -> firstm (r ++ [x]) p' = Some m) ->
  sp_ok (seen ++ mmsgs ws) [x] p' ->
  sp_ok seen (ws ++ [x]) p'.
Proof.
  induction ws as [|[b [f|]] ws IH]; intros seen pd x p' H St Hx.
  - cbn [mmsgs] in Hx. rewrite app_nil_r in Hx. exact Hx.
  - destruct b; cbn [sp_ok app] in *.
    + destruct H as [(c & m & Hf & Hm) H]. split.
      * exists c, m. split; [exact Hf|]. destruct Hm as [Hm|Hm]; [left; exact Hm|right; apply St, Hm].
      * apply (IH seen pd); auto.
    + destruct H as [Hf H]. split; [exact Hf|]. apply (IH _ pd); auto.
      cbn [mmsgs] in Hx. rewrite <- app_assoc. exact Hx.
  - assert (sp_ok seen (ws ++ [x]) p') as G.
    { apply (IH seen pd); auto. - destruct b; exact H. - destruct b; exact Hx. }
    destruct b; exact G.
Qed.

Lemma sp_ok_weaken : forall ws seen p, sp_ok seen ws None -> sp_ok seen ws p.
Proof.
  induction ws as [|[b [f|]] ws IH]; intros seen p H; [exact I| |].
  - destruct b; cbn [sp_ok] in *.
    + destruct H as [(c & m & Hf & Hm) H]. split; [|apply IH, H]. exists c, m. split; [exact Hf|].
      destruct Hm as [Hm|Hm]; [left; exact Hm|right]. unfold firstm in *. destruct (mmsgs ws); [discriminate|exact Hm].
    + destruct H as [Hf H]. split; [exact Hf|apply IH, H].
  - destruct b; cbn [sp_ok] in *; apply IH, H.
Qed.

Lemma firstm_stable_main r t m p' : firstm r (pmsg (PW t)) = Some m -> firstm (r ++ [(false, t)]) p' = Some m.
Proof.
  unfold firstm. rewrite mmsgs_snoc_main. destruct (mmsgs r) as [|a l]; cbn [app]; [|auto].
  destruct (pmsg (PW t)); cbn; [auto|discriminate].
Qed.
Lemma firstm_stable_spinner r t m p : firstm r p = Some m -> firstm (r ++ [(true, t)]) p = Some m.
Proof. unfold firstm. rewrite mmsgs_snoc_spinner. auto. Qed.

(* Kept by every step: the history so far is sp_ok, the caller's pending write standing for its next frame; the frame the
   spinner has formatted and not yet written shows a message of a caller frame already written or of the pending one;
   the caller's pending write is a frame; the message field is the pending frame's message, or else that of the last
   caller frame written (so a frame the spinner formats now shows one of the two). *)
Definition hist_ok (s : st) : Prop :=
  sp_ok [] (writes s) (pmsg (mp s)) /\
  (match sp s with PW (Some f) => exists c m, f = frame c m /\ (In m (mmsgs (writes s)) \/ pmsg (mp s) = Some m) | _ => True end) /\
  (match mp s with PW (Some f) => exists c m, f = frame c m | _ => True end) /\
  (match pmsg (mp s) with Some m => msg s = m | None => exists l, mmsgs (writes s) = l ++ [msg s] end).
(* the same with the caller's pending write gone (just performed, or none) *)
Definition hist_ok_mid (s : st) : Prop :=
  sp_ok [] (writes s) None /\
  (match sp s with PW (Some f) => exists c m, f = frame c m /\ In m (mmsgs (writes s)) | _ => True end) /\
  (exists l, mmsgs (writes s) = l ++ [msg s]).

Lemma main_to_yield_hist_ok s : hist_ok_mid s -> hist_ok (main_to_yield s).
Proof.
  intros (A1 & A2 & A4). unfold main_to_yield, hist_ok.
  assert (match sp s with PW (Some f) => exists c m, f = frame c m /\ (In m (mmsgs (writes s)) \/ @None str = Some m) | _ => True end) as A2'.
  { destruct (sp s) as [[f|]| | |]; auto. destruct A2 as (c & m & E1 & E2). eauto. }
  assert (forall m', match sp s with PW (Some f) => exists c m, f = frame c m /\ (In m (mmsgs (writes s)) \/ Some m' = Some m) | _ => True end) as A2''.
  { intros m'. destruct (sp s) as [[f|]| | |]; auto. destruct A2 as (c & m & E1 & E2). eauto. }
  destruct (mphase_ s) as [| | | | |r]; cbn [mphase_ body upd_st mp sp msg writes pmsg];
    try (repeat split; auto; fail).
  - destruct (body s) as [|[m|d|] rest]; cbn [mphase_ body upd_st mp sp msg writes pmsg msg_of frame skipn];
      try (repeat split; auto; fail).
    repeat split; auto using sp_ok_weaken; [apply A2''|eauto].
  - cbn [msg_of frame skipn]. repeat split; auto using sp_ok_weaken; [apply A2''|eauto].
Qed.

(* A spinner write moves its pending frame into the history (sp_ok_snoc: "pending" for the earlier spinner frames stays
   what it was); formatting a frame reads msg, covered by the last clause.  A caller write turns its pending message
   into a written one, which is how the clauses of hist_ok_mid read; main_to_yield then sets the next pending write. *)
Lemma step_hist_ok s b : hist_ok s -> hist_ok (step s b).
Proof.
  intros (H1 & H2 & H3 & H4). destruct b; cbn [step].
  - unfold step_spinner. destruct (sp s) as [t|d| |] eqn:Es; try (unfold hist_ok; rewrite Es; auto; fail).
    + unfold hist_ok. cbn [upd_st writes sp mp msg]. rewrite mmsgs_snoc_spinner. repeat split; auto.
      apply (sp_ok_snoc _ _ (pmsg (mp s))); auto using firstm_stable_spinner.
      cbn [app sp_ok]. destruct t as [f|]; [|exact I]. split; [|exact I].
      destruct H2 as (c & m & E1 & E2). exists c, m. split; [exact E1|]. destruct E2; auto.
    + unfold spin_to_yield, hist_ok. cbn [stop clock upd msg cur interval upd_st writes sp mp].
      destruct (stop s); [cbn [upd_st writes sp mp msg]; auto|].
      destruct (clock s + d <? upd s)%Z; cbn [upd_st writes sp mp msg]; repeat split; auto.
      exists (S (cur s)), (msg s). split; [reflexivity|].
      destruct (pmsg (mp s)) as [m|]; [right; now rewrite H4|left]. destruct H4 as [l ->]. apply in_or_app. right. left. reflexivity.
  - rewrite step_main_eq. destruct (main_blocked s) eqn:Hb; [repeat split; assumption|].
    apply main_to_yield_hist_ok. unfold main_blocked, perform in *. destruct (mp s) as [t|d| |] eqn:Em; try discriminate.
    + unfold hist_ok_mid. cbn [upd_st writes sp msg]. rewrite mmsgs_snoc_main. repeat split.
      * apply (sp_ok_snoc _ _ (pmsg (PW t))); auto using firstm_stable_main.
        cbn [app sp_ok]. destruct t as [f|]; [|exact I]. split; [exact H3|exact I].
      * destruct (sp s) as [[f|]| | |]; auto. destruct H2 as (c & m & E1 & E2). exists c, m. split; [exact E1|].
        apply in_or_app. destruct E2 as [E2|E2]; [left; exact E2|right]. rewrite E2. left. reflexivity.
      * destruct (pmsg (PW t)) as [m|]; cbn [olist]; [exists (mmsgs (writes s)); now rewrite H4|]. rewrite app_nil_r. exact H4.
    + unfold hist_ok_mid. cbn [upd_st writes sp msg]. cbn [pmsg] in *. repeat split; auto.
      destruct (sp s) as [[f|]| | |]; auto. destruct H2 as (c & m & E1 & [E2|E2]); [eauto|discriminate].
    + cbn [pmsg] in *. destruct (sp s) as [[f|]| | |] eqn:Es; try discriminate. unfold hist_ok_mid. rewrite Es. auto.
Qed.
Lemma start_hist_ok t0 iv sm em acts : hist_ok (auto_start t0 iv sm em acts).
Proof. unfold hist_ok; cbn. repeat split; auto. exists 0, sm. reflexivity. Qed.

(* readable form of sp_ok: whatever way the history is cut at a frame *)
Lemma sp_ok_split : forall ws seen pd, sp_ok seen ws pd ->
  forall pre b f post, ws = pre ++ (b, Some f) :: post ->
  exists c m, f = frame c m /\ (b = true -> In m (seen ++ mmsgs pre) \/ firstm post pd = Some m).
Proof.
  induction ws as [|[b0 [f0|]] ws IH]; intros seen pd Hs pre b f post E.
  - destruct pre; discriminate.
  - destruct pre as [|y pre]; cbn [app] in E.
    + inversion E; subst. destruct b; cbn [sp_ok] in Hs.
      * destruct Hs as [(c & m & Hf & Hm) _]. exists c, m. split; [exact Hf|]. intros _. cbn [mmsgs]. rewrite app_nil_r. exact Hm.
      * destruct Hs as [(c & m & Hf) _]. exists c, m. split; [exact Hf|discriminate].
    + inversion E; subst. destruct b0; cbn [sp_ok] in Hs.
      * destruct Hs as [_ Hs]. destruct (IH seen pd Hs pre b f post eq_refl) as (c & m & Hf & Hm).
        exists c, m. split; [exact Hf|]. cbn [mmsgs]. exact Hm.
      * destruct Hs as [_ Hs]. destruct (IH _ pd Hs pre b f post eq_refl) as (c & m & Hf & Hm).
        exists c, m. split; [exact Hf|]. cbn [mmsgs]. rewrite <- app_assoc in Hm. exact Hm.
  - destruct pre as [|y pre]; cbn [app] in E; [discriminate|]. inversion E; subst.
    assert (sp_ok seen (pre ++ (b, Some f) :: post) pd) as Hs' by (destruct b0; exact Hs).
    destruct (IH seen pd Hs' pre b f post eq_refl) as (c & m & Hf & Hm).
    exists c, m. split; [exact Hf|]. destruct b0; exact Hm.
Qed.

(* without the stop flag the spinner never ends: every way out of the block has to set it *)
Definition spinning (s : st) : Prop := stop s = false /\ (exists t, sp s = PW t) \/ stop s = false /\ (exists d, sp s = PS d).
Lemma spinner_step_spinning s : spinning s -> spinning (step_spinner s).
Proof.
  unfold spinning, step_spinner. intros [[Hs [t E]]|[Hs [d E]]]; rewrite E.
  - right. cbn. split; [exact Hs|eauto].
  - unfold spin_to_yield. cbn [stop upd_st clock upd]. rewrite Hs.
    destruct (clock s + d <? upd s)%Z; cbn; [right|left]; split; eauto.
Qed.

Definition op_msg (cur : str) (o : mop) : str :=
  match o with MAdvance => cur | MSetMessage m => m | MFinish m _ => m end.
Definition last_set (m : str) (ops : list (Z * mop)) : str := fold_left (fun acc o => op_msg acc (snd o)) ops m.

Lemma manual_step_msg iv s now o : m_msg (manual_step iv s now o) = op_msg (m_msg s) o.
Proof. destruct o; cbn; [destruct (now <? m_upd s)%Z|..]; reflexivity. Qed.
Lemma manual_run_msg iv : forall ops s now, m_msg (manual_run iv s now ops) = last_set (m_msg s) ops.
Proof.
  induction ops as [|[dt o] r IH]; intros s now; cbn [manual_run last_set fold_left snd]; [reflexivity|].
  rewrite IH, manual_step_msg. reflexivity.
Qed.
Lemma manual_run_app iv : forall a b s now,
  manual_run iv s now (a ++ b) = manual_run iv (manual_run iv s now a) (fold_left (fun t o => t + fst o)%Z a now) b.
Proof. induction a as [|[dt o] a IH]; intros b s now; cbn [app manual_run fold_left fst]; [reflexivity|]. apply IH. Qed.

(* one operation appends: nothing (a throttled advance), or the frame of the state it leaves, or that frame and a
   line break (finish) *)
Lemma manual_step_frames iv s now o :
  let s' := manual_step iv s now o in
  exists new, m_frames s' = m_frames s ++ new /\
    (new = [] /\ o = MAdvance /\ (now < m_upd s)%Z
     \/ new = [Some (frame (m_cur s') (m_msg s'))]
     \/ new = [Some (frame (m_cur s') (m_msg s')); None] /\ exists m r, o = MFinish m r).
Proof.
  cbv zeta. destruct o as [|m|m r]; cbn [manual_step].
  - destruct (now <? m_upd s)%Z eqn:E.
    + exists []. split; [now rewrite app_nil_r|]. left. apply Z.ltb_lt in E. auto.
    + eexists. split; [reflexivity|]. right. left. reflexivity.
  - eexists. split; [reflexivity|]. right. left. reflexivity.
  - eexists. split; [reflexivity|]. right. right. split; [reflexivity|eauto].
Qed.
Lemma manual_frames_append_only iv : forall ops s now, exists more, m_frames (manual_run iv s now ops) = m_frames s ++ more.
Proof.
  induction ops as [|[dt o] r IH]; intros s now; cbn [manual_run]; [exists []; now rewrite app_nil_r|].
  destruct (IH (manual_step iv s (now + dt)%Z o) (now + dt)%Z) as [more Hm].
  destruct (manual_step_frames iv s (now + dt)%Z o) as (new & Hn & _). cbv zeta in Hn.
  exists (new ++ more). rewrite Hm, Hn, app_assoc. reflexivity.
Qed.
