(* The terminal: writing a line occupies max 1 (ceil (L / w)) rows (the line lemma), cursor moves. *)
From Coq Require Import Lia Arith.
From Clikit Require Import Base.Prelude Base.Term.

Section W.
Variable w : nat.

Lemma put_cell_over pre c rest : put_cell (pre ++ rest) (length pre) c = pre ++ c :: tl rest.
Proof. induction pre as [|x pre IH]; cbn; [destruct rest; reflexivity|]. now rewrite IH. Qed.
Lemma put_cell_end r c : put_cell r (length r) c = r ++ [c].
Proof. rewrite <- (app_nil_r r) at 1. apply put_cell_over. Qed.
Lemma upd_row_last : forall (R : list row) cur f, upd_row (R ++ [cur]) (length R) f = R ++ [f cur].
Proof. induction R as [|r R IH]; intros cur f; cbn; [reflexivity| now rewrite IH]. Qed.
Lemma upd_row_new : forall (R : list row) f, upd_row R (length R) f = R ++ [f []].
Proof. induction R as [|r R IH]; intros f; cbn; [reflexivity| now rewrite IH]. Qed.

Lemma feed_app t a b : feed w t (a ++ b) = feed w (feed w t a) b.
Proof. unfold feed. apply fold_left_app. Qed.

Lemma feed1_full : forall R cur c, length cur = w ->
  feed1 w {| rows := R ++ [cur]; cr := length R; cc := length cur |} (Ch c)
  = {| rows := (R ++ [cur]) ++ [[c]]; cr := length (R ++ [cur]); cc := length [c] |}.
Proof.
  intros R cur c H. unfold feed1. cbn [cc cr rows].
  rewrite (proj2 (Nat.eqb_eq _ _) H).
  replace (S (length R)) with (length (R ++ [cur])) by (rewrite app_length; cbn; lia).
  rewrite upd_row_new. reflexivity.
Qed.
Lemma feed1_room : forall R cur c, length cur <> w ->
  feed1 w {| rows := R ++ [cur]; cr := length R; cc := length cur |} (Ch c)
  = {| rows := R ++ [cur ++ [c]]; cr := length R; cc := length (cur ++ [c]) |}.
Proof.
  intros R cur c H. unfold feed1. cbn [cc cr rows].
  rewrite (proj2 (Nat.eqb_neq _ _) H).
  rewrite upd_row_last, put_cell_end, app_length. cbn [length].
  replace (length cur + 1) with (S (length cur)) by lia. reflexivity.
Qed.

Lemma fill_ne : forall s cur, fill w cur s <> [].
Proof. induction s as [|c s IH]; intros cur; cbn; [discriminate|]. destruct (Nat.eqb (length cur) w); [discriminate| apply IH]. Qed.

Lemma up_erase : forall (A B : list row),
  feed w {| rows := A ++ B ++ [[]]; cr := length A + length B; cc := 0 |} [Up (length B); EraseBelow]
  = {| rows := A ++ [[]]; cr := length A; cc := 0 |}.
Proof.
  intros A B. unfold feed. cbn [fold_left feed1 cr cc rows].
  replace (length A + length B - length B) with (length A) by lia.
  rewrite firstn_app, firstn_all, Nat.sub_diag. cbn [firstn]. now rewrite app_nil_r.
Qed.

Lemma feed_over : forall s R pre rest, length rest <= length s -> length pre + length s <= w ->
  feed w {| rows := R ++ [pre ++ rest]; cr := length R; cc := length pre |} (map Ch s)
  = {| rows := R ++ [pre ++ s ++ skipn (length s) rest]; cr := length R; cc := length pre + length s |}.
Proof.
  induction s as [|c s IH]; intros R pre rest Hr Hw.
  - destruct rest; [|cbn in Hr; lia]. cbn [map length skipn app]. unfold feed. cbn [fold_left].
    rewrite !app_nil_r, Nat.add_0_r. reflexivity.
  - cbn [map]. unfold feed. cbn [fold_left]. unfold feed1 at 2. cbn [cc cr rows].
    assert (Nat.eqb (length pre) w = false) as -> by (apply Nat.eqb_neq; cbn in Hw; lia).
    rewrite upd_row_last, put_cell_over.
    replace (pre ++ c :: tl rest) with ((pre ++ [c]) ++ tl rest) by (now rewrite <- app_assoc).
    replace (S (length pre)) with (length (pre ++ [c])) by (rewrite app_length; cbn; lia).
    fold (feed w {| rows := R ++ [(pre ++ [c]) ++ tl rest]; cr := length R; cc := length (pre ++ [c]) |} (map Ch s)).
    rewrite IH.
    + assert (length (pre ++ [c]) + length s = length pre + length (c :: s)) as -> by (rewrite app_length; cbn; lia).
      assert ((pre ++ [c]) ++ s ++ skipn (length s) (tl rest) = pre ++ (c :: s) ++ skipn (length (c :: s)) rest) as ->.
      { rewrite <- app_assoc. cbn [app length]. destruct rest; [now rewrite !skipn_nil|reflexivity]. }
      reflexivity.
    + destruct rest; cbn in *; lia.
    + rewrite app_length. cbn in *. lia.
Qed.

Lemma line_replaced R r s c : length r <= length s -> length s <= w ->
  feed w {| rows := R ++ [r]; cr := length R; cc := c |} (Cr :: map Ch s) = {| rows := R ++ [s]; cr := length R; cc := length s |}.
Proof.
  intros Hr Hs. unfold feed. cbn [fold_left feed1 rows cr].
  pose proof (feed_over s R [] r Hr ltac:(cbn; lia)) as H. cbn [app length] in H. unfold feed in H. rewrite H.
  rewrite skipn_all2 by lia. now rewrite app_nil_r.
Qed.
Hypothesis w_pos : 1 <= w.

(* the state after writing s into a terminal whose last row is cur (cursor at its end) *)
Lemma feed_text : forall s R cur, length cur <= w ->
  feed w {| rows := R ++ [cur]; cr := length R; cc := length cur |} (map Ch s)
  = {| rows := R ++ fill w cur s; cr := length R + length (fill w cur s) - 1;
       cc := length (last (fill w cur s) []) |}.
Proof.
  induction s as [|c s IH]; intros R cur Hc.
  - cbn. f_equal. lia.
  - cbn [map fill]. unfold feed in *. cbn [fold_left].
    destruct (Nat.eqb (length cur) w) eqn:E.
    + apply Nat.eqb_eq in E. rewrite (feed1_full R cur c E).
      rewrite (IH (R ++ [cur]) [c] w_pos). f_equal.
      * now rewrite <- app_assoc.
      * rewrite app_length. cbn [length]. lia.
      * pose proof (fill_ne s [c]) as Hne. destruct (fill w [c] s); [congruence| reflexivity].
    + apply Nat.eqb_neq in E. rewrite (feed1_room R cur c E).
      apply IH. rewrite app_length. cbn [length]. lia.
Qed.

Lemma feed_line : forall line R,
  feed w {| rows := R ++ [[]]; cr := length R; cc := 0 |} (map Ch line ++ [Nl])
  = {| rows := R ++ fill w [] line ++ [[]]; cr := length R + length (fill w [] line); cc := 0 |}.
Proof.
  intros line R. rewrite feed_app.
  change 0 with (length (@nil N)) at 1. rewrite (feed_text line R [] ltac:(cbn; lia)).
  unfold feed. cbn [fold_left feed1 cr rows].
  pose proof (fill_ne line []) as Hne.
  assert (length (fill w [] line) >= 1) by (destruct (fill w [] line); [congruence|cbn; lia]).
  assert (S (length R + length (fill w [] line) - 1) = length (R ++ fill w [] line)) as E by (rewrite app_length; lia).
  rewrite E, upd_row_new, app_length, <- app_assoc. reflexivity.
Qed.

(* the number of rows of a line: max 1 (ceil (L / w)) *)
Lemma fill_length : forall s cur, length cur <= w ->
  length (fill w cur s) = match length s with O => 1 | S _ => 1 + (length cur + length s - 1) / w end.
Proof.
  induction s as [|c s IH]; intros cur Hc; [reflexivity|].
  cbn [fill length]. destruct (Nat.eqb (length cur) w) eqn:E.
  - apply Nat.eqb_eq in E. cbn [length]. rewrite (IH [c] w_pos). cbn [length].
    rewrite E. destruct (length s) as [|n] eqn:Es.
    + replace (w + 1 - 1) with (1 * w) by lia. rewrite Nat.div_mul by lia. reflexivity.
    + replace (w + S (S n) - 1) with (1 * w + (1 + S n - 1)) by lia.
      rewrite Nat.div_add_l by lia. lia.
  - apply Nat.eqb_neq in E. rewrite (IH (cur ++ [c])) by (rewrite app_length; cbn; lia).
    rewrite app_length. cbn [length]. destruct (length s) as [|n] eqn:Es.
    + replace (length cur + 1 - 1) with (length cur) by lia. rewrite Nat.div_small by lia. reflexivity.
    + f_equal. f_equal. lia.
Qed.
End W.
