(* C01: the format hypothesis [fmt_ok] of parse_spells holds for every format that can be built through
   ArgsFormatBuilder / ArgsFormat (Model/Format.v).

   fmt_ok f says that the parser's own construction aug_format f (one REQUIRED pseudo-argument
   "cmd<j><i>" per command name in front of the declared arguments, then the options, re-added to
   a fresh ArgsFormat) succeeds and yields what it is meant to.  It follows from
     - args_wf f                (C06: argument order rules, flags agree with the listing, names distinct),
     - akeys_inv f              (every argument is listed under its own name),
     - opts_inv f               (options are listed under their long names, their short names are
                                 indexed, and no two listed options - across the base chain - share a name),
   and these three hold for the empty builder, are kept by every builder operation and by build_format
   (so they hold for every stacked base as well).  names_wf of C06 is not needed.

   Ingredients: the decimal text of a natural number determines it and concatenations "cmd<j><i>"
   with j < j', i <= i' are distinct (valuation of digit strings); the fresh-name loop finds an unused
   name within |arguments|+1 attempts (pigeonhole); re-adding REQUIRED single-valued arguments in front
   of an order_ok list is accepted by add_argument; re-adding options with pairwise disjoint names is
   accepted by add_option. *)
From Coq Require Import Lia DecimalPos DecimalZ.
From Clikit Require Import Base.Prelude Base.Res Model.Conv Model.Flags Model.Format Model.Parser Model.Spell
     Proofs.ListLemmas Proofs.StrLemmas Proofs.DictLemmas Proofs.FormatLemmas Proofs.SpellOpts.
From Clikit Require Proofs.FormatAgreeLemmas.

(* the number a string of decimal digits spells, read onto acc *)
Fixpoint valf (acc : N) (s : str) : N :=
  match s with [] => acc | c :: r => valf (10 * acc + (c - 48)) r end.

Lemma valf_app a s t : valf a (s ++ t) = valf (valf a s) t.
Proof. revert a. induction s as [|c r IH]; intros a; cbn [app valf]; [reflexivity|apply IH]. Qed.

Lemma valf_shift t : forall a, valf a t = (a * 10 ^ N.of_nat (length t) + valf 0 t)%N.
Proof.
  induction t as [|c r IH]; intros a.
  - cbn [valf length N.of_nat]. rewrite N.pow_0_r. lia.
  - cbn [valf length]. rewrite (IH (10 * a + (c - 48))%N), (IH (10 * 0 + (c - 48))%N).
    rewrite Nat2N.inj_succ, N.pow_succ_r'. lia.
Qed.

Lemma valf_acc_uint u : forall acc, valf (Npos acc) (chars_of_uint u) = Npos (Pos.of_uint_acc u acc).
Proof.
  induction u as [|u IH|u IH|u IH|u IH|u IH|u IH|u IH|u IH|u IH|u IH]; intros acc;
    cbn [chars_of_uint valf Pos.of_uint_acc]; [reflexivity|..]; rewrite <- IH; f_equal; lia.
Qed.
Lemma valf_uint u : valf 0 (chars_of_uint u) = Pos.of_uint u.
Proof.
  induction u as [|u IH|u IH|u IH|u IH|u IH|u IH|u IH|u IH|u IH|u IH];
    cbn [chars_of_uint valf Pos.of_uint]; [reflexivity|exact IH|..];
    rewrite <- valf_acc_uint; f_equal.
Qed.

Lemma valf_dec_text n : valf 0 (dec_text (Z.of_nat n)) = N.of_nat n.
Proof.
  unfold dec_text. destruct n as [|n]; [reflexivity|].
  cbn [Z.of_nat Z.to_int]. rewrite valf_uint, Unsigned.of_to. reflexivity.
Qed.

Lemma dec_text_nat_inj n m : dec_text (Z.of_nat n) = dec_text (Z.of_nat m) -> n = m.
Proof.
  intros H. apply Nat2N.inj. rewrite <- (valf_dec_text n), <- (valf_dec_text m), H. reflexivity.
Qed.

Lemma pow10_pos k : (1 <= 10 ^ k)%N.
Proof. pose proof (N.pow_nonzero 10 k). lia. Qed.

(* the same j: the name determines i *)
Lemma pseudo_name_inj_i j i i' : pseudo_name j i = pseudo_name j i' -> i = i'.
Proof.
  unfold pseudo_name. intros H. apply app_inv_head in H. apply app_inv_head in H. now apply dec_text_nat_inj.
Qed.

(* different j, i not decreasing: the names differ ("cmd1"+"11" against "cmd11"+"1" needs i to decrease) *)
Lemma pseudo_name_distinct j i j' i' : j < j' -> i <= i' -> pseudo_name j i <> pseudo_name j' i'.
Proof.
  intros Hj Hi H. unfold pseudo_name in H. apply app_inv_head in H.
  apply app_eq_app in H as [t [[H1 H2]|[H1 H2]]].
  - (* dec j = dec j' ++ t *)
    assert (N.of_nat j = N.of_nat j' * 10 ^ N.of_nat (length t) + valf 0 t)%N as E.
    { rewrite <- (valf_dec_text j), H1, valf_app, valf_shift, valf_dec_text. reflexivity. }
    destruct t as [|c t].
    + rewrite app_nil_r in H1. apply dec_text_nat_inj in H1. lia.
    + cbn [length] in E. rewrite Nat2N.inj_succ, N.pow_succ_r' in E.
      pose proof (pow10_pos (N.of_nat (length t))). nia.
  - (* dec i = t ++ dec i' *)
    assert (N.of_nat i = valf 0 t * 10 ^ N.of_nat (length (dec_text (Z.of_nat i'))) + N.of_nat i')%N as E.
    { rewrite <- (valf_dec_text i) at 1. rewrite H2, valf_app, valf_shift, valf_dec_text. reflexivity. }
    pose proof (pow10_pos (N.of_nat (length (dec_text (Z.of_nat i'))))) as Hp.
    assert (i = i') as Ei by nia. subst i'.
    assert (length (dec_text (Z.of_nat i)) = length (t ++ dec_text (Z.of_nat i))) as El by (rewrite <- H2; reflexivity).
    rewrite app_length in El. destruct t as [|c t]; [|cbn in El; lia].
    rewrite app_nil_r in H1. apply dec_text_nat_inj in H1. lia.
Qed.

Section Fresh.
  Variable f : fmt.
  Let AR := get_arguments_all f.

  Lemma fresh_i_spec j : forall fuel i seen,
    NoDup seen -> incl seen (map fst AR) ->
    (forall n, In n seen -> exists k, k < i /\ n = pseudo_name j k) ->
    length AR < length seen + fuel ->
    i <= fresh_i fuel f j i /\ shas (pseudo_name j (fresh_i fuel f j i)) AR = false.
  Proof.
    induction fuel as [|fu IH]; intros i seen Hnd Hincl Hseen Hlen.
    - exfalso. pose proof (NoDup_incl_length Hnd Hincl) as Hle. rewrite map_length in Hle. lia.
    - cbn [fresh_i has_argument get_arguments]. fold AR.
      destruct (shas (pseudo_name j i) AR) eqn:E; [|split; [lia|exact E]].
      destruct (IH (S i) (pseudo_name j i :: seen)) as [Hle Hfr].
      + constructor; [|exact Hnd]. intros Hi. destruct (Hseen _ Hi) as [k [Hk Ek]].
        apply pseudo_name_inj_i in Ek. lia.
      + intros x [<-|Hx]; [now apply shas_in|now apply Hincl].
      + intros n [<-|Hn]; [exists i; split; [lia|reflexivity]|].
        destruct (Hseen _ Hn) as [k [Hk Ek]]. exists k. split; [lia|exact Ek].
      + cbn [length]. lia.
      + split; [lia|exact Hfr].
  Qed.

  Lemma fresh_i_fresh j i :
    let r := fresh_i (S (length AR)) f j i in i <= r /\ shas (pseudo_name j r) AR = false.
  Proof.
    apply (fresh_i_spec j (S (length AR)) i []); [constructor|intros x []|intros n []|cbn [length]; lia].
  Qed.

  Definition parg (n : str) : arg := {| a_name := n; a_flags := REQUIRED_FLAGS; a_default := VNone |}.
  Definition pnames (cns : list cname) (j i : nat) : list str := map (fun p => fst (fst p)) (pseudo_args f cns j i).

  Lemma pseudo_args_args cns : forall j i,
    map (fun p => (fst (fst p), snd (fst p))) (pseudo_args f cns j i) = map (fun n => (n, parg n)) (pnames cns j i).
  Proof.
    unfold pnames. induction cns as [|c r IH]; intros j i; cbn [pseudo_args map fst snd]; [reflexivity|].
    fold AR. rewrite IH. reflexivity.
  Qed.
  Lemma pseudo_args_cns cns : forall j i,
    map fst (map (fun p => (fst (fst p), snd p)) (pseudo_args f cns j i)) = pnames cns j i.
  Proof. intros j i. unfold pnames. rewrite map_map. reflexivity. Qed.
  Lemma pnames_length cns : forall j i, length (pnames cns j i) = length cns.
  Proof.
    unfold pnames. induction cns as [|c r IH]; intros j i; cbn [pseudo_args map length]; [reflexivity|].
    now rewrite IH.
  Qed.

  Lemma pnames_spec cns : forall j i,
    Forall (fun n => shas n AR = false /\ exists j' i', j <= j' /\ i <= i' /\ n = pseudo_name j' i') (pnames cns j i) /\
    NoDup (pnames cns j i).
  Proof.
    unfold pnames. induction cns as [|c r IH]; intros j i; cbn [pseudo_args map fst snd]; [split; constructor|].
    fold AR. destruct (fresh_i_fresh j i) as [Hle Hfr]. cbn zeta in Hle, Hfr.
    set (i1 := fresh_i (S (length AR)) f j i) in *.
    destruct (IH (S j) i1) as [Hall Hnd]. split.
    - constructor.
      + split; [exact Hfr|]. exists j, i1. repeat split; [lia|exact Hle].
      + eapply Forall_impl; [|exact Hall]. cbn beta. intros n [Hn [j' [i' [Hj [Hi En]]]]].
        split; [exact Hn|]. exists j', i'. repeat split; [lia|lia|exact En].
    - constructor; [|exact Hnd]. intros Hi. rewrite Forall_forall in Hall.
      destruct (Hall _ Hi) as [_ [j' [i' [Hj [Hi' En]]]]].
      revert En. apply pseudo_name_distinct; lia.
  Qed.
End Fresh.

Definition akeyed (na : str * arg) : Prop := fst na = a_name (snd na).
Definition okeyed (no : str * opt) : Prop := fst no = o_long (snd no).

Definition keyed (l : list arg) : list (str * arg) := map (fun a => (a_name a, a)) l.
(* the fresh builder after the command names and the arguments p have been added *)
Definition readded (cn : list cname) (p : list arg) : fmt :=
  Fmt None cn [] [] (keyed p) [] [] (existsb a_multi p) (existsb a_optional p).

Lemma keyed_keys l : map fst (keyed l) = map a_name l.
Proof. unfold keyed. rewrite map_map. reflexivity. Qed.
Lemma keyed_app l1 l2 : keyed (l1 ++ l2) = keyed l1 ++ keyed l2.
Proof. unfold keyed. apply map_app. Qed.
Lemma keyed_id (l : list (str * arg)) : Forall akeyed l -> keyed (map snd l) = l.
Proof.
  induction l as [|[k a] r IH]; intros H; [reflexivity|].
  inversion H as [|? ? Hk Hr]; subst. cbn [map snd keyed fst] in *. unfold keyed in IH. rewrite (IH Hr).
  unfold akeyed in Hk. cbn [fst snd] in Hk. now rewrite <- Hk.
Qed.

Lemma order_ok_mid_multi p a l : order_ok (p ++ a :: l) = true -> existsb a_multi p = false.
Proof.
  induction p as [|x r IH]; cbn [app existsb order_ok]; [reflexivity|]. intros H.
  apply andb_prop in H as [H Hr]. apply andb_prop in H as [Hm _].
  rewrite (IH Hr), orb_false_r. destruct (a_multi x); [|reflexivity].
  destruct r; cbn [app] in Hm; discriminate.
Qed.
Lemma order_ok_mid_req p a l :
  order_ok (p ++ a :: l) = true -> a_required a = true -> forallb a_required p = true.
Proof.
  induction p as [|x r IH]; cbn [app forallb order_ok]; [reflexivity|]. intros H Ha.
  apply andb_prop in H as [H Hr]. apply andb_prop in H as [_ Hq].
  rewrite (IH Hr Ha), andb_true_r. destruct (a_required x); [reflexivity|].
  rewrite forallb_app in Hq. apply andb_prop in Hq as [_ Hq]. cbn [forallb] in Hq. rewrite Ha in Hq. discriminate.
Qed.
Lemma required_not_optional p :
  forallb arg_valid p = true -> forallb a_required p = true -> existsb a_optional p = false.
Proof.
  induction p as [|x r IH]; cbn [forallb existsb]; [reflexivity|]. intros Hv Hr.
  apply andb_prop in Hv as [Hx Hv]. apply andb_prop in Hr as [Hrx Hr]. rewrite (IH Hv Hr), orb_false_r.
  unfold arg_valid in Hx. rewrite Hrx in Hx. destruct (a_optional x); [discriminate|reflexivity].
Qed.

Lemma add_args_seq cn rest : forall l prev,
  NoDup (map a_name (prev ++ l)) -> order_ok (prev ++ l) = true -> forallb arg_valid (prev ++ l) = true ->
  add_elements (readded cn prev) (map EArg l ++ rest) = add_elements (readded cn (prev ++ l)) rest.
Proof.
  induction l as [|a l IH]; intros prev Hnd Ho Hv.
  - rewrite app_nil_r. reflexivity.
  - cbn [map app add_elements].
    assert (add_argument (readded cn prev) a = Ok (readded cn (prev ++ [a]))) as ->.
    { unfold add_argument, readded. cbn [has_argument get_arguments get_arguments_all has_multi_all has_optional_all].
      rewrite keyed_app, !existsb_app. cbn [keyed map existsb]. fold (keyed prev). rewrite !orb_false_r.
      assert (shas (a_name a) (keyed prev) = false) as ->.
      { apply shas_false_iff. rewrite keyed_keys. rewrite map_app in Hnd. cbn [map] in Hnd.
        apply NoDup_remove_2 in Hnd. intros Hi. apply Hnd. apply in_or_app. now left. }
      rewrite (order_ok_mid_multi _ _ _ Ho).
      assert (a_required a && existsb a_optional prev = false) as ->.
      { destruct (a_required a) eqn:Ea; [|reflexivity]. cbn [andb].
        apply required_not_optional; [|exact (order_ok_mid_req _ _ _ Ho Ea)].
        rewrite forallb_app in Hv. now apply andb_prop in Hv as [Hv _]. }
      rewrite sset_new; [reflexivity|].
      apply sget_none_iff. rewrite keyed_keys. rewrite map_app in Hnd. cbn [map] in Hnd.
      apply NoDup_remove_2 in Hnd. intros Hi. apply Hnd. apply in_or_app. now left. }
    cbn [bind].
    replace (prev ++ a :: l) with ((prev ++ [a]) ++ l) in * by (rewrite <- app_assoc; reflexivity).
    apply IH; assumption.
Qed.

Lemma add_cnames_seq rest : forall l cn,
  add_elements (readded cn []) (map ECName l ++ rest) = add_elements (readded (cn ++ l) []) rest.
Proof.
  induction l as [|c l IH]; intros cn; [now rewrite app_nil_r|].
  cbn [map app add_elements]. unfold readded at 1. cbn [add_command_name bind keyed map existsb].
  replace (cn ++ c :: l) with ((cn ++ [c]) ++ l) by (rewrite <- app_assoc; reflexivity).
  apply IH.
Qed.

(* REQUIRED single-valued arguments in front keep the order rules *)
Lemma order_ok_front p l :
  forallb (fun a => a_required a && negb (a_multi a)) p = true -> order_ok l = true -> order_ok (p ++ l) = true.
Proof.
  induction p as [|x r IH]; intros Hp Hl; [exact Hl|].
  cbn [forallb] in Hp. apply andb_prop in Hp as [Hx Hp]. apply andb_prop in Hx as [Hr Hm].
  cbn [app order_ok]. rewrite Hr, (IH Hp Hl). destruct (a_multi x); [discriminate|reflexivity].
Qed.

Definition onames (o : opt) : list str := o_long o :: olist (o_short o).
Definition odisj (o1 o2 : opt) : Prop := forall n, In n (onames o1) -> In n (onames o2) -> False.
(* no two options of the list share a long or short name *)
Fixpoint opts_sep (l : list opt) : Prop :=
  match l with [] => True | o :: r => (forall o', In o' r -> odisj o o') /\ opts_sep r end.

Lemma odisj_sym o1 o2 : odisj o1 o2 -> odisj o2 o1.
Proof. intros H n H2 H1. exact (H n H1 H2). Qed.
Lemma opts_sep_app l1 l2 :
  opts_sep l1 -> opts_sep l2 -> (forall a b, In a l1 -> In b l2 -> odisj a b) -> opts_sep (l1 ++ l2).
Proof.
  induction l1 as [|o r IH]; intros H1 H2 Hc; [exact H2|].
  destruct H1 as [Ho Hr]. cbn [app opts_sep]. split.
  - intros o' Hi. apply in_app_or in Hi as [Hi|Hi]; [now apply Ho|]. apply Hc; [now left|exact Hi].
  - apply IH; [exact Hr|exact H2|]. intros a b Ha Hb. apply Hc; [now right|exact Hb].
Qed.

Lemma in_onames n o : In n (onames o) <-> n = o_long o \/ o_short o = Some n.
Proof.
  unfold onames. cbn [In]. destruct (o_short o) as [s|]; cbn [olist In]; split.
  - intros [H|[H|[]]]; [now left|right; now subst].
  - intros [H|H]; [now left|right; left; congruence].
  - intros [H|[]]; now left.
  - intros [H|H]; [now left|discriminate].
Qed.

Lemma add_option_taken f o f' n :
  add_option f o = Ok f' -> opt_name_taken f' n = true -> In n (onames o) \/ opt_name_taken f n = true.
Proof.
  intros H. apply add_option_ok in H as (_ & _ & ->). destruct f as [b cn co cs ar os oss hm ho].
  unfold opt_name_taken. cbn [has_option_all has_command_option_all]. rewrite shas_set.
  rewrite in_onames.
  destruct (str_eqb_spec n (o_long o)) as [->|Hn]; [intros _; left; now left|]. cbn [orb].
  destruct (o_short o) as [s|]; [|intros H; now right].
  rewrite shas_set. destruct (str_eqb_spec n s) as [->|Hs]; [intros _; left; now right|]. cbn [orb].
  intros H. now right.
Qed.
Lemma add_option_same f o f' :
  add_option f o = Ok f' -> f_base f' = f_base f /\ f_args f' = f_args f /\ f_cnames f' = f_cnames f.
Proof.
  intros H. apply add_option_ok in H as (_ & _ & ->). destruct f. repeat split; reflexivity.
Qed.
Lemma add_option_accepts f o :
  (forall n, In n (onames o) -> opt_name_taken f n = false) -> exists f', add_option f o = Ok f'.
Proof.
  intros H. unfold add_option. rewrite (H (o_long o)) by (apply in_onames; now left).
  assert (optname_taken f (o_short o) = false) as ->.
  { destruct (o_short o) as [s|] eqn:E; [|reflexivity]. cbn [optname_taken]. apply H. apply in_onames. now right. }
  destruct f. eauto.
Qed.

Lemma add_opts_seq : forall l g,
  opts_sep l -> (forall n o, In o l -> In n (onames o) -> opt_name_taken g n = false) ->
  exists g', add_elements g (map EOpt l) = Ok g' /\ f_base g' = f_base g /\ f_args g' = f_args g.
Proof.
  induction l as [|o l IH]; intros g Hs Hfree; cbn [map add_elements]; [eauto|].
  destruct Hs as [Ho Hs].
  destruct (add_option_accepts g o) as [g1 E1]; [intros n Hn; apply (Hfree n o); [now left|exact Hn]|].
  rewrite E1. cbn [bind].
  destruct (IH g1 Hs) as [g' [E' [Hb Ha]]].
  - intros n o' Hi Hn. destruct (opt_name_taken g1 n) eqn:Et; [|reflexivity].
    destruct (add_option_taken g o g1 n E1 Et) as [Hin|Hold].
    + exfalso. exact (Ho o' Hi n Hin Hn).
    + rewrite (Hfree n o') in Hold; [discriminate|now right|exact Hn].
  - destruct (add_option_same g o g1 E1) as [Hb1 [Ha1 _]].
    exists g'. split; [exact E'|]. split; congruence.
Qed.

Lemma okeyed_in os k o : Forall okeyed os -> In (k, o) os -> k = o_long o.
Proof. intros H Hi. rewrite Forall_forall in H. exact (H _ Hi). Qed.

(* every argument is listed under its own name, at every level *)
Fixpoint akeys_inv (f : fmt) : Prop :=
  match f with Fmt b _ _ _ ar _ _ _ _ =>
    Forall akeyed ar /\ match b with None => True | Some bf => akeys_inv bf end end.

(* options: listed under their long name, once; the short name of a listed option is indexed;
   listed options have pairwise disjoint names, also against every option of the base chain *)
Fixpoint opts_inv (f : fmt) : Prop :=
  match f with Fmt b _ _ _ _ os oss _ _ =>
    Forall okeyed os /\ NoDup (map fst os) /\
    (forall k o s, In (k, o) os -> o_short o = Some s -> shas s oss = true) /\
    opts_sep (map snd os) /\
    match b with
    | None => True
    | Some bf => opts_inv bf /\ (forall k o n, In (k, o) os -> In n (onames o) -> has_option_all bf n = false)
    end end.

(* the invariant of formats reachable through the API *)
Definition fmt_inv (f : fmt) : Prop := args_wf f /\ akeys_inv f /\ opts_inv f.

Lemma args_all_nodup f : args_inv f -> NoDup (map fst (get_arguments_all f)).
Proof.
  induction f as [cn co cs ar os oss hm ho|bf cn co cs ar os oss hm ho IH] using fmt_ind'; intros Hi.
  - destruct Hi as (_ & _ & Hnd & _). exact Hnd.
  - rewrite (args_all_app _ Hi). cbn [f_base f_args]. destruct Hi as (_ & _ & Hnd & _ & Hb & Hfr).
    rewrite map_app. apply NoDup_app_intro; [exact (IH Hb)|exact Hnd|].
    intros x Hx Hown. specialize (Hfr x Hown). apply sget_none_iff in Hfr. contradiction.
Qed.
Lemma args_all_keyed f : args_inv f -> akeys_inv f -> Forall akeyed (get_arguments_all f).
Proof.
  induction f as [cn co cs ar os oss hm ho|bf cn co cs ar os oss hm ho IH] using fmt_ind'; intros Hi Hk.
  - destruct Hk as [Hk _]. exact Hk.
  - rewrite (args_all_app _ Hi). cbn [f_base f_args]. destruct Hk as [Hk Hkb].
    destruct Hi as (_ & _ & _ & _ & Hb & _). apply Forall_app. split; [exact (IH Hb Hkb)|exact Hk].
Qed.

(* the own options are not among the base's, so listing them in front of the base's is an append *)
Lemma opts_over_base os bf :
  Forall okeyed os -> (forall k o n, In (k, o) os -> In n (onames o) -> has_option_all bf n = false) ->
  NoDup (map fst (get_options_all bf)) -> Forall okeyed (get_options_all bf) ->
  (forall k o n, In (k, o) (get_options_all bf) -> In n (onames o) -> has_option_all bf n = true) ->
  supdate os (get_options_all bf) = os ++ get_options_all bf.
Proof.
  intros Hk Hfr Hndb Hkb Hnb. apply supdate_fresh; [exact Hndb|].
  intros k Hkin. destruct (sget k os) as [o|] eqn:Eg; [exfalso|reflexivity].
  apply sget_some_in in Eg. pose proof (okeyed_in _ _ _ Hk Eg) as ->.
  apply in_map_iff in Hkin as [[k' o'] [Ek' Hin']]. cbn [fst] in Ek'. subst k'.
  assert (has_option_all bf (o_long o) = false) as Hf by (apply (Hfr _ o _ Eg), in_onames; now left).
  rewrite (Hnb _ o' _ Hin') in Hf; [discriminate|]. apply in_onames. left. exact (okeyed_in _ _ _ Hkb Hin').
Qed.

(* a listed option is found under its long name and under its short name *)
Lemma own_option_has (os oss : list (str * opt)) k o n :
  Forall okeyed os -> (forall k o s, In (k, o) os -> o_short o = Some s -> shas s oss = true) ->
  In (k, o) os -> In n (onames o) -> shas n os || shas n oss = true.
Proof.
  intros Hk Hsh Hin Hn. apply in_onames in Hn as [->|Hs].
  - apply orb_true_intro. left. apply shas_in, in_map_iff. exists (k, o). split; [exact (okeyed_in _ _ _ Hk Hin)|exact Hin].
  - rewrite (Hsh k o n Hin Hs). apply orb_true_r.
Qed.

Lemma opts_all_spec f : opts_inv f ->
  NoDup (map fst (get_options_all f)) /\ Forall okeyed (get_options_all f) /\
  opts_sep (map snd (get_options_all f)) /\
  (forall k o n, In (k, o) (get_options_all f) -> In n (onames o) -> has_option_all f n = true).
Proof.
  induction f as [cn co cs ar os oss hm ho|bf cn co cs ar os oss hm ho IH] using fmt_ind'; intros Hi.
  - destruct Hi as (Hk & Hnd & Hsh & Hsep & _). cbn [get_options_all has_option_all].
    repeat split; auto. intros k o n Hin Hn. now rewrite (own_option_has os oss k o n).
  - destruct Hi as (Hk & Hnd & Hsh & Hsep & Hb & Hfr). destruct (IH Hb) as (Hndb & Hkb & Hsepb & Hnb).
    cbn [get_options_all]. rewrite (opts_over_base os bf) by assumption. repeat split.
    + rewrite map_app. apply NoDup_app_intro; [exact Hnd|exact Hndb|].
      intros k Hk1 Hk2. apply in_map_iff in Hk1 as [[k1 o1] [E1 Hin1]]. apply in_map_iff in Hk2 as [[k2 o2] [E2 Hin2]].
      cbn [fst] in E1, E2. subst k1 k2.
      assert (has_option_all bf k = true) as Ht.
      { apply (Hnb k o2 k Hin2), in_onames. left. exact (okeyed_in _ _ _ Hkb Hin2). }
      rewrite (Hfr k o1 k Hin1) in Ht; [discriminate|]. apply in_onames. left. exact (okeyed_in _ _ _ Hk Hin1).
    + apply Forall_app. split; assumption.
    + rewrite map_app. apply opts_sep_app; [exact Hsep|exact Hsepb|].
      intros a b Ha Hbb n Hna Hnb'. apply in_map_iff in Ha as [[k1 o1] [E1 Hin1]]. apply in_map_iff in Hbb as [[k2 o2] [E2 Hin2]].
      cbn [snd] in E1, E2. subst o1 o2.
      pose proof (Hnb k2 b n Hin2 Hnb') as Ht. rewrite (Hfr k1 a n Hin1 Hna) in Ht. discriminate.
    + intros k o n Hin Hn. cbn [has_option_all]. apply in_app_or in Hin as [Hin|Hin].
      * now rewrite (own_option_has os oss k o n).
      * rewrite (Hnb k o n Hin Hn). now rewrite !orb_true_r.
Qed.

(* with the base included the options are the own ones, then the base's *)
Lemma opts_all_app f : opts_inv f ->
  get_options_all f = f_opts f ++ match f_base f with Some bf => get_options_all bf | None => [] end.
Proof.
  destruct f as [[bf|] cn co cs ar os oss hm ho]; cbn [get_options_all f_opts f_base]; [|now rewrite app_nil_r].
  intros (Hk & _ & _ & _ & Hb & Hfr). destruct (opts_all_spec bf Hb) as (Hndb & Hkb & _ & Hnb).
  now apply opts_over_base.
Qed.

Lemma pyval_eqb_refl : forall a, pyval_eqb a a = true.
Proof.
  fix IH 1. intros [| x | x | x | x | l]; cbn [pyval_eqb].
  - reflexivity.
  - apply eqb_reflx.
  - apply Z.eqb_refl.
  - apply str_eqb_refl.
  - apply str_eqb_refl.
  - induction l as [|x l IHl]; [reflexivity|]. rewrite IH, IHl. reflexivity.
Qed.
Lemma narg_eqb_refl p : narg_eqb p p = true.
Proof. unfold narg_eqb, arg_eqb. now rewrite !str_eqb_refl, Z.eqb_refl, pyval_eqb_refl. Qed.
Lemma list_eqb_refl {X} (eqb : X -> X -> bool) : (forall x, eqb x x = true) -> forall l, list_eqb eqb l l = true.
Proof. intros He. induction l as [|x l IH]; cbn [list_eqb]; [reflexivity|]. now rewrite He, IH. Qed.
Lemma NoDup_nodupb l : NoDup l -> nodupb l = true.
Proof.
  induction l as [|x l IH]; intros H; cbn [nodupb]; [reflexivity|]. inversion H as [|? ? Hx Hl]; subst.
  rewrite (IH Hl), andb_true_r. destruct (existsb (str_eqb x) l) eqn:E; [|reflexivity].
  apply existsb_exists in E as [y [Hy Exy]]. apply str_eqb_eq in Exy. subst y. contradiction.
Qed.
Lemma args_all_nobase g : f_base g = None -> get_arguments_all g = f_args g.
Proof. destruct g as [[bf|] cn co cs ar os oss hm ho]; cbn; [discriminate|reflexivity]. Qed.
Lemma keyed_names (l : list (str * arg)) : Forall akeyed l -> map a_name (map snd l) = map fst l.
Proof.
  induction l as [|[k a] r IH]; intros H; [reflexivity|]. inversion H as [|? ? Hk Hr]; subst.
  cbn [map fst snd]. rewrite (IH Hr). unfold akeyed in Hk. cbn [fst snd] in Hk. now rewrite Hk.
Qed.
Lemma parg_facts n : a_required (parg n) = true /\ a_multi (parg n) = false /\ arg_valid (parg n) = true.
Proof. repeat split; reflexivity. Qed.

(* the parser's own construction succeeds: PS, one fresh REQUIRED pseudo argument per command name, goes in front of the
   declared arguments AR, and the format rebuilt from command names, PS ++ AR and the options lists exactly PS ++ AR *)
Lemma aug_format_of_inv f : args_wf f -> akeys_inv f -> opts_inv f ->
  let AR := get_arguments_all f in
  let CN := get_command_names_all f in
  let PS := map (fun n => (n, parg n)) (pnames f CN 1 1) in
  NoDup (map fst (PS ++ AR)) /\ Forall akeyed (PS ++ AR) /\ (forall n, In n (pnames f CN 1 1) -> shas n AR = false) /\
  exists F', aug_format f = Ok (F', PS ++ AR, map (fun p => (fst (fst p), snd p)) (pseudo_args f CN 1 1)) /\
             get_arguments_all F' = PS ++ AR.
Proof.
  intros [Hai Hord] Hak Hoi AR CN. set (PN := pnames f CN 1 1). intros PS.
  pose proof (args_all_nodup f Hai) as Hnd. pose proof (args_all_keyed f Hai Hak) as Hkeyed.
  pose proof (args_valid_all f Hai) as Hval. unfold args_of in Hord, Hval. fold AR in Hnd, Hkeyed, Hval, Hord.
  destruct (opts_all_spec f Hoi) as (_ & _ & Hsep & _).
  destruct (pnames_spec f CN 1 1) as [Hpn Hpnd]. fold PN AR in Hpn, Hpnd. rewrite Forall_forall in Hpn.
  assert (map fst PS = PN) as Epk by (unfold PS; rewrite map_map; cbn [fst]; apply map_id).
  assert (map snd PS = map parg PN) as Eps by (unfold PS; rewrite map_map; reflexivity).
  assert (forall k, In k PN -> shas k AR = false) as Hfresh by (intros k Hk; now destruct (Hpn _ Hk)).
  assert (forall k, In k PN -> ~ In k (map fst AR)) as Hdisj by (intros k Hk; now apply shas_false_iff, Hfresh).
  assert (Forall akeyed (PS ++ AR)) as Hkall.
  { apply Forall_app. split; [|exact Hkeyed]. unfold PS. apply Forall_forall. intros x Hx.
    apply in_map_iff in Hx as [n [<- _]]. reflexivity. }
  assert (NoDup (map fst (PS ++ AR))) as Hndall.
  { rewrite map_app, Epk. apply NoDup_app_intro; [exact Hpnd|exact Hnd|exact Hdisj]. }
  split; [exact Hndall|]. split; [exact Hkall|]. split; [exact Hfresh|].
  unfold aug_format. cbv zeta. fold CN. rewrite (pseudo_args_args f CN 1 1). fold PN PS AR.
  rewrite supdate_fresh by (try exact Hnd; intros k Hk; apply sget_none_iff; rewrite Epk; intros Hi; exact (Hdisj k Hi Hk)).
  unfold format_of_elements. change (empty_builder None) with (readded [] []).
  rewrite add_cnames_seq. cbn [app]. rewrite <- (map_map snd EArg), <- (map_map snd EOpt).
  rewrite (add_args_seq CN _ (map snd (PS ++ AR)) []); cbn [app].
  - destruct (add_opts_seq (map snd (get_options_all f)) (readded CN (map snd (PS ++ AR))) Hsep) as [g' [Eg [Hb Ha]]].
    { intros n o _ _. reflexivity. }
    rewrite Eg. cbn [bind]. eexists. split; [reflexivity|].
    destruct (build_format_same g') as (Hb' & _ & Ha' & _).
    rewrite args_all_nobase by (rewrite Hb', Hb; reflexivity).
    rewrite Ha', Ha. cbn [readded f_args]. now apply keyed_id.
  - rewrite keyed_names by exact Hkall. exact Hndall.
  - rewrite map_app, Eps. apply order_ok_front; [|exact Hord].
    apply forallb_forall. intros x Hx. apply in_map_iff in Hx as [n [<- _]]. reflexivity.
  - rewrite map_app, forallb_app, Hval, andb_true_r, Eps.
    apply forallb_forall. intros x Hx. apply in_map_iff in Hx as [n [<- _]]. reflexivity.
Qed.

(* ... and what it yields passes the seven checks of fmt_ok *)
Theorem wf_implies_fmt_ok_lemma f : fmt_inv f -> fmt_ok f = true.
Proof.
  intros (Ha & Hk & Ho). destruct (aug_format_of_inv f Ha Hk Ho) as (Hnd & Hkeyed & Hfresh & F' & EA & HF).
  unfold fmt_ok. rewrite EA, HF. clear EA HF.
  set (AR := get_arguments_all f) in *. set (CN := get_command_names_all f) in *. set (PN := pnames f CN 1 1) in *.
  set (PS := map (fun n => (n, parg n)) PN) in *.
  assert (map fst PS = PN) as Epk by (unfold PS; rewrite map_map; cbn [fst]; apply map_id).
  replace (length (map (fun p => (fst (fst p), snd p)) (pseudo_args f CN 1 1))) with (length PS)
    by (unfold PS, PN, pnames; now rewrite !map_length).
  rewrite (pseudo_args_cns f CN 1 1). fold PN. rewrite skipn_length_app, firstn_length_app, Epk.
  repeat (apply andb_true_intro; split).
  - apply list_eqb_refl. exact narg_eqb_refl.
  - apply list_eqb_refl. exact narg_eqb_refl.
  - apply list_eqb_refl. exact str_eqb_refl.
  - unfold PS. apply forallb_forall. intros x Hx. apply in_map_iff in Hx as [n [<- _]]. reflexivity.
  - apply forallb_forall. intros n Hn. now rewrite (Hfresh n Hn).
  - now apply NoDup_nodupb.
  - apply forallb_forall. intros x Hx. rewrite Forall_forall in Hkeyed. rewrite (Hkeyed _ Hx). apply str_eqb_refl.
Qed.

Lemma add_option_inv f o f' : fmt_inv f -> add_option f o = Ok f' -> fmt_inv f'.
Proof.
  intros (Ha & Hk & Ho) H. apply add_option_ok in H as (Hl & Hs & ->). destruct f as [b cn co cs ar os oss hm ho].
  split; [exact Ha|]. split; [exact Hk|].
  assert (forall n, In n (onames o) ->
            shas n os = false /\ shas n oss = false /\
            match b with Some bf => has_option_all bf n = false | None => True end) as Hfree.
  { intros n Hn.
    assert (opt_name_taken (Fmt b cn co cs ar os oss hm ho) n = false) as Hf.
    { apply in_onames in Hn as [->|Hn]; [exact Hl|]. rewrite Hn in Hs. exact Hs. }
    unfold opt_name_taken in Hf. cbn [has_option_all] in Hf.
    apply orb_false_elim in Hf as [Hf _]. apply orb_false_elim in Hf as [Hf Hb]. apply orb_false_elim in Hf as [H1 H2].
    split; [exact H1|]. split; [exact H2|]. destruct b; [exact Hb|exact I]. }
  destruct Ho as (Hkeyed & Hnd & Hsh & Hsep & Hb).
  assert (sset (o_long o) o os = os ++ [(o_long o, o)]) as Eset.
  { apply sset_new. destruct (Hfree (o_long o)) as [H1 _]; [apply in_onames; now left|].
    rewrite shas_sget in H1. now destruct (sget (o_long o) os). }
  cbn [opts_inv]. rewrite Eset. split; [|split; [|split; [|split]]].
  - apply Forall_app. split; [exact Hkeyed|]. constructor; [reflexivity|constructor].
  - rewrite map_app. cbn [map fst]. apply NoDup_snoc; [exact Hnd|].
    apply shas_false_iff. apply (Hfree (o_long o)). apply in_onames. now left.
  - intros k o' s Hin Hso.
    assert (shas s oss = true \/ (o' = o)) as [Hold| ->].
    { apply in_app_or in Hin as [Hin|[E|[]]]; [left; exact (Hsh k o' s Hin Hso)|right; congruence]. }
    + destruct (o_short o); [rewrite shas_set, Hold; apply orb_true_r|exact Hold].
    + rewrite Hso. rewrite shas_set, str_eqb_refl. reflexivity.
  - rewrite map_app. cbn [map snd]. apply opts_sep_app; [exact Hsep|split; [intros o' []|exact I]|].
    intros a b' Hain [<-|[]] n Hna Hno. destruct (Hfree n Hno) as (H1 & H2 & _).
    apply in_map_iff in Hain as [[k a'] [E Hin]]. cbn [snd] in E. subst a'.
    apply in_onames in Hna as [->|Hsa].
    + apply shas_false_iff in H1. apply H1, in_map_iff. exists (k, a). split; [exact (okeyed_in _ _ _ Hkeyed Hin)|exact Hin].
    + rewrite (Hsh k a n Hin Hsa) in H2. discriminate.
  - destruct b as [bf|]; [|exact I]. destruct Hb as [Hbi Hbf]. split; [exact Hbi|].
    intros k o' n Hin Hn. apply in_app_or in Hin as [Hin|[E|[]]]; [exact (Hbf k o' n Hin Hn)|].
    inversion E; subst. apply (Hfree n Hn).
Qed.

Lemma reset_opts_inv b cn co cs ar os oss hm ho :
  opts_inv (Fmt b cn co cs ar os oss hm ho) -> opts_inv (Fmt b cn co cs ar [] [] hm ho).
Proof.
  cbn [opts_inv]. intros (_ & _ & _ & _ & Hb).
  split; [constructor|split; [constructor|split; [intros k o s []|split; [exact I|]]]].
  destruct b as [bf|]; [|exact I]. destruct Hb as [Hb _]. split; [exact Hb|intros k o n []].
Qed.

Lemma fmt_invariant : builder_invariant arg_valid fmt_inv.
Proof.
  split.
  - exact add_option_inv.
  - intros f c f' Hi H. apply add_copt_ok in H as (_ & _ & _ & _ & ->). destruct f. exact Hi.
  - intros f a f' (Ha & Hk & Ho) Hv H. split; [eapply add_argument_keeps_wf; eauto|].
    apply add_argument_ok in H as (_ & _ & _ & ->). destruct f. split; [|exact Ho].
    cbn [akeys_inv] in *. destruct Hk as [Hk Hkb]. split; [|exact Hkb]. apply Forall_sset; [exact Hk|reflexivity].
  - intros f c f' Hi H. destruct f. cbn in H. inversion H; subst. exact Hi.
  - intros b cn co cs ar os oss hm ho (Ha & Hk & Ho). split; [exact Ha|split; [exact Hk|]]. eapply reset_opts_inv; eauto.
  - intros b cn co cs ar os oss hm ho Hi. exact Hi.
  - intros b cn co cs ar os oss hm ho (Ha & Hk & Ho). split; [eapply reset_args_wf; eauto|split; [|exact Ho]].
    cbn [akeys_inv] in *. split; [constructor|apply Hk].
  - intros b cn co cs ar os oss hm ho Hi. exact Hi.
Qed.
Lemma brun_inv ops : forall f, fmt_inv f -> forallb bop_valid ops = true -> fmt_inv (brun f ops).
Proof. exact (brun_preserves fmt_invariant ops). Qed.

Lemma empty_builder_inv_none : fmt_inv (empty_builder None).
Proof.
  split; [exact (proj2 empty_builder_wf_none)|]. split; cbn; repeat split; try constructor.
  intros k o s [].
Qed.
Lemma empty_builder_inv_some bf : fmt_inv bf -> fmt_inv (empty_builder (Some bf)).
Proof.
  intros ([Hi Hord] & Hk & Ho). split; [|split].
  - split.
    + cbn. repeat split; auto; try constructor. intros k [].
    + unfold args_of. cbn. exact Hord.
  - cbn. split; [constructor|exact Hk].
  - cbn. split; [constructor|split; [constructor|split; [intros k o s []|split; [exact I|split; [exact Ho|intros k o n []]]]]].
Qed.

Lemma build_format_inv f : fmt_inv f -> fmt_inv (build_format f).
Proof.
  intros (Ha & Hk & Ho). split; [now apply build_format_args_wf|].
  destruct f as [b cn co cs ar os oss hm ho]. unfold build_format.
  destruct (index_copts (map snd co)). split; [exact Hk|].
  cbn [opts_inv] in *. destruct Ho as (Hkeyed & Hnd & Hsh & Hsep & Hb).
  split; [exact Hkeyed|split; [exact Hnd|split; [|split; [exact Hsep|exact Hb]]]].
  (* the short-name index rebuilt by build_format knows the short name of every listed option *)
  intros k o s Hin Hs. destruct (FormatAgreeLemmas.short_index_complete os o s) as (o' & Hg & _); [|exact Hs|].
  - apply in_map_iff. exists (k, o). auto.
  - change (shas s (FormatAgreeLemmas.short_index os) = true). now rewrite shas_sget, Hg.
Qed.

(* ArgsFormat(elements, base) is a special case of builder + build_format *)
Definition op_of_element (e : element) : bop :=
  match e with EOpt o => AddOption o | ECOpt c => AddCommandOption c | EArg a => AddArgument a | ECName c => AddCommandName c end.
Definition element_valid (e : element) : bool := match e with EArg a => arg_valid a | _ => true end.
Lemma add_elements_brun : forall es f f', add_elements f es = Ok f' -> brun f (map op_of_element es) = f'.
Proof.
  induction es as [|e r IH]; intros f f' H; cbn [add_elements map brun] in *; [congruence|].
  destruct e as [o|c|a|c]; cbn [op_of_element bstep];
    match type of H with bind ?x _ = _ => destruct x as [f1|k] eqn:E end; cbn [bind lift fst] in *;
    try discriminate; now apply IH.
Qed.
Lemma elements_valid_ops es : forallb element_valid es = true -> forallb bop_valid (map op_of_element es) = true.
Proof.
  induction es as [|e r IH]; cbn [forallb map]; [reflexivity|]. intros H. apply andb_prop in H as [He Hr].
  rewrite (IH Hr), andb_true_r. destruct e; exact He.
Qed.
Lemma format_of_elements_built es base f :
  format_of_elements es base = Ok f -> f = build_format (brun (empty_builder base) (map op_of_element es)).
Proof.
  unfold format_of_elements. destruct (add_elements (empty_builder base) es) as [g|k] eqn:E; cbn [bind]; [|discriminate].
  intros H. inversion H; subst. now rewrite (add_elements_brun _ _ _ E).
Qed.

(* the formats of the public API: a builder over no base or over such a format, any operations, then .format *)
Inductive api_format : fmt -> Prop :=
| api_root ops : forallb bop_valid ops = true -> api_format (build_format (brun (empty_builder None) ops))
| api_over bf ops : api_format bf -> forallb bop_valid ops = true ->
                    api_format (build_format (brun (empty_builder (Some bf)) ops)).

Lemma api_format_inv f : api_format f -> fmt_inv f.
Proof.
  induction 1 as [ops Hv|bf ops _ IH Hv]; apply build_format_inv, brun_inv; auto.
  - exact empty_builder_inv_none.
  - now apply empty_builder_inv_some.
Qed.

Theorem reachable_fmt_ok_lemma base ops :
  match base with Some bf => fmt_inv bf | None => True end -> forallb bop_valid ops = true ->
  fmt_inv (build_format (brun (empty_builder base) ops)) /\
  fmt_ok (build_format (brun (empty_builder base) ops)) = true.
Proof.
  intros Hb Hv.
  assert (fmt_inv (build_format (brun (empty_builder base) ops))) as Hi.
  { apply build_format_inv, brun_inv; [|exact Hv].
    destruct base as [bf|]; [now apply empty_builder_inv_some|exact empty_builder_inv_none]. }
  split; [exact Hi|now apply wf_implies_fmt_ok_lemma].
Qed.

Theorem api_format_fmt_ok_lemma f : api_format f -> fmt_ok f = true.
Proof. intros H. now apply wf_implies_fmt_ok_lemma, api_format_inv. Qed.

Theorem format_of_elements_fmt_ok_lemma es base f :
  match base with Some bf => fmt_inv bf | None => True end -> forallb element_valid es = true ->
  format_of_elements es base = Ok f -> fmt_inv f /\ fmt_ok f = true.
Proof.
  intros Hb Hv H. rewrite (format_of_elements_built _ _ _ H).
  apply reachable_fmt_ok_lemma; [exact Hb|now apply elements_valid_ops].
Qed.

From Clikit Require Import Proofs.SpellLemmas.

Theorem parse_spells_inv_lemma f d : fmt_inv f -> wf_line f d = true ->
  forall lenient, parse f lenient (render d) = Ok (denote f d).
Proof. intros Hi. apply parse_spells_lemma. now apply wf_implies_fmt_ok_lemma. Qed.

(* concrete reachable formats (by computation): the hypotheses are satisfiable and the conclusion is what
   vm_compute finds *)
From Coq Require Import String Ascii.
Module FmtOkExamples.
  Import SpellExamples.
  Definition base_ops : list bop := [AddCommandName c_server; AddArgument a_host; AddOption o_verbose; AddOption o_quiet; AddOption o_color].
  Definition own_ops : list bop :=
    [AddCommandName c_add; SetArguments [a_port; a_files]; AddOption o_num; AddOption o_tag; AddOption o_level;
     AddArgument a_host (* rejected: multi-valued "files" is last *); AddOption o_verbose (* rejected: taken in the base *)].
  Definition G_base : fmt := build_format (brun (empty_builder None) base_ops).
  Definition G : fmt := build_format (brun (empty_builder (Some G_base)) own_ops).
  Lemma G_api : api_format G.
  Proof. apply api_over; [apply api_root|]; vm_compute; reflexivity. Qed.
  Example G_fmt_ok_computed : fmt_ok G = true. Proof. vm_compute. reflexivity. Qed.
  Example G_line_ok : wf_line G D1 = true. Proof. vm_compute. reflexivity. Qed.
  Example G_is_F2 : get_arguments_all G = get_arguments_all F2 /\ get_options_all G = get_options_all F2 /\
                    get_command_names_all G = get_command_names_all F2.
  Proof. repeat split; vm_compute; reflexivity. Qed.
  Lemma G_parses : forall lenient, parse G lenient (render D1) = Ok (denote G D1).
  Proof. exact (parse_spells_lemma G D1 (api_format_fmt_ok_lemma G G_api) G_line_ok). Qed.
  (* twelve command names and arguments that occupy the first candidate names: the loop moves on to i = 3 *)
  Definition cn1 (c : N) : cname := {| cn_name := [c]; cn_aliases := [] |}.
  Definition many_ops : list bop :=
    map (fun c => AddCommandName (cn1 c)) [97;98;99;100;101;102;103;104;105;106;107;108]%N ++
    [AddArgument a_cmd11; AddArgument {| a_name := s "cmd12"; a_flags := 17; a_default := VNone |};
     AddArgument {| a_name := s "cmd111"; a_flags := 18; a_default := VNone |};
     AddArgument {| a_name := s "cmd1113"; a_flags := 22; a_default := VList [] |}].
  Definition G12 : fmt := build_format (brun (empty_builder None) many_ops).
  Lemma G12_api : api_format G12.
  Proof. apply api_root. vm_compute. reflexivity. Qed.
  Example G12_pseudo_names :
    match aug_format G12 with
    | Ok (_, _, cns) => map fst cns = [s "cmd13"; s "cmd23"; s "cmd33"; s "cmd43"; s "cmd53"; s "cmd63"; s "cmd73"; s "cmd83";
                                       s "cmd93"; s "cmd103"; s "cmd113"; s "cmd123"]
    | Err _ => False end.
  Proof. vm_compute. reflexivity. Qed.
  Example G12_fmt_ok_computed : fmt_ok G12 = true. Proof. vm_compute. reflexivity. Qed.
End FmtOkExamples.
