(* Proofs about Model/GatedSection.v: the gate composed with the section model.  A refused call is the identity; a gated
   run is the Section.v run of the operations of the ALLOWED calls (erase) while the settings go their own way; hence it
   equals the run of the sequence with the refused calls removed (kept). *)
From Coq Require Import Lia Arith.
From Clikit Require Import Base.Prelude Base.Res Base.Term Model.Conv Model.Markup Model.Gate Model.Section Model.GatedSection.

Lemma gates_step_refused gs o : allowed gs o = false -> gates_step gs o = gs.
Proof. destruct o; cbn; intros H; try reflexivity; discriminate. Qed.

Lemma refused_has_sop gs o : allowed gs o = false -> exists so, sop_of gs o = Some so.
Proof. destruct o; cbn; intros H; try discriminate; eexists; reflexivity. Qed.

Definition lift (gs' : gates) (r : res (secs * formatter * list emit)) : res gres :=
  do x <- r; Ok (fst (fst x), gs', snd (fst x), snd x).

Lemma grun_erase ansi w : forall ops st gs f,
  grun ansi w st gs f ops = lift (gates_after gs ops) (srun ansi w st f (erase gs ops)).
Proof.
  induction ops as [|o r IH]; intros st gs f; [reflexivity|].
  cbn [grun erase gates_after fold_left]. fold (gates_after (gates_step gs o) r).
  unfold gstep.
  destruct (sop_of gs o) as [so|] eqn:Es.
  - destruct (allowed gs o) eqn:Ea.
    + cbn [app srun]. unfold sec_step.
      destruct (if ansi then sstep w st f so else sstep_plain w st f so) as [[[st1 f1] e1]|k]; [|reflexivity].
      cbn [bind fst snd]. rewrite IH. unfold lift.
      destruct (srun ansi w st1 f1 (erase (gates_step gs o) r)) as [[[st2 f2] e2]|k]; reflexivity.
    + cbn [bind fst snd app]. rewrite (gates_step_refused _ _ Ea) in *. rewrite IH. unfold lift.
      destruct (srun ansi w st f (erase gs r)) as [[[st2 f2] e2]|k]; reflexivity.
  - cbn [bind fst snd app]. rewrite IH. unfold lift.
    destruct (srun ansi w st f (erase (gates_step gs o) r)) as [[[st2 f2] e2]|k]; reflexivity.
Qed.

Lemma erase_kept : forall ops gs, erase gs (kept gs ops) = erase gs ops.
Proof.
  induction ops as [|o r IH]; intros gs; [reflexivity|]. cbn [kept erase].
  destruct (allowed gs o) eqn:Ea.
  - cbn [app erase]. rewrite Ea. now rewrite IH.
  - rewrite (gates_step_refused _ _ Ea). cbn [app]. rewrite IH. now destruct (sop_of gs o).
Qed.
Lemma gates_after_kept : forall ops gs, gates_after gs (kept gs ops) = gates_after gs ops.
Proof.
  unfold gates_after. induction ops as [|o r IH]; intros gs; [reflexivity|]. cbn [kept fold_left].
  destruct (allowed gs o) eqn:Ea; cbn [app fold_left]; [apply IH|].
  rewrite (gates_step_refused _ _ Ea). apply IH.
Qed.
Lemma kept_all_allowed : forall ops gs, kept gs (kept gs ops) = kept gs ops.
Proof.
  induction ops as [|o r IH]; intros gs; [reflexivity|]. cbn [kept].
  destruct (allowed gs o) eqn:Ea; cbn [app kept]; [rewrite Ea; cbn [app]; now rewrite IH|].
  rewrite (gates_step_refused _ _ Ea). apply IH.
Qed.

(* the settings list stays parallel to the sections *)
Lemma set_nth_length {X} (l : list X) i x y : nth_error l i = Some y -> length (firstn i l ++ x :: skipn (S i) l) = length l.
Proof.
  intros H. assert (i < length l) as Hi by (apply nth_error_Some; congruence).
  rewrite app_length. cbn [length]. rewrite firstn_length, skipn_length. lia.
Qed.
Lemma set_gate_length (gs : list gate) i g x : nth_error gs i = Some x -> length (set_gate gs i g) = length gs.
Proof. apply set_nth_length. Qed.
Lemma gates_step_length gs o :
  length (g_secs (gates_step gs o)) = length (g_secs gs) + (match o with GCreate => 1 | _ => 0 end).
Proof.
  destruct o; cbn [gates_step with_secs g_secs]; try lia.
  - rewrite app_length. cbn. lia.
  - destruct (nth_error (g_secs gs) i) eqn:E; cbn [with_secs g_secs]; [rewrite (set_gate_length _ _ _ _ E)|]; lia.
  - destruct (nth_error (g_secs gs) i) eqn:E; cbn [with_secs g_secs]; [rewrite (set_gate_length _ _ _ _ E)|]; lia.
Qed.
Lemma grun_app ansi w : forall a st gs f b,
  grun ansi w st gs f (a ++ b) =
  do x <- grun ansi w st gs f a;
  do y <- grun ansi w (fst (fst (fst x))) (snd (fst (fst x))) (snd (fst x)) b;
  Ok (fst (fst (fst y)), snd (fst (fst y)), snd (fst y), snd x ++ snd y).
Proof.
  induction a as [|o r IH]; intros st gs f b.
  - cbn. destruct (grun ansi w st gs f b) as [[[[? ?] ?] ?]|]; reflexivity.
  - cbn [app grun]. destruct (gstep ansi w st gs f o) as [[[[st1 gs1] f1] e1]|]; [|reflexivity].
    cbn [bind fst snd]. rewrite IH.
    destruct (grun ansi w st1 gs1 f1 r) as [[[[st2 gs2] f2] e2]|]; [|reflexivity]. cbn [bind fst snd].
    destruct (grun ansi w st2 gs2 f2 b) as [[[[st3 gs3] f3] e3]|]; [|reflexivity]. cbn [bind fst snd].
    now rewrite app_assoc.
Qed.
