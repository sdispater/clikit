(* C20: the pieces of every line of the stack trace and of the snippet, EXPLICITLY.
   TraceRenderLemmas proves that every line written is a line of literals and safe separators (good_line: "there are
   pieces ..."); the byte theorems then speak of existential pieces.  Here the pieces are functions of the inputs
   (trace_plines, snippet_plines): each kind of line is the string of its pieces (the _str and _w lemmas) and the pieces
   are good (Section Ok).  That render_trace / render_snippet return the strings of trace_plines / snippet_plines, and the
   report as their shown texts: Props/C20.v. *)
From Coq Require Import Lia.
From Clikit Require Import Base.Prelude Base.Res Model.Conv Model.Markup Model.OutputM Model.Trace
  Proofs.StrLemmas Proofs.MarkupLemmas Proofs.OutputLemmas Proofs.TraceLemmas Proofs.LiteralLemmas Proofs.TraceRenderLemmas
  Proofs.TraceSolutionLemmas Proofs.TraceEscLemmas Proofs.TraceBytesLemmas Proofs.ListLemmas.

Definition rl_plines (ind : Z) (ps : list piece) (nl : bool) (extra : Z) : list pline :=
  (if nl then [(ind, [])] else []) ++ [(ind, PRaw (repeat 32%N (Z.to_nat extra)) :: ps)].
Lemma rl_plines_w ind ps nl extra : map pline_w (rl_plines ind ps nl extra) = render_line ind (line_str ps) nl extra.
Proof. unfold rl_plines, render_line. rewrite map_app. destruct nl; reflexivity. Qed.

Definition lines_pieces (toks : list token) : list (list piece) := map (map chunk_piece) (split_chunks toks).
Lemma lines_pieces_str toks : split_to_lines toks = map line_str (lines_pieces toks).
Proof.
  unfold split_to_lines, lines_pieces. rewrite map_map. apply map_ext. intros cs. apply render_chunks_line.
Qed.
Definition number_pieces (utf8 : bool) (w mark i : Z) (lp : list piece) : list piece :=
  (if (mark =? i)%Z then [PLit th_marker (u_arrow (ui_of utf8)); PRaw [32%N]] else [PRaw [32; 32]%N])
    ++ [PLit (if (mark =? i)%Z then th_bold_default else th_lineno) (rjust (dec_text i) w); PLit th_lineno (u_delim (ui_of utf8)); PRaw [32%N]]
    ++ lp.
Lemma number_pieces_str utf8 w mark i lp : line_str (number_pieces utf8 w mark i lp) = number_line (ui_of utf8) w mark i (line_str lp).
Proof.
  destruct (ui_safe utf8) as [Ha Hd]. unfold number_pieces, number_line, line_str. rewrite !flat_map_app. cbn [flat_map piece_str].
  rewrite (literal_safe _ _ Hd), app_nil_r.
  destruct (mark =? i)%Z; cbn [flat_map piece_str]; rewrite ?(literal_safe _ _ Ha), (literal_safe _ _ (safe_rjust _ w (safe_dec_text i))), ?app_nil_r, <- ?app_assoc; reflexivity.
Qed.
Fixpoint number_from_p (utf8 : bool) (w mark i : Z) (lps : list (list piece)) : list (list piece) :=
  match lps with [] => [] | lp :: r => number_pieces utf8 w mark i lp :: number_from_p utf8 w mark (i + 1) r end.
Lemma number_from_p_str utf8 w mark : forall lps i,
  map line_str (number_from_p utf8 w mark i lps) = number_from (ui_of utf8) w mark i (map line_str lps).
Proof.
  induction lps as [|lp r IH]; intros i; [reflexivity|]. cbn [number_from_p map number_from]. rewrite IH.
  f_equal. rewrite number_pieces_str. reflexivity.
Qed.
Definition snippet_pieces (utf8 : bool) (toks : list token) (line before after : Z) : list (list piece) :=
  let numbered := number_from_p utf8 (number_width (length (lines_pieces toks))) line 1 (lines_pieces toks) in
  firstn (Z.to_nat (after + before + 1)) (skipn (Z.to_nat (Z.max (line - before - 1) 0)) numbered).
Lemma snippet_pieces_str utf8 toks line before after :
  map line_str (snippet_pieces utf8 toks line before after) = code_snippet (ui_of utf8) toks line before after.
Proof.
  assert (length (split_to_lines toks) = length (lines_pieces toks)) as El by (rewrite lines_pieces_str; apply map_length).
  unfold snippet_pieces, code_snippet, line_numbers. cbv zeta. rewrite <- firstn_map, <- skipn_map, number_from_p_str, <- lines_pieces_str, El.
  reflexivity.
Qed.
Definition snippet_of_p (c : tcfg) (content : tokres) (line before after : Z) : list (list piece) :=
  match content with TokOk toks => snippet_pieces (t_utf8 c) toks line before after | _ => [] end.
Lemma snippet_of_p_str c content line before after :
  snippet_of c content line before after = Ok (map line_str (snippet_of_p c content line before after)).
Proof. unfold snippet_of, snippet_of_p. destruct content; [now rewrite snippet_pieces_str|reflexivity|reflexivity]. Qed.

Definition plain_p (f : frame) : list piece := [PLit (theme HDefault) (strip (f_line f))].
Definition frame_text_p (f : frame) : list piece :=
  match f_linetoks f with
  | TokOk toks => match lines_pieces toks with lp :: _ => lp | [] => plain_p f end
  | _ => plain_p f
  end.
Lemma plain_p_str f : line_str (plain_p f) = plain_code f.
Proof. unfold plain_p, plain_code, styled, line_str. cbn [flat_map piece_str]. apply app_nil_r. Qed.
Lemma frame_text_p_str f : line_str (frame_text_p f) = frame_text f.
Proof.
  unfold frame_text_p, frame_text. destruct (f_linetoks f) as [toks| |]; try apply plain_p_str.
  rewrite lines_pieces_str. destruct (lines_pieces toks) as [|lp r]; [apply plain_p_str|reflexivity].
Qed.
Definition frame_code_p (c : tcfg) (ind w : Z) (f : frame) : list pline :=
  if t_debug c
  then flat_map (fun lp => rl_plines ind (PRaw (rjust [32%N] w) :: lp) false 1) (snippet_of_p c (f_content f) (f_lineno f) 2 2)
  else rl_plines ind (PRaw (rjust [32%N] w ++ [32; 32]%N) :: frame_text_p f) false 0.
Lemma map_flat_map {X Y Z'} (g : Y -> Z') (h : X -> list Y) l : map g (flat_map h l) = flat_map (fun x => map g (h x)) l.
Proof. induction l as [|x l IH]; [reflexivity|]. cbn [flat_map]. now rewrite map_app, IH. Qed.
Lemma frame_code_p_w c ind w f : frame_code c ind w f = Ok (map pline_w (frame_code_p c ind w f)).
Proof.
  unfold frame_code_p. destruct (t_debug c) eqn:ED.
  - unfold frame_code. rewrite ED, snippet_of_p_str. cbn [bind]. rewrite flat_map_map, map_flat_map. f_equal.
    all: try (apply flat_map_ext; intros lp; rewrite rl_plines_w; reflexivity).
  - rewrite (frame_code_below_debug c ind w f ED), rl_plines_w. f_equal. f_equal.
    change (line_str (PRaw (rjust [32%N] w ++ [32; 32]%N) :: frame_text_p f)) with ((rjust [32%N] w ++ [32; 32]%N) ++ line_str (frame_text_p f)).
    now rewrite frame_text_p_str, <- app_assoc.
Qed.

Definition frame_line_p (c : tcfg) (w : Z) (f : frame) (i : Z) : list piece :=
  [PLit st_yellow (rjust (dec_text i) w); PRaw [32; 32]%N] ++ loc_pieces c th_builtin f.
Lemma frame_line_p_str c w f i : line_str (frame_line_p c w f i) = frame_line c w f i.
Proof.
  rewrite frame_line_eq. unfold frame_line_p. rewrite line_str_app, <- location_pieces. unfold line_str. cbn [flat_map piece_str].
  rewrite (literal_safe _ _ (safe_rjust _ w (safe_dec_text i))), app_nil_r, <- app_assoc. reflexivity.
Qed.
Fixpoint frames_plines (c : tcfg) (ind w : Z) (fs : list frame) (i : Z) : list pline * Z :=
  match fs with
  | [] => ([], i)
  | f :: r => let rest := frames_plines c ind w r (i - 1) in
              (rl_plines ind (frame_line_p c w f i) true 0 ++ frame_code_p c ind w f ++ fst rest, snd rest)
  end.
Lemma frames_plines_w c ind w : forall fs i,
  frames_lines c ind w fs i = Ok (map pline_w (fst (frames_plines c ind w fs i)), snd (frames_plines c ind w fs i)).
Proof.
  induction fs as [|f r IH]; intros i; [reflexivity|]. cbn [frames_lines frames_plines fst snd].
  rewrite frame_code_p_w, IH. cbn [bind fst snd]. rewrite !map_app, rl_plines_w, frame_line_p_str. reflexivity.
Qed.
Definition fold_p (w n reps : Z) : list piece :=
  [PLit st_blue (rjust s_dots w); PRaw [32;32;80;114;101;118;105;111;117;115;32]%N]
    ++ (if (1 <? n)%Z then [PLit st_yellow (dec_text n); PRaw [32;102;114;97;109;101;115]%N] else [PRaw s_frame])
    ++ [PRaw [32;114;101;112;101;97;116;101;100;32]%N; PLit st_blue (dec_text reps); PRaw [32;116;105;109;101;115]%N].
Lemma safe_s_dots : safe s_dots. Proof. safe_by_compute. Qed.
Lemma fold_p_str w n reps : line_str (fold_p w n reps) = fold_line w n reps.
Proof.
  unfold fold_p, fold_line, line_str. rewrite !flat_map_app. cbn [flat_map piece_str].
  rewrite (literal_safe _ _ (safe_rjust _ w safe_s_dots)), (literal_safe _ _ (safe_dec_text reps)).
  generalize (rjust s_dots w) (dec_text reps). intros A C.
  destruct (1 <? n)%Z; cbn [flat_map piece_str]; rewrite ?(literal_safe _ _ (safe_dec_text n)); generalize (dec_text n); intros B;
    unfold s_blue, s_previous, s_yellow, s_frames, s_frame, s_repeated, s_times, tagged, close_any, st_blue, st_yellow;
    repeat (progress (rewrite <- ?app_assoc; cbn [app])); reflexivity.
Qed.
Fixpoint colls_plines (c : tcfg) (ind w : Z) (cs : list coll) (i : Z) : list pline :=
  match cs with
  | [] => []
  | cl :: r =>
    let n := zlen (c_frames cl) in
    let reps := (c_count cl - 1)%Z in
    let head := if coll_repeated cl then rl_plines ind (fold_p w n reps) true 0 else [] in
    let i := if coll_repeated cl then (i - (n * reps + n))%Z else i in
    let fl := frames_plines c ind w (c_frames cl) i in
    head ++ fst fl ++ colls_plines c ind w r (snd fl)
  end.
Lemma colls_plines_w c ind w : forall cs i, colls_lines c ind w cs i = Ok (map pline_w (colls_plines c ind w cs i)).
Proof.
  induction cs as [|cl r IH]; intros i; [reflexivity|]. cbn [colls_lines colls_plines]. cbv zeta.
  rewrite frames_plines_w. cbn [bind fst snd]. rewrite IH. cbn [bind]. rewrite !map_app. f_equal. f_equal.
  destruct (coll_repeated cl); [|reflexivity]. rewrite rl_plines_w, fold_p_str. reflexivity.
Qed.
Definition stack_p : list piece := [PLit st_yellow [83;116;97;99;107;32;116;114;97;99;101]%N; PRaw [58%N]].
Lemma stack_p_str : line_str stack_p = s_stack. Proof. reflexivity. Qed.
Definition trace_plines (c : tcfg) (ind : Z) (fs : list frame) : list pline :=
  let stack := kept_frames c fs in
  let remaining := (zlen stack - 1)%Z in
  if t_verbose c && negb (remaining =? 0)%Z
  then rl_plines ind stack_p true 0 ++ colls_plines c ind (zlen (dec_text remaining)) (compact stack) remaining
  else [].

Definition snippet_plines (c : tcfg) (ind : Z) (f : frame) : list pline :=
  rl_plines ind (at_pieces c f) true 0 ++ flat_map (fun lp => rl_plines (ind + 2) lp false 0) (snippet_of_p c (f_content f) (f_lineno f) 4 4).

Section Ok.
Variable sty : styles.
Hypothesis Hb : resolvable sty st_b.
Notation okl := (fun p : pline => pieces_ok sty (snd p)).
Lemma rl_plines_ok ind ps nl extra : pieces_ok sty ps -> Forall okl (rl_plines ind ps nl extra).
Proof.
  intros H. unfold rl_plines. apply Forall_app. split; [destruct nl; constructor; [constructor|constructor]|].
  constructor; [|constructor]. cbn [snd]. constructor; [apply safe_repeat32|exact H].
Qed.
Lemma lines_pieces_ok toks : Forall (pieces_ok sty) (lines_pieces toks).
Proof. unfold lines_pieces. apply Forall_map, Forall_forall. intros cs _. apply chunks_ok. Qed.
Lemma number_pieces_ok utf8 w mark i lp : pieces_ok sty lp -> pieces_ok sty (number_pieces utf8 w mark i lp).
Proof.
  intros H. unfold number_pieces. apply Forall_app. split.
  - destruct (mark =? i)%Z; [constructor; [apply inline_piece_ok; inline_in|]|]; (constructor; [cbn [piece_ok]; safe_by_compute|constructor]).
  - apply Forall_app. split; [|exact H]. constructor; [destruct (mark =? i)%Z; apply inline_piece_ok; inline_in|].
    constructor; [apply inline_piece_ok; inline_in|]. constructor; [cbn [piece_ok]; safe_by_compute|constructor].
Qed.
Lemma number_from_p_ok utf8 w mark : forall lps i, Forall (pieces_ok sty) lps -> Forall (pieces_ok sty) (number_from_p utf8 w mark i lps).
Proof.
  induction lps as [|lp r IH]; intros i H; [constructor|]. inversion H; subst. cbn [number_from_p]. constructor; [now apply number_pieces_ok|now apply IH].
Qed.
Lemma snippet_of_p_ok c content line before after : Forall (pieces_ok sty) (snippet_of_p c content line before after).
Proof.
  unfold snippet_of_p. destruct content; [|constructor|constructor]. unfold snippet_pieces. cbv zeta.
  apply Forall_firstn, Forall_skipn, number_from_p_ok, lines_pieces_ok.
Qed.
Lemma frame_text_p_ok f : pieces_ok sty (frame_text_p f).
Proof.
  assert (pieces_ok sty (plain_p f)) as Hp by (constructor; [split; [apply theme_tag_name|apply theme_resolvable]|constructor]).
  unfold frame_text_p. destruct (f_linetoks f) as [toks| |]; try exact Hp.
  pose proof (lines_pieces_ok toks) as H. destruct (lines_pieces toks); [exact Hp|now inversion H].
Qed.
Lemma frame_code_p_ok c ind w f : Forall okl (frame_code_p c ind w f).
Proof.
  unfold frame_code_p. destruct (t_debug c).
  - apply Forall_flat_map. eapply Forall_impl; [|apply snippet_of_p_ok]. intros lp Hlp. apply rl_plines_ok.
    constructor; [apply safe_rjust; safe_by_compute|exact Hlp].
  - apply rl_plines_ok. constructor; [apply safe_app; [apply safe_rjust; safe_by_compute|safe_by_compute]|apply frame_text_p_ok].
Qed.
Lemma frame_line_p_ok c w f i : pieces_ok sty (frame_line_p c w f i).
Proof.
  unfold frame_line_p. apply Forall_app. split; [|apply (loc_pieces_ok sty Hb); inline_in].
  constructor; [apply inline_piece_ok; inline_in|]. constructor; [safe_by_compute|constructor].
Qed.
Lemma frames_plines_ok c ind w : forall fs i, Forall okl (fst (frames_plines c ind w fs i)).
Proof.
  induction fs as [|f r IH]; intros i; [constructor|]. cbn [frames_plines fst]. apply Forall_app. split; [apply rl_plines_ok, frame_line_p_ok|].
  apply Forall_app. split; [apply frame_code_p_ok|apply IH].
Qed.
Lemma fold_p_ok w n reps : pieces_ok sty (fold_p w n reps).
Proof.
  unfold fold_p. apply Forall_app. split; [constructor; [apply inline_piece_ok; inline_in|constructor; [safe_by_compute|constructor]]|].
  apply Forall_app. split.
  - destruct (1 <? n)%Z; [constructor; [apply inline_piece_ok; inline_in|constructor; [safe_by_compute|constructor]]|constructor; [safe_by_compute|constructor]].
  - constructor; [safe_by_compute|]. constructor; [apply inline_piece_ok; inline_in|]. constructor; [safe_by_compute|constructor].
Qed.
Lemma colls_plines_ok c ind w : forall cs i, Forall okl (colls_plines c ind w cs i).
Proof.
  induction cs as [|cl r IH]; intros i; [constructor|]. cbn [colls_plines]. cbv zeta. apply Forall_app. split.
  - destruct (coll_repeated cl); [apply rl_plines_ok, fold_p_ok|constructor].
  - apply Forall_app. split; [apply frames_plines_ok|apply IH].
Qed.
Theorem trace_plines_ok c ind fs : Forall okl (trace_plines c ind fs).
Proof.
  unfold trace_plines. cbv zeta. destruct (t_verbose c && _); [|constructor]. apply Forall_app. split; [|apply colls_plines_ok].
  apply rl_plines_ok. constructor; [apply inline_piece_ok; inline_in|]. constructor; [safe_by_compute|constructor].
Qed.
Theorem snippet_plines_ok c ind f : Forall okl (snippet_plines c ind f).
Proof.
  unfold snippet_plines. apply Forall_app. split; [apply rl_plines_ok, (at_pieces_ok sty c f Hb)|].
  apply Forall_flat_map. eapply Forall_impl; [|apply snippet_of_p_ok]. intros lp Hlp. now apply rl_plines_ok.
Qed.
End Ok.
