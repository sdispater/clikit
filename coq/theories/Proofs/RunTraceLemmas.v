(* C04 composed with C20: Model/Run.v abstracts the error-report renderer of ConsoleApplication.run as the boolean
   render_ok ("the renderer returned").  The renderer is ExceptionTrace.render, modelled in Model/Trace.v and proved never
   to fail (TraceRenderLemmas, TraceSolutionLemmas: its lines always exist, and writing them cannot fail).  Here
   render_ok is discharged: it is report_ok, computed from render_sol, and it is always true under the hypotheses on the
   output.
   The exception of Run.v (exn) says only what run() distinguishes: KeyboardInterrupt or not, CliKitException or not.
   What the renderer reads of the raised exception is its exn_case x (class name, message, frames with their token
   streams - or the fact that tokenize / reading the file raised) and the solutions sols the provider repository returns
   for it: they are inputs, universally quantified - the theorems hold whatever they are.  The report is rendered in
   simple mode exactly for library exceptions (simple = e_clikit e), on the output o it is written to (io.write_line: the STANDARD output of the io, not its
   error output) at the verbosity of c.  The theorems of Props/C04.v over report_ok are report_ok_any put into the facts
   of Proofs/RunLemmas.v; the examples below are runs on closed inputs. *)
From Clikit Require Import Base.Prelude Base.Res Model.Conv Model.Markup Model.OutputM Model.Trace Model.Run
  Proofs.MarkupLemmas Proofs.OutputLemmas Proofs.TraceLemmas Proofs.LiteralLemmas Proofs.TraceRenderLemmas
  Proofs.TraceSolutionLemmas Proofs.RunLemmas.

(* the renderer returned *)
Definition report_ok (c : tcfg) (o : outp) (x : exn_case) (sols : list solution) (simple : bool) : bool :=
  match render_sol c simple o x sols with Ok _ => true | Err _ => false end.

(* o: an ordinary output with an ANSI or plain formatter whose style stack is empty and whose style table resolves
   "error" and "b".  Nothing is asked of the exception case or of the solutions: whatever tokenize did on the sources of
   the frames, whatever the texts hold, in either report mode. *)
Lemma report_ok_any sty c o x sols simple :
  out_ok sty o -> resolvable sty st_error -> resolvable sty st_b -> report_ok c o x sols simple = true.
Proof.
  intros Ho Herr Hb. unfold report_ok.
  destruct (render_sol_never_fails_any sty c simple o x sols Ho Herr Hb) as (bytes & ->). reflexivity.
Qed.
(* simple mode, under a premise on ESC in the message of a decorating output, which it does not need *)
Lemma report_ok_simple sty c o x sols :
  out_ok sty o -> resolvable sty st_error -> resolvable sty st_b -> (decorated o = true -> no_esc (x_msg x)) ->
  report_ok c o x sols true = true.
Proof. intros Ho Herr Hb _. exact (report_ok_any sty c o x sols true Ho Herr Hb). Qed.

Module RunTraceExamples.
Import RenderExamples SolutionExamples.
Definition ex_exn : exn := {| e_keyboard := false; e_clikit := false |}.
Definition ex_lib_exn : exn := {| e_keyboard := false; e_clikit := true |}.
Lemma demo_report_ok c k on ind x sols simple : k <> FNull -> report_ok c (demo_out k on ind) x sols simple = true.
Proof. intros Hk. exact (report_ok_any demo_sty2 c _ x sols simple (demo_out_ok k on ind Hk) demo_error demo_b). Qed.
(* the handler raises  B</error>("<b>x\")  from a.py; two solutions with nasty texts; plain output *)
Example ex_raise_rendered debug :
  run true debug (report_ok (demo_cfg true) (demo_out FPlain false 0) (demo_x [demo_frame; demo_frame]) [ex_s1; ex_s2] (e_clikit ex_exn)) [LPass] (Raise ex_exn)
  = {| r_end := Status 1; r_handler_calls := 1; r_reported := true; r_simple := false |}.
Proof. rewrite demo_report_ok by discriminate. reflexivity. Qed.
(* decorated output, at indentation 4 *)
Example ex_raise_rendered_ansi debug :
  run true debug (report_ok (demo_cfg true) (demo_out (FAnsi false) true 4) (demo_x [demo_frame; demo_frame]) [ex_s1; ex_s2] (e_clikit ex_exn)) [] (Raise ex_exn)
  = {| r_end := Status 1; r_handler_calls := 1; r_reported := true; r_simple := false |}.
Proof. rewrite demo_report_ok by discriminate. reflexivity. Qed.
(* a library exception whose frames tokenize rejects: the simple report does not need them *)
Example ex_lib_rendered debug :
  run true debug (report_ok (demo_cfg false) (demo_out FPlain false 0) (demo_x [bad_frame]) [] true) [] (Raise ex_lib_exn)
  = {| r_end := Status 1; r_handler_calls := 1; r_reported := true; r_simple := true |}.
Proof. rewrite demo_report_ok by discriminate. reflexivity. Qed.
(* the same frames under an ordinary exception: reported, status 1 - from report_ok_any ... *)
Example ex_unreadable_rendered debug :
  run true debug (report_ok (demo_cfg false) (demo_out FPlain false 0) (demo_x [bad_frame; bad_frame2]) [ex_s1] (e_clikit ex_exn)) [] (Raise ex_exn)
  = {| r_end := Status 1; r_handler_calls := 1; r_reported := true; r_simple := false |}.
Proof. rewrite demo_report_ok by discriminate. reflexivity. Qed.
(* ... and by computation, TokenError and the other exceptions, at every verbosity *)
Example ex_unreadable_rendered_vm :
  run true false (report_ok (demo_cfg false) (demo_out FPlain false 0) (demo_x [bad_frame]) [] false) [] (Raise ex_exn)
  = {| r_end := Status 1; r_handler_calls := 1; r_reported := true; r_simple := false |}
  /\ run true false (report_ok (demo_cfg true) (demo_out FPlain false 0) (demo_x [bad_frame2; bad_frame]) [] false) [] (Raise ex_exn)
  = {| r_end := Status 1; r_handler_calls := 1; r_reported := true; r_simple := false |}
  /\ run true true (report_ok demo_cfg_debug (demo_out (FAnsi false) true 0) (demo_x [bad_frame2; bad_frame]) [ex_s1] false) [] (Raise ex_exn)
  = {| r_end := Status 1; r_handler_calls := 1; r_reported := true; r_simple := false |}.
Proof. vm_compute. repeat split; reflexivity. Qed.
End RunTraceExamples.
