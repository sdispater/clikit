(* C13 at RUN level: "help <path>", "<path> --help" and "<path> -h" make the run do the same thing (Model/Switches.v
   run_summary): print the same command page, or fail alike.

   HelpSamePageLemmas.help_same_target equates the help TARGETS.  The run reaches the built-in help command in two ways:
   for "help <path>" the resolver walks to it and parses the line with its format; for "<path> --help" the PRE_RESOLVE
   listener parses the line leniently with that format, and _insert_missing_command_names moves the path to the
   argument "command".  Both parses are instances of C01's parse_spells, which gives the parsed values in closed form:
   no option but the switch is set (so the version switch does not fire), and "command" is set because the path is not
   empty.

   The configuration is what DefaultApplicationConfig.configure() sets up (default_help_config). *)
From Coq Require Import Lia.
From Clikit Require Import Base.Prelude Base.Res Model.Conv Model.Flags Model.Format Model.Parser Model.Spell
     Model.Resolver Model.Tokenizer Model.Switches
     Proofs.StrLemmas Proofs.ListLemmas Proofs.DictLemmas Proofs.FormatLemmas Proofs.ParserLemmas Proofs.SpellOpts Proofs.FmtOkLemmas
     Proofs.ResolverLemmas Proofs.ResolverAliasLemmas Proofs.SwitchesLemmas Proofs.HelpTargetLemmas Proofs.HelpSamePageLemmas.
From Clikit Require Proofs.FormatWfLemmas.

Lemma lead_ok_no_ddash l : forallb lead_ok l = true -> forallb (fun x => negb (is_ddash x)) l = true.
Proof.
  intros H. apply forallb_forall. intros t Ht. apply (proj1 (forallb_forall _ _) H) in Ht. unfold lead_ok in Ht.
  change (is_ddash t) with (is_dd t). destruct (is_dd t); [now rewrite andb_false_r in Ht|reflexivity].
Qed.
(* a test that no plain token passes does not see the leading plain tokens of a line *)
Lemma existsb_plain (P : str -> bool) l s : (forall t, lead_ok t = true -> P t = false) -> forallb lead_ok l = true ->
  existsb P (option_tokens (l ++ s)) = existsb P (option_tokens s).
Proof.
  intros HP Hl. rewrite (option_tokens_app _ _ (lead_ok_no_ddash _ Hl)), existsb_app.
  destruct (existsb P l) eqn:E; [|reflexivity]. apply existsb_exists in E as (t & Hin & Ht).
  rewrite (HP t (proj1 (forallb_forall _ _) Hl t Hin)) in Ht. discriminate.
Qed.
Lemma has_token_line sw l s : starts_dash sw = true -> forallb lead_ok l = true ->
  has_token sw (option_tokens (l ++ s)) = has_token sw (option_tokens s).
Proof.
  intros Hs. apply existsb_plain. intros t Ht. destruct (str_eqb_spec sw t) as [<-|]; [|reflexivity].
  unfold lead_ok in Ht. rewrite Hs in Ht. now rewrite andb_false_r in Ht.
Qed.
Lemma wants_help_line l s : forallb lead_ok l = true -> wants_help (option_tokens (l ++ s)) = wants_help (option_tokens s).
Proof. intros H. unfold wants_help. now rewrite (has_token_line T_h l s eq_refl H), (has_token_line T_help l s eq_refl H). Qed.
Lemma wants_version_line l s : forallb lead_ok l = true -> wants_version (option_tokens (l ++ s)) = wants_version (option_tokens s).
Proof. intros H. unfold wants_version. now rewrite (has_token_line T_V l s eq_refl H), (has_token_line T_version l s eq_refl H). Qed.
Lemma wants_help_plain l : forallb lead_ok l = true -> wants_help (option_tokens l) = false.
Proof. intros H. now rewrite <- (app_nil_r l), (wants_help_line _ _ H). Qed.
Lemma wants_version_plain l : forallb lead_ok l = true -> wants_version (option_tokens l) = false.
Proof. intros H. now rewrite <- (app_nil_r l), (wants_version_line _ _ H). Qed.

(* A format finds an option only under the option's own names.  opts_inv says that listed short names are indexed;
   short_sound is the converse: the short index holds listed options under their short names (build_format rebuilds it
   that way), at every level. *)
Fixpoint short_sound (f : fmt) : Prop :=
  match f with Fmt b _ _ _ _ os oss _ _ =>
    (forall s o, sget s oss = Some o -> o_short o = Some s /\ exists k, In (k, o) os) /\
    match b with None => True | Some bf => short_sound bf end end.

Lemma reindex_sound s o : forall os acc, sget s (reindex os acc) = Some o ->
  (o_short o = Some s /\ exists k, In (k, o) os) \/ sget s acc = Some o.
Proof.
  unfold reindex. induction os as [|[k o2] r IH]; intros acc H; cbn [fold_left snd] in H; [now right|].
  apply IH in H as [[H1 [k' H2]]|H]; [left; split; [exact H1|exists k'; now right]|].
  destruct (o_short o2) as [s2|] eqn:E2; [|now right].
  rewrite sget_set in H. destruct (str_eqb_spec s s2) as [->|]; [|now right].
  inversion H; subst. left. split; [exact E2|exists k; now left].
Qed.

Lemma format_of_elements_short_sound es base f :
  match base with Some bf => short_sound bf | None => True end ->
  format_of_elements es base = Ok f -> short_sound f.
Proof.
  intros Hb. unfold format_of_elements.
  destruct (add_elements (empty_builder base) es) as [b|k] eqn:E; cbn [bind]; [|discriminate].
  intros H. inversion H; subst f. clear H. pose proof (FormatWfLemmas.add_elements_base' _ _ _ E) as Hbase. cbn in Hbase.
  pose proof (build_format_short b) as Hs. destruct (build_format_same b) as (Hb0 & _ & _ & Ho & _).
  destruct (build_format b) as [b0 cn co cs ar os oss hm ho]. cbn [f_base f_opts f_opts_short] in *.
  subst b0 os oss. rewrite Hbase. cbn [short_sound]. split; [|exact Hb].
  intros s o H. apply reindex_sound in H as [H|H]; [exact H|discriminate].
Qed.

(* an option found under n at the first level of f, in the long-name map or in the short index, bears the name n and is
   found under its long name as well *)
Lemma found_here b cn co cs ar os oss hm ho n o :
  Forall okeyed os -> NoDup (map fst os) ->
  (forall s o, sget s oss = Some o -> o_short o = Some s /\ exists k, In (k, o) os) ->
  sget n os = Some o \/ sget n oss = Some o ->
  In n (onames o) /\ has_option_all (Fmt b cn co cs ar os oss hm ho) (o_long o) = true /\
  get_option_all (Fmt b cn co cs ar os oss hm ho) (o_long o) = Ok o.
Proof.
  intros Hk Hnd Hs Hn.
  assert (forall k o', In (k, o') os -> k = o_long o') as Hkey by (intros k o' Hin; exact (proj1 (Forall_forall _ _) Hk _ Hin)).
  assert (In n (onames o) /\ In (o_long o, o) os) as [Hname Hin].
  { destruct Hn as [E|E].
    - apply sget_some_in in E. pose proof (Hkey _ _ E) as ->. split; [apply in_onames; now left|exact E].
    - destruct (Hs _ _ E) as [Hsh [k Hin]]. rewrite (Hkey _ _ Hin) in Hin. split; [apply in_onames; now right|exact Hin]. }
  cbn [get_option_all has_option_all]. rewrite !shas_sget, (sget_of_in _ _ _ Hnd Hin). auto.
Qed.

Lemma get_option_named f : opts_inv f -> short_sound f -> forall n o,
  get_option_all f n = Ok o ->
  In n (onames o) /\ has_option_all f (o_long o) = true /\ get_option_all f (o_long o) = Ok o.
Proof.
  induction f as [cn co cs ar os oss hm ho|bf cn co cs ar os oss hm ho IH] using fmt_ind'; intros Hi Hs n o H.
  - destruct Hi as (Hk & Hnd & _). destruct Hs as [Hs _]. apply (found_here _ _ _ _ _ _ _ _ _ n o Hk Hnd Hs).
    cbn [get_option_all] in H. destruct (sget n os); [left; congruence|]. destruct (sget n oss); [right; congruence|discriminate].
  - destruct Hi as (Hk & Hnd & _ & _ & Hb & Hfr). destruct Hs as [Hs Hsb]. cbn [get_option_all] in H.
    destruct (sget n os) as [o1|] eqn:E1; [apply (found_here _ _ _ _ _ _ _ _ _ n o Hk Hnd Hs); left; congruence|].
    destruct (sget n oss) as [o1|] eqn:E2; [apply (found_here _ _ _ _ _ _ _ _ _ n o Hk Hnd Hs); right; congruence|].
    destruct (IH Hb Hsb n o H) as (I1 & I2 & I3). split; [exact I1|].
    (* no option listed at this level bears a name the base knows *)
    assert (forall k o2, In (k, o2) os -> In (o_long o) (onames o2) -> False) as Hfresh.
    { intros k o2 Hin Hon. rewrite (Hfr _ o2 (o_long o) Hin Hon) in I2. discriminate. }
    assert (sget (o_long o) os = None) as N1.
    { destruct (sget (o_long o) os) as [o2|] eqn:E; [|reflexivity]. apply sget_some_in in E. destruct (Hfresh _ _ E).
      apply in_onames. left. exact (proj1 (Forall_forall _ _) Hk _ E). }
    assert (sget (o_long o) oss = None) as N2.
    { destruct (sget (o_long o) oss) as [o2|] eqn:E; [|reflexivity]. destruct (Hs _ _ E) as [Hsh [k Hin]].
      destruct (Hfresh _ _ Hin). apply in_onames. now right. }
    cbn [get_option_all has_option_all]. rewrite !shas_sget, N1, N2, I2, I3. auto.
Qed.

(* HelpSamePageLemmas.parse_switch_eq, read at a parse that succeeds *)
Lemma parse_switch_value f o sw len path x :
  carries o f -> no_value o -> help_switch_of o sw -> forallb lead_ok path = true ->
  parse f len path = Ok x -> ar_opts x = [] ->
  parse f len (path ++ [sw]) = Ok {| ar_opts := [(S_help, VBool true)]; ar_args := ar_args x |}.
Proof. intros Hc Hnv Hsw Hl Hp _. now rewrite (parse_switch_eq f o sw len path Hc Hnv Hsw Hl), Hp. Qed.

Definition COMMAND : str := [99;111;109;109;97;110;100]%N.   (* command *)
(* add_argument("command", Argument.OPTIONAL | Argument.MULTI_VALUED): multi-valued, optional, a string *)
Definition is_command_arg (a : arg) : bool :=
  str_eqb (a_name a) COMMAND && a_multi a && negb (a_required a) && a_optional a &&
  match a_type a with TStr => true | _ => false end.
Definition help_cname : cname := {| cn_name := S_help; cn_aliases := [] |}.

(* the page of the help target, or the failure to find it *)
Definition help_page (a : application) (toks : list str) : action :=
  match help_target a toks with Ok p => AHelpCmd p | Err k => AHelpFail k end.

(* the command "help" as DefaultApplicationConfig.configure() defines it:
     with self.command("help") as c: c.default(); c.add_argument("command", Argument.OPTIONAL | Argument.MULTI_VALUED, ...)
   - named "help", no alias, not anonymous, enabled, no sub-command, the one argument "command" (multi-valued, optional, string).
   Whether it is a default command, lenient, or has options of its own does not matter. *)
Definition is_help_command (c : cmd) : bool :=
  match c with
  | Cmd name [] _ false true _ _ [a] [] => str_eqb name S_help && is_command_arg a
  | _ => false
  end.
(* the global help option, no global argument, the help command *)
Definition default_help_config (cfg : appcfg) : bool :=
  defines_help cfg && match ac_args cfg with [] => true | _ => false end && existsb is_help_command (ac_cmds cfg).

Lemma opts_valid os : forallb element_valid (map EOpt os) = true.
Proof. induction os; [reflexivity|exact IHos]. Qed.
(* options contribute no arguments and no command names to a format *)
Lemma opts_no_args os : FormatWfLemmas.args_in (map EOpt os) = [] /\ FormatWfLemmas.cnames_in (map EOpt os) = [].
Proof. split; (induction os; [reflexivity|assumption]). Qed.

Section HelpFormat.
  Variables (gopts opts : list opt) (a : arg) (g f : fmt).
  Hypothesis Hg : format_of_elements (map EArg [] ++ map EOpt gopts) None = Ok g.
  Hypothesis Hf : format_of_elements (cmd_elements S_help [] false opts [a]) (Some g) = Ok f.
  Hypothesis Ha : is_command_arg a = true.

  Lemma command_arg_spec : a_name a = COMMAND /\ a_multi a = true /\ a_required a = false /\ a_optional a = true /\ a_type a = TStr.
  Proof.
    unfold is_command_arg in Ha. apply andb_prop in Ha as [H H5]. apply andb_prop in H as [H H4].
    apply andb_prop in H as [H H3]. apply andb_prop in H as [H1 H2].
    destruct (str_eqb_spec (a_name a) COMMAND); [|discriminate]. destruct (a_required a); [discriminate|].
    destruct (a_type a); try discriminate. auto.
  Qed.
  Lemma help_elements_valid : forallb element_valid (cmd_elements S_help [] false opts [a]) = true.
  Proof.
    destruct command_arg_spec as (_ & _ & A3 & A4 & _). unfold cmd_elements. cbn [app map forallb element_valid].
    rewrite forallb_app, opts_valid. cbn [forallb element_valid]. unfold arg_valid. now rewrite A3, A4.
  Qed.

  Lemma global_fmt_inv : fmt_inv g /\ short_sound g.
  Proof.
    split; [|exact (format_of_elements_short_sound _ None g I Hg)].
    exact (proj1 (format_of_elements_fmt_ok_lemma _ None g I (opts_valid gopts) Hg)).
  Qed.
  Lemma global_fmt_shape : get_arguments_all g = [] /\ get_command_names_all g = [].
  Proof.
    destruct (FormatWfLemmas.format_of_elements_lists_lemma _ None g I (opts_valid gopts) Hg) as (_ & _ & _ & H1 & _ & H2).
    destruct (opts_no_args gopts) as [E1 E2]. cbn [map app] in H1, H2. rewrite E1 in H1. rewrite E2 in H2. auto.
  Qed.
  Lemma help_fmt_inv : fmt_inv f /\ short_sound f.
  Proof.
    destruct global_fmt_inv as [G1 G2]. split; [|exact (format_of_elements_short_sound _ (Some g) f G2 Hf)].
    exact (proj1 (format_of_elements_fmt_ok_lemma _ (Some g) f G1 help_elements_valid Hf)).
  Qed.
  Lemma help_fmt_shape : get_arguments_all f = [(a_name a, a)] /\ get_command_names_all f = [help_cname].
  Proof.
    destruct global_fmt_shape as [G1 G2].
    destruct (FormatWfLemmas.format_of_elements_lists_lemma _ (Some g) f (proj1 global_fmt_inv) help_elements_valid Hf)
      as (_ & _ & _ & H1 & _ & H2).
    destruct (opts_no_args opts) as [E1 E2]. unfold cmd_elements, FormatWfLemmas.args_in, FormatWfLemmas.cnames_in in H1, H2.
    cbn [app flat_map] in H1, H2. rewrite flat_map_app in H1, H2. fold (FormatWfLemmas.args_in (map EOpt opts)) in H1.
    fold (FormatWfLemmas.cnames_in (map EOpt opts)) in H2. rewrite E1 in H1. rewrite E2 in H2.
    cbn [get_arguments get_command_names] in H1, H2. rewrite G1 in H1. rewrite G2 in H2. auto.
  Qed.
End HelpFormat.

(* the two parses with the help command's format, by parse_spells *)
Lemma pos_render path : flat_map render_item (map IPos path) = path.
Proof. induction path as [|t r IH]; [reflexivity|]. cbn [map flat_map render_item app]. now rewrite IH. Qed.
Lemma pos_values path : flat_map item_pos (map IPos path) = path.
Proof. induction path as [|t r IH]; [reflexivity|]. cbn [map flat_map item_pos app]. now rewrite IH. Qed.
Lemma pos_events path : flat_map item_events (map IPos path) = [].
Proof. induction path as [|t r IH]; [reflexivity|]. cbn [map flat_map item_events app]. exact IH. Qed.
Lemma pos_items_ok f F path : forallb lead_ok path = true -> items_ok f F (map IPos path) = true.
Proof.
  induction path as [|t r IH]; intros H; [reflexivity|]. cbn [forallb] in H. apply andb_prop in H as [Ht Hr].
  cbn [map items_ok item_ok looks_ahead]. rewrite (IH Hr). unfold lead_ok in Ht. unfold pos_tok.
  destruct (starts_dash t); [now rewrite andb_false_r in Ht|reflexivity].
Qed.
Lemma string_text_ok nl s : res_ok (parse_typed TStr nl (VStr s)) = true.
Proof. unfold parse_typed, parse_string. destruct (nl && is_null (VStr s)); reflexivity. Qed.

Definition plain_line (names path : list str) : ld := {| ld_names := names; ld_items := map IPos path; ld_tail := None |}.
Lemma plain_line_render names path : render (plain_line names path) = names ++ path.
Proof. unfold render, plain_line. cbn [ld_names ld_items ld_tail render_tail]. now rewrite pos_render, app_nil_r. Qed.

Section HelpParse.
  Variables (f : fmt) (a : arg).
  Hypothesis Hinv : fmt_inv f.
  Hypothesis Hargs : get_arguments_all f = [(a_name a, a)].
  Hypothesis Hcns : get_command_names_all f = [help_cname].
  Hypothesis Hmulti : a_multi a = true.
  Hypothesis Htype : a_type a = TStr.

  Lemma help_aug_shape : exists F ars n, aug_format f = Ok (F, ars, [(n, help_cname)]).
  Proof.
    pose proof (wf_implies_fmt_ok_lemma f Hinv) as Hok. unfold fmt_ok in Hok.
    destruct (aug_format f) as [[[F ars] cns]|k] eqn:E; [|discriminate]. clear Hok.
    unfold aug_format in E. rewrite Hcns in E. cbv zeta in E. cbn [pseudo_args map fst snd] in E.
    match type of E with (do f' <- ?x; _) = _ => destruct x as [F'|k]; cbn [bind] in E; [|discriminate] end.
    inversion E; subst. eauto.
  Qed.

  (* the one multi-valued string argument takes any number of values, and is set as soon as there is one *)
  Lemma fits_some t V : fits (get_arguments_all f) (t :: V) = true /\ req_ok (get_arguments_all f) (t :: V) = true.
  Proof.
    rewrite Hargs. cbn [fits req_ok]. rewrite Hmulti, Htype. split; [|reflexivity].
    cbn [andb]. apply forallb_forall. intros s _. apply string_text_ok.
  Qed.
  Lemma placed_some t V : shas (a_name a) (place_typed (get_arguments_all f) (t :: V)) = true.
  Proof. rewrite Hargs. cbn [place_typed]. rewrite Hmulti. unfold shas, ahas. cbn [aget]. now rewrite str_eqb_refl. Qed.

  Variable path : list str.
  Hypothesis Hplain : forallb lead_ok path = true.
  Hypothesis Hne : path <> [].

  Lemma fits_path : fits (get_arguments_all f) path = true /\ req_ok (get_arguments_all f) path = true.
  Proof. destruct path as [|t r]; [congruence|apply fits_some]. Qed.

  (* "help <path>": the name spelled, the path as values *)
  Lemma wf_help_line : wf_line f (plain_line [S_help] path) = true.
  Proof.
    destruct help_aug_shape as (F & ars & n & E). destruct fits_path as [F1 F2]. unfold wf_line. rewrite E.
    unfold plain_line, values. cbn [ld_names ld_items ld_tail]. rewrite pos_values, app_nil_r, F1, F2, (pos_items_ok _ _ _ Hplain).
    reflexivity.
  Qed.
  (* "<path>": the name omitted; the first value is not the name *)
  Lemma wf_path_line : not_help_word path -> wf_line f (plain_line [] path) = true.
  Proof.
    intros Hh. destruct help_aug_shape as (F & ars & n & E). destruct fits_path as [F1 F2]. unfold wf_line. rewrite E.
    unfold plain_line, values. cbn [ld_names ld_items ld_tail]. rewrite pos_values, app_nil_r, F1, F2, (pos_items_ok _ _ _ Hplain).
    destruct path as [|t r]; [congruence|]. cbn [names_ok no_clash length skipn snd andb]. unfold cname_match, help_cname.
    cbn [cn_name cn_aliases existsb]. rewrite str_eqb_sym, Hh. now rewrite andb_false_r.
  Qed.

  Definition help_args : list (str * pyval) := place_typed (get_arguments_all f) path.
  Lemma help_args_set : shas (a_name a) help_args = true.
  Proof. unfold help_args. destruct path as [|t r]; [congruence|apply placed_some]. Qed.

  Lemma parse_help_line len : parse f len (S_help :: path) = Ok {| ar_opts := []; ar_args := help_args |}.
  Proof.
    change (S_help :: path) with ([S_help] ++ path). rewrite <- plain_line_render.
    rewrite (parse_spells_inv_lemma f _ Hinv wf_help_line len). unfold denote, events, values, plain_line.
    cbn [ld_names ld_items ld_tail]. now rewrite pos_events, pos_values, app_nil_r.
  Qed.
  Lemma parse_path_line len : not_help_word path ->
    parse f len path = Ok {| ar_opts := []; ar_args := help_args |}.
  Proof.
    intros Hh. change path with ([] ++ path) at 1. rewrite <- plain_line_render.
    rewrite (parse_spells_inv_lemma f _ Hinv (wf_path_line Hh) len). unfold denote, events, values, plain_line.
    cbn [ld_names ld_items ld_tail]. now rewrite pos_events, pos_values, app_nil_r.
  Qed.
End HelpParse.

(* with distinct names the last sibling of b's name is b itself *)
Lemma coll_of_found l b : NoDup (map b_name l) -> In b l ->
  coll_contains (coll_of l) (b_name b) = true /\ coll_get (coll_of l) (b_name b) = Ok b.
Proof.
  intros Hnd Hin. unfold coll_contains, coll_get. rewrite shas_sget, cmds_spec.
  destruct (find_name_some l b Hin) as [b' E]. rewrite E. apply find_name in E as [Hin' E].
  now rewrite (NoDup_map_inj b_name l b' b Hnd Hin' Hin E).
Qed.
Lemma nodup_names_filter p : forall l : list bcmd, NoDup (map b_name l) -> NoDup (map b_name (filter p l)).
Proof.
  induction l as [|x r IH]; intros H; [constructor|]. cbn [map] in H. inversion H as [|? ? Hx Hr]; subst. cbn [filter].
  destruct (p x); [|now apply IH]. cbn [map]. constructor; [|now apply IH].
  intros Hin. apply Hx. apply in_map_iff in Hin as [y [Ey Hy]]. apply filter_In in Hy as [Hy _].
  apply in_map_iff. eauto.
Qed.

Lemma build_cmd_name base c b : build_cmd base c = Ok b -> b_name b = (let '(Cmd n _ _ _ _ _ _ _ _) := c in n).
Proof. destruct c. intros H. now apply build_cmd_inv in H as (f & bs & _ & -> & _). Qed.
(* add_command refuses a name already there: the built commands have distinct names *)
Lemma build_cmds_nodup g : forall l seen cs, build_cmds g seen l = Ok cs ->
  NoDup (map b_name cs) /\ forall b, In b cs -> ~ In (b_name b) seen.
Proof.
  induction l as [|c r IH]; intros seen cs H; [inversion H; split; [constructor|intros ? []]|].
  destruct c as [name al d an en len opts args subs]. cbn [build_cmds] in H.
  destruct (negb en); [now apply IH|]. destruct name as [|ch name]; [discriminate|]. cbn [negb] in H.
  destruct (existsb (str_eqb (ch :: name)) seen) eqn:Es; [discriminate|].
  bind_inv H b E1. bind_inv H bs E2. inversion H; subst cs. clear H. apply build_cmd_name in E1. destruct (IH _ _ E2) as [I1 I2]. split.
  - cbn [map]. constructor; [|exact I1]. intros Hin. apply in_map_iff in Hin as [y [Ey Hy]].
    apply (I2 y Hy). rewrite Ey, E1. now left.
  - intros y [<-|Hy].
    + rewrite E1. intros Hin. assert (existsb (str_eqb (ch :: name)) seen = true) as Ht; [|congruence].
      apply existsb_exists. exists (ch :: name). split; [exact Hin|apply str_eqb_refl].
    + intros Hin. apply (I2 y Hy). right. apply in_or_app. now right.
Qed.
Lemma build_app_nodup cfg a : build_app cfg = Ok a -> NoDup (map b_name (ap_cmds a)).
Proof.
  unfold build_app. intros H. bind_inv H g Hg. bind_inv H cs Hcs. inversion H. exact (proj1 (build_cmds_nodup g _ _ _ Hcs)).
Qed.
(* an enabled command of the configuration without sub-commands is built, over the global format *)
Lemma build_app_in cfg a name al d an len opts args : build_app cfg = Ok a ->
  In (Cmd name al d an true len opts args []) (ac_cmds cfg) ->
  exists f, format_of_elements (cmd_elements name al an opts args) (Some (ap_global a)) = Ok f /\ In (BCmd name al d an len f []) (ap_cmds a).
Proof.
  intros H Hin. apply build_app_inv in H as [_ H]. destruct (built_in _ _ _ _ H Hin eq_refl) as (b & Hb & Hc).
  apply build_cmd_inv in Hc as (f & bs & Ef & -> & Hbs). inversion Hbs; subst. eauto.
Qed.

(* what that configuration gives in the built application: the help command hc with its format f, the argument "command"
   and the help option o *)
Record help_setup (a : application) (hc : bcmd) (f : fmt) (arg : arg) (o : opt) : Prop := {
  hs_cmd : exists dflt len, hc = BCmd S_help [] dflt false len f [];
  hs_named : coll_contains (named_of (ap_cmds a)) S_help = true /\ coll_get (named_of (ap_cmds a)) S_help = Ok hc;
  hs_all : coll_get (coll_of (ap_cmds a)) S_help = Ok hc;
  hs_inv : fmt_inv f;
  hs_sound : short_sound f;
  hs_args : get_arguments_all f = [(a_name arg, arg)];
  hs_cns : get_command_names_all f = [help_cname];
  hs_arg : is_command_arg arg = true;
  hs_car : carries o f;
  hs_opt : is_help_option o = true }.
Arguments hs_cmd {a hc f arg o}.  Arguments hs_named {a hc f arg o}.  Arguments hs_all {a hc f arg o}.
Arguments hs_inv {a hc f arg o}.  Arguments hs_sound {a hc f arg o}.  Arguments hs_args {a hc f arg o}.
Arguments hs_cns {a hc f arg o}.  Arguments hs_arg {a hc f arg o}.  Arguments hs_car {a hc f arg o}.
Arguments hs_opt {a hc f arg o}.

Lemma default_help_setup cfg a : build_app cfg = Ok a -> default_help_config cfg = true ->
  exists hc f arg o, help_setup a hc f arg o.
Proof.
  intros Hb Hcfg. unfold default_help_config in Hcfg.
  apply andb_prop in Hcfg as [Hcfg Hcmd]. apply andb_prop in Hcfg as [Hdef Hga].
  destruct (ac_args cfg) as [|? ?] eqn:Eargs; [|discriminate]. clear Hga.
  unfold defines_help in Hdef. apply existsb_exists in Hdef as [o [Hoin Ho]].
  pose proof (build_app_carries cfg a o Hb Hoin) as Htree.
  apply existsb_exists in Hcmd as [c [Hcin Hc]].
  destruct c as [name [|? ?] dflt [|] [|] len opts [|arg [|? ?]] [|? ?]]; try discriminate.
  cbn [is_help_command] in Hc. apply andb_prop in Hc as [Hname Harg].
  destruct (str_eqb_spec name S_help) as [->|]; [|discriminate].
  pose proof (build_app_nodup cfg a Hb) as Hnd.
  destruct (build_app_in cfg a S_help [] dflt false len opts [arg] Hb Hcin) as [f [Ef Hin]].
  apply build_app_inv in Hb as [Eg _]. rewrite Eargs in Eg.
  destruct (help_fmt_inv _ _ _ _ _ Eg Ef Harg) as [Hinv Hsound].
  destruct (help_fmt_shape _ _ _ _ _ Eg Ef Harg) as [Hargs Hcns].
  assert (carries o f) as Hcar.
  { pose proof (proj1 (Forall_forall _ _) Htree _ Hin) as Ht. apply tree_ok_unfold in Ht as [Ht _]. exact Ht. }
  exists (BCmd S_help [] dflt false len f []), f, arg, o. constructor; try assumption.
  - eauto.
  - apply (coll_of_found _ (BCmd S_help [] dflt false len f [])); [now apply nodup_names_filter|].
    apply filter_In. split; [exact Hin|reflexivity].
  - apply (coll_of_found _ (BCmd S_help [] dflt false len f []) Hnd Hin).
Qed.

Section Run.
  Variables (a : application) (hc : bcmd) (f : fmt) (arg : arg) (o : opt).
  Hypothesis HS : help_setup a hc f arg o.

  Lemma help_setup_fmt : b_fmt hc = f.
  Proof. destruct (hs_cmd HS) as (dflt & len & ->). reflexivity. Qed.
  Lemma help_setup_find : find_cmd a S_help = Some hc.
  Proof. unfold find_cmd. now rewrite (hs_all HS). Qed.

  Lemma command_arg_facts : a_name arg = COMMAND /\ a_multi arg = true /\ a_required arg = false /\ a_type arg = TStr.
  Proof. destruct (command_arg_spec arg (hs_arg HS)) as (H1 & H2 & H3 & _ & H5). auto. Qed.

  (* HelpTextHandler's question "is the argument command set?" is a lookup in the parsed arguments *)
  Lemma command_set x : args_is_argument_set f x (AName COMMAND) = shas COMMAND (ar_args x).
  Proof.
    destruct command_arg_facts as (N & _). unfold args_is_argument_set, has_argument, get_argument. cbn [get_arguments].
    rewrite (hs_args HS), N. unfold shas at 1, ahas, sget. cbn [aget]. now rewrite str_eqb_refl, N.
  Qed.

  (* a parse that set no option set none, under whatever name the format files it *)
  Lemma no_option_set ars n : args_is_option_set f {| ar_opts := []; ar_args := ars |} n = false.
  Proof. reflexivity. Qed.
  (* the version switch is not set by "--help" / "-h": the one option set is filed under "help", and an option that
     "version" finds bears that name (get_option_named), which the help option - long name "help", short name "h" -
     does not *)
  Lemma help_switch_sets_no_version ars : args_is_option_set f {| ar_opts := [(S_help, VBool true)]; ar_args := ars |} S_version = false.
  Proof.
    unfold args_is_option_set. cbn [ar_opts has_option get_option].
    assert (forall n, n <> S_help -> shas n [(S_help, VBool true)] = false) as Hn.
    { intros n Hne'. unfold shas, ahas. cbn [aget]. destruct (str_eqb_spec n S_help); [contradiction|reflexivity]. }
    destruct (has_option_all f S_version); [|apply Hn; discriminate].
    destruct (get_option_all f S_version) as [o'|k] eqn:E; [|apply Hn; discriminate].
    apply Hn. intros El. destruct (hs_inv HS) as (_ & _ & Hoi).
    destruct (get_option_named f Hoi (hs_sound HS) _ _ E) as (I1 & _ & I3). rewrite El in I3.
    pose proof (hs_opt HS) as Hopt. destruct (is_help_option_spec o Hopt) as (_ & [Hlong _] & _).
    destruct (hs_car HS) as (_ & C2 & _). rewrite Hlong in C2.
    assert (o' = o) as -> by congruence. unfold is_help_option in Hopt.
    apply in_onames in I1 as [I1|I1]; [rewrite Hlong in I1; discriminate|].
    rewrite I1 in Hopt. destruct (str_eqb (o_long o) S_help); discriminate.
  Qed.

  Variable path : list str.
  Hypothesis Hplain : forallb lead_ok path = true.
  Hypothesis Hne : path <> [].

  Lemma command_is_set opts : args_is_argument_set f {| ar_opts := opts; ar_args := help_args f path |} (AName COMMAND) = true.
  Proof.
    destruct command_arg_facts as (N & M & _). rewrite command_set, <- N. cbn [ar_args]. exact (help_args_set f arg (hs_args HS) M path Hplain Hne).
  Qed.

  (* "help <path>": the resolver reaches the command "help"; its handler shows the page of the help target *)
  Lemma run_help_word debug : sm_action (run_summary debug a (S_help :: path)) = help_page a (S_help :: path).
  Proof.
    destruct command_arg_facts as (N & M & R & T). destruct (hs_named HS) as [Hc Hg]. destruct (hs_cmd HS) as (dflt & len & Ehc).
    assert (forallb lead_ok (S_help :: path) = true) as Hl by (cbn [forallb]; now rewrite Hplain).
    unfold run_summary. cbn [sm_action]. rewrite (wants_help_plain _ Hl), (wants_version_plain _ Hl).
    assert (resolve a (S_help :: path) = Ok ([S_help], f, {| ar_opts := []; ar_args := help_args f path |})) as ->.
    { unfold resolve. rewrite (leading_all _ Hl). cbn [walk]. rewrite Hc, Hg, Ehc. cbn [negb bind b_subs b_name app].
      assert (walk (named_of []) (Some (BCmd S_help [] dflt false len f [], [S_help])) path =
              Ok (Some (BCmd S_help [] dflt false len f [], [S_help]))) as ->.
      { destruct path as [|t r]; reflexivity. }
      cbn [bind b_subs]. change (defaults_of []) with (@nil bcmd). cbn [pick_default bind b_fmt b_lenient].
      now rewrite (parse_help_line f arg (hs_inv HS) (hs_args HS) (hs_cns HS) M T path Hplain Hne len). }
    rewrite no_option_set. cbn [orb]. cbv iota. rewrite str_eqb_refl. change (AName [99;111;109;109;97;110;100]%N) with (AName COMMAND).
    now rewrite command_is_set.
  Qed.

  (* "<path> --help" / "<path> -h": the listener parses the line leniently with the help command's format, "command" is the
     whole path, and the help command's handler shows the page of the help target *)
  Lemma run_help_switch debug sw : not_help_word path ->
    sw = T_help \/ sw = T_h ->
    sm_action (run_summary debug a (path ++ [sw])) = help_page a (path ++ [sw]).
  Proof.
    intros Hh Hsw. destruct command_arg_facts as (N & M & R & T).
    destruct (is_help_option_spec o (hs_opt HS)) as (Hnv & H1 & H2).
    assert (help_switch_of o sw) as Hso by (destruct Hsw as [->| ->]; assumption).
    unfold run_summary. cbn [sm_action]. rewrite (wants_help_line _ [sw] Hplain), (wants_version_line _ [sw] Hplain).
    assert (wants_help (option_tokens [sw]) = true /\ wants_version (option_tokens [sw]) = false) as [-> ->]
      by (destruct Hsw as [->| ->]; split; reflexivity).
    rewrite help_setup_find, help_setup_fmt.
    rewrite (parse_switch_value f o sw true path _ (hs_car HS) Hnv Hso Hplain
               (parse_path_line f arg (hs_inv HS) (hs_args HS) (hs_cns HS) M T path Hplain Hne true Hh) eq_refl).
    cbn [ar_args]. rewrite help_switch_sets_no_version. cbn [orb]. change (AName [99;111;109;109;97;110;100]%N) with (AName COMMAND).
    now rewrite command_is_set.
  Qed.
End Run.
Arguments help_setup_fmt {a hc f arg o}.  Arguments help_setup_find {a hc f arg o}.  Arguments command_set {a hc f arg o}.

Theorem help_same_run cfg a debug path :
  build_app cfg = Ok a -> default_help_config cfg = true ->
  forallb lead_ok path = true -> path <> [] ->
  (match path with t :: _ => str_eqb t S_help = false | [] => True end) ->
  sm_action (run_summary debug a (S_help :: path)) = help_page a (S_help :: path) /\
  sm_action (run_summary debug a (path ++ [T_help])) = help_page a (S_help :: path) /\
  sm_action (run_summary debug a (path ++ [T_h])) = help_page a (S_help :: path).
Proof.
  intros Hb Hcfg Hplain Hne Hh. destruct (default_help_setup cfg a Hb Hcfg) as (hc & f & arg & o & HS).
  apply andb_prop in Hcfg as [Hcfg _]. apply andb_prop in Hcfg as [Hdef _].
  destruct (help_same_target cfg a path Hb Hdef Hplain Hh) as [T1 T2].
  split; [exact (run_help_word a hc f arg o HS path Hplain Hne debug)|].
  rewrite !(run_help_switch a hc f arg o HS path Hplain Hne debug _ Hh) by auto.
  unfold help_page. now rewrite <- T1, <- T2.
Qed.

(* the three runs do the same *)
Corollary help_same_action cfg a debug path :
  build_app cfg = Ok a -> default_help_config cfg = true ->
  forallb lead_ok path = true -> path <> [] ->
  (match path with t :: _ => str_eqb t S_help = false | [] => True end) ->
  sm_action (run_summary debug a (S_help :: path)) = sm_action (run_summary debug a (path ++ [T_help])) /\
  sm_action (run_summary debug a (S_help :: path)) = sm_action (run_summary debug a (path ++ [T_h])).
Proof.
  intros Hb Hc Hp Hn Hh. destruct (help_same_run cfg a debug path Hb Hc Hp Hn Hh) as (-> & -> & ->). auto.
Qed.
