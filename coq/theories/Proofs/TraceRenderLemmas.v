(* The composition step of C20: every line the exception-trace renderer hands to io.write_line IS a line of literals and
   safe separators (LiteralLemmas' grammar); indentation keeps it one; hence writing it never fails and leaves the style
   stack as it was, decorating or not, whatever the texts hold.  The lines themselves always exist
   (render_lines_total: the renderer catches what reading / tokenizing a source raises).  Hence: render never
   fails, and what its bytes say - read under the escape codes, for ESC-free inputs, when the output decorates. *)
From Coq Require Import Lia.
From Clikit Require Import Base.Prelude Base.Res Model.Conv Model.Markup Model.OutputM Model.Trace
  Proofs.ListLemmas Proofs.MarkupLemmas Proofs.OutputLemmas Proofs.TraceLemmas Proofs.LiteralLemmas.

Lemma safe_nil : safe []. Proof. constructor. Qed.
Lemma safe_app a b : safe a -> safe b -> safe (a ++ b).
Proof. intros Ha Hb. apply Forall_app. split; assumption. Qed.
Lemma safe_repeat32 n : safe (repeat 32%N n).
Proof. apply repeat_P. split; discriminate. Qed.
Lemma safe_spaces n : safe (spaces n).
Proof. apply safe_repeat32. Qed.
Lemma safe_dec_text z : safe (dec_text z).
Proof. apply dec_text_P. intros c Hc. unfold LT, BSL. lia. Qed.
Lemma safe_rjust s w : safe s -> safe (rjust s w).
Proof. apply rjust_P. split; discriminate. Qed.
Lemma safe_closed t : forallb (fun c => negb (N.eqb c LT) && negb (N.eqb c BSL)) t = true -> safe t.
Proof.
  intros H. rewrite forallb_forall in H. apply Forall_forall. intros c Hc. specialize (H c Hc).
  apply andb_true_iff in H. destruct H as [H1 H2]. split; intros ->; discriminate.
Qed.
Ltac safe_by_compute := apply safe_closed; vm_compute; reflexivity.

(* a line of literals and safe separators: the string of pieces (LiteralLemmas: safe text, <tag>literal</>,
   <name>literal</name>) whose tags resolve in the style table *)
Definition good_line (sty : styles) (l : str) : Prop := exists ps, pieces_ok sty ps /\ l = line_str ps.
(* the decorated case asks for ESC-free texts *)
Definition good_line_ne (sty : styles) (l : str) : Prop :=
  exists ps, pieces_ok sty ps /\ pieces_noesc ps /\ l = line_str ps.

Lemma line_str_app a b : line_str (a ++ b) = line_str a ++ line_str b.
Proof. unfold line_str. apply flat_map_app. Qed.
Lemma good_ne_good sty l : good_line_ne sty l -> good_line sty l.
Proof. intros (ps & H1 & _ & H2). exists ps. split; assumption. Qed.

(* every character of a text is in its literal: a line without ESC has texts without ESC *)
Lemma double_bsl_in x : forall s, In x s -> In x (double_bsl s).
Proof.
  induction s as [|c|c d r IHr IHd] using list_ind2; intros H; [exact H|exact H|].
  rewrite double_bsl_cons2. destruct H as [->|H].
  - destruct (N.eqb x BSL && N.eqb d LT) eqn:E; [|left; reflexivity].
    apply andb_true_iff in E. destruct E as [E _]. apply N.eqb_eq in E. subst. left. reflexivity.
  - destruct (N.eqb c BSL && N.eqb d LT); [right; right|right]; apply IHd, H.
Qed.
Lemma cut_lt_in tag x : forall s, In x s -> In x (cut_lt tag s).
Proof.
  induction s as [|c r IH]; intros H; [exact H|]. unfold cut_lt in *. cbn [flat_map]. apply in_or_app.
  destruct H as [->|H]; [left|right; apply IH, H]. destruct (N.eqb_spec x LT) as [->|]; left; reflexivity.
Qed.
Lemma literal_in tag s x : In x s -> In x (literal s tag).
Proof.
  intros H. unfold literal. assert (In x (cut_lt tag (double_bsl s))) as H' by (apply cut_lt_in, double_bsl_in, H).
  destruct (ends_with_bsl s); [apply in_or_app; left|]; exact H'.
Qed.
Lemma literal_noesc tag s : no_esc (literal s tag) -> no_esc s.
Proof. unfold no_esc. rewrite !Forall_forall. intros H x Hx. apply H, literal_in, Hx. Qed.
Lemma line_noesc : forall ps, no_esc (line_str ps) -> pieces_noesc ps.
Proof.
  induction ps as [|p r IH]; intros H; [constructor|].
  change (line_str (p :: r)) with (piece_str p ++ line_str r) in H. apply Forall_app in H. destruct H as [Hp Hr].
  constructor; [|apply IH, Hr]. destruct p as [t|tag s|nm s]; cbn [piece_noesc piece_str] in *.
  - exact Hp.
  - rewrite tagged_eq in Hp. apply Forall_app in Hp. destruct Hp as [_ Hp]. apply Forall_app in Hp. destruct Hp as [Hp _].
    apply (literal_noesc tag), Hp.
  - apply Forall_app in Hp. destruct Hp as [_ Hp]. apply Forall_app in Hp. destruct Hp as [Hp _]. apply (literal_noesc nm), Hp.
Qed.
Lemma good_noesc sty l : good_line sty l -> no_esc l -> good_line_ne sty l.
Proof. intros (ps & Hok & ->) Hne. exists ps. split; [exact Hok|]. split; [apply line_noesc, Hne|reflexivity]. Qed.
Lemma good_lines_noesc sty (ls : list wline) :
  Forall (fun wl => good_line sty (snd wl)) ls -> Forall (fun wl => no_esc (snd wl)) ls -> Forall (fun wl => good_line_ne sty (snd wl)) ls.
Proof. intros HG Hne. rewrite Forall_forall in *. intros wl Hin. apply good_noesc; [apply HG, Hin|apply Hne, Hin]. Qed.

Definition st_yellow : str := [102;103;61;121;101;108;108;111;119]%N (* fg=yellow *).
Definition st_blue : str := [102;103;61;98;108;117;101]%N (* fg=blue *).
Definition inline_tags : list str :=
  [st_green; st_cyan; st_yellow; st_blue; th_marker; th_string; th_number; th_comment; th_keyword; th_builtin; th_default; th_op].
Lemma inline_tag_name tag : In tag inline_tags -> tag_name tag.
Proof.
  intros H. unfold inline_tags in H. cbn [In] in H.
  repeat (destruct H as [<-|H]; [split; [reflexivity|repeat constructor]|]). contradiction.
Qed.
Lemma inline_resolvable sty tag : In tag inline_tags -> resolvable sty tag.
Proof.
  intros H. unfold resolvable, resolve. set (n := py_lower tag). destruct (aget str_eqb n sty) as [st|]; [eexists; reflexivity|].
  subst n. unfold inline_tags in H. cbn [In] in H.
  repeat (destruct H as [<-|H]; [vm_compute; eexists; reflexivity|]). contradiction.
Qed.
(* In tag inline_tags, for a tag written as in the list *)
Ltac inline_in := unfold inline_tags; cbn [In]; tauto.
Lemma inline_piece_ok sty tag s : In tag inline_tags -> piece_ok sty (PLit tag s).
Proof. intros H. split; [apply inline_tag_name, H|apply inline_resolvable, H]. Qed.

Section Good.
Variable sty : styles.
Hypothesis Herr : resolvable sty st_error.
Hypothesis Hb : resolvable sty st_b.

Lemma st_error_name : tag_name st_error. Proof. split; [reflexivity|repeat constructor]. Qed.
Lemma st_b_name : tag_name st_b. Proof. split; [reflexivity|repeat constructor]. Qed.

Lemma good_nil : good_line sty [].
Proof. exists []. split; [constructor|reflexivity]. Qed.
Lemma good_raw t : safe t -> good_line sty t.
Proof. intros Ht. exists [PRaw t]. split; [constructor; [exact Ht|constructor]|]. cbn. now rewrite app_nil_r. Qed.
Lemma good_app a b : good_line sty a -> good_line sty b -> good_line sty (a ++ b).
Proof.
  intros (pa & Ha & ->) (pb & Hb' & ->). exists (pa ++ pb). split; [apply Forall_app; split; assumption|].
  now rewrite line_str_app.
Qed.
Lemma good_lit tag s : tag_name tag -> resolvable sty tag -> good_line sty (tagged tag (literal s tag)).
Proof.
  intros Hn Hr. exists [PLit tag s]. split; [constructor; [split; assumption|constructor]|]. cbn. now rewrite app_nil_r.
Qed.
Lemma good_inline tag s : In tag inline_tags -> good_line sty (tagged tag (literal s tag)).
Proof. intros H. apply good_lit; [apply inline_tag_name, H|apply inline_resolvable, H]. Qed.
Lemma good_inline_safe tag t : In tag inline_tags -> safe t -> good_line sty (tagged tag t).
Proof. intros H Ht. rewrite <- (literal_safe t tag Ht). apply good_inline, H. Qed.
Lemma named_piece_ok nm s : tag_name nm -> resolvable sty nm -> pieces_ok sty [PNamed nm s].
Proof. intros Hn Hr. constructor; [split; assumption|constructor]. Qed.
Lemma named_piece_str nm s : line_str [PNamed nm s] = open_tag nm ++ literal s nm ++ close_tag nm.
Proof. unfold line_str. cbn [flat_map piece_str]. apply app_nil_r. Qed.
Lemma good_named nm s : tag_name nm -> resolvable sty nm -> good_line sty (open_tag nm ++ literal s nm ++ close_tag nm).
Proof. intros Hn Hr. exists [PNamed nm s]. split; [now apply named_piece_ok|symmetry; apply named_piece_str]. Qed.
Lemma good_chunks cs : good_line sty (render_chunks cs).
Proof. exists (map chunk_piece cs). split; [apply chunks_ok|apply render_chunks_line]. Qed.
Lemma good_styled h t : good_line sty (styled h t).
Proof. unfold styled. apply good_lit; [apply theme_tag_name|apply theme_resolvable]. Qed.

(* equalities between closed strings with opaque parts: normalise the concatenations *)
Ltac norm_str :=
  unfold tagged, open_tag, close_tag, close_any, st_yellow, st_blue, st_green, st_cyan, st_b, st_error, th_builtin, th_marker,
    th_lineno, th_bold_default, th_op, LT, GT, SLASH;
  repeat (progress (rewrite <- ?app_assoc; cbn [app])).

Definition loc_pieces (c : tcfg) (fs : str) (f : frame) : list piece :=
  [PLit fs (rel_path c (f_file f)); PRaw [58%N]; PNamed st_b (dec_text (f_lineno f)); PRaw [32;105;110;32]%N; PLit st_cyan (f_func f)].
Lemma location_pieces c fs f : open_tag fs ++ location c fs f = line_str (loc_pieces c fs f).
Proof.
  unfold location, loc_pieces, line_str. cbn [flat_map piece_str]. rewrite (literal_safe _ st_b (safe_dec_text (f_lineno f))).
  generalize (literal (rel_path c (f_file f)) fs) (dec_text (f_lineno f)) (literal (f_func f) st_cyan). intros A B C.
  unfold s_colon_b, s_in. norm_str. reflexivity.
Qed.
Lemma loc_pieces_ok c fs f : In fs inline_tags -> pieces_ok sty (loc_pieces c fs f).
Proof.
  intros Hfs. unfold loc_pieces. constructor; [apply inline_piece_ok, Hfs|]. constructor; [cbn [piece_ok]; safe_by_compute|].
  constructor; [split; [apply st_b_name|exact Hb]|]. constructor; [cbn [piece_ok]; safe_by_compute|].
  constructor; [apply inline_piece_ok; inline_in|constructor].
Qed.
Lemma good_location c fs f : In fs inline_tags -> good_line sty (open_tag fs ++ location c fs f).
Proof. intros H. exists (loc_pieces c fs f). split; [apply loc_pieces_ok, H|apply location_pieces]. Qed.

Lemma good_stack : good_line sty s_stack.
Proof.
  assert (s_stack = tagged st_yellow [83;116;97;99;107;32;116;114;97;99;101]%N ++ [58%N]) as -> by reflexivity.
  apply good_app; [apply good_inline_safe; [inline_in|safe_by_compute]|apply good_raw; safe_by_compute].
Qed.

Definition fold_line (w n reps : Z) : str :=
  s_blue ++ rjust s_dots w ++ s_previous ++ (if (1 <? n)%Z then s_yellow ++ dec_text n ++ s_frames else s_frame)
    ++ s_repeated ++ dec_text reps ++ s_times.
Lemma good_fold w n reps : good_line sty (fold_line w n reps).
Proof.
  assert (fold_line w n reps
          = tagged st_blue (rjust s_dots w) ++ [32;32;80;114;101;118;105;111;117;115;32]%N
            ++ (if (1 <? n)%Z then tagged st_yellow (dec_text n) ++ [32;102;114;97;109;101;115]%N else s_frame)
            ++ [32;114;101;112;101;97;116;101;100;32]%N ++ tagged st_blue (dec_text reps) ++ [32;116;105;109;101;115]%N) as ->.
  { unfold fold_line. generalize (rjust s_dots w) (dec_text n) (dec_text reps). intros A B C.
    unfold s_blue, s_previous, s_yellow, s_frames, s_frame, s_repeated, s_times.
    destruct (1 <? n)%Z; norm_str; reflexivity. }
  apply good_app; [apply good_inline_safe; [inline_in|apply safe_rjust; safe_by_compute]|].
  apply good_app; [apply good_raw; safe_by_compute|]. apply good_app.
  { destruct (1 <? n)%Z; [|apply good_raw; safe_by_compute].
    apply good_app; [apply good_inline_safe; [inline_in|apply safe_dec_text]|apply good_raw; safe_by_compute]. }
  apply good_app; [apply good_raw; safe_by_compute|].
  apply good_app; [apply good_inline_safe; [inline_in|apply safe_dec_text]|apply good_raw; safe_by_compute].
Qed.

(* the text of TraceLemmas.loc_line *)
Definition frame_line (c : tcfg) (w : Z) (f : frame) (i : Z) : str :=
  s_yellow ++ rjust (dec_text i) w ++ s_frame_mid ++ location c th_builtin f.
Lemma frame_line_eq c w f i :
  frame_line c w f i = tagged st_yellow (rjust (dec_text i) w) ++ [32;32]%N ++ open_tag th_builtin ++ location c th_builtin f.
Proof.
  unfold frame_line. generalize (rjust (dec_text i) w) (location c th_builtin f). intros A B.
  unfold s_yellow, s_frame_mid. norm_str. reflexivity.
Qed.
Lemma good_frame_line c w f i : good_line sty (frame_line c w f i).
Proof.
  rewrite frame_line_eq. apply good_app; [apply good_inline_safe; [inline_in|apply safe_rjust, safe_dec_text]|].
  apply good_app; [apply good_raw; safe_by_compute|]. apply good_location. inline_in.
Qed.

Lemma at_line_eq c f : s_at ++ location c st_green f = [97;116;32]%N ++ open_tag st_green ++ location c st_green f.
Proof. generalize (location c st_green f). intros A. unfold s_at. norm_str. reflexivity. Qed.
Lemma good_at_line c f : good_line sty (s_at ++ location c st_green f).
Proof. rewrite at_line_eq. apply good_app; [apply good_raw; safe_by_compute|]. apply good_location. inline_in. Qed.

Lemma ui_safe utf8 : safe (u_arrow (ui_of utf8)) /\ safe (u_delim (ui_of utf8)).
Proof. destruct utf8; split; safe_by_compute. Qed.
Lemma good_number_line utf8 w mark i l : good_line sty l -> good_line sty (number_line (ui_of utf8) w mark i l).
Proof.
  intros Hl. destruct (ui_safe utf8) as [Ha Hd]. unfold number_line.
  apply good_app.
  { destruct (mark =? i)%Z; [|apply good_raw; safe_by_compute].
    apply good_app; [apply good_inline_safe; [inline_in|exact Ha]|apply good_raw; safe_by_compute]. }
  apply good_app.
  { destruct (mark =? i)%Z; apply good_inline_safe; try inline_in; apply safe_rjust, safe_dec_text. }
  apply good_app; [apply good_inline_safe; [inline_in|exact Hd]|].
  apply good_app; [apply good_raw; safe_by_compute|exact Hl].
Qed.
Lemma good_number_from utf8 w mark : forall lines i,
  Forall (good_line sty) lines -> Forall (good_line sty) (number_from (ui_of utf8) w mark i lines).
Proof.
  induction lines as [|l r IH]; intros i H; cbn [number_from]; [constructor|].
  inversion H as [|? ? Hl Hr]; subst. constructor; [|apply IH, Hr]. apply (good_number_line utf8 w mark i l Hl).
Qed.
Lemma good_split_to_lines toks : Forall (good_line sty) (split_to_lines toks).
Proof. unfold split_to_lines. apply Forall_map, Forall_forall. intros cs _. apply good_chunks. Qed.
Lemma good_line_numbers utf8 toks mark : Forall (good_line sty) (line_numbers (ui_of utf8) (split_to_lines toks) mark).
Proof. unfold line_numbers. apply good_number_from, good_split_to_lines. Qed.
Lemma good_code_snippet utf8 toks line before after :
  Forall (good_line sty) (code_snippet (ui_of utf8) toks line before after).
Proof. unfold code_snippet. apply Forall_firstn, Forall_skipn, good_line_numbers. Qed.
Lemma good_snippet_of c content line before after ls :
  snippet_of c content line before after = Ok ls -> Forall (good_line sty) ls.
Proof. unfold snippet_of. destruct content; intros H; injection H as <-; [apply good_code_snippet|constructor|constructor]. Qed.

(* <error>s</error>: the class-name line of the full report (s the name) and the line of the simple one (s the message) *)
Definition error_pieces (s : str) : list piece := [PNamed st_error s].
Lemma error_line_pieces s : s_error_open ++ literal s st_error ++ s_error_close = line_str (error_pieces s).
Proof. symmetry. apply named_piece_str. Qed.
Lemma error_pieces_ok s : pieces_ok sty (error_pieces s).
Proof. apply named_piece_ok; [apply st_error_name|exact Herr]. Qed.

End Good.

(* str.replace of one character *)
Lemma replace_fuel_single c rep : forall fuel s, (length s < fuel)%nat ->
  replace_fuel fuel [c] rep s = flat_map (fun x => if N.eqb x c then rep else [x]) s.
Proof.
  induction fuel as [|fuel IH]; intros s Hlen; [lia|]. destruct s as [|x r]; [reflexivity|].
  cbn [replace_fuel starts_with flat_map length skipn]. cbn [length] in Hlen. rewrite Bool.andb_true_r, N.eqb_sym.
  destruct (N.eqb x c); rewrite IH by lia; reflexivity.
Qed.
Lemma replace_single c rep s : replace [c] rep s = flat_map (fun x => if N.eqb x c then rep else [x]) s.
Proof. unfold replace. apply replace_fuel_single. lia. Qed.
Lemma replace_nl_no_nl rep m : no_nl m -> replace [NL] rep m = m.
Proof.
  intros Hm. rewrite replace_single. induction Hm as [|c r Hc Hr IH]; [reflexivity|]. cbn [flat_map].
  destruct (N.eqb_spec c NL); [contradiction|]. now rewrite IH.
Qed.

(* a machine that reads a text character by character: a line break becomes R; P is put in front of a character that
   follows a line break (b: the text read so far ended with one, or nothing was read yet).  R = [NL], P = blanks:
   Output's indentation.  R = NL and two blanks, P empty: the replace of the message line. *)
Fixpoint expand (R P : str) (b : bool) (s : str) : str :=
  match s with
  | [] => []
  | c :: r => if N.eqb c NL then R ++ expand R P true r else (if b then P else []) ++ c :: expand R P false r
  end.
Fixpoint at_start (b : bool) (s : str) : bool := match s with [] => b | c :: r => at_start (N.eqb c NL) r end.
Definition pad (P : str) (b : bool) : str := if b then P else [].

Lemma expand_cons R P b c r :
  expand R P b (c :: r) = if N.eqb c NL then R ++ expand R P true r else pad P b ++ c :: expand R P false r.
Proof. reflexivity. Qed.
Lemma expand_app R P : forall x y b, expand R P b (x ++ y) = expand R P b x ++ expand R P (at_start b x) y.
Proof.
  induction x as [|c r IH]; intros y b; [reflexivity|]. cbn [app expand at_start].
  destruct (N.eqb c NL); rewrite IH, <- ?app_assoc; reflexivity.
Qed.
Lemma at_start_app : forall x y b, at_start b (x ++ y) = at_start (at_start b x) y.
Proof. induction x as [|c r IH]; intros y b; [reflexivity|]. cbn [app at_start]. apply IH. Qed.
Lemma at_start_no_nl : forall t b, no_nl t -> t <> [] -> at_start b t = false.
Proof.
  induction t as [|c r IH]; intros b Ht Hne; [congruence|]. inversion Ht as [|? ? Hc Hr]; subst. cbn [at_start].
  destruct (N.eqb_spec c NL); [contradiction|]. destruct r as [|d r']; [reflexivity|]. apply IH; [exact Hr|discriminate].
Qed.
Lemma expand_no_nl R P : forall t b, no_nl t -> t <> [] -> expand R P b t = pad P b ++ t.
Proof.
  induction t as [|c r IH]; intros b Ht Hne; [congruence|]. inversion Ht as [|? ? Hc Hr]; subst. cbn [expand].
  destruct (N.eqb_spec c NL); [contradiction|]. unfold pad. f_equal. f_equal.
  destruct r as [|d r']; [reflexivity|]. rewrite IH; [reflexivity|exact Hr|discriminate].
Qed.
Lemma expand_block R P t y b : no_nl t -> t <> [] -> expand R P b (t ++ y) = pad P b ++ t ++ expand R P false y.
Proof. intros Ht Hne. rewrite expand_app, (expand_no_nl R P t b Ht Hne), (at_start_no_nl t b Ht Hne), <- app_assoc. reflexivity. Qed.
Lemma at_start_block t y b : no_nl t -> t <> [] -> at_start b (t ++ y) = at_start false y.
Proof. intros Ht Hne. now rewrite at_start_app, (at_start_no_nl t b Ht Hne). Qed.
Lemma expand_replace R s b : expand R [] b s = flat_map (fun x => if N.eqb x NL then R else [x]) s.
Proof. revert b. induction s as [|c r IH]; intros b; [reflexivity|]. cbn [expand flat_map]. destruct b, (N.eqb c NL); rewrite IH; reflexivity. Qed.
Lemma replace_nl_expand R s b : replace [NL] R s = expand R [] b s.
Proof. now rewrite replace_single, expand_replace. Qed.
(* the head of an expansion that starts after a non-line-break *)
Lemma expand_false_head R P d r : R <> [] -> exists x tl, expand R P false (d :: r) = x :: tl /\ (d <> NL -> x = d) /\ (d = NL -> exists R', R = x :: R').
Proof.
  intros HR. cbn [expand]. destruct (N.eqb_spec d NL) as [->|Hd].
  - destruct R as [|x R']; [congruence|]. exists x. eexists. split; [reflexivity|]. split; [congruence|]. intros _. eexists. reflexivity.
  - exists d. eexists. split; [reflexivity|]. split; [reflexivity|contradiction].
Qed.

Lemma tag_char_not_nl c : tag_char c = true -> c <> NL.
Proof. intros H ->. vm_compute in H. discriminate. Qed.
Lemma tag_name_no_nl nm : tag_name nm -> no_nl nm.
Proof.
  destruct nm as [|c r]; [contradiction|]. intros [Hc Hr]. constructor; [apply tag_char_not_nl, tag_start_char, Hc|].
  eapply Forall_impl; [|exact Hr]. exact tag_char_not_nl.
Qed.
Lemma open_tag_no_nl nm : tag_name nm -> no_nl (open_tag nm).
Proof.
  intros H. unfold open_tag. constructor; [discriminate|]. apply Forall_app. split; [apply tag_name_no_nl, H|]. constructor; [discriminate|constructor].
Qed.
Lemma close_tag_no_nl nm : tag_name nm -> no_nl (close_tag nm).
Proof.
  intros H. unfold close_tag. constructor; [discriminate|]. constructor; [discriminate|].
  apply Forall_app. split; [apply tag_name_no_nl, H|]. constructor; [discriminate|constructor].
Qed.
Lemma close_any_no_nl : no_nl close_any. Proof. repeat constructor; discriminate. Qed.

Lemma double_bsl_safe_app p y : no_bsl p -> double_bsl (p ++ y) = p ++ double_bsl y.
Proof. induction 1 as [|c p Hc Hp IH]; [reflexivity|]. cbn [app]. now rewrite (double_bsl_head c _ Hc), IH. Qed.
Lemma ends_snoc s c : ends_with_bsl (s ++ [c]) = N.eqb c BSL.
Proof. now rewrite ends_app. Qed.
Lemma ends_bsl_not_start s b : ends_with_bsl s = true -> at_start b s = false.
Proof.
  destruct s as [|c s] using rev_ind; [discriminate|]. rewrite ends_snoc, at_start_app. cbn [at_start]. intros H.
  apply N.eqb_eq in H. subst. reflexivity.
Qed.
(* a safe text after a literal that does not end with a backslash joins it *)
Lemma literal_app_safe tag x y : ends_with_bsl x = false -> safe y -> literal (x ++ y) tag = literal x tag ++ y.
Proof.
  intros Hx Hy. destruct y as [|c y]; [now rewrite !app_nil_r|]. unfold literal.
  rewrite ends_app, Hx, (no_bsl_ends _ (safe_no_bsl _ Hy)).
  assert (forall a, double_bsl (a ++ c :: y) = double_bsl a ++ c :: y) as HD.
  { inversion Hy as [|? ? [Hc1 Hc2] Hy']; subst.
    induction a as [|e|e d r IHr IHd] using list_ind2.
    - cbn [app]. now rewrite (double_bsl_id _ (safe_no_bsl _ Hy)).
    - cbn [app]. rewrite double_bsl_cons2. destruct (N.eqb_spec c LT); [contradiction|]. rewrite Bool.andb_false_r.
      now rewrite (double_bsl_id _ (safe_no_bsl _ Hy)).
    - cbn [app] in *. rewrite !double_bsl_cons2. destruct (N.eqb e BSL && N.eqb d LT); cbn [app]; now rewrite IHd. }
  rewrite HD, cut_lt_app, (cut_lt_id tag _ (safe_no_lt _ Hy)). reflexivity.
Qed.

Section Expand.
Variables R P : str.
Hypothesis HR : safe R.
Hypothesis HRne : R <> [].
Hypothesis HP : safe P.

Lemma pad_safe b : safe (pad P b). Proof. destruct b; [exact HP|constructor]. Qed.

(* cut_lt puts a block without line break in place of every "<": the machine passes over it (expand_block), and what
   the machine inserts holds no "<" for cut_lt to touch *)
Lemma expand_cut_lt tag : tag_name tag -> forall x b,
  expand R P b (cut_lt tag x) = cut_lt tag (expand R P b x) /\ at_start b (cut_lt tag x) = at_start b x.
Proof.
  intros Hn. induction x as [|c r IH]; intros b; [split; reflexivity|].
  change (cut_lt tag (c :: r)) with ((if N.eqb c LT then LT :: close_any ++ LT :: tag ++ [GT] else [c]) ++ cut_lt tag r).
  destruct (N.eqb_spec c LT) as [->|Hc].
  - assert (no_nl (LT :: close_any ++ LT :: tag ++ [GT])) as Hblk.
    { constructor; [discriminate|]. apply Forall_app. split; [apply close_any_no_nl|]. apply (open_tag_no_nl tag Hn). }
    rewrite expand_block, at_start_block by (exact Hblk || discriminate). destruct (IH false) as [E1 E2]. rewrite E1, E2.
    split; [|reflexivity]. change (expand R P b (LT :: r)) with (pad P b ++ LT :: expand R P false r).
    rewrite cut_lt_app, (cut_lt_id tag _ (safe_no_lt _ (pad_safe b))).
    change (cut_lt tag (LT :: expand R P false r)) with ((LT :: close_any ++ LT :: tag ++ [GT]) ++ cut_lt tag (expand R P false r)).
    reflexivity.
  - cbn [app at_start]. rewrite !expand_cons. destruct (N.eqb_spec c NL) as [->|Hnl].
    + destruct (IH true) as [E1 E2]. rewrite E1, E2. split; [|reflexivity].
      rewrite cut_lt_app, (cut_lt_id tag R (safe_no_lt R HR)). reflexivity.
    + destruct (IH false) as [E1 E2]. rewrite E1, E2. split; [|reflexivity].
      rewrite cut_lt_app, (cut_lt_id tag _ (safe_no_lt _ (pad_safe b))).
      change (cut_lt tag (c :: expand R P false r)) with ((if N.eqb c LT then LT :: close_any ++ LT :: tag ++ [GT] else [c]) ++ cut_lt tag (expand R P false r)).
      destruct (N.eqb_spec c LT); [contradiction|reflexivity].
Qed.

(* double_bsl doubles a backslash in front of "<": what the machine inserts holds no backslash, and what it leaves or
   puts right after a backslash is "<" only if it was: R is safe, P comes only after a line break *)
Lemma expand_double_bsl : forall s b,
  expand R P b (double_bsl s) = double_bsl (expand R P b s) /\ at_start b (double_bsl s) = at_start b s.
Proof.
  induction s as [|c|c d r IHr IHd] using list_ind2; intros b; [split; reflexivity| |].
  - split; [|reflexivity]. cbn [double_bsl]. rewrite expand_cons. cbn [expand]. destruct (N.eqb c NL).
    + rewrite (double_bsl_safe_app R [] (safe_no_bsl R HR)). reflexivity.
    + rewrite (double_bsl_safe_app _ [c] (safe_no_bsl _ (pad_safe b))). reflexivity.
  - rewrite double_bsl_cons2. destruct (N.eqb_spec c BSL) as [->|Hc]; cbn [andb].
    + destruct (N.eqb_spec d LT) as [->|Hd].
      * destruct (IHd false) as [E1 E2]. split; [|cbn [at_start] in *; exact E2].
        change (expand R P b (BSL :: BSL :: double_bsl (LT :: r))) with (pad P b ++ BSL :: BSL :: expand R P false (double_bsl (LT :: r))).
        change (expand R P b (BSL :: LT :: r)) with (pad P b ++ BSL :: LT :: expand R P false r).
        change (expand R P false (LT :: r)) with (LT :: expand R P false r) in E1.
        rewrite (double_bsl_safe_app _ _ (safe_no_bsl _ (pad_safe b))), double_bsl_cons2.
        change (N.eqb BSL BSL && N.eqb LT LT) with true. cbv iota. rewrite <- E1. reflexivity.
      * destruct (IHd false) as [E1 E2]. split; [|cbn [at_start] in *; exact E2].
        change (expand R P b (BSL :: double_bsl (d :: r))) with (pad P b ++ BSL :: expand R P false (double_bsl (d :: r))).
        change (expand R P b (BSL :: d :: r)) with (pad P b ++ BSL :: expand R P false (d :: r)).
        rewrite E1, (double_bsl_safe_app _ _ (safe_no_bsl _ (pad_safe b))).
        destruct (expand_false_head R P d r HRne) as (x & tl & Ex & Hx1 & Hx2). rewrite Ex, double_bsl_cons2.
        assert (x <> LT) as Hxlt.
        { destruct (N.eqb_spec d NL) as [Hdn|Hdn]; [|rewrite (Hx1 Hdn); exact Hd].
          destruct (Hx2 Hdn) as (R' & ER). rewrite ER in HR. inversion HR as [|? ? [H1 _] _]. exact H1. }
        destruct (N.eqb_spec x LT); [contradiction|]. rewrite Bool.andb_false_r. reflexivity.
    + split; [|cbn [at_start]; apply IHd].
      change (expand R P b (c :: double_bsl (d :: r)))
        with (if N.eqb c NL then R ++ expand R P true (double_bsl (d :: r)) else pad P b ++ c :: expand R P false (double_bsl (d :: r))).
      change (expand R P b (c :: d :: r))
        with (if N.eqb c NL then R ++ expand R P true (d :: r) else pad P b ++ c :: expand R P false (d :: r)).
      destruct (N.eqb c NL).
      * destruct (IHd true) as [E1 _]. rewrite E1, (double_bsl_safe_app R _ (safe_no_bsl R HR)). reflexivity.
      * destruct (IHd false) as [E1 _]. rewrite E1, (double_bsl_safe_app _ _ (safe_no_bsl _ (pad_safe b))), (double_bsl_head c _ Hc). reflexivity.
Qed.

Lemma expand_snoc s c b : expand R P b (s ++ [c]) = expand R P b s ++ (if N.eqb c NL then R else pad P (at_start b s) ++ [c]).
Proof. rewrite expand_app. cbn [expand]. destruct (N.eqb c NL); now rewrite ?app_nil_r. Qed.
Lemma expand_ends s b : ends_with_bsl (expand R P b s) = ends_with_bsl s.
Proof.
  destruct s as [|c s] using rev_ind; [reflexivity|]. rewrite expand_snoc, ends_snoc, ends_app. destruct (N.eqb_spec c NL) as [->|Hc].
  - destruct R as [|x R']; [congruence|]. apply no_bsl_ends, safe_no_bsl, HR.
  - destruct (pad P (at_start b s) ++ [c]) as [|y l] eqn:E; [destruct (pad P (at_start b s)); discriminate|]. rewrite <- E. apply ends_snoc.
Qed.

(* the machine goes through _literal *)
Lemma expand_literal tag s b : tag_name tag ->
  expand R P b (literal s tag) = literal (expand R P b s) tag /\ at_start b (literal s tag) = at_start b s.
Proof.
  intros Hn. unfold literal. rewrite expand_ends.
  destruct (expand_cut_lt tag Hn (double_bsl s) b) as [C1 C2]. destruct (expand_double_bsl s b) as [D1 D2].
  destruct (ends_with_bsl s) eqn:E.
  - rewrite expand_app, at_start_app, C1, C2, D1, D2, (ends_bsl_not_start s b E). split; reflexivity.
  - rewrite C1, C2, D1, D2. split; reflexivity.
Qed.
End Expand.

(* replacing the line breaks by a safe text goes through _literal: the message line *)
Lemma replace_nl_literal R m tag : safe R -> R <> [] -> tag_name tag -> replace [NL] R (literal m tag) = literal (replace [NL] R m) tag.
Proof. intros HR HRne Hn. rewrite !(replace_nl_expand R _ false). apply (expand_literal R [] HR HRne safe_nil tag m false Hn). Qed.
Definition msg_text (m : str) : str := replace [NL] nl_indent m.
Lemma nl_indent_safe : safe nl_indent. Proof. safe_by_compute. Qed.


(* One walk through the renderer serves all that is said of every line it writes.  L: a property of line texts that
   concatenation keeps and blanks have; F: what is asked of a frame.  Given L of each kind of text the renderer writes,
   the lines exist - none of its res-valued functions is ever Err - and all of them have L. *)
Section Every.
Variables (c : tcfg) (L : str -> Prop) (F : frame -> Prop).
Hypothesis L_nil : L [].
Hypothesis L_app : forall a b, L a -> L b -> L (a ++ b).
Hypothesis L_blanks : forall n, L (repeat 32%N n).
Hypothesis L_stack : L s_stack.
Hypothesis L_fold : forall w n reps, L (fold_line w n reps).
Hypothesis L_frame : forall w f i, F f -> L (frame_line c w f i).
Hypothesis L_text : forall f, F f -> L (frame_text f).
Hypothesis L_snip : forall f line before after ls, F f -> snippet_of c (f_content f) line before after = Ok ls -> Forall L ls.
Hypothesis L_at : forall f, F f -> L (s_at ++ location c st_green f).
Notation Lw := (fun wl : wline => L (snd wl)).

Lemma every_render_line ind l nl extra : L l -> Forall Lw (render_line ind l nl extra).
Proof.
  intros Hl. unfold render_line. apply Forall_app. split; [destruct nl; constructor; [exact L_nil|constructor]|].
  constructor; [|constructor]. cbn [snd]. apply L_app; [apply L_blanks|exact Hl].
Qed.
Lemma every_rjust32 w : L (rjust [32%N] w).
Proof. unfold rjust. apply L_app; [apply L_blanks|apply (L_blanks 1)]. Qed.
Lemma every_frame_code ind w f : F f -> exists ls, frame_code c ind w f = Ok ls /\ Forall Lw ls.
Proof.
  intros Hf. destruct (t_debug c) eqn:ED.
  - destruct (frame_code_debug c ind w f ED) as (sn & E & ->). eexists. split; [reflexivity|].
    apply Forall_flat_map. eapply Forall_impl; [|apply (L_snip f _ _ _ sn Hf E)].
    intros l Hl. apply every_render_line, L_app; [apply every_rjust32|exact Hl].
  - rewrite (frame_code_below_debug c ind w f ED). eexists. split; [reflexivity|].
    apply every_render_line, L_app; [apply every_rjust32|]. apply L_app; [apply (L_blanks 2)|apply L_text, Hf].
Qed.
Lemma every_frames_lines ind w : forall fs i, Forall F fs -> exists r, frames_lines c ind w fs i = Ok r /\ Forall Lw (fst r).
Proof.
  induction fs as [|f fs IH]; intros i HF; cbn [frames_lines]; [eexists; split; [reflexivity|constructor]|].
  inversion HF as [|? ? Hf Hfs]; subst. destruct (every_frame_code ind w f Hf) as (code & -> & Hc).
  destruct (IH (i - 1)%Z Hfs) as (rest & -> & Hr). cbn [bind]. eexists. split; [reflexivity|]. cbn [fst].
  apply Forall_app. split; [apply every_render_line, L_frame, Hf|]. apply Forall_app. split; assumption.
Qed.
Lemma every_colls_lines ind w : forall cs i, Forall F (flat_map c_frames cs) ->
  exists ls, colls_lines c ind w cs i = Ok ls /\ Forall Lw ls.
Proof.
  induction cs as [|cl cs IH]; intros i HF; cbn [colls_lines]; [eexists; split; [reflexivity|constructor]|].
  cbn [flat_map] in HF. apply Forall_app in HF. destruct HF as [HF1 HF2].
  match goal with |- exists ls, bind (frames_lines c ind w (c_frames cl) ?j) _ = _ /\ _ =>
    destruct (every_frames_lines ind w (c_frames cl) j HF1) as (fl & -> & Hfl) end.
  cbn [bind]. destruct (IH (snd fl) HF2) as (rest & -> & Hr). cbn [bind]. eexists. split; [reflexivity|].
  apply Forall_app. split; [destruct (coll_repeated cl); [apply every_render_line, L_fold|constructor]|].
  apply Forall_app. split; assumption.
Qed.
Lemma every_render_trace ind fs : Forall F fs -> exists ls, render_trace c ind fs = Ok ls /\ Forall Lw ls.
Proof.
  intros HF. unfold render_trace.
  destruct (t_verbose c && negb (zlen (kept_frames c fs) - 1 =? 0)%Z); [|eexists; split; [reflexivity|constructor]].
  match goal with |- exists ls, bind (colls_lines c ind ?w ?cs ?i) _ = _ /\ _ =>
    destruct (every_colls_lines ind w cs i) as (l & -> & Hl) end.
  { apply Forall_forall. intros f Hf. apply compact_sub_l, kept_frames_spec in Hf. rewrite Forall_forall in HF. apply HF, Hf. }
  cbn [bind]. eexists. split; [reflexivity|]. apply Forall_app. split; [apply every_render_line, L_stack|exact Hl].
Qed.
Lemma every_render_snippet ind f : F f -> exists ls, render_snippet c ind f = Ok ls /\ Forall Lw ls.
Proof.
  intros Hf. unfold render_snippet. destruct (snippet_of_total c (f_content f) (f_lineno f) 4 4) as (sn & E). rewrite E. cbn [bind].
  eexists. split; [reflexivity|]. apply Forall_app. split; [apply every_render_line, L_at, Hf|].
  apply Forall_flat_map. eapply Forall_impl; [|apply (L_snip f _ _ _ sn Hf E)]. intros l Hl. apply every_render_line, Hl.
Qed.
Lemma every_render_exception ind x : L (name_line x) -> L (msg_line x) -> Forall F (x_frames x) ->
  exists ls, render_exception c ind x = Ok ls /\ Forall Lw ls.
Proof.
  intros Hn Hm. unfold render_exception. destruct (x_frames x) as [|f0 fs]; intros HF; [eexists; split; [reflexivity|constructor]|].
  destruct (every_render_trace ind (f0 :: fs) HF) as (tr & -> & Htr). cbn [bind].
  match goal with |- exists ls, bind (render_snippet c ind ?f) _ = _ /\ _ =>
    destruct (every_render_snippet ind f) as (sn & -> & Hsn) end.
  { apply Forall_last; [exact HF|discriminate]. }
  cbn [bind]. eexists. split; [reflexivity|].
  apply Forall_app. split; [exact Htr|]. apply Forall_app. split; [apply every_render_line, Hn|].
  apply Forall_app. split; [constructor; [exact L_nil|constructor]|]. apply Forall_app. split; [apply every_render_line, Hm|exact Hsn].
Qed.
Lemma every_render_lines simple ind x :
  L (name_line x) -> L (msg_line x) -> L (s_error_open ++ literal (x_msg x) st_error ++ s_error_close) -> Forall F (x_frames x) ->
  exists ls, render_lines c simple ind x = Ok ls /\ Forall Lw ls.
Proof.
  intros Hn Hm Hs HF. unfold render_lines.
  destruct simple; [eexists; split; [reflexivity|]; constructor; [exact Hs|constructor]|]. apply every_render_exception; assumption.
Qed.
Definition every_line := conj every_render_trace (conj every_render_snippet every_render_lines).
End Every.

(* with L and F true of everything the hypotheses are trivial: the lines always exist *)
Lemma render_trace_total c ind fs : exists ls, render_trace c ind fs = Ok ls.
Proof. edestruct (every_render_trace c (fun _ => True) (fun _ => True)) as (ls & E & _); eauto using Forall_True. Qed.
Lemma render_exception_total c ind x : exists ls, render_exception c ind x = Ok ls.
Proof. edestruct (every_render_exception c (fun _ => True) (fun _ => True)) as (ls & E & _); eauto using Forall_True. Qed.
Theorem render_lines_total c simple ind x : exists ls, render_lines c simple ind x = Ok ls.
Proof. edestruct (every_render_lines c (fun _ => True) (fun _ => True)) as (ls & E & _); eauto using Forall_True. Qed.

Section Good2.
Variable sty : styles.
Hypothesis Herr : resolvable sty st_error.
Hypothesis Hb : resolvable sty st_b.

Definition msg_pieces (x : exn_case) : list piece := [PNamed st_b (msg_text (x_msg x))].
Lemma msg_line_pieces x : msg_line x = line_str (msg_pieces x).
Proof.
  unfold msg_line, msg_pieces, msg_text. rewrite named_piece_str, <- (replace_nl_literal _ _ st_b nl_indent_safe ltac:(discriminate) st_b_name).
  reflexivity.
Qed.
Lemma msg_pieces_ok x : pieces_ok sty (msg_pieces x).
Proof. apply named_piece_ok; [apply st_b_name|exact Hb]. Qed.

Notation goodw := (fun wl : wline => good_line sty (snd wl)).
Lemma good_render_line ind l nl extra : good_line sty l -> Forall goodw (render_line ind l nl extra).
Proof. apply every_render_line; [apply good_nil|apply good_app|intros n; apply good_raw, safe_repeat32]. Qed.
Lemma good_frame_text f : good_line sty (frame_text f).
Proof.
  unfold frame_text, plain_code. destruct (f_linetoks f) as [toks| |]; try apply good_styled.
  pose proof (good_split_to_lines sty toks) as HG. destruct (split_to_lines toks) as [|l r]; [apply good_styled|].
  inversion HG; subst. assumption.
Qed.
Lemma good_name_line x : good_line sty (name_line x).
Proof. exists (error_pieces (x_name x)). split; [apply error_pieces_ok, Herr|apply error_line_pieces]. Qed.
Lemma good_msg_line x : good_line sty (msg_line x).
Proof. exists (msg_pieces x). split; [apply msg_pieces_ok|apply msg_line_pieces]. Qed.
(* every line handed to write_line is a line of literals and safe separators *)
Lemma good_every c :
  (forall ind fs, exists ls, render_trace c ind fs = Ok ls /\ Forall goodw ls) /\
  (forall ind f, exists ls, render_snippet c ind f = Ok ls /\ Forall goodw ls) /\
  (forall simple ind x, exists ls, render_lines c simple ind x = Ok ls /\ Forall goodw ls).
Proof.
  destruct (every_line c (good_line sty) (fun _ => True)) as (HT & HS & HL).
  - apply good_nil.
  - apply good_app.
  - intros n. apply good_raw, safe_repeat32.
  - apply good_stack.
  - apply good_fold.
  - intros w f i _. apply (good_frame_line sty Hb).
  - intros f _. apply good_frame_text.
  - intros f line before after ls _. apply good_snippet_of.
  - intros f _. apply (good_at_line sty Hb).
  - split; [intros ind fs; apply HT, Forall_True|]. split; [intros ind f; apply HS, I|]. intros simple ind x.
    apply HL; [apply good_name_line|apply good_msg_line| |apply Forall_True].
    exists (error_pieces (x_msg x)). split; [apply error_pieces_ok, Herr|apply error_line_pieces].
Qed.
Theorem render_lines_good c simple ind x ls :
  render_lines c simple ind x = Ok ls -> Forall (fun wl => good_line sty (snd wl)) ls.
Proof. destruct (proj2 (proj2 (good_every c)) simple ind x) as (ls' & -> & H). intros E. injection E as <-. exact H. Qed.
Corollary render_lines_good_ne c simple ind x ls :
  render_lines c simple ind x = Ok ls -> Forall (fun wl => no_esc (snd wl)) ls -> Forall (fun wl => good_line_ne sty (snd wl)) ls.
Proof. intros H. apply good_lines_noesc, (render_lines_good c simple ind x ls H). Qed.
End Good2.

Lemma expand_Forall (Q : N -> Prop) R P : Forall Q R -> Forall Q P -> forall s b, Forall Q s -> Forall Q (expand R P b s).
Proof.
  intros HR HP. induction s as [|c r IH]; intros b Hs; [constructor|]. inversion Hs as [|? ? Hc Hr]; subst. rewrite expand_cons.
  destruct (N.eqb c NL).
  - apply Forall_app. split; [exact HR|apply IH, Hr].
  - apply Forall_app. split; [destruct b; [exact HP|constructor]|]. constructor; [exact Hc|apply IH, Hr].
Qed.

(* Output's indentation is the machine with R = the line break, P = the blanks, started at a line start *)
Definition indent_rest (n : Z) (b : bool) (ls : list str) : list str :=
  match ls with [] => [] | l :: r => (if b then indent_line n l else l) :: map (indent_line n) r end.
Lemma expand_join n : forall s b, expand [NL] (spaces n) b s = join_with NL (indent_rest n b (split_on NL s)).
Proof.
  induction s as [|c r IH]; intros b; [destruct b; reflexivity|]. rewrite expand_cons. cbn [split_on].
  pose proof (split_on_nonempty NL r) as Hne. destruct (N.eqb_spec c NL) as [->|Hc].
  - rewrite (IH true). destruct (split_on NL r) as [|l ls]; [congruence|]. destruct b; reflexivity.
  - rewrite (IH false). destruct (split_on NL r) as [|l ls]; [congruence|]. cbn [indent_rest indent_line].
    destruct ls as [|l2 ls]; destruct b; cbn [pad map join_with app]; rewrite <- ?app_assoc; reflexivity.
Qed.
Lemma indent_text_expand n s : indent_text n s = expand [NL] (spaces n) true s.
Proof.
  rewrite expand_join. unfold indent_text. pose proof (split_on_nonempty NL s) as Hne.
  destruct (split_on NL s) as [|l ls]; [congruence|reflexivity].
Qed.

Definition NLs : str := [NL].
Lemma NLs_safe : safe NLs. Proof. safe_by_compute. Qed.
Lemma NLs_ne : NLs <> []. Proof. discriminate. Qed.

(* the text between two tags: the blanks also come after a final line break (the closing tag follows it) *)
Definition ind_text (n : Z) (s : str) : str := expand NLs (spaces n) false s ++ pad (spaces n) (at_start false s).
Definition ind_piece (n : Z) (b : bool) (p : piece) : list piece :=
  match p with
  | PRaw t => [PRaw (expand NLs (spaces n) b t)]
  | PLit tag s => [PRaw (pad (spaces n) b); PLit tag (ind_text n s)]
  | PNamed nm s => [PRaw (pad (spaces n) b); PNamed nm (ind_text n s)]
  end.
Definition piece_start (b : bool) (p : piece) : bool := match p with PRaw t => at_start b t | _ => false end.
Fixpoint ind_pieces (n : Z) (b : bool) (ps : list piece) : list piece :=
  match ps with [] => [] | p :: r => ind_piece n b p ++ ind_pieces n (piece_start b p) r end.

Lemma literal_ind_text n tag s : tag_name tag ->
  expand NLs (spaces n) false (literal s tag) ++ pad (spaces n) (at_start false (literal s tag)) = literal (ind_text n s) tag.
Proof.
  intros Hn. destruct (expand_literal NLs (spaces n) NLs_safe NLs_ne (safe_spaces n) tag s false Hn) as [E1 E2].
  rewrite E1, E2. unfold ind_text. destruct (at_start false s) eqn:ES; [|cbn [pad]; now rewrite !app_nil_r].
  symmetry. apply literal_app_safe; [|apply safe_spaces].
  rewrite (expand_ends NLs (spaces n) NLs_safe NLs_ne). destruct (ends_with_bsl s) eqn:EB; [|reflexivity].
  rewrite (ends_bsl_not_start s false EB) in ES. discriminate.
Qed.
Lemma ind_wrapped n b o cl tag s : tag_name tag -> no_nl o -> o <> [] -> no_nl cl -> cl <> [] ->
  expand NLs (spaces n) b (o ++ literal s tag ++ cl) = pad (spaces n) b ++ o ++ literal (ind_text n s) tag ++ cl
  /\ at_start b (o ++ literal s tag ++ cl) = false.
Proof.
  intros Hn Ho Hone Hc Hcne. split.
  - rewrite (expand_block _ _ o _ b Ho Hone), expand_app, (expand_no_nl _ _ cl _ Hc Hcne),
      (app_assoc (expand NLs (spaces n) false (literal s tag))), (literal_ind_text n tag s Hn). reflexivity.
  - rewrite (at_start_block o _ b Ho Hone), at_start_app. apply (at_start_no_nl cl _ Hc Hcne).
Qed.
Lemma ind_piece_str sty n b p : piece_ok sty p ->
  expand NLs (spaces n) b (piece_str p) = line_str (ind_piece n b p) /\ at_start b (piece_str p) = piece_start b p.
Proof.
  destruct p as [t|tag s|nm s]; cbn [piece_ok piece_str ind_piece piece_start line_str flat_map].
  - intros _. rewrite app_nil_r. split; reflexivity.
  - intros [Hn _]. rewrite !tagged_eq, app_nil_r.
    destruct (ind_wrapped n b (open_tag tag) close_any tag s Hn (open_tag_no_nl tag Hn) ltac:(discriminate) close_any_no_nl ltac:(discriminate)) as [E1 E2].
    rewrite E1, E2. split; reflexivity.
  - intros [Hn _]. rewrite app_nil_r.
    destruct (ind_wrapped n b (open_tag nm) (close_tag nm) nm s Hn (open_tag_no_nl nm Hn) ltac:(discriminate) (close_tag_no_nl nm Hn) ltac:(discriminate)) as [E1 E2].
    rewrite E1, E2. split; reflexivity.
Qed.
Lemma ind_pieces_str sty n : forall ps b, pieces_ok sty ps ->
  expand NLs (spaces n) b (line_str ps) = line_str (ind_pieces n b ps).
Proof.
  induction ps as [|p r IH]; intros b Hok; [reflexivity|]. inversion Hok as [|? ? Hp Hr]; subst.
  change (line_str (p :: r)) with (piece_str p ++ line_str r). cbn [ind_pieces]. rewrite line_str_app, expand_app.
  destruct (ind_piece_str sty n b p Hp) as [E1 E2]. rewrite E1, E2, (IH _ Hr). reflexivity.
Qed.
Lemma ind_piece_ok sty n b p : piece_ok sty p -> pieces_ok sty (ind_piece n b p).
Proof.
  destruct p as [t|tag s|nm s]; cbn [piece_ok ind_piece]; intros H.
  - constructor; [|constructor]. cbn [piece_ok]. apply expand_Forall; [apply NLs_safe|apply safe_spaces|exact H].
  - constructor; [apply pad_safe, safe_spaces|]. constructor; [exact H|constructor].
  - constructor; [apply pad_safe, safe_spaces|]. constructor; [exact H|constructor].
Qed.
Lemma ind_pieces_ok sty n : forall ps b, pieces_ok sty ps -> pieces_ok sty (ind_pieces n b ps).
Proof.
  induction ps as [|p r IH]; intros b Hok; [constructor|]. inversion Hok as [|? ? Hp Hr]; subst. cbn [ind_pieces].
  apply Forall_app. split; [apply ind_piece_ok, Hp|apply IH, Hr].
Qed.
Lemma ne_closed t : forallb (fun c => negb (N.eqb c ESC)) t = true -> no_esc t.
Proof.
  intros H. rewrite forallb_forall in H. apply Forall_forall. intros c Hc. specialize (H c Hc). intros ->. discriminate.
Qed.
Ltac ne_compute := apply ne_closed; vm_compute; reflexivity.
Lemma ne_app a b : no_esc a -> no_esc b -> no_esc (a ++ b).
Proof. intros Ha Hb. apply Forall_app. split; assumption. Qed.
Lemma ne_repeat32 n : no_esc (repeat 32%N n).
Proof. apply repeat_P. discriminate. Qed.
Lemma ne_dec_text z : no_esc (dec_text z).
Proof. apply dec_text_P. intros c Hc. unfold ESC. lia. Qed.
Lemma ne_rjust s w : no_esc s -> no_esc (rjust s w).
Proof. apply rjust_P. discriminate. Qed.
Lemma ne_cut_lt tag s : no_esc tag -> no_esc s -> no_esc (cut_lt tag s).
Proof.
  intros Ht Hs. unfold cut_lt. apply Forall_flat_map. eapply Forall_impl; [|exact Hs]. intros c Hc. cbn beta.
  destruct (N.eqb c LT); [|constructor; [exact Hc|constructor]].
  constructor; [discriminate|]. apply ne_app; [ne_compute|]. constructor; [discriminate|]. apply ne_app; [exact Ht|ne_compute].
Qed.
Lemma ne_literal s tag : no_esc tag -> no_esc s -> no_esc (literal s tag).
Proof.
  intros Ht Hs. unfold literal. assert (no_esc (cut_lt tag (double_bsl s))) as H by (apply ne_cut_lt; [exact Ht|apply double_bsl_P, Hs]).
  destruct (ends_with_bsl s); [apply ne_app; [exact H|ne_compute]|exact H].
Qed.
Lemma ne_tagged style text : no_esc style -> no_esc text -> no_esc (tagged style text).
Proof. intros H1 H2. unfold tagged. constructor; [discriminate|]. apply ne_app; [exact H1|]. constructor; [discriminate|]. apply ne_app; [exact H2|ne_compute]. Qed.
Lemma ne_theme h : no_esc (theme h). Proof. destruct h; ne_compute. Qed.
Lemma ne_styled h t : no_esc t -> no_esc (styled h t).
Proof. intros H. unfold styled. apply ne_tagged; [apply ne_theme|apply ne_literal; [apply ne_theme|exact H]]. Qed.
Lemma ne_pad n b : no_esc (pad (spaces n) b). Proof. destruct b; [apply ne_repeat32|constructor]. Qed.
Lemma ne_ind_text n s : no_esc s -> no_esc (ind_text n s).
Proof.
  intros H. unfold ind_text. apply ne_app; [|apply ne_pad].
  apply expand_Forall; [ne_compute|apply ne_repeat32|exact H].
Qed.
Lemma ind_pieces_noesc n : forall ps b, pieces_noesc ps -> pieces_noesc (ind_pieces n b ps).
Proof.
  induction ps as [|p r IH]; intros b H; [constructor|]. inversion H as [|? ? Hp Hr]; subst. cbn [ind_pieces].
  apply Forall_app. split; [|apply IH, Hr].
  destruct p as [t|tag s|nm s]; cbn [piece_noesc ind_piece] in *.
  - constructor; [|constructor]. cbn [piece_noesc]. apply expand_Forall; [ne_compute|apply ne_repeat32|exact Hp].
  - constructor; [apply ne_pad|]. constructor; [apply ne_ind_text, Hp|constructor].
  - constructor; [apply ne_pad|]. constructor; [apply ne_ind_text, Hp|constructor].
Qed.

Theorem indent_text_pieces sty n ps : pieces_ok sty ps -> indent_text n (line_str ps) = line_str (ind_pieces n true ps).
Proof. intros H. rewrite indent_text_expand. apply (ind_pieces_str sty n ps true H). Qed.
Theorem indent_good sty n l : good_line sty l -> good_line sty (indent_text n l).
Proof.
  intros (ps & Hok & ->). exists (ind_pieces n true ps). split; [apply ind_pieces_ok, Hok|apply (indent_text_pieces sty), Hok].
Qed.
Theorem indent_good_ne sty n l : good_line_ne sty l -> good_line_ne sty (indent_text n l).
Proof.
  intros (ps & Hok & Hne & ->). exists (ind_pieces n true ps).
  split; [apply ind_pieces_ok, Hok|]. split; [apply ind_pieces_noesc, Hne|apply (indent_text_pieces sty), Hok].
Qed.

Definition ansi_kind (k : fkind) : bool := match k with FAnsi _ => true | _ => false end.
(* the output decorates: formatting is on and the formatter is the ANSI one *)
Definition decorated (o : outp) : bool := o_on o && ansi_kind (f_kind (o_fmt o)).
(* an ordinary output (not a section) with a pastel formatter (ANSI or plain) whose style stack is empty *)
Definition out_ok (sty : styles) (o : outp) : Prop :=
  o_sec o = false /\ f_kind (o_fmt o) <> FNull /\ f_stack (o_fmt o) = [] /\ f_styles (o_fmt o) = sty.
(* the pieces of the line once Output.write has indented it *)
Definition wpieces (ind : Z) (ps : list piece) : list piece := if (0 <? ind)%Z then ind_pieces ind true ps else ps.
Definition windent (ind : Z) (s : str) : str := if (0 <? ind)%Z then indent_text ind s else s.

Lemma wpieces_str sty ind ps : pieces_ok sty ps -> windent ind (line_str ps) = line_str (wpieces ind ps).
Proof. intros H. unfold windent, wpieces. destruct (0 <? ind)%Z; [apply (indent_text_pieces sty), H|reflexivity]. Qed.
Lemma wpieces_ok sty ind ps : pieces_ok sty ps -> pieces_ok sty (wpieces ind ps).
Proof. intros H. unfold wpieces. destruct (0 <? ind)%Z; [apply ind_pieces_ok, H|exact H]. Qed.
Lemma wpieces_noesc ind ps : pieces_noesc ps -> pieces_noesc (wpieces ind ps).
Proof. intros H. unfold wpieces. destruct (0 <? ind)%Z; [apply ind_pieces_noesc, H|exact H]. Qed.

Lemma write_unfold o ind s : o_sec o = false ->
  write (with_indent o ind) s true true =
  do x <- (if o_on o then format (o_fmt o) (windent ind s) None else remove_format (o_fmt o) (windent ind s));
  Ok {| o_indent := ind; o_on := o_on o; o_sec := false; o_fmt := fst x; o_buf := o_buf o ++ snd x ++ [NL] |}.
Proof.
  intros H. unfold write, windent, with_buf, with_indent. cbn [o_indent o_on o_sec o_fmt o_buf]. rewrite H.
  cbn [andb orb bind]. rewrite Bool.andb_true_r. reflexivity.
Qed.

(* Whether colorize succeeds, and the style stack it leaves, do not depend on whether it decorates: that the renderer
   returns needs no hypothesis about ESC in the texts.  ESC matters only for reading the text back from under the
   escape codes: a message holding ESC [ 3 1 m is shown as it is, and stripping the codes strips it too. *)
Theorem colorize_status sty sk m sk' t :
  colorize sty false sk m = Ok (sk', t) -> exists out, colorize sty true sk m = Ok (sk', out).
Proof.
  (* both renderings are read off the spans of the message *)
  rewrite !colorize_spans. destruct (msg_spans sty sk m) as [x|k]; cbn [bind]; [|discriminate].
  intros H. injection H as <- _. eexists. reflexivity.
Qed.
Theorem line_never_raises_any sty sk col ps : pieces_ok sty ps -> exists out, colorize sty col sk (line_str ps) = Ok (sk, out).
Proof.
  intros H. pose proof (line_plain sty sk ps H) as HP. destruct col; [exact (colorize_status _ _ _ _ _ HP)|eauto].
Qed.

(* the formatter on a line of pieces: it succeeds and leaves the stack empty whatever the texts hold; when they hold
   no ESC (asked only if it decorates) the text under the escape codes is the shown pieces *)
Lemma fmt_pieces sty f (on : bool) ps :
  f_kind f <> FNull -> f_stack f = [] -> f_styles f = sty -> pieces_ok sty ps ->
  exists text,
    (if on then format f (line_str ps) None else remove_format f (line_str ps))
    = Ok ({| f_kind := f_kind f; f_styles := f_styles f; f_stack := [] |}, text)
    /\ ((on && ansi_kind (f_kind f) = true -> pieces_noesc ps) ->
        (if on && ansi_kind (f_kind f) then strip_sgr text else text) = flat_map piece_shown ps).
Proof.
  intros Hk Hs Hst Hok. subst sty. pose proof (line_plain (f_styles f) (f_stack f) ps Hok) as HP. destruct on.
  - unfold format. destruct (f_kind f) as [fb| |] eqn:EK; [| |congruence]; cbn [andb ansi_kind].
    + destruct (line_never_raises_any (f_styles f) (f_stack f) true ps Hok) as (out & HC).
      rewrite HC. cbn [bind fst snd]. rewrite Hs. exists out. split; [reflexivity|]. intros Hne.
      destruct (line_decorated (f_styles f) (f_stack f) ps Hok (Hne eq_refl)) as (out' & HC' & HS).
      rewrite HC in HC'. injection HC' as <-. exact HS.
    + rewrite HP. cbn [bind fst snd]. rewrite Hs. eexists. split; [reflexivity|intros _; reflexivity].
  - unfold remove_format. cbn [andb]. destruct (f_kind f) as [fb| |] eqn:EK; [| |congruence];
      rewrite HP; cbn [bind fst snd]; rewrite Hs; eexists; (split; [reflexivity|intros _; reflexivity]).
Qed.

(* one write_line of a line of pieces at indentation ind *)
Theorem write_pieces sty o ind ps :
  out_ok sty o -> pieces_ok sty ps ->
  exists o' text,
    write (with_indent o ind) (line_str ps) true true = Ok o' /\
    out_ok sty o' /\ o_on o' = o_on o /\ f_kind (o_fmt o') = f_kind (o_fmt o) /\
    o_buf o' = o_buf o ++ text ++ [NL] /\
    ((decorated o = true -> pieces_noesc ps) ->
     (if decorated o then strip_sgr text else text) = flat_map piece_shown (wpieces ind ps)).
Proof.
  intros (Hsec & Hk & Hs & Hst) Hok. rewrite (write_unfold o ind _ Hsec), (wpieces_str sty ind ps Hok).
  destruct (fmt_pieces sty (o_fmt o) (o_on o) (wpieces ind ps) Hk Hs Hst (wpieces_ok sty ind ps Hok)) as (text & HF & HT).
  rewrite HF. cbn [bind fst snd]. eexists. exists text. split; [reflexivity|].
  cbn [o_sec o_on o_fmt o_buf f_kind f_stack f_styles]. unfold out_ok. cbn [o_sec o_on o_fmt o_buf f_kind f_stack f_styles].
  repeat split; try assumption; try reflexivity.
  intros Hne. apply HT. intros Hd. apply wpieces_noesc, Hne, Hd.
Qed.
Corollary write_good sty o ind l : out_ok sty o -> good_line sty l -> (decorated o = true -> no_esc l) ->
  exists o', write (with_indent o ind) l true true = Ok o' /\ out_ok sty o' /\ o_on o' = o_on o /\ f_kind (o_fmt o') = f_kind (o_fmt o).
Proof.
  intros Ho (ps & Hok & ->) _. destruct (write_pieces sty o ind ps Ho Hok) as (o' & text & H1 & H2 & H3 & H4 & _).
  exists o'. split; [exact H1|]. split; [exact H2|]. split; [exact H3|exact H4].
Qed.

(* lines given by their pieces *)
Definition pline := (Z * list piece)%type.
Definition pline_w (p : pline) : wline := (fst p, line_str (snd p)).
Definition shown_line (p : pline) : str := flat_map piece_shown (wpieces (fst p) (snd p)) ++ [NL].

Lemma decorated_keep o o' : o_on o' = o_on o -> f_kind (o_fmt o') = f_kind (o_fmt o) -> decorated o' = decorated o.
Proof. intros H1 H2. unfold decorated. now rewrite H1, H2. Qed.


(* what write_lines appends to the buffer: w, which shows - under the escape codes when the output decorates - the
   texts of the (indented) pieces, line after line *)
Theorem write_lines_pieces sty : forall (pls : list pline) o,
  out_ok sty o -> Forall (fun p => pieces_ok sty (snd p)) pls ->
  exists o' w, write_lines o (map pline_w pls) = Ok o' /\ out_ok sty o' /\ o_on o' = o_on o /\ f_kind (o_fmt o') = f_kind (o_fmt o) /\
    o_buf o' = o_buf o ++ w /\
    ((decorated o = true -> Forall (fun p => pieces_noesc (snd p)) pls) ->
     (if decorated o then strip_sgr w else w) = flat_map shown_line pls).
Proof.
  induction pls as [|[ind ps] r IH]; intros o Ho Hok.
  - exists o, []. cbn [map write_lines flat_map]. rewrite app_nil_r. split; [reflexivity|]. split; [exact Ho|].
    do 3 (split; [reflexivity|]). intros _. destruct (decorated o); reflexivity.
  - inversion Hok as [|? ? Hp Hr]; subst. cbn [snd] in Hp.
    destruct (write_pieces sty o ind ps Ho Hp) as (o1 & text & HW & Ho1 & Hon1 & Hk1 & Hb1 & Ht1).
    destruct (IH o1 Ho1 Hr) as (o2 & w2 & HW2 & Ho2 & Hon2 & Hk2 & Hb2 & Hv2).
    rewrite (decorated_keep o o1 Hon1 Hk1) in Hv2.
    exists o2, (text ++ [NL] ++ w2). cbn [map write_lines pline_w fst snd]. rewrite HW. cbn [bind]. split; [exact HW2|]. split; [exact Ho2|].
    split; [congruence|]. split; [congruence|]. split; [rewrite Hb2, Hb1; now rewrite <- !app_assoc|].
    intros Hne. cbn [flat_map]. change (shown_line (ind, ps)) with (flat_map piece_shown (wpieces ind ps) ++ [NL]).
    rewrite <- (Ht1 (fun Hd => Forall_inv (Hne Hd))), <- (Hv2 (fun Hd => Forall_inv_tail (Hne Hd))).
    destruct (decorated o); [|now rewrite <- !app_assoc]. cbn [app]. rewrite strip_sgr_nl, <- app_assoc. reflexivity.
Qed.
(* render and render_sol end alike: the lines are written and the buffer is returned *)
Lemma written_buffer sty o pls (r : res (list wline)) :
  r = Ok (map pline_w pls) -> out_ok sty o -> Forall (fun p => pieces_ok sty (snd p)) pls ->
  exists w, (do ls <- r; do o' <- write_lines o ls; Ok (o_buf o')) = Ok (o_buf o ++ w) /\
    ((decorated o = true -> Forall (fun p => pieces_noesc (snd p)) pls) ->
     (if decorated o then strip_sgr w else w) = flat_map shown_line pls).
Proof.
  intros -> Ho Hok. destruct (write_lines_pieces sty pls o Ho Hok) as (o' & w & HW & _ & _ & _ & HB & HV).
  exists w. cbn [bind]. rewrite HW. cbn [bind]. rewrite HB. split; [reflexivity|exact HV].
Qed.

Lemma good_lines_pieces sty : forall ls, Forall (fun wl : wline => good_line sty (snd wl)) ls ->
  exists pls, ls = map pline_w pls /\ Forall (fun p => pieces_ok sty (snd p)) pls.
Proof.
  induction 1 as [|[ind l] r (ps & Hok & Hl) Hr (pls & E & Hpls)]; [exists []; split; [reflexivity|constructor]|].
  cbn [snd] in Hl. subst l r. exists ((ind, ps) :: pls). split; [reflexivity|]. constructor; assumption.
Qed.
Lemma pieces_lines_noesc : forall pls, Forall (fun wl : wline => no_esc (snd wl)) (map pline_w pls) -> Forall (fun p : pline => pieces_noesc (snd p)) pls.
Proof.
  induction pls as [|p r IH]; intros H; [constructor|]. cbn [map] in H. inversion H as [|? ? Hp Hr]; subst.
  constructor; [apply line_noesc, Hp|apply IH, Hr].
Qed.

Definition dflt_frame : frame :=
  {| f_file := []; f_ignored := false; f_lineno := 0; f_func := []; f_line := []; f_content := TokError; f_linetoks := TokError |}.
Definition trace_printed (c : tcfg) (fs : list frame) : bool := t_verbose c && negb (zlen (kept_frames c fs) - 1 =? 0)%Z.
Lemma bind_ok {X Y} (r : res X) (f : X -> res Y) : (exists y, bind r f = Ok y) <-> exists x, r = Ok x /\ exists y, f x = Ok y.
Proof.
  split.
  - intros (y & H). destruct r as [x|e]; cbn [bind] in H; [|discriminate]. exists x. split; [reflexivity|]. exists y. exact H.
  - intros (x & -> & y & H). exists y. exact H.
Qed.
Theorem render_lines_simple_ok c ind x : exists ls, render_lines c true ind x = Ok ls.
Proof. apply render_lines_total. Qed.

(* the lines, which always exist, are lines of pieces - for any frames, token streams or failures of tokenize, in
   either report mode, at every verbosity *)
Section Pieces.
Variables (sty : styles) (c : tcfg).
Hypothesis Herr : resolvable sty st_error.
Hypothesis Hb : resolvable sty st_b.
Notation okl := (fun p : pline => pieces_ok sty (snd p)).
Lemma render_trace_pieces ind fs : exists pls, render_trace c ind fs = Ok (map pline_w pls) /\ Forall okl pls.
Proof.
  destruct (proj1 (good_every sty Herr Hb c) ind fs) as (ls & E & HG). destruct (good_lines_pieces sty ls HG) as (pls & -> & H). eauto.
Qed.
Lemma render_snippet_pieces ind f : exists pls, render_snippet c ind f = Ok (map pline_w pls) /\ Forall okl pls.
Proof.
  destruct (proj1 (proj2 (good_every sty Herr Hb c)) ind f) as (ls & E & HG). destruct (good_lines_pieces sty ls HG) as (pls & -> & H). eauto.
Qed.
Lemma render_lines_pieces simple ind x : exists pls, render_lines c simple ind x = Ok (map pline_w pls) /\ Forall okl pls.
Proof.
  destruct (proj2 (proj2 (good_every sty Herr Hb c)) simple ind x) as (ls & E & HG). destruct (good_lines_pieces sty ls HG) as (pls & -> & H). eauto.
Qed.
End Pieces.
(* For every exception case, configuration, report mode and every ordinary output with an ANSI or plain formatter (empty
   style stack) whose style table resolves "error" and "b" - decorating or not, whatever the class name, message, file
   names and sources hold - render returns its bytes. *)
Theorem render_never_fails_any sty c simple o x :
  out_ok sty o -> resolvable sty st_error -> resolvable sty st_b -> exists bytes, render c simple o x = Ok bytes.
Proof.
  intros Ho Herr Hb. destruct (render_lines_pieces sty c Herr Hb simple (o_indent o) x) as (pls & HL & Hok).
  destruct (written_buffer sty o pls _ HL Ho Hok) as (w & HW & _). eexists. exact HW.
Qed.

(* the highlighter only moves characters of the tokens and of their lines around: what holds of each of them holds of
   each character of every chunk *)
Definition tok_ne (t : token) : Prop := no_esc (tk_str t) /\ no_esc (tk_line t).
Section Moves.
Variable P : N -> Prop.
Definition chunk_P (c : chunk) : Prop := Forall P (snd c).
Definition tok_P (t : token) : Prop := Forall P (tk_str t) /\ Forall P (tk_line t).
Definition hst_P (st : hst) : Prop :=
  Forall (Forall chunk_P) (h_lines st) /\ Forall chunk_P (h_line st) /\ Forall P (h_buf st) /\
  match h_last st with Some ln => Forall P ln | None => True end.
Lemma flush_P ty buf : Forall P buf -> Forall chunk_P (flush_chunk ty buf).
Proof. intros H. destruct ty; cbn [flush_chunk]; [constructor; [exact H|constructor]|constructor]. Qed.
Lemma line_rest_P st : hst_P st -> Forall P (line_rest st).
Proof. intros (_ & _ & _ & H). unfold line_rest. destruct (h_last st); [apply rstrip_ws_P, Forall_skipn, H|constructor]. Qed.
Lemma hl_newline_P st t : hst_P st -> hst_P (hl_newline st t).
Proof.
  intros H. pose proof (line_rest_P st H) as HR. destruct H as (H1 & H2 & H3 & H4). unfold hl_newline.
  destruct (h_curline st <? tk_srow t)%Z; [|repeat split; assumption]. unfold hst_P. cbn [h_lines h_line h_buf h_last].
  split; [|split; [constructor|split; [constructor|exact I]]].
  apply Forall_app. split; [exact H1|]. apply Forall_app. split.
  - constructor; [|constructor]. apply Forall_app. split; [exact H2|]. apply flush_P, Forall_app. split; [apply rstrip_nl_P, H3|exact HR].
  - apply Forall_forall. intros l Hl. apply repeat_spec in Hl. subst. constructor.
Qed.
Lemma hl_token_P st t : hst_P st -> tok_P t -> hst_P (hl_token st t).
Proof.
  intros H (Ts & Tl). apply (hl_newline_P st t) in H. unfold hl_token. destruct (new_type t) as [nt|]; [|exact H].
  destruct H as (H1 & H2 & H3 & H4). set (st' := hl_newline st t) in *.
  set (cur := match h_type st' with Some c => c | None => nt end).
  set (buf := if (h_curcol st' <? tk_scol t)%Z then h_buf st' ++ slice (tk_line t) (h_curcol st') (tk_scol t) else h_buf st').
  assert (Forall P buf) as Hbuf
    by (unfold buf; destruct (h_curcol st' <? tk_scol t)%Z; [apply Forall_app; split; [exact H3|apply slice_P, Tl]|exact H3]).
  set (change := negb (hl_eqb cur nt) && negb (ends_with_bsl buf)).
  assert (Forall chunk_P (if change then h_line st' ++ [(cur, buf)] else h_line st')) as Hline.
  { destruct change; [|exact H2]. apply Forall_app. split; [exact H2|]. constructor; [exact Hbuf|constructor]. }
  assert (Forall P (if change then [] else buf)) as Hbuf' by (destruct change; [constructor|exact Hbuf]).
  destruct (tk_srow t <? tk_erow t)%Z; unfold hst_P; cbn [h_lines h_line h_buf h_last].
  - pose proof (split_on_P P NL (tk_str t) Ts) as Hsp. split; [|split; [constructor|split; [|exact I]]].
    + apply Forall_app. split; [exact H1|]. apply Forall_app. split; [constructor; [exact Hline|constructor]|].
      apply Forall_map. apply removelast_P. destruct (split_on NL (tk_str t)) as [|a tls]; cbn [tl]; [constructor|].
      inversion Hsp; subst. eapply Forall_impl; [|eassumption]. intros l Hl. constructor; [exact Hl|constructor].
    + apply slice_P, last_P, Hsp.
  - split; [exact H1|]. split; [exact Hline|]. split; [apply Forall_app; split; [exact Hbuf'|exact Ts]|exact Tl].
Qed.
Lemma hl_loop_P : forall toks st, Forall tok_P toks -> hst_P st -> Forall (Forall chunk_P) (hl_loop toks st).
Proof.
  induction toks as [|t r IH]; intros st HT H; cbn [hl_loop]; [apply H|]. inversion HT as [|? ? Ht Hr]; subst.
  destruct (tk_srow t =? 0)%Z; [apply IH; assumption|].
  assert (Forall (Forall chunk_P) (h_lines st ++ [h_line st ++ flush_chunk (h_type st) (h_buf st)])) as Hend.
  { destruct H as (H1 & H2 & H3 & _). apply Forall_app. split; [exact H1|]. constructor; [|constructor].
    apply Forall_app. split; [exact H2|apply flush_P, H3]. }
  destruct (tk_kind t); try (apply IH; [exact Hr|apply hl_token_P; assumption]). exact Hend.
Qed.
End Moves.
Lemma render_chunks_ne cs : Forall (chunk_P (fun c => c <> ESC)) cs -> no_esc (render_chunks cs).
Proof. intros H. unfold render_chunks. apply Forall_flat_map. eapply Forall_impl; [|exact H]. intros c Hc. apply ne_styled, Hc. Qed.
Lemma split_to_lines_ne toks : Forall tok_ne toks -> Forall no_esc (split_to_lines toks).
Proof.
  intros H. unfold split_to_lines, split_chunks. apply Forall_map.
  eapply Forall_impl; [|apply (hl_loop_P (fun c => c <> ESC) toks hst_init H)]; [intros cs Hcs; apply render_chunks_ne, Hcs|].
  repeat split; constructor.
Qed.
Lemma ui_ne utf8 : no_esc (u_arrow (ui_of utf8)) /\ no_esc (u_delim (ui_of utf8)).
Proof. destruct utf8; split; ne_compute. Qed.
Lemma number_from_ne utf8 w mark : forall lines i, Forall no_esc lines -> Forall no_esc (number_from (ui_of utf8) w mark i lines).
Proof.
  destruct (ui_ne utf8) as [Ha Hd]. induction lines as [|l r IH]; intros i H; cbn [number_from]; [constructor|].
  inversion H as [|? ? Hl Hr]; subst. constructor; [|apply IH, Hr].
  apply ne_app; [destruct (mark =? i)%Z; [apply ne_app; [apply ne_tagged; [ne_compute|exact Ha]|ne_compute]|ne_compute]|].
  apply ne_app; [destruct (mark =? i)%Z; (apply ne_tagged; [ne_compute|apply ne_rjust, ne_dec_text])|].
  apply ne_app; [apply ne_tagged; [ne_compute|exact Hd]|]. apply ne_app; [ne_compute|exact Hl].
Qed.

Definition tokres_ne (t : tokres) : Prop := match t with TokOk toks => Forall tok_ne toks | _ => True end.
Definition frame_ne (f : frame) : Prop :=
  no_esc (f_file f) /\ no_esc (f_func f) /\ no_esc (f_line f) /\ tokres_ne (f_content f) /\ tokres_ne (f_linetoks f).
(* no ESC in the class name, the message, the file and function names, the source; the path separator is not ESC *)
Definition inputs_ne (c : tcfg) (x : exn_case) : Prop :=
  t_sep c <> ESC /\ no_esc (x_name x) /\ no_esc (x_msg x) /\ Forall frame_ne (x_frames x).

Section LinesNoEsc.
Variable c : tcfg.
Hypothesis Hsep : t_sep c <> ESC.
Notation new := (fun wl : wline => no_esc (snd wl)).

Lemma snippet_of_ne content line before after ls :
  tokres_ne content -> snippet_of c content line before after = Ok ls -> Forall no_esc ls.
Proof.
  unfold snippet_of. destruct content as [toks| |]; intros HT H; injection H as <-; [|constructor|constructor].
  unfold code_snippet, line_numbers. apply Forall_firstn, Forall_skipn, number_from_ne, split_to_lines_ne, HT.
Qed.
Lemma rel_path_ne p : no_esc p -> no_esc (rel_path c p).
Proof.
  intros Hp. unfold rel_path.
  match goal with |- no_esc (match t_home c with [] => ?q | _ => _ end) => set (p1 := q) end.
  assert (no_esc p1) as H1 by (subst p1; destruct (t_cwd c); [exact Hp|apply replace_P; [constructor|exact Hp]]).
  destruct (t_home c); [exact H1|]. apply replace_P; [|exact H1]. constructor; [discriminate|]. constructor; [exact Hsep|constructor].
Qed.
Lemma location_ne fs f : no_esc fs -> frame_ne f -> no_esc (location c fs f).
Proof.
  intros Hfs (H1 & H2 & _). unfold location.
  apply ne_app; [apply ne_literal; [exact Hfs|apply rel_path_ne, H1]|]. apply ne_app; [ne_compute|]. apply ne_app; [apply ne_dec_text|].
  apply ne_app; [ne_compute|]. apply ne_app; [apply ne_literal; [ne_compute|exact H2]|ne_compute].
Qed.
Lemma render_line_ne ind l nl extra : no_esc l -> Forall new (render_line ind l nl extra).
Proof. apply every_render_line; [constructor|exact ne_app|exact ne_repeat32]. Qed.
Lemma frame_text_ne f : frame_ne f -> no_esc (frame_text f).
Proof.
  intros (_ & _ & HL & _ & HT). assert (no_esc (plain_code f)) as HP by (apply ne_styled, strip_P, HL).
  unfold frame_text. destruct (f_linetoks f) as [toks| |]; try exact HP.
  pose proof (split_to_lines_ne toks HT) as HG. destruct (split_to_lines toks) as [|l r]; [exact HP|]. inversion HG; subst. assumption.
Qed.
Lemma frame_line_ne w f i : frame_ne f -> no_esc (frame_line c w f i).
Proof.
  intros Hf. unfold frame_line. apply ne_app; [ne_compute|]. apply ne_app; [apply ne_rjust, ne_dec_text|].
  apply ne_app; [ne_compute|]. apply location_ne; [ne_compute|exact Hf].
Qed.
Lemma fold_line_ne w n reps : no_esc (fold_line w n reps).
Proof.
  unfold fold_line. apply ne_app; [ne_compute|]. apply ne_app; [apply ne_rjust; ne_compute|]. apply ne_app; [ne_compute|].
  apply ne_app; [destruct (1 <? n)%Z; [|ne_compute]; apply ne_app; [ne_compute|]; apply ne_app; [apply ne_dec_text|ne_compute]|].
  apply ne_app; [ne_compute|]. apply ne_app; [apply ne_dec_text|ne_compute].
Qed.
Lemma render_lines_ne simple ind x ls :
  no_esc (x_name x) -> no_esc (x_msg x) -> Forall frame_ne (x_frames x) ->
  render_lines c simple ind x = Ok ls -> Forall new ls.
Proof.
  intros Hn Hm HF. destruct (every_line c no_esc frame_ne) as (_ & _ & HL).
  - constructor.
  - exact ne_app.
  - exact ne_repeat32.
  - ne_compute.
  - exact fold_line_ne.
  - intros w f i. apply frame_line_ne.
  - exact frame_text_ne.
  - intros f line before after sn (_ & _ & _ & HC & _). apply snippet_of_ne, HC.
  - intros f Hf. apply ne_app; [ne_compute|apply location_ne; [ne_compute|exact Hf]].
  - destruct (HL simple ind x) as (ls' & -> & H); [| | |exact HF|intros E; injection E as <-; exact H].
    + unfold name_line. apply ne_app; [ne_compute|]. apply ne_app; [apply ne_literal; [ne_compute|exact Hn]|ne_compute].
    + unfold msg_line. apply ne_app; [ne_compute|]. apply ne_app; [|ne_compute].
      apply replace_P; [ne_compute|apply ne_literal; [ne_compute|exact Hm]].
    + apply ne_app; [ne_compute|]. apply ne_app; [apply ne_literal; [ne_compute|exact Hm]|ne_compute].
Qed.
End LinesNoEsc.
Theorem lines_noesc c simple ind x ls : inputs_ne c x -> render_lines c simple ind x = Ok ls -> Forall (fun wl => no_esc (snd wl)) ls.
Proof. intros (H1 & H2 & H3 & H4). apply (render_lines_ne c H1 simple ind x ls H2 H3 H4). Qed.

(* render_never_fails_any under a premise on ESC in the inputs of a decorating output, which it does not need *)
Theorem render_never_fails_unconditionally sty c simple o x :
  out_ok sty o -> resolvable sty st_error -> resolvable sty st_b ->
  (decorated o = true -> inputs_ne c x) ->
  exists bytes, render c simple o x = Ok bytes.
Proof. intros Ho Herr Hb _. exact (render_never_fails_any sty c simple o x Ho Herr Hb). Qed.
Corollary render_never_fails_inputs sty c simple o x :
  out_ok sty o -> resolvable sty st_error -> resolvable sty st_b ->
  (decorated o = true -> inputs_ne c x) ->
  exists bytes, render c simple o x = Ok bytes.
Proof. exact (render_never_fails_unconditionally sty c simple o x). Qed.

(* the text between two tags after indentation: every line but the first gets the blanks (empty lines stay empty),
   and so does the closing tag after a final line break *)
Lemma ind_text_lines n s :
  ind_text n s = join_with NL (indent_rest n false (split_on NL s)) ++ pad (spaces n) (at_start false s).
Proof. unfold ind_text. now rewrite <- expand_join. Qed.
Lemma ind_text_no_nl n s : no_nl s -> ind_text n s = s.
Proof.
  intros Hs. unfold ind_text. destruct s as [|c r]; [reflexivity|].
  rewrite (expand_no_nl NLs (spaces n) (c :: r) false Hs ltac:(discriminate)), (at_start_no_nl (c :: r) false Hs ltac:(discriminate)).
  cbn [pad]. rewrite app_nil_r. reflexivity.
Qed.
(* the message as the full report shows it: two blanks after every line break *)
Lemma msg_text_spec m : msg_text m = flat_map (fun c => if N.eqb c NL then [NL; 32; 32]%N else [c]) m.
Proof. apply replace_single. Qed.

Lemma shown_line_blank ind : shown_line (ind, []) = [NL].
Proof. unfold shown_line, wpieces. cbn [fst snd]. destruct (0 <? ind)%Z; reflexivity. Qed.
Lemma shown_line_named ind nm s :
  shown_line (ind, [PNamed nm s])
  = (if (0 <? ind)%Z then spaces ind ++ shown (ind_text ind s) else shown s) ++ [NL].
Proof.
  unfold shown_line, wpieces. cbn [fst snd]. destruct (0 <? ind)%Z; cbn [ind_pieces ind_piece app flat_map piece_shown pad]; now rewrite !app_nil_r.
Qed.

(* simple mode: the message, shown (a blank after a trailing backslash), indented, and a line break - under the
   escape codes when the output decorates *)
Theorem simple_bytes_vis sty c o x : out_ok sty o -> resolvable sty st_error -> (decorated o = true -> no_esc (x_msg x)) ->
  exists w, render c true o x = Ok (o_buf o ++ w) /\
    (if decorated o then strip_sgr w else w)
    = (if (0 <? o_indent o)%Z then spaces (o_indent o) ++ shown (ind_text (o_indent o) (x_msg x)) else shown (x_msg x)) ++ [NL].
Proof.
  intros Ho Herr Hne.
  destruct (written_buffer sty o [(o_indent o, error_pieces (x_msg x))] (render_lines c true (o_indent o) x)) as (w & HR & HV).
  - unfold render_lines, pline_w. cbn [map fst snd]. now rewrite error_line_pieces.
  - exact Ho.
  - constructor; [apply error_pieces_ok, Herr|constructor].
  - exists w. split; [exact HR|]. rewrite HV.
    + cbn [flat_map]. unfold error_pieces. now rewrite shown_line_named, app_nil_r.
    + intros Hd. constructor; [|constructor]. cbn [snd error_pieces]. constructor; [exact (Hne Hd)|constructor].
Qed.
Theorem simple_bytes sty c o x : out_ok sty o -> resolvable sty st_error -> decorated o = false ->
  render c true o x
  = Ok (o_buf o ++ (if (0 <? o_indent o)%Z then spaces (o_indent o) ++ shown (ind_text (o_indent o) (x_msg x)) else shown (x_msg x)) ++ [NL]).
Proof.
  intros Ho Herr Hd. destruct (simple_bytes_vis sty c o x Ho Herr) as (w & HR & HV); [rewrite Hd; discriminate|].
  rewrite Hd in HV. now rewrite HR, HV.
Qed.
Corollary simple_bytes_unindented sty c o x : out_ok sty o -> resolvable sty st_error -> decorated o = false -> (o_indent o <= 0)%Z ->
  render c true o x = Ok (o_buf o ++ shown (x_msg x) ++ [NL]).
Proof.
  intros Ho Herr Hd Hi. rewrite (simple_bytes sty c o x Ho Herr Hd). destruct (Z.ltb_spec 0 (o_indent o)); [lia|reflexivity].
Qed.
Corollary simple_bytes_one_line sty c o x : out_ok sty o -> resolvable sty st_error -> decorated o = false ->
  no_nl (x_msg x) -> render c true o x = Ok (o_buf o ++ spaces (o_indent o) ++ shown (x_msg x) ++ [NL]).
Proof.
  intros Ho Herr Hd Hm. rewrite (simple_bytes sty c o x Ho Herr Hd), (ind_text_no_nl _ _ Hm).
  destruct (Z.ltb_spec 0 (o_indent o)) as [|Hle]; [now rewrite <- app_assoc|].
  unfold spaces. replace (Z.to_nat (o_indent o)) with 0%nat by lia. reflexivity.
Qed.

(* full mode: the stack trace (if any), then a blank line, the class name, a blank line, the message block, then the snippet *)
Definition mid_plines (ind : Z) (x : exn_case) : list pline := [(ind, []); (ind, error_pieces (x_name x)); (ind, []); (ind, msg_pieces x)].
Lemma render_lines_full c i x tr_p sn_p : x_frames x <> [] ->
  render_trace c (i + 2) (x_frames x) = Ok (map pline_w tr_p) ->
  render_snippet c (i + 2) (last (x_frames x) dflt_frame) = Ok (map pline_w sn_p) ->
  render_lines c false i x = Ok (map pline_w (tr_p ++ mid_plines (i + 2) x ++ sn_p)).
Proof.
  intros Hne ET ES. unfold render_lines, render_exception. fold dflt_frame.
  destruct (x_frames x) as [|f0 fs] eqn:EF; [congruence|]. rewrite ET, ES. cbn [bind].
  assert (map pline_w (mid_plines (i + 2) x)
          = render_line (i + 2) (name_line x) true 0 ++ [((i + 2)%Z, [])] ++ render_line (i + 2) (msg_line x) false 0) as Emid
    by (unfold name_line; rewrite error_line_pieces, msg_line_pieces; reflexivity).
  rewrite !map_app, Emid. unfold name_line, msg_line. rewrite <- ?app_assoc. reflexivity.
Qed.
Lemma mid_plines_ok sty ind x : resolvable sty st_error -> resolvable sty st_b ->
  Forall (fun p : pline => pieces_ok sty (snd p)) (mid_plines ind x).
Proof.
  intros Herr Hb. constructor; [constructor|]. constructor; [apply error_pieces_ok, Herr|]. constructor; [constructor|].
  constructor; [apply msg_pieces_ok, Hb|constructor].
Qed.
Lemma shown_mid ind x : (0 < ind)%Z ->
  flat_map shown_line (mid_plines ind x)
  = [NL] ++ spaces ind ++ shown (ind_text ind (x_name x)) ++ [NL] ++ [NL] ++ spaces ind ++ shown (ind_text ind (msg_text (x_msg x))) ++ [NL].
Proof.
  intros Hi. unfold mid_plines, error_pieces, msg_pieces. cbn [flat_map]. rewrite !shown_line_blank, !shown_line_named.
  destruct (Z.ltb_spec 0 ind); [|lia]. rewrite <- ?app_assoc. cbn [app]. rewrite <- ?app_assoc. reflexivity.
Qed.
(* from the pieces of the trace lines and of the snippet lines, decorated (ESC-free inputs) or not *)
Theorem full_bytes_of_pieces sty c o x tr_p sn_p :
  out_ok sty o -> resolvable sty st_error -> resolvable sty st_b -> (0 <= o_indent o)%Z -> x_frames x <> [] ->
  let ind := (o_indent o + 2)%Z in
  render_trace c ind (x_frames x) = Ok (map pline_w tr_p) -> Forall (fun p => pieces_ok sty (snd p)) tr_p ->
  render_snippet c ind (last (x_frames x) dflt_frame) = Ok (map pline_w sn_p) -> Forall (fun p => pieces_ok sty (snd p)) sn_p ->
  (decorated o = true -> inputs_ne c x) ->
  exists w, render c false o x = Ok (o_buf o ++ w) /\
    (if decorated o then strip_sgr w else w)
    = flat_map shown_line tr_p
        ++ [NL] ++ spaces ind ++ shown (ind_text ind (x_name x)) ++ [NL]
        ++ [NL] ++ spaces ind ++ shown (ind_text ind (msg_text (x_msg x))) ++ [NL]
        ++ flat_map shown_line sn_p.
Proof.
  intros Ho Herr Hb Hi Hne ind ET Htr ES Hsn Hin.
  pose proof (render_lines_full c (o_indent o) x tr_p sn_p Hne ET ES) as HL. fold ind in HL.
  destruct (written_buffer sty o _ _ HL Ho) as (w & HR & HV).
  { apply Forall_app. split; [exact Htr|]. apply Forall_app. split; [apply mid_plines_ok; assumption|exact Hsn]. }
  exists w. split; [exact HR|]. rewrite HV.
  - rewrite !flat_map_app, shown_mid by (unfold ind; lia). rewrite <- ?app_assoc. reflexivity.
  - intros Hd. apply pieces_lines_noesc, (lines_noesc c false (o_indent o) x _ (Hin Hd) HL).
Qed.
Theorem full_bytes_total sty c o x :
  out_ok sty o -> resolvable sty st_error -> resolvable sty st_b -> decorated o = false -> (0 <= o_indent o)%Z ->
  x_frames x <> [] ->
  let ind := (o_indent o + 2)%Z in
  exists tr_p sn_p,
    render_trace c ind (x_frames x) = Ok (map pline_w tr_p) /\
    render_snippet c ind (last (x_frames x) dflt_frame) = Ok (map pline_w sn_p) /\
    render c false o x
    = Ok (o_buf o ++ flat_map shown_line tr_p
            ++ [NL] ++ spaces ind ++ shown (ind_text ind (x_name x)) ++ [NL]
            ++ [NL] ++ spaces ind ++ shown (ind_text ind (msg_text (x_msg x))) ++ [NL]
            ++ flat_map shown_line sn_p).
Proof.
  intros Ho Herr Hb Hd Hi Hne ind.
  destruct (render_trace_pieces sty c Herr Hb ind (x_frames x)) as (tr_p & ET & Htr).
  destruct (render_snippet_pieces sty c Herr Hb ind (last (x_frames x) dflt_frame)) as (sn_p & ES & Hsn).
  exists tr_p, sn_p. split; [exact ET|]. split; [exact ES|].
  destruct (full_bytes_of_pieces sty c o x tr_p sn_p Ho Herr Hb Hi Hne ET Htr ES Hsn) as (w & HR & HV); [rewrite Hd; discriminate|].
  rewrite Hd in HV. rewrite HV in HR. exact HR.
Qed.
Theorem full_bytes sty c o x bytes :
  out_ok sty o -> resolvable sty st_error -> resolvable sty st_b -> decorated o = false -> (0 <= o_indent o)%Z ->
  x_frames x <> [] -> render c false o x = Ok bytes ->
  let ind := (o_indent o + 2)%Z in
  exists tr_p sn_p,
    render_trace c ind (x_frames x) = Ok (map pline_w tr_p) /\
    render_snippet c ind (last (x_frames x) dflt_frame) = Ok (map pline_w sn_p) /\
    bytes = o_buf o ++ flat_map shown_line tr_p
              ++ [NL] ++ spaces ind ++ shown (ind_text ind (x_name x)) ++ [NL]
              ++ [NL] ++ spaces ind ++ shown (ind_text ind (msg_text (x_msg x))) ++ [NL]
              ++ flat_map shown_line sn_p.
Proof.
  intros Ho Herr Hb Hd Hi Hne HR ind.
  destruct (full_bytes_total sty c o x Ho Herr Hb Hd Hi Hne) as (tr_p & sn_p & ET & ES & HB). fold ind in ET, ES, HB.
  exists tr_p, sn_p. split; [exact ET|]. split; [exact ES|]. rewrite HB in HR. injection HR as <-. reflexivity.
Qed.
(* the source of the failing frame cannot be read or tokenized: after the message block the report has the blank line
   and the location line  "at file:line in function"  - and no snippet lines *)
Definition at_pieces (c : tcfg) (f : frame) : list piece := PRaw [97;116;32]%N :: loc_pieces c st_green f.
Lemma at_line_pieces c f : s_at ++ location c st_green f = line_str (at_pieces c f).
Proof.
  rewrite at_line_eq. unfold at_pieces. change (line_str (PRaw [97;116;32]%N :: loc_pieces c st_green f))
    with ([97;116;32]%N ++ line_str (loc_pieces c st_green f)). now rewrite <- location_pieces.
Qed.
Lemma at_pieces_ok sty c f : resolvable sty st_b -> pieces_ok sty (at_pieces c f).
Proof. intros Hb. constructor; [cbn [piece_ok]; safe_by_compute|]. apply (loc_pieces_ok sty Hb). inline_in. Qed.
Lemma render_snippet_unreadable_pieces c ind f : ~ tok_ok (f_content f) ->
  render_snippet c ind f = Ok (map pline_w [(ind, []); (ind, at_pieces c f)]).
Proof.
  intros H. rewrite (render_snippet_unreadable c ind f H). unfold render_line, pline_w. cbn [map fst snd app repeat Z.to_nat].
  now rewrite at_line_pieces.
Qed.
Theorem full_bytes_unreadable sty c o x :
  out_ok sty o -> resolvable sty st_error -> resolvable sty st_b -> decorated o = false -> (0 <= o_indent o)%Z ->
  x_frames x <> [] -> ~ tok_ok (f_content (last (x_frames x) dflt_frame)) ->
  let ind := (o_indent o + 2)%Z in
  exists tr_p,
    render_trace c ind (x_frames x) = Ok (map pline_w tr_p) /\
    render c false o x
    = Ok (o_buf o ++ flat_map shown_line tr_p
            ++ [NL] ++ spaces ind ++ shown (ind_text ind (x_name x)) ++ [NL]
            ++ [NL] ++ spaces ind ++ shown (ind_text ind (msg_text (x_msg x))) ++ [NL]
            ++ [NL] ++ shown_line (ind, at_pieces c (last (x_frames x) dflt_frame))).
Proof.
  intros Ho Herr Hb Hd Hi Hne Hun ind.
  destruct (render_trace_pieces sty c Herr Hb ind (x_frames x)) as (tr_p & ET & Htr). exists tr_p. split; [exact ET|].
  destruct (full_bytes_of_pieces sty c o x tr_p [(ind, []); (ind, at_pieces c (last (x_frames x) dflt_frame))] Ho Herr Hb Hi Hne ET Htr)
    as (w & HR & HV).
  - apply render_snippet_unreadable_pieces, Hun.
  - constructor; [constructor|]. constructor; [apply at_pieces_ok, Hb|constructor].
  - rewrite Hd. discriminate.
  - rewrite Hd in HV. rewrite HV in HR. rewrite HR. cbn [flat_map]. rewrite shown_line_blank, app_nil_r. reflexivity.
Qed.
(* class names hold no line break: the class-name line is the name itself, between two blank lines *)
Corollary full_bytes_name sty c o x bytes :
  out_ok sty o -> resolvable sty st_error -> resolvable sty st_b -> decorated o = false -> (0 <= o_indent o)%Z ->
  x_frames x <> [] -> no_nl (x_name x) -> render c false o x = Ok bytes ->
  let ind := (o_indent o + 2)%Z in
  exists pre post, (pre = [] \/ exists pre', pre = pre' ++ [NL]) /\
    bytes = o_buf o ++ pre ++ [NL] ++ spaces ind ++ shown (x_name x) ++ [NL] ++ [NL]
              ++ spaces ind ++ shown (ind_text ind (msg_text (x_msg x))) ++ [NL] ++ post.
Proof.
  intros Ho Herr Hb Hd Hi Hne Hn HR ind.
  destruct (full_bytes sty c o x bytes Ho Herr Hb Hd Hi Hne HR) as (tr_p & sn_p & _ & _ & E). fold ind in E.
  rewrite (ind_text_no_nl ind _ Hn) in E. exists (flat_map shown_line tr_p), (flat_map shown_line sn_p). split; [|exact E].
  destruct tr_p as [|p r] using rev_ind; [left; reflexivity|right]. rewrite flat_map_app. cbn [flat_map]. unfold shown_line at 2.
  rewrite app_nil_r, app_assoc. eexists. reflexivity.
Qed.
(* a one-line message is shown as it is *)
Corollary full_bytes_one_line sty c o x bytes :
  out_ok sty o -> resolvable sty st_error -> resolvable sty st_b -> decorated o = false -> (0 <= o_indent o)%Z ->
  x_frames x <> [] -> no_nl (x_name x) -> no_nl (x_msg x) -> render c false o x = Ok bytes ->
  let ind := (o_indent o + 2)%Z in
  exists pre post, (pre = [] \/ exists pre', pre = pre' ++ [NL]) /\
    bytes = o_buf o ++ pre ++ [NL] ++ spaces ind ++ shown (x_name x) ++ [NL] ++ [NL] ++ spaces ind ++ shown (x_msg x) ++ [NL] ++ post.
Proof.
  intros Ho Herr Hb Hd Hi Hne Hn Hm HR ind.
  destruct (full_bytes_name sty c o x bytes Ho Herr Hb Hd Hi Hne Hn HR) as (pre & post & Hpre & E). fold ind in E.
  unfold msg_text in E. rewrite (replace_nl_no_nl _ _ Hm), (ind_text_no_nl ind _ Hm) in E. exists pre, post. split; [exact Hpre|exact E].
Qed.

(* "error" is one of pastel's own styles: every formatter clikit builds (ANSI or plain) resolves it, whatever the style
   set; "b" resolves once a style with that tag is in the set *)
Lemma register_keeps n : forall l sty sty', register l sty = Ok sty' ->
  (exists w, aget str_eqb n sty = Some w) -> exists w, aget str_eqb n sty' = Some w.
Proof.
  induction l as [|[t c] r IH]; intros sty sty' H Hn; cbn [register] in H; [injection H as <-; exact Hn|].
  destruct (convert c) as [p|e]; cbn [bind] in H; [|discriminate]. apply (IH _ _ H). apply (aset_keeps _ StrLemmas.str_eqb_spec), Hn.
Qed.
Lemma registered_resolvable sty tag : py_lower tag = tag -> (exists w, aget str_eqb tag sty = Some w) -> resolvable sty tag.
Proof. intros E (w & H). exists w. unfold resolve. now rewrite E, H. Qed.
(* an ANSI or plain formatter: the styles of the set registered on top of pastel's own, an empty stack *)
Lemma new_formatter_inv k set f : new_formatter k set = Ok f -> k <> FNull ->
  exists ss, style_set set [] = Ok ss /\ register ss pastel_defaults = Ok (f_styles f) /\ f_kind f = k /\ f_stack f = [].
Proof.
  intros H Hk. unfold new_formatter in H.
  assert ((do ss <- style_set set []; do sty <- register ss pastel_defaults; Ok {| f_kind := k; f_styles := sty; f_stack := [] |}) = Ok f) as H'
    by (destruct k; [exact H|exact H|congruence]). clear H.
  destruct (style_set set []) as [ss|e]; cbn [bind] in H'; [|discriminate].
  destruct (register ss pastel_defaults) as [sty|e] eqn:ER; cbn [bind] in H'; [|discriminate]. injection H' as <-. exists ss. repeat split. exact ER.
Qed.
Theorem new_formatter_error k set f : new_formatter k set = Ok f -> k <> FNull -> resolvable (f_styles f) st_error.
Proof.
  intros H Hk. destruct (new_formatter_inv k set f H Hk) as (ss & _ & ER & _). apply registered_resolvable; [reflexivity|].
  apply (register_keeps st_error ss pastel_defaults _ ER). eexists. reflexivity.
Qed.
Theorem add_style_b f c f' : f_kind f <> FNull -> c_tag c = Some st_b -> add_style f c = Ok f' -> resolvable (f_styles f') st_b.
Proof.
  intros Hk Ht H. apply registered_resolvable; [reflexivity|]. unfold add_style in H.
  destruct (f_kind f) eqn:EK; [| |congruence]; (destruct (convert c) as [p|e]; cbn [bind] in H; [|discriminate]); rewrite Ht in H;
    injection H as <-; cbn [f_styles]; rewrite (aget_aset _ StrLemmas.str_eqb_spec); cbn; eexists; reflexivity.
Qed.

Module RenderExamples.
Import LiteralLemmas.Examples.
(* clikit's <error> (white on red) and <b> (bold), registered on top of pastel's own styles *)
Definition cs_error : cstyle :=
  {| c_tag := Some st_error; c_fg := Some [119;104;105;116;101]%N; c_bg := Some [114;101;100]%N; c_bold := false; c_italic := false;
     c_dark := false; c_underlined := false; c_blinking := false; c_inverse := false; c_hidden := false |}.
Definition null_fmt : formatter := {| f_kind := FNull; f_styles := []; f_stack := [] |}.
Definition demo_fmt (k : fkind) : formatter := match new_formatter k [cs_b; cs_error] with Ok f => f | Err _ => null_fmt end.
Definition demo_out (k : fkind) (on : bool) (ind : Z) : outp :=
  {| o_indent := ind; o_on := on; o_sec := false; o_fmt := demo_fmt k; o_buf := [] |}.
Definition tk k s sr sc er ec ln := {| tk_kind := k; tk_kw := false; tk_bi := false; tk_str := s; tk_srow := sr; tk_scol := sc;
                                       tk_erow := er; tk_ecol := ec; tk_line := ln |}.
(* the file "x<NL>": a name and the end marker *)
Definition demo_toks : list token := [tk TkOther [120%N] 1 0 1 1 [120;10]%N; tk TkEnd [] 2 0 2 0 []].
(* a frame of a.py, line 1, in a function called <f> *)
Definition demo_frame : frame :=
  {| f_file := [97;46;112;121]%N; f_ignored := false; f_lineno := 1; f_func := [60;102;62]%N; f_line := [120%N];
     f_content := TokOk demo_toks; f_linetoks := TokOk demo_toks |}.
Definition demo_cfg (v : bool) : tcfg := {| t_verbose := v; t_debug := false; t_utf8 := false; t_cwd := []; t_home := []; t_sep := 47%N |}.
(* the class  B</error>  raised with the message  <b>x\  *)
Definition demo_name : str := [66;60;47;101;114;114;111;114;62]%N.
Definition demo_msg : str := [60;98;62;120;92]%N.
Definition demo_x (fs : list frame) : exn_case := {| x_name := demo_name; x_msg := demo_msg; x_frames := fs |}.
Definition demo_sty2 : styles := f_styles (demo_fmt FPlain).

Example demo_out_ok k on ind : k <> FNull -> out_ok demo_sty2 (demo_out k on ind).
Proof. intros Hk. destruct k as [b| |]; [| |congruence]; (split; [reflexivity|]; split; [discriminate|]; split; reflexivity). Qed.
Example demo_error : resolvable demo_sty2 st_error. Proof. eexists. vm_compute. reflexivity. Qed.
Example demo_b : resolvable demo_sty2 st_b. Proof. eexists. vm_compute. reflexivity. Qed.

(* the lines of a verbose two-frame report are good; one of them in full *)
Example ex_lines_good ls : render_lines (demo_cfg true) false 0 (demo_x [demo_frame; demo_frame]) = Ok ls ->
  Forall (fun wl => good_line demo_sty2 (snd wl)) ls.
Proof. apply (render_lines_good demo_sty2 demo_error demo_b). Qed.
Example ex_frame_line :
  frame_line (demo_cfg true) 1 demo_frame 1
  = line_str (PLit st_yellow [49%N] :: PRaw [32;32]%N :: loc_pieces (demo_cfg true) th_builtin demo_frame).
Proof. vm_compute. reflexivity. Qed.

Example ex_indent : indent_text 2 (line_str (msg_pieces (demo_x []))) = line_str (ind_pieces 2 true (msg_pieces (demo_x []))).
Proof. apply (indent_text_pieces demo_sty2), (msg_pieces_ok demo_sty2 demo_b). Qed.
Example ex_indent_nl : (* a text with line breaks between two tags:  <b>a NL NL b NL</b>  *)
  indent_text 2 (line_str [PNamed st_b [97;10;10;98;10]%N]) = line_str [PRaw [32;32]%N; PNamed st_b [97;10;10;32;32;98;10;32;32]%N].
Proof. vm_compute. reflexivity. Qed.

(* render does not fail - plain (whatever the frames) and decorated *)
Example ex_never_fails_plain v simple fs : exists bytes, render (demo_cfg v) simple (demo_out FPlain false 0) (demo_x fs) = Ok bytes.
Proof. apply (render_never_fails_any demo_sty2); [apply demo_out_ok; discriminate|apply demo_error|apply demo_b]. Qed.
Example ex_never_fails_ansi : exists bytes, render (demo_cfg true) false (demo_out (FAnsi false) true 0) (demo_x [demo_frame; demo_frame]) = Ok bytes.
Proof. apply (render_never_fails_any demo_sty2); [apply demo_out_ok; discriminate|apply demo_error|apply demo_b]. Qed.
(* the same from the inputs: no ESC in the names, the message and the source *)
Example ex_inputs_ne : inputs_ne (demo_cfg true) (demo_x [demo_frame; demo_frame]).
Proof.
  assert (frame_ne demo_frame) as Hf by (repeat split; repeat constructor; discriminate).
  split; [discriminate|]. split; [repeat constructor; discriminate|]. split; [repeat constructor; discriminate|]. constructor; [exact Hf|]. constructor; [exact Hf|constructor].
Qed.
Example ex_never_fails_ansi_inputs simple :
  exists bytes, render (demo_cfg true) simple (demo_out (FAnsi false) true 4) (demo_x [demo_frame; demo_frame]) = Ok bytes.
Proof.
  apply (render_never_fails_unconditionally demo_sty2); [apply demo_out_ok; discriminate|apply demo_error|apply demo_b|].
  intros _. apply ex_inputs_ne.
Qed.
(* a file that tokenize rejects (TokenError: the file was edited after it was loaded) or that cannot even be read
   (another exception: UnicodeDecodeError on a latin-1 file) - and the same for the frame's own line: the report is
   produced, without snippet lines; the frame's line is shown plain *)
Definition bad_frame : frame :=
  {| f_file := [97;46;112;121]%N; f_ignored := false; f_lineno := 1; f_func := [102%N]; f_line := [120%N];
     f_content := TokError; f_linetoks := TokError |}.
Definition bad_frame2 : frame :=
  {| f_file := [98;46;112;121]%N; f_ignored := false; f_lineno := 7; f_func := [103%N]; f_line := [32;32;121;32;60;32;49;32]%N;
     f_content := TokOtherExc; f_linetoks := TokOtherExc |}.
Example ex_bad_not_ok : ~ tok_ok (f_content bad_frame) /\ ~ tok_ok (f_content bad_frame2).
Proof. split; intros (toks & H); discriminate. Qed.
(* the part every full report of demo_x has: blank, class name, blank, message *)
Definition ex_head : str := [NL] ++ [32;32]%N ++ demo_name ++ [NL] ++ [NL] ++ [32;32]%N ++ demo_msg ++ [32%N] ++ [NL].
(* the write_line calls: blank, class name, blank, message, blank, "at a.py:1 in f" - and that is all: no snippet lines *)
Example ex_unreadable_lines :
  render_lines (demo_cfg false) false 0 (demo_x [bad_frame])
  = Ok [(2, []); (2, name_line (demo_x [])); (2, []); (2, msg_line (demo_x [])); (2, []);
        (2, s_at ++ location (demo_cfg false) st_green bad_frame)]%Z.
Proof. vm_compute. reflexivity. Qed.
Example ex_unreadable_vm :          (* TokenError *)
  render (demo_cfg false) false (demo_out FPlain false 0) (demo_x [bad_frame])
  = Ok (ex_head ++ [10;32;32;97;116;32;97;46;112;121;58;49;32;105;110;32;102;10]%N).                 (*   at a.py:1 in f *)
Proof. vm_compute. reflexivity. Qed.
Example ex_unreadable_other_vm :    (* another exception: the file cannot be read *)
  render (demo_cfg false) false (demo_out FPlain false 0) (demo_x [bad_frame2])
  = Ok (ex_head ++ [10;32;32;97;116;32;98;46;112;121;58;55;32;105;110;32;103;10]%N).                 (*   at b.py:7 in g *)
Proof. vm_compute. reflexivity. Qed.
(* the same through the theorem *)
Example ex_unreadable_thm :
  render (demo_cfg false) false (demo_out FPlain false 0) (demo_x [bad_frame])
  = Ok (ex_head ++ [NL] ++ shown_line (2%Z, at_pieces (demo_cfg false) bad_frame)).
Proof.
  destruct (full_bytes_unreadable demo_sty2 (demo_cfg false) (demo_out FPlain false 0) (demo_x [bad_frame])
              (demo_out_ok FPlain false 0 ltac:(discriminate)) demo_error demo_b eq_refl ltac:(cbn; lia) ltac:(discriminate) (proj1 ex_bad_not_ok))
    as (tr_p & ET & HR).
  assert (tr_p = []) as ->.
  { assert (render_trace (demo_cfg false) (o_indent (demo_out FPlain false 0) + 2) (x_frames (demo_x [bad_frame])) = Ok []) as E0
      by (vm_compute; reflexivity).
    rewrite E0 in ET. destruct tr_p; [reflexivity|cbn [map] in ET; discriminate ET]. }
  rewrite HR. vm_compute. reflexivity.
Qed.
(* -v, three frames: under the frame of b.py its line as it is (stripped, the "<" shown), no snippet at the end *)
Example ex_unreadable_verbose_vm :
  render (demo_cfg true) false (demo_out FPlain false 0) (demo_x [bad_frame2; demo_frame; bad_frame])
  = Ok ([10;32;32;83;116;97;99;107;32;116;114;97;99;101;58;10]%N                                      (*   Stack trace: *)
        ++ [10;32;32;50;32;32;98;46;112;121;58;55;32;105;110;32;103;10]%N                             (*   2  b.py:7 in g *)
        ++ [32;32;32;32;32;121;32;60;32;49;10]%N                                                      (*      y < 1 *)
        ++ [10;32;32;49;32;32;97;46;112;121;58;49;32;105;110;32;60;102;62;10]%N                       (*   1  a.py:1 in <f> *)
        ++ [32;32;32;32;32;120;10]%N                                                                  (*      x *)
        ++ ex_head ++ [10;32;32;97;116;32;97;46;112;121;58;49;32;105;110;32;102;10]%N).               (*   at a.py:1 in f *)
Proof. vm_compute. reflexivity. Qed.
(* -vvv: the snippet under the frame whose file tokenizes, nothing under the frame whose file cannot be read *)
Definition demo_cfg_debug : tcfg := {| t_verbose := true; t_debug := true; t_utf8 := false; t_cwd := []; t_home := []; t_sep := 47%N |}.
Example ex_unreadable_debug_vm :
  render demo_cfg_debug false (demo_out FPlain false 0) (demo_x [bad_frame2; demo_frame; bad_frame])
  = Ok ([10;32;32;83;116;97;99;107;32;116;114;97;99;101;58;10]%N                                      (*   Stack trace: *)
        ++ [10;32;32;50;32;32;98;46;112;121;58;55;32;105;110;32;103;10]%N                             (*   2  b.py:7 in g *)
        ++ [10;32;32;49;32;32;97;46;112;121;58;49;32;105;110;32;60;102;62;10]%N                       (*   1  a.py:1 in <f> *)
        ++ [32;32;32;32;62;32;32;32;49;124;32;120;10]%N                                               (*     >   1| x *)
        ++ ex_head ++ [10;32;32;97;116;32;97;46;112;121;58;49;32;105;110;32;102;10]%N).               (*   at a.py:1 in f *)
Proof. vm_compute. reflexivity. Qed.
(* decorated as well: the same text under the escape codes *)
Example ex_unreadable_ansi_vm :
  match render (demo_cfg true) false (demo_out (FAnsi false) true 0) (demo_x [bad_frame2; demo_frame; bad_frame]),
        render (demo_cfg true) false (demo_out FPlain false 0) (demo_x [bad_frame2; demo_frame; bad_frame]) with
  | Ok b, Ok p => strip_sgr b = p /\ b <> p
  | _, _ => False
  end.
Proof. vm_compute. split; [reflexivity|discriminate]. Qed.
(* the bytes.  Simple mode: the message with a blank after its trailing backslash *)
Example ex_simple : render (demo_cfg false) true (demo_out FPlain false 0) (demo_x [demo_frame]) = Ok (demo_msg ++ [32; NL]%N).
Proof. rewrite (simple_bytes_unindented demo_sty2); [reflexivity|apply demo_out_ok; discriminate|apply demo_error|reflexivity|cbn; lia]. Qed.
Example ex_simple_vm : render (demo_cfg false) true (demo_out FPlain false 0) (demo_x [demo_frame]) = Ok (demo_msg ++ [32; NL]%N).
Proof. vm_compute. reflexivity. Qed.
Example ex_simple_indented : render (demo_cfg false) true (demo_out FPlain false 3) (demo_x [demo_frame]) = Ok ([32;32;32]%N ++ demo_msg ++ [32; NL]%N).
Proof.
  rewrite (simple_bytes_one_line demo_sty2); [reflexivity|apply demo_out_ok; discriminate|apply demo_error|reflexivity|].
  repeat constructor; discriminate.
Qed.
(* full mode, through the theorem and by computation *)
Example ex_full : exists pre post, (pre = [] \/ exists pre', pre = pre' ++ [NL]) /\
  render (demo_cfg false) false (demo_out FPlain false 0) (demo_x [demo_frame])
  = Ok (pre ++ [NL] ++ [32;32]%N ++ demo_name ++ [NL] ++ [NL] ++ [32;32]%N ++ demo_msg ++ [32%N] ++ [NL] ++ post).
Proof.
  destruct (render (demo_cfg false) false (demo_out FPlain false 0) (demo_x [demo_frame])) as [b|e] eqn:E; [|vm_compute in E; discriminate].
  assert (no_nl demo_name) as Hn by (repeat constructor; discriminate).
  assert (no_nl demo_msg) as Hm by (repeat constructor; discriminate).
  destruct (full_bytes_one_line demo_sty2 (demo_cfg false) (demo_out FPlain false 0) (demo_x [demo_frame]) b
              (demo_out_ok FPlain false 0 ltac:(discriminate)) demo_error demo_b eq_refl ltac:(cbn; lia) ltac:(discriminate) Hn Hm E)
    as (pre & post & Hpre & Eb).
  exists pre, post. split; [exact Hpre|]. rewrite Eb. reflexivity.
Qed.
Example ex_full_vm :
  render (demo_cfg false) false (demo_out FPlain false 0) (demo_x [demo_frame])
  = Ok ([NL] ++ [32;32]%N ++ demo_name ++ [NL] ++ [NL] ++ [32;32]%N ++ demo_msg ++ [32%N] ++ [NL]
        ++ [NL] ++ [32;32;97;116;32;97;46;112;121;58;49;32;105;110;32;60;102;62;10]%N      (*   at a.py:1 in <f> *)
        ++ [32;32;32;32;62;32;32;32;49;124;32;120;10]%N).                                  (*     >   1| x *)
Proof. vm_compute. reflexivity. Qed.
End RenderExamples.

Print Assumptions render_lines_good.
Print Assumptions indent_good_ne.
Print Assumptions write_pieces.
Print Assumptions lines_noesc.
Print Assumptions render_never_fails_unconditionally.
Print Assumptions new_formatter_error.
Print Assumptions simple_bytes.
Print Assumptions full_bytes_of_pieces.
Print Assumptions full_bytes_total.
Print Assumptions full_bytes.
Print Assumptions full_bytes_unreadable.
Print Assumptions full_bytes_one_line.
