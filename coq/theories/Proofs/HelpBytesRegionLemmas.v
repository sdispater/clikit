(* C13, the rendered text of a page in the proven region (layout_ok: every text that holds a "<" has only words that fit its
   wrap width, no hyphen in a tag name), through the plain formatter: WHITE SPACE ASIDE, what is written for an element is the
   visible form of its label followed by the visible form of its text - nothing is lost, nothing is added.  (vis x: the
   undecorated rendering of x, its white space dropped.)  Hence a word found in a section of the page is a word of one of the
   section's elements (section_words; COMMANDS, AVAILABLE COMMANDS).  At the end, infixb decides "is a piece of". *)
From Coq Require Import Lia.
From Clikit Require Import Base.Prelude Base.Res Model.Conv Model.Flags Model.Format Model.Markup Model.Wrap Model.Help.
From Clikit Require Import Proofs.WrapLemmas Proofs.HelpLemmas Proofs.MarkupLemmas Proofs.LiteralLemmas Proofs.MarkupShrinkLemmas
  Proofs.HelpPlainLemmas Proofs.HelpCleanLemmas Proofs.HelpRenderLemmas Proofs.HelpBytesLemmas Proofs.ListLemmas.

Definition done_gt (st : lexst) : Prop := Forall (fun sg => exists r, raw_text (snd sg) = r ++ [GT]) (l_done st).
Lemma lex_step_done_gt st c : done_gt st -> done_gt (lex_step st c).
Proof.
  intros H. destruct (lex_step_shape st c) as [[_ ->]|[[_ ->]|[(k & _ & _ & _ & ->)|(cl & nm & _ & ->)]]];
    unfold done_gt, mk; cbn [l_done]; auto.
  apply Forall_app. split; [exact H|]. constructor; [|constructor]. cbn [snd raw_text]. eexists. reflexivity.
Qed.
Lemma fold_done_gt m : forall st, done_gt st -> done_gt (fold_left lex_step m st).
Proof. induction m as [|c r IH]; intros st H; cbn [fold_left]; [exact H|]. apply IH, lex_step_done_gt, H. Qed.
Lemma scan_done_gt a : done_gt (scan a).
Proof. apply fold_done_gt. constructor. Qed.
Lemma scan_tagish a : lex_tagish (scan a).
Proof. apply lex_fold_tagish, lex_init_tagish. Qed.

Section Vis.
Variable sty : styles.

Lemma plain_segs_ends : forall d first, Forall (fun sg => exists r, raw_text (snd sg) = r ++ [GT]) d ->
  ends_with_bsl (plain_segs sty false first d) = false.
Proof.
  induction d as [|[pre t] r IH]; intros first H; [reflexivity|]. inversion H as [|? ? (r0 & Hr0) Hr]; subst. cbn [snd] in Hr0.
  cbn [plain_segs]. rewrite ends_app. destruct (kept sty (esc_of false first pre) t ++ plain_segs sty false false r) as [|z zs] eqn:E.
  - apply app_eq_nil in E as [E _]. unfold kept in E. rewrite Hr0 in E.
    destruct (esc_of false first pre || negb (recognised sty t)) eqn:Ec; [destruct r0; discriminate|].
    apply orb_false_elim in Ec as [Ec _]. now rewrite esc_of_false in Ec.
  - rewrite <- E, ends_app. destruct (plain_segs sty false false r) as [|y ys] eqn:Ep.
    + rewrite app_nil_r in E. unfold kept in *. destruct (esc_of false first pre || negb (recognised sty t)); [|discriminate].
      rewrite Hr0. now rewrite ends_snoc.
    + rewrite <- Ep. now apply IH.
Qed.
(* the output of a scanner started behind finished tags d and pending text c, position-0 rule off: the pending text must not end
   with a backslash - unless the first tag found behind it has text of its own in front *)
Lemma wout_glue0 d c st :
  (ends_with_bsl c = false \/ match l_done st with (p, _) :: _ => p <> [] | [] => True end) ->
  wout sty false (glue d c st) = plain_segs sty false true d ++ c ++ wout sty false st.
Proof.
  intros Hc. unfold wout, glue, mk. destruct (l_done st) as [|[p t] r]; cbn [l_done l_cur l_cand plain_segs app].
  - now rewrite <- !app_assoc.
  - rewrite plain_segs_app. cbn [plain_segs]. rewrite !esc_of_false, ends_app.
    assert (match p with [] => ends_with_bsl c | _ => ends_with_bsl p end = ends_with_bsl p) as ->.
    { destruct p; [|reflexivity]. destruct Hc as [Hc|Hc]; [exact Hc|congruence]. }
    now rewrite <- !app_assoc.
Qed.
Lemma wout_glue_head y0 c st : exists z, wout sty false (glue [] (y0 :: c) st) = y0 :: z.
Proof.
  unfold wout, glue, mk. destruct (l_done st) as [|[p t] r]; cbn [l_done l_cur l_cand plain_segs app]; eexists; reflexivity.
Qed.
Lemma scan_cons_text y0 Y : y0 <> LT -> scan (y0 :: Y) = glue [] [y0] (scan Y).
Proof.
  intros H. unfold scan. cbn [fold_left]. now rewrite (step_init y0 H), <- glue_init, glue_fold.
Qed.

(* the undecorated rendering of X ++ y0 :: Y is that of X followed by that of y0 :: Y when y0 neither continues a tag candidate
   pending behind X nor is a "<" directly behind a backslash (safe_cut) *)
Theorem plain_of_cut X y0 Y : safe_cut (scan X) y0 = true ->
  plain_of sty false (X ++ y0 :: Y) = plain_of sty false X ++ plain_of sty false (y0 :: Y).
Proof.
  intros Hsafe. pose proof (scan_tagish X) as Ht. pose proof (scan_done_gt X) as Hg. set (st := scan X) in *.
  unfold safe_cut in Hsafe. apply andb_prop in Hsafe as [Hc Hl]. apply negb_true_iff in Hc. apply negb_true_iff in Hl.
  pose proof (raw_ends st Ht) as Hraw. set (c' := l_cur st ++ raw_of (l_cand st)).
  (* y0 abandons the candidate pending behind X: its raw text joins the pending text (c'), and y0 :: Y is scanned as from the start *)
  assert (scan (X ++ y0 :: Y) = glue (l_done st) c' (scan (y0 :: Y))) as EB.
  { unfold scan at 1. rewrite fold_left_app. fold (scan X). fold st. cbn [fold_left]. rewrite (cut_step st y0 Hc), glue_fold. reflexivity. }
  assert (ends_with_bsl c' = false \/ y0 <> LT) as Hc'.
  { destruct (N.eqb_spec y0 LT) as [->|Hne]; [left|now right]. change (N.eqb LT LT) with true in Hl. cbn [andb] in Hl. subst c'.
    destruct (l_cand st) eqn:Ek; [cbn [raw_of]; now rewrite app_nil_r| | |];
      (apply ends_false_app; [exact Hraw|discriminate]). }
  (* so the output before unescape splits there, and unescape splits too: a backslash at the end of the first part is not followed by "<" *)
  assert (wout_of sty false (X ++ y0 :: Y) = wout_of sty false X ++ wout_of sty false (y0 :: Y)) as EC.
  { unfold wout_of. fold (scan (X ++ y0 :: Y)) (scan X) (scan (y0 :: Y)). fold st. rewrite EB, wout_glue0.
    - unfold wout at 2. subst c'. now rewrite <- !app_assoc.
    - destruct Hc' as [Hc'|Hne]; [now left|right]. rewrite (scan_cons_text y0 Y Hne), glue_done.
      destruct (l_done (scan Y)) as [|[p t] r]; [exact I|discriminate]. }
  unfold plain_of. fold (wout_of sty false (X ++ y0 :: Y)) (wout_of sty false X) (wout_of sty false (y0 :: Y)). rewrite EC.
  apply unescape_app. destruct (N.eqb_spec y0 LT) as [->|Hne].
  - left. unfold wout_of. fold (scan X). fold st. unfold wout. subst c'. rewrite ends_app.
    destruct (l_cur st ++ raw_of (l_cand st)) as [|z zs] eqn:Ec; [apply plain_segs_ends, Hg|].
    destruct Hc' as [Hc'|Hc']; [exact Hc'|congruence].
  - right. unfold wout_of. fold (scan (y0 :: Y)). rewrite (scan_cons_text y0 Y Hne).
    destruct (wout_glue_head y0 [] (scan Y)) as [z ->]. exact Hne.
Qed.

Definition vis (x : str) : str := filter nsp (plain_of sty false x).
Lemma vis_nil : vis [] = []. Proof. reflexivity. Qed.
Lemma vis_blank_suffix x t : Forall (fun c => is_space c = true) t -> vis (x ++ t) = vis x.
Proof.
  intros Ht. unfold vis. rewrite !plain_of_render, render_inert_suffix by now apply inert_blank.
  now rewrite filter_app, (filter_nsp_spaces t Ht), app_nil_r.
Qed.
Lemma vis_blank_prefix t x : Forall (fun c => is_space c = true) t -> vis (t ++ x) = vis x.
Proof. intros Ht. unfold vis. rewrite plain_of_inert_prefix by now apply inert_blank. now rewrite filter_app, (filter_nsp_spaces t Ht). Qed.
Lemma vis_sep x r y : r <> [] -> Forall (fun c => is_space c = true) r -> vis (x ++ r ++ y) = vis x ++ vis y.
Proof.
  intros Hne Hr. destruct r as [|r1 r']; [congruence|]. inversion Hr as [|? ? H1 H2]; subst. cbn [app].
  unfold vis. rewrite (plain_of_sep sty false x r1 (r' ++ y) (inert_space r1 H1)).
  rewrite plain_of_inert_prefix by now apply inert_blank.
  change (plain_of sty false x ++ r1 :: r' ++ plain_of sty false y) with (plain_of sty false x ++ (r1 :: r') ++ plain_of sty false y).
  now rewrite !filter_app, (filter_nsp_spaces (r1 :: r') Hr).
Qed.
Lemma vis_cut X y0 Y : safe_cut (scan X) y0 = true -> vis (X ++ y0 :: Y) = vis X ++ vis (y0 :: Y).
Proof. intros H. unfold vis. now rewrite (plain_of_cut X y0 Y H), filter_app. Qed.
Lemma vis_text t : no_lt t -> vis t = filter nsp t.
Proof. intros H. unfold vis, plain_of. fold (scan t). rewrite (scan_text t H). unfold wout, mk. cbn [l_done l_cur l_cand plain_segs raw_of app]. now rewrite app_nil_r, unescape_no_lt. Qed.
Lemma vis_nsp x : filter nsp (vis x) = vis x.
Proof.
  unfold vis. induction (plain_of sty false x) as [|c r IH]; [reflexivity|]. cbn [filter]. destruct (nsp c) eqn:E; [|exact IH].
  cbn [filter]. now rewrite E, IH.
Qed.

Lemma vis_join prefix : Forall (fun c => is_space c = true) prefix -> forall lines, vis (join_lines prefix lines) = concat (map vis lines).
Proof.
  intros Hp. induction lines as [|x r IH]; [reflexivity|]. destruct r as [|y r]; [cbn [join_lines map concat]; now rewrite app_nil_r|].
  change (join_lines prefix (x :: y :: r)) with (x ++ (10%N :: prefix) ++ join_lines prefix (y :: r)).
  rewrite vis_sep; [|discriminate|constructor; [reflexivity|exact Hp]]. rewrite IH. reflexivity.
Qed.

(* wrapping a text none of whose words has to be broken, at safe cuts only, keeps the visible characters: the lines lie in the
   text (laid) apart by blanks, which vis drops, or at a safe cut, where the rendering splits *)
Lemma laid_vis u : cuts_ok u -> forall O ls, laid O ls -> forall rest, u = O ++ rest -> concat (map vis ls) = vis O.
Proof.
  intros Hcuts O ls H. induction H as [|R l HR Hl|O ls R l H IH Hls HR HRne Hl|O ls y0 l H IH Hls Hs]; intros rest Hu.
  - reflexivity.
  - cbn [map concat]. now rewrite app_nil_r, vis_blank_prefix.
  - rewrite map_app, concat_app. cbn [map concat]. rewrite app_nil_r, (IH (R ++ l ++ rest)) by now rewrite Hu, <- !app_assoc.
    symmetry. now apply vis_sep.
  - rewrite map_app, concat_app. cbn [map concat]. rewrite app_nil_r, (IH (y0 :: l ++ rest)) by now rewrite Hu, <- app_assoc.
    symmetry. apply vis_cut, (Hcuts O y0 (l ++ rest)); [now rewrite Hu, <- app_assoc|exact (laid_ne O ls H Hls)|exact Hs].
Qed.
Theorem wrap_keeps_visible t w ls : wrap t w = Ok ls -> words_fit w t -> cuts_ok (munge t) ->
  concat (map vis ls) = vis (munge t).
Proof.
  intros H Hfit Hcuts. destruct (wrap_laid t w ls H Hfit) as (O & T & HO & HT & Hlaid).
  rewrite (laid_vis _ Hcuts O ls Hlaid T HO), HO. symmetry. now apply vis_blank_suffix.
Qed.
(* a text without "<": whatever textwrap breaks *)
Lemma wrap_keeps_visible_text t w ls : wrap t w = Ok ls -> no_lt t -> concat (map vis ls) = vis (munge t).
Proof.
  intros Hw Hn. pose proof (munge_no_lt t Hn) as Hm. rewrite (vis_text _ Hm).
  pose proof (wrap_keeps_text_lemma t w ls Hw) as Hk. change (fun c => negb (is_space c)) with nsp in Hk. rewrite <- Hk.
  pose proof (wrap_lines_chars_lemma (fun c => c <> LT) t w ls Hw Hm) as Hl. clear - Hl.
  induction Hl as [|x r Hx _ IH]; [reflexivity|]. cbn [map concat]. now rewrite filter_app, IH, (vis_text x Hx).
Qed.
Lemma text_ok_visible w t ls : wrap t w = Ok ls -> text_ok sty w t -> concat (map vis ls) = vis (munge t).
Proof.
  intros Hw [Hn|(Hf & Hnh & _)]; [now apply (wrap_keeps_visible_text t w ls)|].
  apply (wrap_keeps_visible t w ls Hw Hf). now apply nh_cuts.
Qed.

Definition elem_vis (e : elem) : str := vis (elem_label e) ++ vis (munge (elem_text e)).
Lemma vis_rstrip s : vis (rstrip s) = vis s.
Proof. destruct (rstrip_prefix_space s) as (t & E & Ht). rewrite E at 2. now rewrite vis_blank_suffix. Qed.

Theorem elem_written_visible W off ind e raw : elem_ok sty W off ind e ->
  elem_raw W off ind (vis_of sty (elem_label e)) e = Ok raw -> vis raw = elem_vis e.
Proof.
  intros Hok Hr. destruct e as [t|label text padding aligned|]; unfold elem_vis; cbn [elem_label elem_text elem_ok] in *.
  - destruct (para_raw_shape _ _ _ _ _ _ Hr) as (lines & Hw & ->). rewrite vis_nil. cbn [app].
    rewrite vis_blank_prefix by apply spaces_blank. rewrite vis_blank_suffix by (constructor; [reflexivity|constructor]).
    rewrite vis_rstrip, vis_join by apply spaces_blank. cbn [wrap_width] in Hok.
    exact (text_ok_visible _ _ _ Hw Hok).
  - destruct Hok as (_ & _ & Hpad & Htext). cbn [elem_raw] in Hr. cbv zeta in Hr.
    set (to := Z.max (if aligned then (off - Z.of_nat ind)%Z else 0%Z) (vis_of sty label + Z.of_nat padding)) in *.
    bind_inv Hr lines Hw. injection Hr as <-.
    rewrite vis_blank_suffix by (constructor; [reflexivity|constructor]). rewrite vis_rstrip.
    rewrite vis_blank_prefix by apply spaces_blank. unfold ljust.
    replace (to + (zlen label - vis_of sty label) - zlen label)%Z with (to - vis_of sty label)%Z by lia. rewrite <- app_assoc.
    rewrite vis_sep; [|assert (1 <= Z.to_nat (to - vis_of sty label)) as Hk by (subst to; lia);
                       destruct (Z.to_nat (to - vis_of sty label)); [lia|discriminate]|apply spaces_blank].
    f_equal. rewrite vis_rstrip, vis_join by (apply Forall_app; split; apply spaces_blank).
    cbn [wrap_width] in Htext. fold to in Htext. exact (text_ok_visible _ _ _ Hw Htext).
  - injection Hr as <-. reflexivity.
Qed.
End Vis.

(* a page in the region: white space aside, the text written for each element is its visible characters; each ends with a line break *)
Definition shows (sty : styles) (x : nat * elem) (p : str) : Prop :=
  filter nsp p = elem_vis sty (snd x) /\ exists body, p = body ++ [10%N].
Lemma written_shows sty W off l ps : Forall (fun x => elem_ok sty W off (fst x) (snd x)) l -> written sty W off l ps ->
  Forall2 (shows sty) l ps.
Proof.
  intros Hok Hps. induction Hps as [|x p l ps (raw & Er & ->) _ IH]; [constructor|]. inversion Hok as [|? ? Hx Hl]; subst.
  constructor; [|now apply IH]. unfold elem_text_for in Er. split.
  - exact (elem_written_visible sty W off (fst x) (snd x) raw Hx Er).
  - destruct (elem_raw_nl _ _ _ _ _ _ Er) as (body & ->). rewrite plain_of_render, render_body. eexists. reflexivity.
Qed.
Theorem page_bytes_visible W f l s : f_kind f = FPlain -> layout_ok (f_styles f) W l -> render_page W f l = Ok s ->
  exists ps, Forall2 (shows (f_styles f)) l ps /\ s = concat ps.
Proof.
  intros Hk Hok H. destruct (page_plain_is_elements_at W f l s Hk H) as (ps & Hps & ->). exists ps. split; [|reflexivity].
  exact (written_shows _ _ _ _ _ Hok Hps).
Qed.
Corollary page_bytes_are_the_visible_texts W f l s : f_kind f = FPlain -> layout_ok (f_styles f) W l -> render_page W f l = Ok s ->
  filter nsp s = concat (map (fun x => elem_vis (f_styles f) (snd x)) l).
Proof.
  intros Hk Hok H. destruct (page_bytes_visible W f l s Hk Hok H) as (ps & Hps & ->). clear H Hok.
  induction Hps as [|x p l ps [Hp _] _ IH]; [reflexivity|]. cbn [concat map]. now rewrite filter_app, Hp, IH.
Qed.

(* a word (no white space in it) that is in the text written for some elements is in the text written for one of them *)
Lemma infix_split_nl n a b : no_nl n -> infix_of n (a ++ 10%N :: b) -> infix_of n a \/ infix_of n b.
Proof.
  intros Hn (u & v & E). symmetry in E. apply app_split in E as [(y' & -> & ->)|(x' & -> & E)].
  - (* the line break lies in u *) right. exists y', v. reflexivity.
  - apply app_split in E as [(y' & E & _)|(x'' & -> & ->)].
    + exfalso. rewrite E in Hn. apply Forall_app in Hn as [_ Hn]. inversion Hn; congruence.
    + left. exists u, x''. reflexivity.
Qed.
Lemma word_in_one_element sty n : no_nl n -> forall l ps, Forall2 (shows sty) l ps -> infix_of n (concat ps) -> n <> [] ->
  exists x p, In x l /\ shows sty x p /\ infix_of n p.
Proof.
  intros Hn. induction 1 as [|x p l ps Hx _ IH]; intros Hi Hne.
  - destruct Hi as (u & v & E). cbn in E. destruct u; [destruct n; [congruence|discriminate]|discriminate].
  - cbn [concat] in Hi. destruct Hx as [Hv (body & ->)]. rewrite <- app_assoc in Hi. cbn [app] in Hi.
    destruct (infix_split_nl n body (concat ps) Hn Hi) as [H1|H2].
    + exists x, (body ++ [10%N]). split; [now left|]. split; [split; [exact Hv|eexists; reflexivity]|now apply infix_app_l].
    + destruct (IH H2 Hne) as (x' & p' & Hin & Hs & Hi'). exists x', p'. split; [now right|auto].
Qed.
Lemma infix_filter (p : N -> bool) n s : infix_of n s -> infix_of (filter p n) (filter p s).
Proof. intros (u & v & ->). exists (filter p u), (filter p v). now rewrite !filter_app. Qed.

Lemma spacefree_no_nl n : spacefree n -> no_nl n.
Proof. intros H. eapply Forall_impl; [|exact H]. intros c Hc ->. discriminate. Qed.
Lemma spacefree_filter n : spacefree n -> filter nsp n = n.
Proof. induction 1 as [|c n Hc _ IH]; [reflexivity|]. cbn [filter]. unfold nsp at 1. now rewrite Hc, IH. Qed.
(* a section of a page in the region: its text is a piece of the page, and a word (no white space in it) found in the section's
   text is found in the visible characters of one of the section's elements *)
Theorem section_words W f before sec after s :
  f_kind f = FPlain -> layout_ok (f_styles f) W (before ++ sec ++ after) -> render_page W f (before ++ sec ++ after) = Ok s ->
  exists s1 s2 s3, s = s1 ++ s2 ++ s3 /\ text_of (f_styles f) W sec s2 /\
    forall n, n <> [] -> spacefree n -> infix_of n s2 -> exists x, In x sec /\ infix_of n (elem_vis (f_styles f) (snd x)).
Proof.
  intros Hk Hok H. destruct (page_plain_is_elements_at W f _ s Hk H) as (ps & Hps & ->). unfold layout_ok in Hok.
  set (off := align_vis (f_styles f) (before ++ sec ++ after) 0) in *. clearbody off.
  destruct (written_section _ _ _ _ _ _ _ Hps) as (p1 & p2 & p3 & -> & H2).
  apply Forall_app in Hok as [_ Hok]. apply Forall_app in Hok as [Hok _]. pose proof (written_shows _ _ _ _ _ Hok H2) as Hs2.
  exists (concat p1), (concat p2), (concat p3). split; [now rewrite !concat_app|]. split; [exists off, p2; split; [exact H2|reflexivity]|].
  intros n Hne Hsf Hi. destruct (word_in_one_element (f_styles f) n (spacefree_no_nl n Hsf) sec p2 Hs2 Hi Hne) as (x & p & Hin & [Hv _] & Hp).
  exists x. split; [exact Hin|]. rewrite <- Hv, <- (spacefree_filter n Hsf). now apply infix_filter.
Qed.

(* COMMANDS of a command page: a word of the section is a word of its heading or of an element of the block of an enabled, named,
   non-hidden sub-command *)
Lemma commands_section_elems subs x : In x (commands_section subs) ->
  x = (0, EPara H_COMMANDS) \/ exists sv, In sv subs /\ visible sv = true /\ In x (sub_block sv).
Proof.
  unfold commands_section. destruct (named_subs subs); [contradiction|].
  intros [<-|Hin]; [now left|right]. apply in_flat_map in Hin as (sv & Hsv & Hx). apply listed_subs_in in Hsv as [H1 H2].
  exists sv. auto.
Qed.
(* stated for a variable heading: with the literal in place, Qed compares the undecorated renderings of two closed strings *)
Lemma heading_words sty n h : munge h = h -> infix_of n (elem_vis sty (EPara h)) -> infix_of n (vis sty h).
Proof. intros Em. unfold elem_vis. cbn [elem_label elem_text]. rewrite vis_nil, app_nil_l, Em. exact (fun H => H). Qed.
Theorem commands_section_words W f sty app_name ch aliases help subs s :
  f_kind f = FPlain -> layout_ok (f_styles f) W (command_page sty app_name ch aliases help subs) ->
  render_page W f (command_page sty app_name ch aliases help subs) = Ok s ->
  exists s1 s2 s3, s = s1 ++ s2 ++ s3 /\ text_of (f_styles f) W (commands_section subs) s2 /\
    forall n, n <> [] -> spacefree n -> infix_of n s2 ->
      infix_of n (vis (f_styles f) H_COMMANDS)
      \/ exists sv x, In sv subs /\ visible sv = true /\ In x (sub_block sv) /\ infix_of n (elem_vis (f_styles f) (snd x)).
Proof.
  intros Hk Hok H. rewrite command_page_decomposes in Hok, H.
  destruct (section_words W f _ _ _ s Hk Hok H) as (s1 & s2 & s3 & E & Hps & Hw).
  exists s1, s2, s3. split; [exact E|]. split; [exact Hps|]. intros n Hne Hsf Hi. destruct (Hw n Hne Hsf Hi) as (x & Hin & Hx).
  apply commands_section_elems in Hin as [->|(sv & H1 & H2 & H3)].
  - left. cbn [snd] in Hx. now apply heading_words in Hx.
  - right. exists sv, x. auto.
Qed.
Lemma available_section_elems cmds x : In x (available_section cmds) ->
  x = (0, EPara H_AVAILABLE) \/ x = (0, EEmpty) \/ exists c, In c cmds /\ cmd_visible c = true /\ x = cmd_line c.
Proof.
  unfold available_section. destruct (named_cmds cmds); [contradiction|].
  intros [<-|Hin]; [now left|right]. apply in_app_or in Hin as [Hin|[<-|[]]]; [right|now left].
  apply in_map_iff in Hin as (c & <- & Hc). apply listed_cmds_in in Hc as [H1 H2]. exists c. auto.
Qed.
Theorem available_section_words W f sty app_name display version gopts cmds help s :
  f_kind f = FPlain -> layout_ok (f_styles f) W (application_page sty app_name display version gopts cmds help) ->
  render_page W f (application_page sty app_name display version gopts cmds help) = Ok s ->
  exists s1 s2 s3, s = s1 ++ s2 ++ s3 /\ text_of (f_styles f) W (available_section cmds) s2 /\
    forall n, n <> [] -> spacefree n -> infix_of n s2 ->
      infix_of n (vis (f_styles f) H_AVAILABLE)
      \/ exists c, In c cmds /\ cmd_visible c = true /\ infix_of n (elem_vis (f_styles f) (snd (cmd_line c))).
Proof.
  intros Hk Hok H. rewrite application_page_decomposes in Hok, H.
  destruct (section_words W f _ _ _ s Hk Hok H) as (s1 & s2 & s3 & E & Hps & Hw).
  exists s1, s2, s3. split; [exact E|]. split; [exact Hps|]. intros n Hne Hsf Hi. destruct (Hw n Hne Hsf Hi) as (x & Hin & Hx).
  apply available_section_elems in Hin as [->|[->|(c & H1 & H2 & ->)]].
  - left. cbn [snd] in Hx. now apply heading_words in Hx.
  - exfalso. unfold elem_vis in Hx. cbn in Hx. destruct Hx as (u & v & E'). destruct u; [destruct n; [congruence|discriminate]|discriminate].
  - right. exists c. auto.
Qed.

Fixpoint prefixb (p s : str) : bool :=
  match p, s with [], _ => true | c :: p', d :: s' => N.eqb c d && prefixb p' s' | _ :: _, [] => false end.
Fixpoint infixb (p s : str) : bool := prefixb p s || match s with [] => false | _ :: s' => infixb p s' end.
Lemma prefixb_spec p : forall s, prefixb p s = true <-> exists v, s = p ++ v.
Proof.
  induction p as [|c p IH]; intros s; cbn [prefixb]; [split; [intros _; exists s; reflexivity|reflexivity]|].
  destruct s as [|d s]; [split; [discriminate|intros [v E]; discriminate]|]. rewrite andb_true_iff, IH, N.eqb_eq. split.
  - intros [-> [v ->]]. exists v. reflexivity.
  - intros [v E]. injection E as -> ->. split; [reflexivity|exists v; reflexivity].
Qed.
Lemma infixb_spec p : forall s, infixb p s = true <-> infix_of p s.
Proof.
  induction s as [|d s IH]; cbn [infixb]; rewrite orb_true_iff, prefixb_spec.
  - split; [intros [[v E]|E]; [exists [], v; exact E|discriminate]|].
    intros (u & v & E). left. destruct u; [exists v; exact E|discriminate].
  - rewrite IH. split.
    + intros [[v E]|(u & v & E)]; [exists [], v; exact E|exists (d :: u), v; now rewrite E].
    + intros (u & v & E). destruct u as [|c u]; [left; exists v; exact E|right]. injection E as -> E. exists u, v. exact E.
Qed.
Lemma not_infixb p s : infixb p s = false -> ~ infix_of p s.
Proof. intros H Hi. apply infixb_spec in Hi. congruence. Qed.
