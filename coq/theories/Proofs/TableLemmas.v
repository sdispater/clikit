(* Proofs about the table model (C14): the short / long column split leaves one character for every long column,
   the distribution hands textwrap only positive widths, the fitted columns sum to at most the available width,
   every line of every cell fits its column, the drawn lines form a rectangle, and the cells keep their text.
   What is needed of textwrap (lines fit, total for widths >= 1, text kept) is a section hypothesis here;
   Proofs/WrapLemmas.v proves it of the model of Model/Wrap.v. *)
From Coq Require Import Lia ZifyBool.
From Clikit Require Import Base.Prelude Base.Res Model.Markup Model.Wrap Model.Table Proofs.ListLemmas.
From Clikit Require Proofs.MarkupLemmas.
Local Open Scope Z_scope.

Lemma set_nth_length {X} k (x : X) l : length (set_nth k x l) = length l.
Proof. revert k; induction l as [|y l IH]; intros [|k]; cbn; auto. Qed.
Lemma nth_set_nth_same {X} k (x d : X) l : (k < length l)%nat -> nth k (set_nth k x l) d = x.
Proof. revert k; induction l as [|y l IH]; intros [|k] H; cbn in *; try lia; auto. apply IH; lia. Qed.
Lemma nth_set_nth_other {X} k j (x d : X) l : k <> j -> nth j (set_nth k x l) d = nth j l d.
Proof. revert k j; induction l as [|y l IH]; intros [|k] [|j] H; cbn; auto; try congruence. Qed.
Lemma Forall2_set_nth {X Y} (P : X -> Y -> Prop) k x y a b : Forall2 P a b -> P x y -> Forall2 P (set_nth k x a) (set_nth k y b).
Proof. intros H Hxy; revert k; induction H as [|u v a b Huv Hab IH]; intros [|k]; cbn; constructor; auto. Qed.
Lemma Forall_set_nth {X} (P : X -> Prop) k x a : Forall P a -> P x -> Forall P (set_nth k x a).
Proof. intros H Hx; revert k; induction H as [|u a Hu Ha IH]; intros [|k]; cbn; constructor; auto. Qed.

Lemma zsum_cons x l : zsum (x :: l) = x + zsum l. Proof. reflexivity. Qed.
Lemma zsum_app a b : zsum (a ++ b) = zsum a + zsum b.
Proof. induction a as [|x a IH]; [reflexivity|]. rewrite <- app_comm_cons, !zsum_cons. lia. Qed.
Lemma zsum_set_nth k x l : (k < length l)%nat -> zsum (set_nth k x l) = zsum l - nth k l 0 + x.
Proof. revert k; induction l as [|y l IH]; intros [|k] H; cbn [set_nth nth length] in *; try lia.
  - rewrite !zsum_cons. lia.
  - rewrite !zsum_cons. specialize (IH k ltac:(lia)). lia. Qed.
Lemma zsum_map_add k l : zsum (map (fun c => c + k) l) = zsum l + Z.of_nat (length l) * k.
Proof. induction l as [|x l IH]; [reflexivity|]. cbn [map length]. rewrite !zsum_cons, IH. lia. Qed.
Lemma zmax_list_cons x l : zmax_list (x :: l) = Z.max x (zmax_list l). Proof. reflexivity. Qed.
Lemma zmax_list_nonneg l : 0 <= zmax_list l.
Proof. induction l as [|x l IH]; [cbv; congruence|]. rewrite zmax_list_cons. lia. Qed.
Lemma zmax_list_ge l x : In x l -> x <= zmax_list l.
Proof. induction l as [|y l IH]; [intros []|]. rewrite zmax_list_cons. intros [-> | H]; [lia|]. specialize (IH H). lia. Qed.
Lemma zmax_list_le l w : 0 <= w -> Forall (fun x => x <= w) l -> zmax_list l <= w.
Proof. intros Hw H; induction H as [|x l Hx _ IH]; [exact Hw|]. rewrite zmax_list_cons. lia. Qed.

Lemma zlen_app a b : zlen (a ++ b) = zlen a + zlen b.
Proof. unfold zlen. rewrite app_length. lia. Qed.
Lemma zlen_nonneg a : 0 <= zlen a. Proof. unfold zlen; lia. Qed.

Lemma split_pieces_le sep s : Forall (fun p => zlen p <= zlen s) (split_on sep s).
Proof.
  induction s as [|c s IH]; cbn [split_on].
  - constructor; [unfold zlen; cbn; lia|constructor].
  - destruct (N.eqb c sep).
    + constructor; [unfold zlen; cbn; lia|]. eapply Forall_impl; [|exact IH]. intros p Hp. unfold zlen in *; cbn; lia.
    + destruct (split_on sep s) as [|l ls] eqn:E.
      * constructor; [unfold zlen; cbn; lia|constructor].
      * inversion IH as [|? ? Hl Hls]; subst. constructor.
        -- unfold zlen in *; cbn; lia.
        -- eapply Forall_impl; [|exact Hls]. intros p Hp. unfold zlen in *; cbn; lia.
Qed.
Lemma split_app_sep sep a b : split_on sep (a ++ sep :: b) = split_on sep a ++ split_on sep b.
Proof.
  induction a as [|c a IH]; cbn [app split_on].
  - rewrite N.eqb_refl. reflexivity.
  - destruct (N.eqb c sep); [rewrite IH; reflexivity|]. rewrite IH.
    destruct (split_on sep a) as [|l ls] eqn:E; [destruct (MarkupLemmas.split_on_nonempty _ _ E)|]. reflexivity.
Qed.
Lemma split_join_le sep w ls : 0 <= w -> Forall (fun l => zlen l <= w) ls -> Forall (fun p => zlen p <= w) (split_on sep (join_with sep ls)).
Proof.
  intros Hw H; induction H as [|l ls Hl Hls IH]; cbn [join_with].
  - cbn. constructor; [unfold zlen; cbn; lia|constructor].
  - destruct ls as [|l2 ls].
    + eapply Forall_impl; [|apply split_pieces_le]. cbn; intros; lia.
    + rewrite split_app_sep. apply Forall_app; split; [|exact IH].
      eapply Forall_impl; [|apply split_pieces_le]. cbn; intros; lia.
Qed.

Lemma count_some_cons o l : count_some (o :: l) = (match o with Some _ => 1 | None => 0 end) + count_some l.
Proof. reflexivity. Qed.
Lemma count_some_nonneg l : 0 <= count_some l.
Proof. induction l as [|[x|] l IH]; [cbv; congruence| |]; rewrite count_some_cons; lia. Qed.
Lemma sum_some_cons o l : sum_some (o :: l) = (match o with Some x => x | None => 0 end) + sum_some l.
Proof. reflexivity. Qed.
Ltac csimp := rewrite ?count_some_cons, ?sum_some_cons in *; cbv iota in *.
Lemma count_some_map_Some l : count_some (map Some l) = Z.of_nat (length l).
Proof. induction l as [|x l IH]; [reflexivity|]. cbn [map length]. csimp. lia. Qed.
Lemma sum_some_map_Some l : sum_some (map Some l) = zsum l.
Proof. induction l as [|x l IH]; [reflexivity|]. cbn [map]. csimp. rewrite zsum_cons. lia. Qed.

Definition long_nonneg (l : list (option Z)) : Prop := Forall (fun o => match o with Some x => 0 <= x | None => True end) l.
(* entries of l' are entries of l at the same index (or None) *)
Definition refines (l' l : list (option Z)) : Prop := Forall2 (fun o' o => o' = None \/ o' = o) l' l.
Lemma refines_refl l : refines l l. Proof. apply Forall2_diag. auto. Qed.
Lemma refines_trans a b c : refines a b -> refines b c -> refines a c.
Proof. apply Forall2_trans. intros x y z [-> | ->]; auto. Qed.
Lemma refines_nonneg l' l : refines l' l -> long_nonneg l -> long_nonneg l'.
Proof. intros H. apply Forall2_carry. eapply Forall2_mono; [|exact H]. intros x y [-> | ->]; auto. Qed.
Lemma refines_count l' l : refines l' l -> count_some l' <= count_some l.
Proof. induction 1 as [|x y a b [-> | ->] _ IH]; csimp; [lia|destruct y; lia|lia]. Qed.
Lemma long_nonneg_map_Some l : Forall (fun c => 0 <= c) l -> long_nonneg (map Some l).
Proof. intros H. apply Forall_map. exact H. Qed.

Section ShortLoop.
  Variables (n A0 : Z).

  (* one sweep with the threshold avp/n.  k counts the long columns already passed in this sweep: what is left stays
     at least A0/n for each of them and for each long column still ahead *)
  Lemma short_pass_spec avp : avp <= A0 -> forall long av k, long_nonneg long -> 0 <= k ->
    av * n >= A0 * (k + count_some long) ->
    let '(av', long', ch) := short_pass n avp long av in
    refines long' long /\ av' = av - (sum_some long - sum_some long') /\ av' <= av /\
    av' * n >= A0 * (k + count_some long') /\
    (ch = false -> long' = long /\ Forall (fun o => match o with Some x => avp < x * n | None => True end) long) /\
    (ch = true -> count_some long' < count_some long).
  Proof.
    intros Hap. induction long as [|[len|] r IH]; intros av k Hnn Hk HJ; cbn [short_pass].
    - repeat split; try lia; auto; try constructor; congruence.
    - inversion Hnn as [|? ? Hlen Hr]; subst. csimp.
      destruct (Z.leb_spec (len * n) avp) as [E|E].
      + assert (HJ' : (av - len) * n >= A0 * (k + count_some r)) by nia.
        specialize (IH (av - len) k Hr Hk HJ').
        destruct (short_pass n avp r (av - len)) as [[av' r'] ch]. destruct IH as (R & Ea & Hle & J & _ & Hc).
        csimp. pose proof (refines_count _ _ R). repeat split; try lia; try congruence. constructor; auto.
      + assert (HJ' : av * n >= A0 * ((k + 1) + count_some r)) by nia.
        specialize (IH av (k + 1) Hr ltac:(lia) HJ').
        destruct (short_pass n avp r av) as [[av' r'] ch]. destruct IH as (R & Ea & Hle & J & Hf & Hc).
        csimp. repeat split; try lia.
        * constructor; auto.
        * destruct (Hf H) as [-> _]; reflexivity.
        * destruct (Hf H) as [_ F]; constructor; [lia|exact F].
    - inversion Hnn as [|? ? _ Hr]; subst. csimp.
      specialize (IH av k Hr Hk HJ).
      destruct (short_pass n avp r av) as [[av' r'] ch]. destruct IH as (R & Ea & Hle & J & Hf & Hc).
      csimp. repeat split; try lia.
      * constructor; auto.
      * destruct (Hf H) as [-> _]; reflexivity.
      * destruct (Hf H) as [_ F]; constructor; [exact I|exact F].
  Qed.

  (* the loop: a sweep that changes something takes a long column away, so one unit of fuel per long column and one
     more are enough *)
  Lemma short_loop_spec : forall fuel long av, long_nonneg long -> av <= A0 -> av * n >= A0 * count_some long ->
    (Z.to_nat (count_some long) < fuel)%nat ->
    exists av' long', short_loop fuel n long av = Some (av', long') /\
      refines long' long /\ av' = av - (sum_some long - sum_some long') /\
      av' * n >= A0 * count_some long' /\
      Forall (fun o => match o with Some x => av' < x * n | None => True end) long'.
  Proof.
    induction fuel as [|f IH]; intros long av Hnn Hav HJ Hf; [lia|]. cbn [short_loop].
    pose proof (short_pass_spec av Hav long av 0 Hnn ltac:(lia) ltac:(lia)) as P.
    destruct (short_pass n av long av) as [[av1 long1] ch]. destruct P as (R & Ea & Hle & J & Hfalse & Htrue).
    destruct ch.
    - specialize (Htrue eq_refl). pose proof (count_some_nonneg long1).
      destruct (IH long1 av1 (refines_nonneg _ _ R Hnn) ltac:(lia) J ltac:(lia)) as (av2 & long2 & E & R2 & Ea2 & J2 & F2).
      exists av2, long2. repeat split; auto; try lia; try (eapply refines_trans; eauto).
    - destruct (Hfalse eq_refl) as [-> F]. assert (av1 = av) as -> by lia.
      exists av, long. repeat split; auto; try lia; try apply refines_refl.
  Qed.
End ShortLoop.

Definition long_pos (l : list (option Z)) : Prop := Forall (fun o => match o with Some x => 1 <= x | None => True end) l.
(* started on all n columns with at least one character for each, the loop ends and leaves one for every long column *)
Lemma short_loop_room n max_total cols : 0 < n -> n <= max_total -> Forall (fun c => 0 <= c) cols -> Z.of_nat (length cols) = n ->
  exists av long, short_loop (S (length cols)) n (map Some cols) max_total = Some (av, long) /\
    refines long (map Some cols) /\ count_some long <= av /\ av = max_total - (zsum cols - sum_some long) /\ long_pos long.
Proof.
  intros Hn Hg Hnn Hlen.
  destruct (short_loop_spec n max_total (S (length cols)) (map Some cols) max_total (long_nonneg_map_Some _ Hnn) ltac:(lia))
    as (av & long & SL & R & Ea & J & F); try (rewrite count_some_map_Some; nia).
  exists av, long. rewrite sum_some_map_Some in Ea. pose proof (count_some_nonneg long).
  repeat split; [exact SL|exact R|nia|exact Ea|]. eapply Forall_impl; [|exact F]. intros [x|]; [|auto]. cbn. intros; nia.
Qed.

Definition cell_ok (w : Z) (cell : str) : Prop := Forall (fun p => zlen p <= w) (split_on 10%N cell).
Definition row_ok (row : list str) (ln : list Z) : Prop := Forall2 (fun cell l => cell_ok l cell) row ln.
Definition lens_le (cols ln : list Z) : Prop := Forall2 Z.le ln cols.
Record INV (n : nat) (st : fitst) : Prop := {
  inv_rows : Forall2 row_ok (f_rows st) (f_lens st);
  inv_cols : Forall (lens_le (f_cols st)) (f_lens st);
  inv_len : length (f_cols st) = n;
  inv_nonneg : Forall (fun c => 0 <= c) (f_cols st) }.

Lemma inv_cols_ne n st : INV n st -> (1 <= n)%nat -> f_cols st <> [].
Proof. intros HI Hn E. pose proof (inv_len _ _ HI) as Hlen. rewrite E in Hlen. cbn in Hlen. lia. Qed.
Lemma cell_ok_mono w w' c : w <= w' -> cell_ok w c -> cell_ok w' c.
Proof. intros H. apply Forall_impl. intros; lia. Qed.
Lemma cell_ok_len c : cell_ok (zlen c) c. Proof. apply split_pieces_le. Qed.
Lemma cell_ok_max c : cell_ok (max_line_len c) c.
Proof. unfold cell_ok, max_line_len. apply Forall_forall. intros p Hp. apply zmax_list_ge. apply in_map. exact Hp. Qed.
Lemma cell_ok_nil : cell_ok 0 []. Proof. constructor; [unfold zlen; cbn; lia|constructor]. Qed.

(* wrap_col maps wrap_cell over the rows and their lengths, as far as both go: to prove Q of its arguments and result,
   prove it of the empty result and across one row *)
Lemma wrap_col_ind g col w (Q : list (list str) -> list (list Z) -> bool -> bool -> list (list str) -> list (list Z) -> bool -> bool -> Prop) :
  (forall rows lens wr cu, rows = [] \/ lens = [] -> Q rows lens wr cu [] [] wr cu) ->
  (forall row rows ln lens wr cu c' l' wrapped cu1 rs ls wr' cu',
     wrap_cell g w cu (nth col row []) (nth col ln 0) = Ok (c', l', wrapped, cu1) ->
     Q rows lens (wr || wrapped) cu1 rs ls wr' cu' ->
     Q (row :: rows) (ln :: lens) wr cu (set_nth col c' row :: rs) (set_nth col l' ln :: ls) wr' cu') ->
  forall rows lens wr cu rs ls wr' cu', wrap_col g col w rows lens wr cu = Ok (rs, ls, wr', cu') -> Q rows lens wr cu rs ls wr' cu'.
Proof.
  intros Q0 QS. induction rows as [|row rows IH]; intros lens wr cu rs ls wr' cu' H.
  - injection H as <- <- <- <-. auto.
  - destruct lens as [|ln lens]; [injection H as <- <- <- <-; auto|]. cbn [wrap_col] in H.
    bind_inv H x WC. destruct x as [[[c' l'] wrapped] cu1]. bind_inv H y WR. destruct y as [[[rs1 ls1] wr1] cu2].
    injection H as <- <- <- <-. eauto.
Qed.
(* the width of a long column; after it come the long columns of r *)
Definition col_width (share : Z -> Z -> Z -> Z) (av len : Z) (r : list (option Z)) (actual rem : Z) : res Z :=
  if count_some r =? 0 then Ok rem
  else if actual =? 0 then Err (Other 9)
  else Ok (Z.max 1 (Z.min (share len actual av) (rem - count_some r))).
Lemma distribute_cons g share av len r col actual rem st :
  distribute g share av (Some len :: r) col actual rem st =
  do w <- col_width share av len r actual rem;
  do st' <- fit_column g col w st;
  distribute g share av r (S col) (actual - len + nth col (f_cols st') 0) (rem - nth col (f_cols st') 0) st'.
Proof. reflexivity. Qed.
Lemma init_state_l_rows n cells lens st : init_state_l n cells lens = Ok st ->
  st = {| f_rows := map (pad_row n) (chunk (length cells) n cells); f_lens := map (pad_lens n) (chunk (length lens) n lens);
          f_cols := col_lengths n (map (pad_lens n) (chunk (length lens) n lens)); f_wraps := false; f_cuts := false |}.
Proof. unfold init_state_l. intros H. destruct n; [destruct cells; [|discriminate]|]; injection H as <-; reflexivity. Qed.
Lemma fit_g_inv g share max_total n cells lens st : fit_g g share max_total n cells lens = Ok st ->
  exists st0, init_state_l n cells lens = Ok st0 /\
    (st = st0 \/ exists av long, distribute g share av long 0 (sum_some long) av st0 = Ok st).
Proof.
  unfold fit_g. intros H. bind_inv H st0 E0. exists st0. split; [exact E0|].
  destruct (zsum (f_cols st0) <=? max_total); [injection H as <-; auto|]. destruct n; [discriminate|].
  destruct (short_loop _ _ _ _) as [[av long]|]; [eauto|discriminate].
Qed.

Lemma wrapped_lens_le col w cols ls lens :
  Forall2 (fun ln' ln => exists l', ln' = set_nth col l' ln /\ (0 <= w -> l' <= w)) ls lens ->
  Forall (lens_le cols) lens -> (col < length cols)%nat ->
  Forall (fun ln' => (0 <= w -> nth col ln' 0 <= w) /\ forall m, nth col ln' 0 <= m -> lens_le (set_nth col m cols) ln') ls.
Proof.
  intros H. induction H as [|ln' ln ls lens (l' & -> & Hl) _ IH]; intros HF Hcol; inversion HF as [|? ? Hle Hr]; subst; constructor; auto.
  rewrite nth_set_nth_same by (rewrite (Forall2_length _ _ _ Hle); exact Hcol). split; [exact Hl|].
  intros m Hm. apply Forall2_set_nth; assumption.
Qed.

Section Fit.
  Variable g : str -> bool.
  Hypothesis wrap_fits : forall t w ls, wrap t w = Ok ls -> Forall (fun l => zlen l <= w) ls.
  Hypothesis wrap_ok : forall t w, 1 <= w -> exists ls, wrap t w = Ok ls.

  Lemma wrap_cell_spec w cu cell len c' l' wrapped cu' :
    wrap_cell g w cu cell len = Ok (c', l', wrapped, cu') -> cell_ok len cell ->
    cell_ok l' c' /\ (0 <= w -> l' <= w).
  Proof.
    unfold wrap_cell. intros H Hc. destruct (Z.ltb_spec w len) as [E|E].
    - destruct (g cell); [discriminate|]. bind_inv H ls W. injection H as <- <- <- <-. unfold max_line_len.
      split; [apply cell_ok_max|]. intros Hw. apply zmax_list_le; [exact Hw|]. apply Forall_map. exact (split_join_le 10%N w ls Hw (wrap_fits _ _ _ W)).
    - injection H as <- <- <- <-. split; [exact Hc|lia].
  Qed.
  Lemma wrap_cell_ok w cu cell len : 1 <= w -> exists r, wrap_cell (fun _ => false) w cu cell len = Ok r.
  Proof. intros Hw. unfold wrap_cell. destruct (w <? len); [|eauto]. destruct (wrap_ok cell w Hw) as [ls ->]. cbn [bind]. eauto. Qed.

  Lemma wrap_col_spec col w rows lens wr cu rs ls wr' cu' :
    wrap_col g col w rows lens wr cu = Ok (rs, ls, wr', cu') -> Forall2 row_ok rows lens ->
    Forall2 row_ok rs ls /\ Forall2 (fun ln' ln => exists l', ln' = set_nth col l' ln /\ (0 <= w -> l' <= w)) ls lens.
  Proof.
    apply (wrap_col_ind g col w (fun rows lens _ _ rs ls _ _ => Forall2 row_ok rows lens ->
      Forall2 row_ok rs ls /\ Forall2 (fun ln' ln => exists l', ln' = set_nth col l' ln /\ (0 <= w -> l' <= w)) ls lens)).
    - intros ? ? _ _ [-> | ->] HR; inversion HR; split; constructor.
    - intros row ? ln ? _ cu0 c1 l1 ? ? ? ? _ _ WC IH HR. inversion HR as [|? ? ? ? Hrow Hrest]; subst.
      destruct (IH Hrest) as [A1 A2].
      destruct (wrap_cell_spec _ _ _ _ _ _ _ _ WC (Forall2_nth (fun cell l => cell_ok l cell) [] 0 _ _ cell_ok_nil Hrow col)) as (B1 & B2).
      split; constructor; eauto. apply Forall2_set_nth; assumption.
  Qed.
  Lemma wrap_col_ok col w : 1 <= w -> forall rows lens wr cu, exists r, wrap_col (fun _ => false) col w rows lens wr cu = Ok r.
  Proof.
    intros Hw. induction rows as [|row rows IH]; intros lens wr cu; [cbn; eauto|]. destruct lens as [|ln lens]; [cbn; eauto|]. cbn [wrap_col].
    destruct (wrap_cell_ok w cu (nth col row []) (nth col ln 0) Hw) as [[[[c' l'] wrapped] cu1] ->]. cbn [bind].
    destruct (IH lens (wr || wrapped) cu1) as [[[[rs1 ls1] wr1] cu2] ->]. cbn [bind]. eauto.
  Qed.

  Lemma fit_column_spec n col w st st' : INV n st -> (col < n)%nat -> fit_column g col w st = Ok st' ->
    INV n st' /\ exists m, f_cols st' = set_nth col m (f_cols st) /\ 0 <= m /\ (0 <= w -> m <= w).
  Proof.
    intros [I1 I2 I3 I4] Hcol H. unfold fit_column in H. bind_inv H x WR. destruct x as [[[rs ls] wr] cu].
    injection H as <-. cbn [f_rows f_lens f_cols]. unfold col_max.
    destruct (wrap_col_spec _ _ _ _ _ _ _ _ _ _ WR I1) as [A1 A2].
    pose proof (wrapped_lens_le col w _ _ _ A2 I2 ltac:(lia)) as A3. rewrite Forall_forall in A3.
    split.
    - constructor; cbn [f_rows f_lens f_cols].
      + exact A1.
      + apply Forall_forall. intros ln' Hin. apply (A3 ln' Hin). apply zmax_list_ge. apply (in_map (fun ln => nth col ln 0)), Hin.
      + rewrite set_nth_length. exact I3.
      + apply Forall_set_nth; [exact I4|apply zmax_list_nonneg].
    - eexists. split; [reflexivity|]. split; [apply zmax_list_nonneg|].
      intros Hw. apply zmax_list_le; [exact Hw|]. apply Forall_map, Forall_forall. intros ln' Hin. apply (A3 ln' Hin), Hw.
  Qed.
  Lemma fit_column_ok col w st : 1 <= w -> exists st', fit_column (fun _ => false) col w st = Ok st'.
  Proof. intros Hw. unfold fit_column. destruct (wrap_col_ok col w Hw (f_rows st) (f_lens st) (f_wraps st) (f_cuts st)) as [[[[rs ls] wr] cu] ->]. cbn [bind]. eauto. Qed.
End Fit.

(* the long columns still to be fitted are the columns from col on, with the lengths they have in the state *)
Definition agree (long : list (option Z)) (col : nat) (cols : list Z) : Prop :=
  forall i len, nth_error long i = Some (Some len) -> nth (col + i) cols 0 = len.
Lemma agree_tl o long col cols : agree (o :: long) col cols -> agree long (S col) cols.
Proof. intros H i x Hi. replace (S col + i)%nat with (col + S i)%nat by lia. apply H. exact Hi. Qed.
Lemma refines_agree long cols : refines long (map Some cols) -> agree long 0 cols.
Proof.
  intros R i len Hi. cbn [Nat.add]. revert cols R i Hi.
  induction long as [|o long IH]; intros cols R i Hi; [destruct i; discriminate|].
  destruct cols as [|c cols]; [inversion R|]. cbn [map] in R. inversion R as [|? ? ? ? Ho Hr]; subst.
  destruct i as [|i]; cbn in Hi |- *; [injection Hi as ->; destruct Ho; congruence|eauto].
Qed.
Lemma sum_some_ge_count l : long_pos l -> count_some l <= sum_some l.
Proof. induction 1 as [|[x|] l Hx _ IH]; csimp; [cbv; congruence| |]; lia. Qed.
Lemma col_width_ok share av len r actual rem : long_pos r -> 1 <= len -> len + sum_some r <= actual -> 1 + count_some r <= rem ->
  exists w, col_width share av len r actual rem = Ok w /\ 1 <= w <= rem - count_some r.
Proof.
  intros Hr Hl Hact Hrem. pose proof (count_some_nonneg r). pose proof (sum_some_ge_count r Hr). unfold col_width.
  destruct (Z.eqb_spec (count_some r) 0); [eexists; split; [reflexivity|lia]|].
  destruct (Z.eqb_spec actual 0); [lia|]. eexists; split; [reflexivity|lia].
Qed.

Section Distribute.
  Hypothesis wrap_fits : forall t w ls, wrap t w = Ok ls -> Forall (fun l => zlen l <= w) ls.
  Hypothesis wrap_ok : forall t w, 1 <= w -> exists ls, wrap t w = Ok ls.
  Variable share : Z -> Z -> Z -> Z.

  (* rem' is what the last long column leaves of the width *)
  Lemma distribute_spec n av : forall long col actual rem st,
    INV n st -> (col + length long = n)%nat -> agree long col (f_cols st) -> long_pos long ->
    sum_some long <= actual -> count_some long <= rem ->
    exists st', distribute (fun _ => false) share av long col actual rem st = Ok st' /\ INV n st' /\
      exists rem', 0 <= rem' /\ zsum (f_cols st') + rem' = zsum (f_cols st) - sum_some long + rem.
  Proof.
    induction long as [|[len|] r IH]; intros col actual rem st HI Hlen Hag Hpos Hact Hrem.
    - exists st. split; [reflexivity|]. split; [exact HI|]. exists rem. cbn in Hrem. unfold sum_some; cbn. lia.
    - apply Forall_cons_iff in Hpos as [Hl Hr]. csimp. cbn [length] in Hlen. rewrite distribute_cons.
      destruct (col_width_ok share av len r actual rem Hr Hl Hact ltac:(lia)) as (w & -> & Hw). cbn [bind].
      destruct (fit_column_ok wrap_ok col w st (proj1 Hw)) as [st1 F1]. rewrite F1. cbn [bind].
      destruct (fit_column_spec (fun _ => false) wrap_fits n col w st st1 HI ltac:(lia) F1) as (HI1 & m & Hcols & Hm0 & Hmw).
      assert (Hcl : (col < length (f_cols st))%nat) by (rewrite (inv_len _ _ HI); lia).
      assert (Hnew : nth col (f_cols st1) 0 = m) by (rewrite Hcols; apply nth_set_nth_same; exact Hcl).
      rewrite Hnew.
      assert (Hold : nth col (f_cols st) 0 = len) by (specialize (Hag O len eq_refl); rewrite Nat.add_0_r in Hag; exact Hag).
      pose proof (sum_some_ge_count r Hr).
      destruct (IH (S col) (actual - len + m) (rem - m) st1 HI1 ltac:(lia)) as (st2 & D & HI2 & rem2 & Hr2 & Hs2); try lia; auto.
      + intros i x Hi. rewrite Hcols. rewrite nth_set_nth_other by lia. exact (agree_tl _ _ _ _ Hag i x Hi).
      + exists st2. split; [exact D|]. split; [exact HI2|]. exists rem2. split; [exact Hr2|].
        rewrite Hs2, Hcols, zsum_set_nth by exact Hcl. rewrite Hold. lia.
    - apply Forall_cons_iff in Hpos as [_ Hr]. csimp. cbn [length] in Hlen.
      destruct (IH (S col) actual rem st HI ltac:(lia) (agree_tl _ _ _ _ Hag) Hr Hact Hrem) as (st2 & D & HI2 & rem2 & Hr2 & Hs2).
      exists st2. split; [exact D|]. split; [exact HI2|]. exists rem2. split; [exact Hr2|]. lia.
  Qed.
End Distribute.

Lemma chunk_lengths {X} n : forall fuel (l : list X), Forall (fun r => (length r <= n)%nat) (chunk fuel n l).
Proof. induction fuel as [|f IH]; intros l; cbn [chunk]; [constructor|]. destruct l as [|c l]; [constructor|].
  constructor; [rewrite firstn_length; lia|apply IH]. Qed.
Lemma chunk_length {X Y} n : forall fuel (l : list X) (l' : list Y), length l = length l' -> length (chunk fuel n l) = length (chunk fuel n l').
Proof.
  induction fuel as [|f IH]; intros l l' H; [reflexivity|]. destruct l, l'; try discriminate; [reflexivity|].
  cbn [chunk length]. f_equal. apply IH. rewrite !skipn_length. congruence.
Qed.
Lemma chunk_map {X Y} (f : X -> Y) n : forall fuel l, chunk fuel n (map f l) = map (map f) (chunk fuel n l).
Proof.
  induction fuel as [|fu IH]; intros l; cbn [chunk]; [reflexivity|]. destruct l as [|x l]; [reflexivity|].
  cbn [map]. rewrite <- (map_cons f x l), firstn_map, skipn_map, IH. reflexivity.
Qed.
Lemma chunk_Forall {X} (P : X -> Prop) n : forall fuel l, Forall P l -> Forall (Forall P) (chunk fuel n l).
Proof.
  induction fuel as [|fu IH]; intros l H; cbn [chunk]; [constructor|]. destruct l as [|x l]; [constructor|].
  constructor; [|apply IH]; rewrite <- (firstn_skipn n (x :: l)) in H; apply Forall_app in H; apply H.
Qed.
Lemma pad_row_length n r : (length r <= n)%nat -> length (pad_row n r) = n.
Proof. intros H. unfold pad_row. rewrite app_length, repeat_length. lia. Qed.
Lemma pad_row_Forall (P : str -> Prop) n r : P [] -> Forall P r -> Forall P (pad_row n r).
Proof. intros H0 H. apply Forall_app; split; [exact H|]. induction (n - length r)%nat; constructor; auto. Qed.
Lemma init_rows_Forall (P : str -> Prop) n cells : P [] -> Forall P cells -> Forall (Forall P) (map (pad_row n) (chunk (length cells) n cells)).
Proof. intros H0 HP. apply Forall_map. eapply Forall_impl; [|exact (chunk_Forall P n _ _ HP)]. intros r. apply pad_row_Forall, H0. Qed.
Lemma init_rows_length n (cells : list str) (lens : list Z) : length lens = length cells ->
  length (map (pad_row n) (chunk (length cells) n cells)) = length (map (pad_lens n) (chunk (length lens) n lens)).
Proof. intros E. rewrite !map_length, E. apply chunk_length. symmetry; exact E. Qed.
Lemma Forall2_le_trans a b c : Forall2 Z.le a b -> Forall2 Z.le b c -> Forall2 Z.le a c.
Proof. apply Forall2_trans. intros; lia. Qed.
Lemma Forall2_le_nonneg a b : Forall2 Z.le a b -> Forall (fun x => 0 <= x) a -> Forall (fun x => 0 <= x) b.
Proof. induction 1; intros F; inversion F; subst; constructor; [lia|auto]. Qed.
Lemma zip_max_spec : forall a b, length b = length a ->
  length (zip_max a b) = length a /\ Forall2 Z.le a (zip_max a b) /\ Forall2 Z.le b (zip_max a b).
Proof.
  induction a as [|x a IH]; intros [|y b] H; cbn in H; try discriminate; cbn [zip_max].
  - repeat split; constructor.
  - destruct (IH b ltac:(lia)) as (L & A1 & A2). cbn [length]. repeat split; [lia| |]; constructor; auto; lia.
Qed.
Lemma fold_zip_max : forall lens acc, Forall (fun ln => length ln = length acc) lens ->
  length (fold_left zip_max lens acc) = length acc /\ Forall2 Z.le acc (fold_left zip_max lens acc) /\
  Forall (fun ln => Forall2 Z.le ln (fold_left zip_max lens acc)) lens.
Proof.
  induction lens as [|ln lens IH]; intros acc H; cbn [fold_left].
  - repeat split; [apply Forall2_diag; lia|constructor].
  - apply Forall_cons_iff in H as [Hl Hr]. destruct (zip_max_spec acc ln Hl) as (L & A1 & A2).
    destruct (IH (zip_max acc ln)) as (L' & B1 & B2).
    { eapply Forall_impl; [|exact Hr]. cbn. intros; congruence. }
    repeat split; [congruence|eapply Forall2_le_trans; eauto|]. constructor; [eapply Forall2_le_trans; eauto|exact B2].
Qed.
Lemma init_state_rows n cells st : init_state n cells = Ok st ->
  st = {| f_rows := map (pad_row n) (chunk (length cells) n cells);
          f_lens := map (map zlen) (map (pad_row n) (chunk (length cells) n cells));
          f_cols := col_lengths n (map (map zlen) (map (pad_row n) (chunk (length cells) n cells))); f_wraps := false; f_cuts := false |}.
Proof. unfold init_state. intros H. destruct n; [destruct cells; [|discriminate]|]; injection H as <-; reflexivity. Qed.
Lemma init_state_inv n cells st : init_state n cells = Ok st -> INV n st.
Proof.
  intros H. rewrite (init_state_rows _ _ _ H).
  set (rows := map (pad_row n) (chunk (length cells) n cells)).
  assert (Hrl : Forall (fun r => length r = n) rows).
  { unfold rows. apply Forall_map. eapply Forall_impl; [|apply chunk_lengths]. apply pad_row_length. }
  destruct (fold_zip_max (map (map zlen) rows) (repeat 0 n)) as (L & A1 & A2).
  { apply Forall_map. eapply Forall_impl; [|exact Hrl]. intros r Hr. now rewrite map_length, repeat_length. }
  constructor; cbn [f_rows f_lens f_cols]; unfold col_lengths.
  - clear. induction rows as [|r rows IH]; cbn [map]; constructor; [|exact IH].
    induction r as [|c r IHr]; cbn [map]; constructor; [apply cell_ok_len|exact IHr].
  - exact A2.
  - rewrite L. apply repeat_length.
  - apply (Forall2_le_nonneg _ _ A1). apply Forall_forall. intros x Hx. apply repeat_spec in Hx. lia.
Qed.

(* the lengths handed in are the lengths: the state of the tag-free model *)
Lemma pad_lens_zlen n r : pad_lens n (map zlen r) = map zlen (pad_row n r).
Proof. unfold pad_lens, pad_row. rewrite map_app, map_length. f_equal. induction (n - length r)%nat; cbn; congruence. Qed.
Lemma init_state_l_zlen n cells : init_state_l n cells (map zlen cells) = init_state n cells.
Proof.
  unfold init_state_l, init_state.
  assert (E : map (pad_lens n) (chunk (length (map zlen cells)) n (map zlen cells)) = map (map zlen) (map (pad_row n) (chunk (length cells) n cells))).
  { rewrite map_length, chunk_map, !map_map. apply map_ext. intros r. apply pad_lens_zlen. }
  rewrite E. reflexivity.
Qed.

Section FitSpec.
  Hypothesis wrap_fits : forall t w ls, wrap t w = Ok ls -> Forall (fun l => zlen l <= w) ls.
  Hypothesis wrap_ok : forall t w, 1 <= w -> exists ls, wrap t w = Ok ls.
  Variable share : Z -> Z -> Z -> Z.

  Theorem fit_g_spec max_total n cells : (1 <= n)%nat -> Z.of_nat n <= max_total ->
    exists st, fit_g (fun _ => false) share max_total n cells (map zlen cells) = Ok st /\ INV n st /\ zsum (f_cols st) <= max_total.
  Proof.
    intros Hn Hg. unfold fit_g. rewrite init_state_l_zlen.
    destruct (init_state n cells) as [st0|k] eqn:E0; [|exfalso; unfold init_state in E0; destruct n; [lia|discriminate]].
    cbn [bind]. pose proof (init_state_inv _ _ _ E0) as HI. pose proof (inv_len _ _ HI) as Hlen.
    destruct (Z.leb_spec (zsum (f_cols st0)) max_total) as [Hfit|Hfit]; [eauto|].
    destruct n as [|n']; [lia|]. cbv iota.
    destruct (short_loop_room (Z.of_nat (S n')) max_total (f_cols st0) ltac:(lia) Hg (inv_nonneg _ _ HI) ltac:(now rewrite Hlen))
      as (av & long & SL & R & Hav & Eav & Hpos).
    rewrite Hlen in SL. rewrite SL.
    destruct (distribute_spec wrap_fits wrap_ok share (S n') av long 0 (sum_some long) av st0 HI) as (st & D & HI' & rem' & Hr' & Hs);
      [rewrite (Forall2_length _ _ _ R), map_length; exact Hlen|exact (refines_agree _ _ R)|exact Hpos|lia|exact Hav|].
    exists st. split; [exact D|]. split; [exact HI'|]. lia.
  Qed.
  Theorem fit_spec max_total n cells : (1 <= n)%nat -> Z.of_nat n <= max_total ->
    exists st, fit share max_total n cells = Ok st /\ INV n st /\ zsum (f_cols st) <= max_total.
  Proof. intros Hn Hg. exact (fit_g_spec max_total n (map t_rstrip cells) Hn Hg). Qed.

  (* every line of every cell fits its column *)
  Definition cells_fit (st : fitst) : Prop :=
    Forall (fun row => Forall2 (fun cell c => cell_ok c cell) row (f_cols st)) (f_rows st).
  Lemma inv_cells_fit n st : INV n st -> cells_fit st.
  Proof.
    intros [I1 I2 _ _]. unfold cells_fit. revert I2. induction I1 as [|row ln rows lens Hr _ IH]; intros I2; constructor.
    - apply Forall_cons_iff in I2 as [Hle _]. clear -Hr Hle. unfold lens_le in Hle. revert Hle. generalize (f_cols st).
      induction Hr as [|c l r ls Hcl _ IH']; intros cols Hle; inversion Hle; subst; constructor; [eapply cell_ok_mono; eauto|auto].
    - apply IH. apply Forall_cons_iff in I2 as [_ H]. exact H.
  Qed.
  Lemma cells_fit_in st row : cells_fit st -> f_cols st <> [] -> In row (f_rows st) ->
    Forall2 (fun cell c => cell_ok c cell) row (f_cols st) /\ row <> [].
  Proof.
    unfold cells_fit. rewrite Forall_forall. intros CF Hne Hin. split; [exact (CF row Hin)|].
    intros ->. specialize (CF _ Hin). inversion CF. congruence.
  Qed.
End FitSpec.

Lemma zlen_rep s k : zlen (rep s k) = Z.max 0 k * zlen s.
Proof.
  unfold rep. assert (H : forall m, zlen (concat (repeat s m)) = Z.of_nat m * zlen s).
  { induction m as [|m IH]; [reflexivity|]. cbn [repeat concat]. rewrite zlen_app, IH. lia. }
  rewrite H. lia.
Qed.
Lemma zlen_blanks k : zlen (blanks k) = Z.max 0 k.
Proof. unfold blanks, zlen. rewrite repeat_length. lia. Qed.
Lemma rep_nil k : rep [] k = [].
Proof. unfold rep. induction (Z.to_nat k); cbn; auto. Qed.
Lemma rstrip_rev_split r : exists sp, r = sp ++ t_rstrip_rev r /\ Forall (fun c => is_space c = true) sp.
Proof.
  induction r as [|c r (sp & E & F)]; [exists []; split; [reflexivity|constructor]|]. cbn [t_rstrip_rev].
  destruct (is_space c) eqn:Ec; [|exists []; split; [reflexivity|constructor]].
  exists (c :: sp). split; [cbn; congruence|constructor; assumption].
Qed.
Lemma rstrip_split s : exists sp, s = t_rstrip s ++ sp /\ Forall (fun c => is_space c = true) sp.
Proof.
  unfold t_rstrip. destruct (rstrip_rev_split (rev s)) as (sp & E & F). exists (rev sp). split.
  - rewrite <- rev_app_distr, <- E, rev_involutive. reflexivity.
  - apply Forall_rev, F.
Qed.
Lemma Forall_rstrip (P : N -> Prop) s : Forall P s -> Forall P (t_rstrip s).
Proof. intros H. destruct (rstrip_split s) as (sp & E & _). rewrite E in H. apply Forall_app in H. apply H. Qed.
Lemma rstrip_spaces s : Forall (fun c => is_space c = true) s -> t_rstrip s = [].
Proof.
  intros H. unfold t_rstrip. apply Forall_rev in H. induction H as [|c r Hc _ IH]; [reflexivity|]. cbn [t_rstrip_rev]. rewrite Hc. exact IH.
Qed.

(* the pieces lines are put together from: what holds of every character of the parts holds of every character of the whole *)
Lemma Forall_rep (P : N -> Prop) s k : Forall P s -> Forall P (rep s k).
Proof. intros H. unfold rep. induction (Z.to_nat k); cbn [repeat concat]; [constructor|apply Forall_app; split; assumption]. Qed.
Lemma Forall_blanks (P : N -> Prop) k : P 32%N -> Forall P (blanks k).
Proof. intros H. apply Forall_forall. intros x Hx. apply repeat_spec in Hx. now subst x. Qed.
Lemma rstrip_blanks k : t_rstrip (blanks k) = [].
Proof. apply rstrip_spaces. now apply Forall_blanks. Qed.
Lemma Forall_fill (P : N -> Prop) pad a t p : Forall P pad -> Forall P p -> Forall P (fill pad a t p).
Proof. intros H1 H2. unfold fill. destruct (a =? 0); [|destruct (a =? 1)]; repeat (apply Forall_app; split); auto using Forall_rep. Qed.
Lemma Forall_border_body (P : N -> Prop) lc c r lens : Forall P lc -> Forall P c -> Forall P r -> Forall P (border_body lc c r lens).
Proof.
  intros H1 H2 H3. induction lens as [|x lens IH]; cbn [border_body]; [constructor|].
  destruct lens; repeat (apply Forall_app; split); auto using Forall_rep.
Qed.
Lemma Forall_row_line (P : N -> Prop) pre suf pad vc vr i : Forall P pre -> Forall P suf -> Forall P pad -> Forall P vc -> Forall P vr ->
  forall cells cols al, Forall (fun c => Forall P (@nth str i c [])) cells -> Forall P (row_line pre suf pad vc vr i cells cols al).
Proof.
  intros Hpre Hsuf Hpad Hvc Hvr. induction cells as [|c cells IH]; intros cols al Hc; [constructor|].
  destruct cols as [|w cols]; [constructor|]. destruct al as [|a al]; [constructor|]. cbn [row_line].
  apply Forall_cons_iff in Hc as [Hc0 Hcr]. apply Forall_app; split; [|apply IH; exact Hcr].
  unfold pad_cell. destruct (_ <? 0); [constructor|].
  repeat (apply Forall_app; split); auto using Forall_fill. destruct cells; assumption.
Qed.

Lemma pad_cell_len pad a w line : zlen pad = 1 -> zlen line <= w ->
  exists x, pad_cell pad a w line = Some x /\ zlen x = w.
Proof.
  intros Hp Hl. unfold pad_cell. destruct (Z.ltb_spec (w - zlen line) 0) as [E|E]; [lia|].
  eexists. split; [reflexivity|]. unfold fill.
  pose proof (Z.div_pos (w - zlen line) 2 E ltac:(lia)). pose proof (Z.div_le_upper_bound (w - zlen line) 2 (w - zlen line) ltac:(lia) ltac:(lia)).
  destruct (a =? 0); [|destruct (a =? 1)]; rewrite ?zlen_app, ?zlen_rep, Hp; lia.
Qed.
Lemma pad_cell_holds pad a w v x : pad_cell pad a w v = Some x -> exists k1 k2, x = rep pad k1 ++ v ++ rep pad k2.
Proof.
  unfold pad_cell, fill. destruct (w - zlen v <? 0); [discriminate|]. intros H; injection H as <-.
  destruct (a =? 0); [exists 0, (w - zlen v); reflexivity|]. destruct (a =? 1); [exists (w - zlen v), 0; now rewrite app_nil_r|].
  eexists; eexists; reflexivity.
Qed.

Lemma row_line_len pre suf pad vc vr i : zlen pad = 1 -> forall cells cols al,
  Forall2 (fun c w => zlen (nth i c []) <= w) cells cols -> length al = length cols -> cells <> [] ->
  zlen (row_line pre suf pad vc vr i cells cols al)
  = zsum (map (fun w => zlen pre + w + zlen suf) cols) + (Z.of_nat (length cols) - 1) * zlen vc + zlen vr.
Proof.
  intros Hp cells cols al H. revert al. induction H as [|c w cells cols Hcw Hrest IH]; intros al Hal Hne; [congruence|].
  destruct al as [|a al]; [discriminate|]. cbn [row_line map length].
  destruct (pad_cell_len pad a w (@nth str i c []) Hp Hcw) as (x & -> & Hx).
  rewrite zsum_cons, !zlen_app, Hx.
  destruct cells as [|c2 cells].
  - inversion Hrest; subst. cbn [row_line map length zsum fold_right]. change (zlen []) with 0. lia.
  - rewrite IH; [|cbn in Hal |- *; lia|congruence]. cbn [length]. lia.
Qed.

Record wf_border (vl vc vr lc l c r : str) : Prop :=
  { wfb : (zlen lc = 1 /\ zlen l = zlen vl /\ zlen c = zlen vc /\ zlen r = zlen vr) \/ (lc = [] /\ l = [] /\ c = [] /\ r = []) }.
Definition wf_style (s : tstyle) : Prop :=
  let b := t_border s in
  zlen (t_pad s) = 1 /\ zlen (t_hpre s ++ t_hsuf s) = zlen (t_cpre s ++ t_csuf s) /\
  wf_border (b_vl b) (b_vc b) (b_vr b) (b_ht b) (b_tl b) (b_ct b) (b_tr b) /\
  wf_border (b_vl b) (b_vc b) (b_vr b) (b_hc b) (b_cl b) (b_cc b) (b_cr b) /\
  wf_border (b_vl b) (b_vc b) (b_vr b) (b_hb b) (b_bl b) (b_cb b) (b_br b).
Lemma wf_style_excess s : wf_style s ->
  zlen (t_hpre s) + zlen (t_hsuf s) = excess s /\ zlen (t_cpre s) + zlen (t_csuf s) = excess s.
Proof. intros (_ & H & _). unfold excess. rewrite !zlen_app in *. lia. Qed.

Definition full_width (s : tstyle) (cols : list Z) (ind : Z) : Z :=
  ind + zlen (b_vl (t_border s)) + zsum (map (fun c => c + excess s) cols)
  + (Z.of_nat (length cols) - 1) * zlen (b_vc (t_border s)) + zlen (b_vr (t_border s)).
Lemma full_width_le s W ind cols n : length cols = n -> zsum cols <= available_width s W ind (Z.of_nat n) -> full_width s cols ind <= W.
Proof. intros Hlen Hs. unfold full_width. rewrite zsum_map_add, Hlen. unfold available_width, border_width in *. lia. Qed.

Lemma border_body_len lc c r : forall lens, lens <> [] -> Forall (fun x => 0 <= x) lens ->
  zlen (border_body lc c r lens) = zlen lc * zsum lens + (Z.of_nat (length lens) - 1) * zlen c + zlen r.
Proof.
  induction lens as [|x lens IH]; intros Hne Hnn; [congruence|]. apply Forall_cons_iff in Hnn as [Hx Hr].
  cbn [border_body]. destruct lens as [|y lens].
  - rewrite zlen_app, zlen_rep, Z.max_r by lia. cbn [length]. rewrite zsum_cons. change (zsum []) with 0. lia.
  - rewrite !zlen_app, zlen_rep, IH by (congruence || assumption). rewrite Z.max_r by lia. cbn [length]. rewrite !zsum_cons. lia.
Qed.
Lemma border_body_nil lens : border_body [] [] [] lens = [].
Proof. induction lens as [|x lens IH]; [reflexivity|]. cbn [border_body]. rewrite rep_nil. destruct lens; [reflexivity|exact IH]. Qed.
(* a border of the style: no line at all (a style without this border), or a line of the table's width *)
Lemma border_line_width s cols ind lc l c r : 0 <= ind -> cols <> [] -> Forall (fun x => 0 <= x) cols ->
  wf_border (b_vl (t_border s)) (b_vc (t_border s)) (b_vr (t_border s)) lc l c r ->
  let line := blanks ind ++ l ++ border_body lc c r (map (fun x => x + excess s) cols) in
  t_rstrip line = [] \/ zlen line = full_width s cols ind.
Proof.
  intros Hind Hne Hnn [[(H1 & H2 & H3 & H4)|(-> & -> & -> & ->)]]; cbv zeta.
  - right. unfold full_width. rewrite !zlen_app, zlen_blanks, border_body_len.
    + rewrite map_length, H1, H2, H3, H4. lia.
    + destruct cols; cbn; congruence.
    + assert (0 <= excess s) by (unfold excess; pose proof (zlen_nonneg (t_hpre s ++ t_hsuf s)); lia).
      apply Forall_map. eapply Forall_impl; [|exact Hnn]. cbn. intros; lia.
  - left. rewrite border_body_nil, !app_nil_r. apply rstrip_blanks.
Qed.

Lemma nth_split_le i w cell : 0 <= w -> cell_ok w cell -> zlen (nth i (split_on 10%N cell) []) <= w.
Proof. intros Hw H. apply (Forall_nth_d (fun p => zlen p <= w)); assumption. Qed.
Lemma cells_fit_row i row cols : Forall2 (fun cell c => cell_ok c cell) row cols -> Forall (fun x => 0 <= x) cols ->
  Forall2 (fun c w => zlen (nth i c []) <= w) (map (split_on 10%N) row) cols.
Proof.
  intros Hrow Hnn. induction Hrow as [|c w r cs Hcw _ IH]; cbn [map]; constructor.
  - apply Forall_cons_iff in Hnn as [Hw _]. apply nth_split_le; assumption.
  - apply IH. apply Forall_cons_iff in Hnn as [_ H]. exact H.
Qed.
Lemma row_line_width s pre suf ind row cols al i : wf_style s -> 0 <= ind -> row <> [] ->
  zlen pre + zlen suf = excess s ->
  Forall2 (fun cell c => cell_ok c cell) row cols -> Forall (fun x => 0 <= x) cols -> length al = length cols ->
  zlen (blanks ind ++ b_vl (t_border s) ++
        row_line pre suf (t_pad s) (b_vc (t_border s)) (b_vr (t_border s)) i (map (split_on 10%N) row) cols al) = full_width s cols ind.
Proof.
  intros (Hp & _) Hind Hne Hex Hrow Hnn Hal.
  rewrite !zlen_app, zlen_blanks, (row_line_len pre suf (t_pad s) _ _ i Hp _ cols al (cells_fit_row i row cols Hrow Hnn) Hal).
  - unfold full_width. replace (map (fun w => zlen pre + w + zlen suf) cols) with (map (fun c => c + excess s) cols); [lia|].
    apply map_ext. intros; lia.
  - destruct row; [congruence|discriminate].
Qed.

(* the text is a sequence of lines, each the right-stripped form of a line of the given width *)
Definition rect (width : Z) (text : str) : Prop :=
  exists ls, text = flat_map (fun l => t_rstrip l ++ [10%N]) ls /\ Forall (fun l => zlen l = width) ls.
Lemma rect_nil w : rect w []. Proof. exists []. split; [reflexivity|constructor]. Qed.
Lemma rect_app w a b : rect w a -> rect w b -> rect w (a ++ b).
Proof. intros (la & -> & Ha) (lb & -> & Hb). exists (la ++ lb). split; [rewrite flat_map_app; reflexivity|apply Forall_app; auto]. Qed.
Lemma rect_concat w l : Forall (rect w) l -> rect w (concat l).
Proof. induction 1 as [|x l Hx _ IH]; cbn [concat]; [apply rect_nil|apply rect_app; assumption]. Qed.
Lemma draw_border_rect s cols ind lc l c r : 0 <= ind -> cols <> [] -> Forall (fun x => 0 <= x) cols ->
  wf_border (b_vl (t_border s)) (b_vc (t_border s)) (b_vr (t_border s)) lc l c r ->
  rect (full_width s cols ind) (draw_border ind (map (fun x => x + excess s) cols) lc l c r).
Proof.
  intros Hind Hne Hnn Hwf. unfold draw_border. destruct (border_line_width s cols ind lc l c r Hind Hne Hnn Hwf) as [E|E].
  - rewrite E. apply rect_nil.
  - destruct (t_rstrip _) as [|ch rest] eqn:Er; [apply rect_nil|].
    eexists [_]. split; [cbn [flat_map]; rewrite Er, app_nil_r; reflexivity|constructor; [exact E|constructor]].
Qed.
Lemma draw_row_rect s pre suf ind row cols al : wf_style s -> 0 <= ind -> row <> [] ->
  zlen pre + zlen suf = excess s ->
  Forall2 (fun cell c => cell_ok c cell) row cols -> Forall (fun x => 0 <= x) cols -> length al = length cols ->
  rect (full_width s cols ind) (draw_row (t_border s) pre suf (t_pad s) ind row cols al).
Proof.
  intros Hwf Hind Hne Hex Hrow Hnn Hal. unfold draw_row. rewrite flat_map_concat_map. apply rect_concat, Forall_map, Forall_forall. intros i _.
  eexists [_]. split; [cbn [flat_map]; now rewrite app_nil_r|]. constructor; [|constructor]. apply row_line_width; assumption.
Qed.

(* a table from top to bottom: the top border, with a header the header row and the border under it, the body rows, the
   bottom border.  B is what is made of a border, R what is made of a row in a cell format *)
Definition borders_of (s : tstyle) : list (str * str * str * str) :=
  let b := t_border s in [(b_ht b, b_tl b, b_ct b, b_tr b); (b_hc b, b_cl b, b_cc b, b_cr b); (b_hb b, b_bl b, b_cb b, b_br b)].
Definition table_parts {A} (s : tstyle) (header : list str) (rows : list (list str))
  (B : str * str * str * str -> A) (R : str -> str -> list str -> A) : list A :=
  let b := t_border s in
  B (b_ht b, b_tl b, b_ct b, b_tr b) ::
  (match header with [] => [] | _ => [R (t_hpre s) (t_hsuf s) (hd [] rows); B (b_hc b, b_cl b, b_cc b, b_cr b)] end) ++
  map (R (t_cpre s) (t_csuf s)) (match header with [] => rows | _ => tl rows end) ++ [B (b_hb b, b_bl b, b_cb b, b_br b)].
Definition is_format (s : tstyle) (pre suf : str) : Prop := (pre, suf) = (t_hpre s, t_hsuf s) \/ (pre, suf) = (t_cpre s, t_csuf s).
(* the parts of two tables with the same style and header, the rows of the second the images of the rows of the first *)
Lemma table_parts_Forall2 {A A'} (Q : A -> A' -> Prop) s header rows rows' (phi : list str -> list str) B R B' R' :
  phi [] = [] -> rows' = map phi rows ->
  (forall b, In b (borders_of s) -> Q (B b) (B' b)) ->
  (forall pre suf row, is_format s pre suf -> row = [] \/ In row rows -> Q (R pre suf row) (R' pre suf (phi row))) ->
  Forall2 Q (table_parts s header rows B R) (table_parts s header rows' B' R').
Proof.
  intros H0 -> HB HR. unfold table_parts. constructor; [apply HB; cbn; auto|]. apply Forall2_app; [|apply Forall2_app].
  - destruct header; [constructor|]. constructor; [|constructor; [apply HB; cbn; auto|constructor]].
    replace (hd [] (map phi rows)) with (phi (hd [] rows)) by (destruct rows; [exact H0|reflexivity]).
    apply HR; [left; reflexivity|]. destruct rows; cbn; auto.
  - replace (match header with [] => map phi rows | _ => tl (map phi rows) end) with (map phi (match header with [] => rows | _ => tl rows end))
      by (destruct header; [reflexivity|destruct rows; reflexivity]).
    assert (HI : forall row, In row (match header with [] => rows | _ => tl rows end) -> In row rows)
      by (intros row; destruct header; [auto|destruct rows; [auto|right; assumption]]).
    induction (match header with [] => rows | _ => tl rows end) as [|row body IH]; cbn [map]; constructor.
    + apply HR; [right; reflexivity|right; apply HI; left; reflexivity].
    + apply IH. intros r Hr. apply HI. right. exact Hr.
  - constructor; [apply HB; cbn; auto|constructor].
Qed.
Lemma table_parts_Forall {A} (P : A -> Prop) s header rows B R :
  (forall b, In b (borders_of s) -> P (B b)) ->
  (forall pre suf row, is_format s pre suf -> row = [] \/ In row rows -> P (R pre suf row)) ->
  Forall P (table_parts s header rows B R).
Proof.
  intros HB HR. pose proof (table_parts_Forall2 (fun x _ => P x) s header rows rows (fun r => r) B R B R eq_refl (eq_sym (map_id _)) HB HR) as H.
  revert H. generalize (table_parts s header rows B R) at 2. intros l'. induction 1; constructor; assumption.
Qed.
Lemma draw_table_parts s header ind st al : draw_table s header ind st al =
  concat (table_parts s header (f_rows st)
            (fun '(lc, l, c, r) => draw_border ind (map (fun l => l + excess s) (f_cols st)) lc l c r)
            (fun pre suf row => draw_row (t_border s) pre suf (t_pad s) ind row (f_cols st) al)).
Proof.
  unfold draw_table, table_parts. cbn [concat]. f_equal. rewrite !concat_app, <- flat_map_concat_map. cbn [concat]. rewrite app_nil_r. f_equal.
  destruct header; cbn [concat]; now rewrite ?app_nil_r.
Qed.
Lemma wf_style_borders s lc l c r : wf_style s -> In (lc, l, c, r) (borders_of s) ->
  wf_border (b_vl (t_border s)) (b_vc (t_border s)) (b_vr (t_border s)) lc l c r.
Proof. intros (_ & _ & B1 & B2 & B3) [E|[E|[E|[]]]]; injection E as <- <- <- <-; assumption. Qed.

Lemma alignments_length s n al : alignments s n = Ok al -> length al = n.
Proof. unfold alignments. destruct (Nat.ltb_spec n (length (t_aligns s))) as [E|E]; [discriminate|]. intros H; injection H as <-.
  rewrite app_length, repeat_length. lia. Qed.

Section TableRect.
  Hypothesis wrap_fits : forall t w ls, wrap t w = Ok ls -> Forall (fun l => zlen l <= w) ls.
  Hypothesis wrap_ok : forall t w, 1 <= w -> exists ls, wrap t w = Ok ls.
  Variable share : Z -> Z -> Z -> Z.

  (* inside the guard the table is fitted and its alignments are there: what is rendered is the fitted state drawn *)
  Lemma render_pure_drawn s n header cells W ind r : (1 <= n)%nat -> Z.of_nat n <= available_width s W ind (Z.of_nat n) ->
    render_pure (fun _ => false) share s n header cells (map zlen cells) W ind = r ->
    exists st, INV n st /\ zsum (f_cols st) <= available_width s W ind (Z.of_nat n) /\
      r = do al <- alignments s n; Ok (st, draw_table s header ind st al).
  Proof.
    intros Hn Hg <-. unfold render_pure.
    destruct (fit_g_spec wrap_fits wrap_ok share _ n cells Hn Hg) as (st & -> & HI & Hsum). cbn [bind].
    rewrite (inv_len _ _ HI). eauto.
  Qed.

  (* rendering succeeds whenever every column can have one character (and no more alignments are set than there are columns) *)
  Theorem render_total s n header rows W ind : (1 <= n)%nat -> Z.of_nat n <= available_width s W ind (Z.of_nat n) ->
    (length (t_aligns s) <= n)%nat -> exists r, render_table share s n header rows W ind = Ok r.
  Proof.
    intros Hn Hg Hal. unfold render_table. destruct rows as [|r0 rows]; [eauto|].
    destruct (render_pure_drawn s n header (map t_rstrip (header ++ concat (r0 :: rows))) W ind _ Hn Hg eq_refl) as (st & _ & _ & ->).
    unfold alignments. destruct (Nat.ltb_spec n (length (t_aligns s))) as [E|E]; [lia|]. cbn [bind]. eauto.
  Qed.

  Theorem table_rect_pure s n header cells W ind st text : wf_style s -> (1 <= n)%nat -> 0 <= ind ->
    Z.of_nat n <= available_width s W ind (Z.of_nat n) ->
    render_pure (fun _ => false) share s n header cells (map zlen cells) W ind = Ok (st, text) ->
    rect (full_width s (f_cols st) ind) text /\ full_width s (f_cols st) ind <= W /\ cells_fit st /\ length (f_cols st) = n.
  Proof.
    intros Hwf Hn Hind Hg H. destruct (render_pure_drawn s n header cells W ind _ Hn Hg H) as (st0 & HI & Hsum & E).
    symmetry in E. bind_inv E al Ea. injection E as <- <-. pose proof (alignments_length _ _ _ Ea) as Hal.
    pose proof (inv_cells_fit _ _ HI) as CF. pose proof (inv_len _ _ HI) as Hlen. pose proof (inv_nonneg _ _ HI) as Hnn.
    pose proof (inv_cols_ne _ _ HI Hn) as Hne.
    repeat split; [|exact (full_width_le _ _ _ _ _ Hlen Hsum)|exact CF|exact Hlen].
    rewrite draw_table_parts. apply rect_concat, table_parts_Forall.
    - intros [[[lc l] c] r] Hin. apply draw_border_rect; auto. exact (wf_style_borders s _ _ _ _ Hwf Hin).
    - intros pre suf row Hf [-> | Hin]; [exact (rect_nil _)|]. destruct (cells_fit_in _ _ CF Hne Hin). apply draw_row_rect; auto; [|congruence].
      destruct (wf_style_excess s Hwf). destruct Hf as [E|E]; injection E as -> ->; assumption.
  Qed.
  Theorem table_rect s n header rows W ind st text : wf_style s -> (1 <= n)%nat -> 0 <= ind -> rows <> [] ->
    Z.of_nat n <= available_width s W ind (Z.of_nat n) ->
    render_table share s n header rows W ind = Ok (st, text) ->
    rect (full_width s (f_cols st) ind) text /\ full_width s (f_cols st) ind <= W /\ cells_fit st /\ length (f_cols st) = n.
  Proof.
    intros Hwf Hn Hind Hrows Hg H. unfold render_table in H. destruct rows as [|r0 rows]; [congruence|].
    eapply table_rect_pure; eauto.
  Qed.
End TableRect.

(* fit_g changes the rows only by putting what wrap_cell returns in a cell's place.  So a relation between cells that
   is reflexive, transitive and holds between wrap_cell's result and its argument holds, cell by cell, between the rows
   of the result and the rows fit_g starts from (given one length for every cell: then no row is dropped for want of
   its lengths) *)
Section Cells.
  Variables (g : str -> bool) (R : str -> str -> Prop).
  Hypothesis R_refl : forall c, R c c.
  Hypothesis R_trans : forall a b c, R a b -> R b c -> R a c.
  Hypothesis R_wrap : forall w cu cell len c' l' wr cu', wrap_cell g w cu cell len = Ok (c', l', wr, cu') -> R c' cell.
  Definition rows_rel : list (list str) -> list (list str) -> Prop := Forall2 (Forall2 R).

  Lemma set_nth_rel col c' row : R c' (nth col row []) -> Forall2 R (set_nth col c' row) row.
  Proof.
    revert col. induction row as [|x row IH]; intros [|col] H; cbn [set_nth nth] in *; constructor; auto.
    apply Forall2_diag, R_refl.
  Qed.
  Lemma wrap_col_rel col w rows lens wr cu rs ls wr' cu' : wrap_col g col w rows lens wr cu = Ok (rs, ls, wr', cu') ->
    length rows = length lens -> rows_rel rs rows /\ length rs = length ls.
  Proof.
    apply (wrap_col_ind g col w (fun rows lens _ _ rs ls _ _ => length rows = length lens -> rows_rel rs rows /\ length rs = length ls)).
    - intros rows0 ? _ _ [-> | ->] E; [|destruct rows0; [|discriminate]]; split; constructor.
    - intros row ? ln ? ? ? c1 ? ? ? ? ? ? ? WC IH E. cbn [length] in E. destruct (IH ltac:(lia)) as [A1 A2].
      split; [constructor; [apply set_nth_rel; eapply R_wrap; exact WC|exact A1]|cbn [length]; congruence].
  Qed.
  Lemma fit_column_rel col w st st' : fit_column g col w st = Ok st' -> length (f_rows st) = length (f_lens st) ->
    rows_rel (f_rows st') (f_rows st) /\ length (f_rows st') = length (f_lens st').
  Proof.
    unfold fit_column. intros H E. bind_inv H x WR. destruct x as [[[rs ls] wr] cu]. injection H as <-.
    exact (wrap_col_rel _ _ _ _ _ _ _ _ _ _ WR E).
  Qed.
  Lemma distribute_rel share av : forall long col actual rem st st', distribute g share av long col actual rem st = Ok st' ->
    length (f_rows st) = length (f_lens st) -> rows_rel (f_rows st') (f_rows st).
  Proof.
    induction long as [|[len|] r IH]; intros col actual rem st st' H E.
    - injection H as <-. apply Forall2_diag, Forall2_diag, R_refl.
    - rewrite distribute_cons in H. bind_inv H w Hw. bind_inv H st1 F1. destruct (fit_column_rel _ _ _ _ F1 E) as [A1 A2].
      eapply (Forall2_trans _ (Forall2_trans _ R_trans)); [exact (IH _ _ _ _ _ H A2)|exact A1].
    - exact (IH _ _ _ _ _ H E).
  Qed.
  Lemma fit_g_rel share max_total n cells lens st : length lens = length cells ->
    fit_g g share max_total n cells lens = Ok st -> rows_rel (f_rows st) (map (pad_row n) (chunk (length cells) n cells)).
  Proof.
    intros E H. destruct (fit_g_inv _ _ _ _ _ _ _ H) as (st0 & E0 & Hst). apply init_state_l_rows in E0. subst st0.
    destruct Hst as [-> | (av & long & D)]; [apply Forall2_diag, Forall2_diag, R_refl|].
    apply (distribute_rel _ _ _ _ _ _ _ _ D), init_rows_length, E.
  Qed.
End Cells.

(* in particular a property that wrap_cell hands on from the cell to its result holds of all cells of the result *)
Section CellsP.
  Variables (g : str -> bool) (P : str -> Prop).
  Hypothesis P_wrap : forall w cu cell len c' l' wr cu', P cell -> wrap_cell g w cu cell len = Ok (c', l', wr, cu') -> P c'.
  Let R c' c := P c -> P c'.
  Let R_refl c : R c c := fun H => H.
  Let R_trans a b c : R a b -> R b c -> R a c := fun H1 H2 H => H1 (H2 H).
  Let R_wrap w cu cell len c' l' wr cu' (E : wrap_cell g w cu cell len = Ok (c', l', wr, cu')) : R c' cell := fun H => P_wrap _ _ _ _ _ _ _ _ H E.
  Lemma rows_carry rows' rows : rows_rel R rows' rows -> Forall (Forall P) rows -> Forall (Forall P) rows'.
  Proof. intros H. apply Forall2_carry. eapply Forall2_mono; [|exact H]. intros r' r. apply Forall2_carry. Qed.
  Lemma fit_column_cells col w st st' : fit_column g col w st = Ok st' -> length (f_rows st) = length (f_lens st) ->
    Forall (Forall P) (f_rows st) -> Forall (Forall P) (f_rows st') /\ length (f_rows st') = length (f_lens st').
  Proof. intros H E HP. destruct (fit_column_rel g R R_refl R_wrap _ _ _ _ H E) as [A1 A2]. split; [exact (rows_carry _ _ A1 HP)|exact A2]. Qed.
  Lemma fit_g_cells share max_total n cells lens st : P [] -> length lens = length cells -> Forall P cells ->
    fit_g g share max_total n cells lens = Ok st -> Forall (Forall P) (f_rows st).
  Proof.
    intros H0 E HP H. apply (rows_carry _ _ (fit_g_rel g R R_refl R_trans R_wrap _ _ _ _ _ _ E H)), init_rows_Forall; assumption.
  Qed.
End CellsP.

Definition nsp (c : N) : bool := negb (is_space c).
Definition same_text (a b : str) : Prop := filter nsp a = filter nsp b.
Lemma same_text_refl a : same_text a a. Proof. reflexivity. Qed.
Lemma same_text_trans a b c : same_text a b -> same_text b c -> same_text a c.
Proof. unfold same_text; congruence. Qed.
Lemma filter_join_nl ls : filter nsp (join_with 10%N ls) = filter nsp (concat ls).
Proof.
  induction ls as [|l ls IH]; [reflexivity|]. cbn [join_with concat]. destruct ls as [|l2 ls].
  - cbn [concat]. rewrite app_nil_r. reflexivity.
  - rewrite !filter_app, <- IH. cbn [filter]. change (nsp 10%N) with false. reflexivity.
Qed.
Lemma munge_same_text t : filter nsp (munge t) = filter nsp t.
Proof.
  unfold munge. induction t as [|c t IH]; [reflexivity|]. cbn [map filter]. rewrite IH.
  destruct (tw_space c) eqn:E; [|reflexivity]. change (nsp SP) with false.
  assert (Hs : is_space c = true).
  { unfold tw_space in E. cbn [existsb] in E. rewrite !orb_true_iff in E.
    repeat (destruct E as [E|E]; [apply N.eqb_eq in E; subst c; reflexivity|]). discriminate. }
  unfold nsp. rewrite Hs. reflexivity.
Qed.
Lemma rstrip_same_text c : same_text (t_rstrip c) c.
Proof.
  destruct (rstrip_split c) as (sp & E & F). unfold same_text. rewrite E at 2. rewrite filter_app.
  replace (filter nsp sp) with (@nil N); [now rewrite app_nil_r|].
  clear E. induction F as [|x sp Hx _ IH]; [reflexivity|]. cbn [filter]. unfold nsp at 1. rewrite Hx. exact IH.
Qed.
Definition rows_same : list (list str) -> list (list str) -> Prop := rows_rel same_text.

Section Keeps.
  Hypothesis wrap_keeps : forall t w ls, wrap t w = Ok ls -> filter nsp (concat ls) = filter nsp (munge t).
  Variables (g : str -> bool) (share : Z -> Z -> Z -> Z).

  Lemma wrap_cell_keeps w cu cell len c' l' wrapped cu' : wrap_cell g w cu cell len = Ok (c', l', wrapped, cu') -> same_text c' cell.
  Proof.
    unfold wrap_cell. destruct (w <? len); [|intros H; injection H as <- _ _ _; reflexivity].
    destruct (g cell); [discriminate|]. intros H. bind_inv H ls W. injection H as <- _ _ _.
    unfold same_text. rewrite filter_join_nl, (wrap_keeps _ _ _ W). apply munge_same_text.
  Qed.
  Theorem fit_g_keeps max_total n cells st : fit_g g share max_total n cells (map zlen cells) = Ok st ->
    rows_same (f_rows st) (map (pad_row n) (chunk (length cells) n cells)).
  Proof. apply (fit_g_rel g same_text same_text_refl same_text_trans wrap_cell_keeps). apply map_length. Qed.
End Keeps.

Lemma chunk_concat n (rows : list (list str)) : (1 <= n)%nat -> Forall (fun r => length r = n) rows ->
  forall fuel, (length rows <= fuel)%nat -> chunk fuel n (concat rows) = rows.
Proof.
  intros Hn H. induction H as [|r rows Hr _ IH]; intros fuel Hf.
  - destruct fuel; reflexivity.
  - destruct fuel as [|f]; [cbn in Hf; lia|]. cbn [concat chunk].
    destruct (r ++ concat rows) as [|c rest] eqn:E.
    { destruct r; [cbn in Hr; lia|discriminate]. }
    rewrite <- E. rewrite <- Hr at 1 3. rewrite firstn_app, Nat.sub_diag, firstn_all, skipn_app, Nat.sub_diag, skipn_all. cbn [firstn skipn app].
    rewrite app_nil_r. f_equal. apply IH. cbn in Hf; lia.
Qed.
Lemma pad_row_full n r : length r = n -> pad_row n r = r.
Proof. intros <-. unfold pad_row. rewrite Nat.sub_diag. cbn. apply app_nil_r. Qed.

Lemma is_nil_true s : is_nil s = true -> s = []. Proof. destruct s; [reflexivity|discriminate]. Qed.
Lemma wf_borderb_sound vl vc vr lc l c r : wf_borderb vl vc vr lc l c r = true -> wf_border vl vc vr lc l c r.
Proof.
  unfold wf_borderb. intros H. constructor. apply orb_true_iff in H as [H|H].
  - left. rewrite !andb_true_iff in H. lia.
  - right. rewrite !andb_true_iff in H. destruct H as [[[A B] C] D]. repeat split; apply is_nil_true; assumption.
Qed.
Lemma wf_styleb_sound s : wf_styleb s = true -> wf_style s.
Proof.
  unfold wf_styleb, wf_style. intros H. rewrite !andb_true_iff in H. destruct H as [[[[A B] C] D] E].
  repeat split; try (apply wf_borderb_sound; assumption); lia.
Qed.

(* the header, when there is one, is the first row of the table *)
Definition all_rows (header : list str) (rows : list (list str)) : list (list str) :=
  match header with [] => rows | _ => header :: rows end.
Lemma all_rows_concat header rows : header ++ concat rows = concat (all_rows header rows).
Proof. destruct header; reflexivity. Qed.
Lemma all_rows_length n header rows : Forall (fun r => length r = n) rows -> header = [] \/ length header = n ->
  Forall (fun r => length r = n) (all_rows header rows).
Proof. intros Hrows Hhdr. destruct header as [|h hs]; [exact Hrows|]. constructor; [destruct Hhdr; [discriminate|assumption]|exact Hrows]. Qed.

Section KeepsTable.
  Hypothesis wrap_keeps : forall t w ls, wrap t w = Ok ls -> filter nsp (concat ls) = filter nsp (munge t).
  Variable share : Z -> Z -> Z -> Z.
  (* on right-stripped cells: the wrapped rows are the cells laid out n per row *)
  Theorem table_keeps_pure g s n header (X : list (list str)) W ind st text : (1 <= n)%nat ->
    Forall (fun r => length r = n) X ->
    render_pure g share s n header (concat X) (map zlen (concat X)) W ind = Ok (st, text) ->
    rows_same (f_rows st) X.
  Proof.
    intros Hn HX H. unfold render_pure in H. bind_inv H st0 F. bind_inv H al Ea. injection H as <- _.
    pose proof (fit_g_keeps wrap_keeps g share _ _ _ _ F) as K.
    rewrite chunk_concat in K; auto.
    - replace (map (pad_row n) X) with X in K; [exact K|].
      clear -HX. induction HX as [|r l Hr _ IH]; [reflexivity|]. cbn [map]. rewrite pad_row_full by exact Hr. f_equal. exact IH.
    - (* enough fuel: every row holds at least one cell *)
      clear -HX Hn. induction HX as [|r l Hr _ IH]; [cbn; lia|]. cbn [concat length]. rewrite app_length. lia.
  Qed.
  Theorem table_keeps s n header rows W ind st text : (1 <= n)%nat -> rows <> [] ->
    Forall (fun r => length r = n) rows -> (header = [] \/ length header = n) ->
    render_table share s n header rows W ind = Ok (st, text) ->
    rows_same (f_rows st) (map (map t_rstrip) (all_rows header rows)).
  Proof.
    intros Hn Hne Hrows Hhdr H. unfold render_table in H. destruct rows as [|r0 rows]; [congruence|].
    rewrite all_rows_concat, concat_map in H. refine (table_keeps_pure _ s n header _ W ind st text Hn _ H).
    apply Forall_map. eapply Forall_impl; [|exact (all_rows_length n header _ Hrows Hhdr)]. intros r Hr. now rewrite map_length.
  Qed.
End KeepsTable.

Lemma rows_same_unstrip a b : rows_same a (map (map t_rstrip) b) -> Forall2 (Forall2 same_text) a b.
Proof.
  unfold rows_same. intros K. remember (map (map t_rstrip) b) as b' eqn:E. revert b E.
  induction K as [|ra rb a b' Hab _ IH]; intros b E; destruct b as [|r b]; try discriminate; constructor.
  - cbn [map] in E. injection E as -> _. clear -Hab. remember (map t_rstrip r) as r' eqn:E. revert r E.
    induction Hab as [|x y ra r' Hxy _ IH]; intros r E; destruct r as [|c r]; try discriminate; constructor.
    + cbn [map] in E. injection E as -> _. exact (same_text_trans _ _ _ Hxy (rstrip_same_text c)).
    + cbn [map] in E. injection E as _ E. exact (IH r E).
  - cbn [map] in E. injection E as _ E. exact (IH b E).
Qed.
