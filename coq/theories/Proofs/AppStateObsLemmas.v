(* C17: the whole observation of a run (summary + the arguments the handler is given) is independent of the history (obs_on);
   what the reuse of one raw-arguments object needs of obs_on (obs_on_same_state, obs_on_keeps; the statement over run_same is proved
   in Props/C17.v), and the counter-example before the repair (RawArgsExample). *)
From Coq Require Import Lia.
From Clikit Require Import Base.Prelude Base.Res Model.Conv Model.Format Model.Parser Model.Resolver Model.Run
     Model.Tokenizer Model.Switches Model.AppState Proofs.AppStateLemmas Proofs.AppStateRestoreLemmas.

Lemma obs_on_state st a toks : fst (obs_on st a toks) = fst (run_on st a toks).
Proof. unfold obs_on. destruct (run_on st a toks); reflexivity. Qed.
Lemma obs_on_summary st a toks : fst (snd (obs_on st a toks)) = snd (run_on st a toks).
Proof. unfold obs_on. destruct (run_on st a toks); reflexivity. Qed.
Lemma obs_on_same_state st st' a toks : apply_state st a = apply_state st' a -> snd (obs_on st a toks) = snd (obs_on st' a toks).
Proof.
  intros H. pose proof (run_on_same_state st st' a toks H) as Ho. unfold obs_on.
  destruct (run_on st a toks) as [s1 sm1], (run_on st' a toks) as [s2 sm2]. cbn [snd] in *. subst sm2. now rewrite H.
Qed.
Lemma obs_on_keeps st a toks : apply_state (fst (obs_on st a toks)) a = apply_state st a.
Proof. rewrite obs_on_state. apply run_on_state_holds. Qed.

(* every run of a history: the summary AND the arguments its handler is given are those of a fresh application *)
Lemma runs_obs_independent_from a : forall lines st, apply_state st a = apply_state [] a ->
  runs_obs_on st a lines = map (fun l => snd (obs_on [] a l)) lines.
Proof.
  induction lines as [|l r IH]; intros st Hst; cbn [runs_obs_on map]; [reflexivity|].
  pose proof (obs_on_same_state st [] a l Hst) as Ho. pose proof (obs_on_keeps st a l) as Hk.
  destruct (obs_on st a l) as [st1 o]. cbn [fst snd] in *. rewrite Ho. f_equal. apply IH. congruence.
Qed.
(* the summaries alone: the same history without the handler arguments *)
Lemma runs_on_of_obs a : forall lines st, runs_on st a lines = map fst (runs_obs_on st a lines).
Proof.
  induction lines as [|l r IH]; intros st; cbn [runs_on runs_obs_on map]; [reflexivity|]. unfold obs_on.
  destruct (run_on st a l) as [st1 sm]. cbn [map fst]. now rewrite IH.
Qed.
Lemma runs_independent_from a lines st :
  apply_state st a = apply_state [] a -> runs_on st a lines = map (fun l => snd (run_on [] a l)) lines.
Proof.
  intros H. rewrite runs_on_of_obs, (runs_obs_independent_from a lines st H), map_map. apply map_ext. intros l. apply obs_on_summary.
Qed.
(* the arguments are the ones the resolver parses for the line on the fresh application *)
Lemma fresh_handler_args a toks : apply_state [] a = a ->
  snd (snd (obs_on [] a toks)) = handler_args a toks (sm_action (run_summary false a toks)).
Proof. intros H. unfold obs_on, run_on. rewrite H. cbn [snd]. destruct (sm_action (run_summary false a toks)); reflexivity. Qed.

(* with the help resolver's del args.tokens[0] done in the caller's object (run_same true; clikit before its repair):
   "help go" handed to run() twice shows the help page of go, then RUNS go *)
Module RawArgsExample.
Definition s_go : str := [103;111]%N.
Definition s_command : str := [99;111;109;109;97;110;100]%N.
Definition o_help : opt := {| o_long := S_help; o_short := Some [104%N]; o_flags := 4 + 2 + 128; o_default := VNone |}.
Definition a_command : arg := {| a_name := s_command; a_flags := 2 + 4 + 16; a_default := VList [] |}.
Definition cfg : appcfg :=
  {| ac_opts := [o_help]; ac_args := [];
     ac_cmds := [Cmd S_help [] true false true false [] [a_command] []; Cmd s_go [] false false true false [] [] []] |}.
Example reuse_refuted_in_place :
  match build_app cfg with
  | Ok a => map (fun to => (fst to, sm_action (fst (snd to)))) (snd (run_same true 2 [] a [S_help; s_go]))
            = [([S_help; s_go], AHelpCmd [s_go]); ([s_go], AHandler [s_go])]
  | Err _ => False
  end.
Proof. vm_compute. reflexivity. Qed.
Example reuse_holds_with_copy :
  match build_app cfg with
  | Ok a => map (fun to => (fst to, sm_action (fst (snd to)))) (snd (run_same false 2 [] a [S_help; s_go]))
            = [([S_help; s_go], AHelpCmd [s_go]); ([S_help; s_go], AHelpCmd [s_go])]
  | Err _ => False
  end.
Proof. vm_compute. reflexivity. Qed.
End RawArgsExample.
