(* Model/Run.v (C04): what run returns from what handle answers, the range of the status, the count of handler
   invocations, the return values that pass the listeners, and the three ways an exception reaches run(). *)
From Coq Require Import Lia.
From Clikit Require Import Base.Prelude Base.Res Model.Conv Model.Run.

Lemma clamp_range z : (1 <= clamp z <= 255)%Z.
Proof. unfold clamp. lia. Qed.
Lemma clamp_nonzero z : clamp z <> 0%Z.
Proof. pose proof (clamp_range z). lia. Qed.

(* run, from what handle answers: a status is returned as it is; whatever reaches run() as an exception - raised by
   the handler, by a pre-handle listener, or by int(status) - is reported, escapes, or (KeyboardInterrupt) ends in status 1 *)
Lemma run_status_ok catch debug ok ls h s calls : handle debug ls h = (inl s, calls) ->
  run catch debug ok ls h = {| r_end := Status s; r_handler_calls := calls; r_reported := false; r_simple := false |}.
Proof. intros H. unfold run. rewrite H. reflexivity. Qed.
Lemma run_exn catch debug ok ls h e calls : handle debug ls h = (inr e, calls) ->
  run catch debug ok ls h
  = if e_keyboard e then {| r_end := Status 1; r_handler_calls := calls; r_reported := false; r_simple := false |}
    else if negb catch then {| r_end := Escaped e; r_handler_calls := calls; r_reported := false; r_simple := false |}
    else if negb ok then {| r_end := Escaped conversion_error; r_handler_calls := calls; r_reported := false; r_simple := e_clikit e |}
    else {| r_end := Status 1; r_handler_calls := calls; r_reported := true; r_simple := e_clikit e |}.
Proof. intros H. unfold run. rewrite H. reflexivity. Qed.
(* the invocations counted are those of _do_handle *)
Lemma run_calls catch debug ok ls h : r_handler_calls (run catch debug ok ls h) = snd (do_handle ls h).
Proof.
  destruct (handle debug ls h) as [[s|e] calls] eqn:E.
  - rewrite (run_status_ok _ _ _ _ _ _ _ E). unfold handle in E. destruct (do_handle ls h). now inversion E.
  - rewrite (run_exn _ _ _ _ _ _ _ E). unfold handle in E. destruct (do_handle ls h).
    destruct (e_keyboard e), (negb catch), (negb ok); now inversion E.
Qed.

(* the status handle() returns is 0 or in 1..255 *)
Lemma handle_status debug ls h s n : handle debug ls h = (inl s, n) -> (0 <= s <= 255)%Z.
Proof.
  unfold handle. destruct (do_handle ls h) as [r calls].
  destruct r as [v|e].
  - destruct (truthy v); cbn [negb]; [|intros H; inversion H; lia].
    destruct (to_int v); intros H; inversion H. pose proof (clamp_range z). lia.
  - destruct (e_keyboard e && negb debug); [cbn; intros H; inversion H; cbn; lia|discriminate].
Qed.

(* a run with exception catching enabled whose report renderer returns: an integer status in 0..255, never an escape *)
Lemma run_returns_status debug ls h :
  exists s, r_end (run true debug true ls h) = Status s /\ (0 <= s <= 255)%Z.
Proof.
  destruct (handle debug ls h) as [[s|e] calls] eqn:E.
  - rewrite (run_status_ok _ _ _ _ _ _ _ E). exists s. split; [reflexivity|]. eapply handle_status; eauto.
  - rewrite (run_exn _ _ _ _ _ _ _ E). destruct (e_keyboard e); exists 1%Z; split; auto; lia.
Qed.

Lemma run_no_escape debug ls h e : r_end (run true debug true ls h) <> Escaped e.
Proof. destruct (run_returns_status debug ls h) as (s & -> & _). discriminate. Qed.
(* a report is printed exactly when an exception other than KeyboardInterrupt reached run() *)
Lemma reported_iff debug ls h :
  r_reported (run true debug true ls h) = true <-> exists e calls, handle debug ls h = (inr e, calls) /\ e_keyboard e = false.
Proof.
  destruct (handle debug ls h) as [[s|e] calls] eqn:E.
  - rewrite (run_status_ok _ _ _ _ _ _ _ E). cbn [r_reported]. split; [discriminate|]. intros (e & n & H & _). discriminate.
  - rewrite (run_exn _ _ _ _ _ _ _ E). destruct (e_keyboard e) eqn:Ek; cbn [negb r_reported].
    + split; [discriminate|]. intros (e' & n & H & Hk). injection H as <- <-. congruence.
    + split; [|reflexivity]. intros _. exists e, calls. split; [reflexivity|exact Ek].
Qed.

(* no pre-handle listener handles the event or fails: the handler gets its turn *)
Definition listeners_pass (ls : list listener) : Prop := dispatch_pre ls None = inl None.
(* then: status 0 exactly for a falsy return value; the clamped integer for a truthy convertible one; status 1 with an
   error report when int() rejects it *)
Lemma ret_falsy debug ls v : listeners_pass ls -> truthy v = false ->
  run true debug true ls (Ret v) = {| r_end := Status 0; r_handler_calls := 1; r_reported := false; r_simple := false |}.
Proof. unfold listeners_pass, run, handle, do_handle. intros -> ->. reflexivity. Qed.
Lemma ret_truthy debug ls v z : listeners_pass ls -> truthy v = true -> to_int v = Some z ->
  run true debug true ls (Ret v) = {| r_end := Status (clamp z); r_handler_calls := 1; r_reported := false; r_simple := false |}.
Proof. unfold listeners_pass, run, handle, do_handle. intros -> -> ->. reflexivity. Qed.
Lemma ret_unconvertible debug ls v : listeners_pass ls -> truthy v = true -> to_int v = None ->
  run true debug true ls (Ret v) = {| r_end := Status 1; r_handler_calls := 1; r_reported := true; r_simple := false |}.
Proof. unfold listeners_pass, run, handle, do_handle. intros -> -> ->. reflexivity. Qed.

(* the three ways an exception comes about: the handler raises, int() rejects its result, a pre-handle listener fails *)
Lemma handle_raise debug ls e : listeners_pass ls -> e_keyboard e = false -> handle debug ls (Raise e) = (inr e, 1).
Proof. unfold listeners_pass, handle, do_handle. intros -> ->. reflexivity. Qed.
Lemma handle_unconvertible debug ls v : listeners_pass ls -> truthy v = true -> to_int v = None ->
  handle debug ls (Ret v) = (inr conversion_error, 1).
Proof. unfold listeners_pass, handle, do_handle. intros -> -> ->. reflexivity. Qed.
Lemma handle_listener_failure debug ls h e : dispatch_pre ls None = inr e -> e_keyboard e = false -> handle debug ls h = (inr e, 0).
Proof. unfold handle, do_handle. intros -> ->. reflexivity. Qed.
