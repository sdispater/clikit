(* C01: what the assignment [denote f d] of Model/Spell.v reports through the read side of Args -
   "reports exactly those values, reports the declared defaults for everything not given, marks as
   set exactly what was given".  These are facts about the definition of denote (they make it
   evident that it is the intended assignment); parse_spells transfers them to the parser.
   denote and denote2 build the same record from the events and the values of a line: the facts are stated
   for [assignment f es V]. *)
From Coq Require Import Lia.
From Clikit Require Import Base.Prelude Base.Res Model.Conv Model.Flags Model.Format Model.Parser Model.Spell
     Proofs.StrLemmas Proofs.DictLemmas Proofs.FormatLemmas Proofs.ParserLemmas Proofs.SpellOpts Proofs.SpellArgs.

Definition ev_key (e : opt * given) : str := o_long (fst e).
Definition mentions (k : str) (es : list (opt * given)) : bool := existsb (fun e => str_eqb k (ev_key e)) es.
(* the texts given to the option named k, in line order *)
Definition texts_of (k : str) (es : list (opt * given)) : list str :=
  flat_map (fun e => if str_eqb k (ev_key e) then match snd e with GText s => [s] | _ => [] end else []) es.
(* the value a single event gives *)
Definition event_value (e : opt * given) : pyval :=
  match snd e with
  | GTrue => VBool true
  | GDefault => conv_opt (fst e) (o_default (fst e))
  | GText s => conv_opt (fst e) (VStr s)
  end.

Lemma denote_event_key acc e : exists v, denote_event acc e = sset (ev_key e) v acc.
Proof.
  unfold denote_event, ev_key. destruct (snd e); [eauto|eauto|]. destruct (o_multi (fst e)); eauto.
Qed.

Lemma denote_keys k : forall es acc,
  shas k (fold_left denote_event es acc) = shas k acc || mentions k es.
Proof.
  induction es as [|e es IH]; intros acc; cbn [fold_left mentions existsb]; [now rewrite orb_false_r|].
  fold (mentions k es). rewrite IH. destruct (denote_event_key acc e) as [v ->]. rewrite shas_set.
  destruct (str_eqb k (ev_key e)), (shas k acc); reflexivity.
Qed.

(* an event for another option does not change the entry of k *)
Lemma denote_event_other k acc e : str_eqb k (ev_key e) = false -> sget k (denote_event acc e) = sget k acc.
Proof.
  intros H. destruct (denote_event_key acc e) as [v ->]. now rewrite sget_set, H.
Qed.
Lemma denote_others k : forall es acc, mentions k es = false -> sget k (fold_left denote_event es acc) = sget k acc.
Proof.
  induction es as [|e es IH]; intros acc H; cbn [fold_left]; [reflexivity|].
  cbn [mentions existsb] in H. apply orb_false_elim in H as [H1 H2]. rewrite IH by exact H2.
  apply denote_event_other. exact H1.
Qed.

(* a single-valued option reports the value of its last occurrence *)
Lemma denote_last k es1 e es2 acc :
  str_eqb k (ev_key e) = true -> mentions k es2 = false ->
  (match snd e with GText _ => o_multi (fst e) = false | _ => True end) ->
  sget k (fold_left denote_event (es1 ++ e :: es2) acc) = Some (event_value e).
Proof.
  intros Hk H2 Hs. rewrite fold_left_app. cbn [fold_left]. rewrite denote_others by exact H2.
  apply str_eqb_eq in Hk. subst k. unfold denote_event, event_value, ev_key.
  destruct (snd e) as [| |s]; [| |rewrite Hs]; apply sget_set_same.
Qed.

(* a multi-valued option reports all its texts, converted, in line order *)
Lemma denote_multi o : o_multi o = true -> forall es acc l,
  (forall e, In e es -> str_eqb (o_long o) (ev_key e) = true -> fst e = o /\ exists s, snd e = GText s) ->
  sget (o_long o) acc = Some (VList l) ->
  sget (o_long o) (fold_left denote_event es acc) =
  Some (VList (l ++ map (fun s => conv_opt o (VStr s)) (texts_of (o_long o) es))).
Proof.
  intros Hm. induction es as [|e es IH]; intros acc l Hes Hacc; cbn [fold_left texts_of flat_map map].
  - rewrite app_nil_r. exact Hacc.
  - fold (texts_of (o_long o) es).
    assert (forall e0, In e0 es -> str_eqb (o_long o) (ev_key e0) = true -> fst e0 = o /\ exists s, snd e0 = GText s) as Hes'
      by (intros e0 Hi; apply Hes; now right).
    destruct (str_eqb (o_long o) (ev_key e)) eqn:Hk.
    + destruct (Hes e (or_introl eq_refl) Hk) as [Ho [s Hs]].
      rewrite (IH (denote_event acc e) (l ++ [conv_opt o (VStr s)])); [|exact Hes'|].
      * rewrite Hs. cbn [app map]. rewrite <- app_assoc. reflexivity.
      * unfold denote_event. rewrite Hs, Ho, Hm, Hacc. apply sget_set_same.
    + cbn [app]. apply IH; [exact Hes'|]. rewrite denote_event_other by exact Hk. exact Hacc.
Qed.
Lemma denote_multi_first o : o_multi o = true -> forall es acc,
  (forall e, In e es -> str_eqb (o_long o) (ev_key e) = true -> fst e = o /\ exists s, snd e = GText s) ->
  sget (o_long o) acc = None -> mentions (o_long o) es = true ->
  sget (o_long o) (fold_left denote_event es acc) =
  Some (VList (map (fun s => conv_opt o (VStr s)) (texts_of (o_long o) es))).
Proof.
  intros Hm. induction es as [|e es IH]; intros acc Hes Hacc Hmen; [discriminate|].
  cbn [fold_left texts_of flat_map]. fold (texts_of (o_long o) es).
  assert (forall e0, In e0 es -> str_eqb (o_long o) (ev_key e0) = true -> fst e0 = o /\ exists s, snd e0 = GText s) as Hes'
    by (intros e0 Hi; apply Hes; now right).
  cbn [mentions existsb] in Hmen. fold (mentions (o_long o) es) in Hmen.
  destruct (str_eqb (o_long o) (ev_key e)) eqn:Hk.
  - destruct (Hes e (or_introl eq_refl) Hk) as [Ho [s Hs]]. rewrite Hs. cbn [app map].
    rewrite (denote_multi o Hm es (denote_event acc e) [conv_opt o (VStr s)] Hes'); [reflexivity|].
    unfold denote_event. rewrite Hs, Ho, Hm, Hacc. apply sget_set_same.
  - cbn [app orb] in *. apply IH; [exact Hes'| |exact Hmen]. rewrite denote_event_other by exact Hk. exact Hacc.
Qed.

Definition assignment (f : fmt) (es : list (opt * given)) (V : list str) : args :=
  {| ar_opts := fold_left denote_event es []; ar_args := place_typed (get_arguments_all f) V |}.

Section ReadOptions.
  Variables (f : fmt) (es : list (opt * given)) (V : list str).

  (* marked as set exactly what was given *)
  Lemma asg_option_set n o : get_option f n true = Ok o -> has_option f n true = true ->
    args_is_option_set f (assignment f es V) n = mentions (o_long o) es.
  Proof. intros Hg Hh. unfold args_is_option_set. cbn [assignment ar_opts]. rewrite Hh, Hg. apply denote_keys. Qed.
  (* the declared default for everything not given *)
  Lemma asg_option_unset n o : get_option f n true = Ok o -> mentions (o_long o) es = false ->
    args_option f (assignment f es V) n = Ok (opt_default_value o).
  Proof.
    intros Hg Hm. unfold args_option. cbn [assignment ar_opts]. rewrite Hg. cbn [bind]. now rewrite denote_others.
  Qed.
  (* a single-valued option: the (converted) value of its last occurrence *)
  Lemma asg_option_single n o es1 e es2 : get_option f n true = Ok o ->
    es = es1 ++ e :: es2 -> ev_key e = o_long o -> mentions (o_long o) es2 = false ->
    (match snd e with GText _ => o_multi (fst e) = false | _ => True end) ->
    args_option f (assignment f es V) n = Ok (event_value e).
  Proof.
    intros Hg He Hk Hm Hs. unfold args_option. cbn [assignment ar_opts]. rewrite Hg. cbn [bind]. rewrite He.
    rewrite (denote_last (o_long o) es1 e es2 []); [reflexivity| |exact Hm|exact Hs]. rewrite Hk. apply str_eqb_refl.
  Qed.
  (* a multi-valued option: all its values, converted, in line order *)
  Lemma asg_option_multi n o : get_option f n true = Ok o -> get_option f (o_long o) true = Ok o ->
    Forall (ev_ok f) es -> o_multi o = true -> mentions (o_long o) es = true ->
    args_option f (assignment f es V) n = Ok (VList (map (fun s => conv_opt o (VStr s)) (texts_of (o_long o) es))).
  Proof.
    intros Hg Hgl Hev Hm Hmen. unfold args_option. cbn [assignment ar_opts]. rewrite Hg. cbn [bind].
    rewrite (denote_multi_first o Hm es []); [reflexivity| |reflexivity|exact Hmen].
    (* an event under the name of o is an event of o, and a flag or an omitted value is not multi-valued *)
    intros e Hin Hk. rewrite Forall_forall in Hev. destruct (Hev e Hin) as [[Hge _] Hmode].
    apply str_eqb_eq in Hk. unfold ev_key in Hk. rewrite <- Hk in Hge.
    assert (fst e = o) as Ho by congruence. split; [exact Ho|]. rewrite Ho in Hmode.
    destruct (snd e) as [| |s]; [| |eauto].
    - apply is_flag_inv in Hmode as (_ & _ & _ & Hmode). congruence.
    - apply is_bare_inv in Hmode as (_ & _ & _ & Hmode & _). congruence.
  Qed.
End ReadOptions.

Lemma sget_place_typed : forall A V i n a, NoDup (map fst A) -> shape A V = true -> nth_error A i = Some (n, a) ->
  sget n (place_typed A V) =
  if i <? length V then Some (if a_multi a then VList (map (conv_arg a) (skipn i V)) else conv_arg a (nth i V []))
  else None.
Proof.
  induction A as [|[n1 a1] A' IH]; intros V i n a Hnd Hsh Hnth; [destruct i; discriminate|].
  destruct V as [|v V']; [reflexivity|]. cbn [place_typed shape] in *.
  apply NoDup_cons_iff in Hnd as [Hn1 Hnd']. destruct i as [|i'].
  - cbn [nth_error] in Hnth. inversion Hnth; subst. cbn [Nat.ltb Nat.leb length skipn nth].
    destruct (a_multi a); cbn [sget aget]; unfold sget; cbn [aget]; rewrite str_eqb_refl; reflexivity.
  - cbn [nth_error] in Hnth. destruct (a_multi a1).
    + destruct A'; [destruct i'; discriminate|discriminate].
    + assert (str_eqb n n1 = false) as Hne.
      { destruct (str_eqb_spec n n1) as [->|]; [|reflexivity]. exfalso. apply Hn1.
        apply nth_error_In in Hnth. apply (in_map fst) in Hnth. exact Hnth. }
      unfold sget. cbn [aget]. rewrite Hne. fold (@sget pyval). rewrite (IH V' i' n a Hnd' Hsh Hnth). reflexivity.
Qed.

Section ReadArguments.
  Variables (f : fmt) (es : list (opt * given)) (V : list str).
  Hypothesis Hnd : NoDup (map fst (get_arguments_all f)).
  Hypothesis Hfit : fits (get_arguments_all f) V = true.
  (* the i-th declared argument, reached through any reference r (its name or its position) *)
  Variables (i : nat) (a : arg) (r : aref).
  Hypothesis Hnth : nth_error (get_arguments_all f) i = Some (a_name a, a).
  Hypothesis Hget : get_argument f r true = Ok a.
  Hypothesis Hhas : has_argument f r true = true.

  (* an argument is marked as set iff a value reached its position *)
  Lemma asg_argument_set : args_is_argument_set f (assignment f es V) r = (i <? length V).
  Proof.
    unfold args_is_argument_set. rewrite Hhas, Hget. cbn [assignment ar_args]. rewrite shas_sget.
    rewrite (sget_place_typed _ _ i (a_name a) a Hnd (fits_shape _ _ Hfit) Hnth).
    destruct (i <? length V); reflexivity.
  Qed.
  (* it reports the converted value(s), or the declared default when none was given *)
  Lemma asg_argument_value :
    args_argument f (assignment f es V) r =
    Ok (if i <? length V
        then (if a_multi a then VList (map (conv_arg a) (skipn i V)) else conv_arg a (nth i V []))
        else a_default a).
  Proof.
    unfold args_argument. rewrite Hget. cbn [bind assignment ar_args].
    rewrite (sget_place_typed _ _ i (a_name a) a Hnd (fits_shape _ _ Hfit) Hnth).
    destruct (i <? length V); reflexivity.
  Qed.
End ReadArguments.
