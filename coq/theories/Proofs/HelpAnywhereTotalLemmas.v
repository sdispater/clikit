(* C09: the help switch anywhere behind the path prints the page of the help target for EVERY line - no side condition on
   what the command's lenient parse says.

   help_target (Model/Switches.v) ends in help_lenient: Ok for a parse that succeeds and for one that ends in
   ValueError (fix 488171f: the help resolver lets no value error escape).  A lenient parse of a well-formed format cannot end in anything else (C02 parse_error_kinds_w: leniency
   swallows CannotParse / NoSuchOption, what is left is a value error), so help_lenient never fails on the formats of an
   application built from well-formed arguments and options (cfg_wf: C07's normal forms).  The probe of the default
   sub-commands (help_pick_default) treats a value error like a refused line; what can still leave it is NoSuchOption
   from a default sub-command probed STRICTLY - the choice among default sub-commands is made by parsing, as in C03. *)
From Clikit Require Import Base.Prelude Base.Res Model.Conv Model.Flags Model.Format Model.Parser Model.Spell
     Model.Resolver Model.Tokenizer Model.Switches
     Proofs.StrLemmas Proofs.DictLemmas Proofs.FormatLemmas Proofs.ParserLemmas Proofs.SpellArgs Proofs.FmtOkLemmas
     Proofs.ResolverLemmas Proofs.SwitchesLemmas Proofs.HelpTargetLemmas Proofs.HelpSamePageLemmas Proofs.HelpRunLemmas
     Proofs.SwitchesHelpLemmas Proofs.HelpAnywhereLemmas Proofs.HelpAnywhereErrLemmas Proofs.HelpAnywhereVersionLemmas
     Proofs.ResolverAliasFullLemmas.
From Clikit Require Proofs.ClassifyLemmas Proofs.ClassifyLineLemmas Proofs.FormatWfLemmas.

(* a well-formed format: its lenient help parse never fails *)
Definition good (f : fmt) : Prop := fmt_inv f /\ ClassifyLineLemmas.opts_listed_ok f = true.

Lemma help_lenient_good f toks : good f -> help_lenient f toks = Ok tt.
Proof.
  intros [Hi Ho]. unfold help_lenient. destruct (parse f true toks) as [x|k] eqn:E; [reflexivity|].
  now rewrite (proj2 (listed_parse_errors f true toks k Hi Ho E) eq_refl).
Qed.

(* configurations of constructed objects *)
Definition opt_wf (o : opt) : bool := ClassifyLemmas.opt_ok_wb o.
Fixpoint cmd_wf (c : cmd) : bool :=
  match c with Cmd _ _ _ _ _ _ opts args subs =>
    forallb arg_valid args && forallb opt_wf opts &&
    (fix go (l : list cmd) : bool := match l with [] => true | x :: r => cmd_wf x && go r end) subs end.
Lemma cmd_wf_unfold name al d an en len opts args subs :
  cmd_wf (Cmd name al d an en len opts args subs) = forallb arg_valid args && forallb opt_wf opts && forallb cmd_wf subs.
Proof. cbn [cmd_wf]. f_equal. Qed.
Definition cfg_wf (cfg : appcfg) : bool :=
  forallb arg_valid (ac_args cfg) && forallb opt_wf (ac_opts cfg) && forallb cmd_wf (ac_cmds cfg).

Definition elem_opt_ok (e : element) : bool := match e with EOpt o => opt_wf o | _ => true end.
Definition opts_all_ok (l : list (str * opt)) : Prop := Forall (fun no => opt_wf (snd no) = true) l.

Lemma add_elem_opts_ok f e f' : elem_opt_ok e = true -> opts_all_ok (f_opts f) -> add_elem f e = Ok f' -> opts_all_ok (f_opts f').
Proof.
  intros He Hf H. destruct e as [o|c|a|c];
    try (apply add_other_inv in H as (-> & _); [exact Hf|discriminate]).
  apply HelpSamePageLemmas.add_option_inv in H as (_ & _ & -> & _). apply Forall_sset; assumption.
Qed.
Lemma add_elements_opts_ok es : forall f f', forallb elem_opt_ok es = true -> opts_all_ok (f_opts f) ->
  add_elements f es = Ok f' -> opts_all_ok (f_opts f').
Proof.
  induction es as [|e r IH]; intros f f' Hes Hf H; [cbn in H; inversion H; subst; exact Hf|].
  cbn [forallb] in Hes. apply andb_prop in Hes as [He Hr]. rewrite add_elements_cons in H.
  destruct (add_elem f e) as [f1|k] eqn:E; cbn [bind] in H; [|discriminate].
  eapply IH; [exact Hr| |exact H]. eapply add_elem_opts_ok; eauto.
Qed.
Lemma options_all_unfold f : get_options_all f =
  match f_base f with Some bf => supdate (f_opts f) (get_options_all bf) | None => f_opts f end.
Proof. destruct f as [[bf|] cn co cs ar os oss hm ho]; reflexivity. Qed.

Lemma format_listed_ok es base f : forallb elem_opt_ok es = true ->
  match base with Some bf => ClassifyLineLemmas.opts_listed_ok bf = true | None => True end ->
  format_of_elements es base = Ok f -> ClassifyLineLemmas.opts_listed_ok f = true.
Proof.
  intros Hes Hb. unfold format_of_elements.
  destruct (add_elements (empty_builder base) es) as [b|k] eqn:E; cbn [bind]; [|discriminate]. intros H. inversion H; subst f. clear H.
  pose proof (add_elements_opts_ok es (empty_builder base) b Hes (Forall_nil _) E) as Ho. pose proof (FormatWfLemmas.add_elements_base' _ _ _ E) as Hbase. cbn in Hbase.
  destruct (build_format_same b) as (Hb0 & _ & _ & Hopts & _).
  unfold ClassifyLineLemmas.opts_listed_ok. rewrite options_all_unfold, Hb0, Hopts, Hbase. apply forallb_forall. intros [k o] Hin.
  destruct base as [bf|].
  - apply in_supdate in Hin as [Hin|Hin].
    + exact (proj1 (Forall_forall _ _) Ho _ Hin).
    + unfold ClassifyLineLemmas.opts_listed_ok in Hb. exact (proj1 (forallb_forall _ _) Hb _ Hin).
  - exact (proj1 (Forall_forall _ _) Ho _ Hin).
Qed.

Lemma opts_elements_ok opts : forallb opt_wf opts = true -> forallb elem_opt_ok (map EOpt opts) = true.
Proof.
  induction opts as [|o r IH]; [reflexivity|]. cbn [forallb map elem_opt_ok]. intros H. apply andb_prop in H as [Ho Hr].
  now rewrite Ho, IH.
Qed.
Lemma args_elements_ok (args : list arg) : forallb elem_opt_ok (map EArg args) = true.
Proof. induction args; [reflexivity|assumption]. Qed.
Lemma cmd_elements_opts_ok name al anon opts args : forallb opt_wf opts = true ->
  forallb elem_opt_ok (cmd_elements name al anon opts args) = true.
Proof.
  intros H. unfold cmd_elements. rewrite !forallb_app, (opts_elements_ok opts H), args_elements_ok. now destruct anon.
Qed.

Lemma good_step name al d an en len opts args subs bf f : cmd_wf (Cmd name al d an en len opts args subs) = true ->
  good bf -> format_of_elements (cmd_elements name al an opts args) (Some bf) = Ok f -> good f.
Proof.
  rewrite cmd_wf_unfold. intros Hv [Hi Ho] Ef. apply andb_prop in Hv as [Hv _]. apply andb_prop in Hv as [Hva Hvo]. split.
  - exact (proj1 (format_of_elements_fmt_ok_lemma _ (Some bf) f Hi (cmd_elements_valid name al an opts args Hva) Ef)).
  - exact (format_listed_ok _ (Some bf) f (cmd_elements_opts_ok name al an opts args Hvo) Ho Ef).
Qed.
Theorem build_app_good cfg a : build_app cfg = Ok a -> cfg_wf cfg = true -> Forall (tree_ok good) (ap_cmds a).
Proof.
  unfold cfg_wf. intros H Hv. apply andb_prop in Hv as [Hv Hvc]. apply andb_prop in Hv as [Hva Hvo].
  apply (build_app_ok good cmd_wf) with (cfg := cfg); [|exact good_step|exact H|exact Hvc|].
  - intros name al d an en len opts args subs Hc. rewrite cmd_wf_unfold in Hc. now apply andb_prop in Hc as [_ Hc].
  - apply build_app_inv in H as [Eg _]. split.
    + refine (proj1 (format_of_elements_fmt_ok_lemma _ None _ I _ Eg)). rewrite forallb_app, opts_valid, andb_true_r. now apply args_elements_valid.
    + refine (format_listed_ok _ None _ _ I Eg). now rewrite forallb_app, args_elements_ok, (opts_elements_ok _ Hvo).
Qed.

(* the help command of a well-formed configuration: its options are well-formed objects *)
Lemma cfg_wf_help_options cfg a : build_app cfg = Ok a -> default_help_config cfg = true -> cfg_wf cfg = true ->
  help_options_ok a = true.
Proof.
  intros Hb Hc Hw. destruct (default_help_setup cfg a Hb Hc) as (hc & f & arg & o & HS).
  pose proof (build_app_good cfg a Hb Hw) as Hg. pose proof (coll_get_in _ _ _ (hs_all HS)) as Hin.
  pose proof (proj1 (Forall_forall _ _) Hg hc Hin) as Hhc. apply tree_ok_unfold in Hhc as [[_ Ho] _].
  unfold help_options_ok. now rewrite (help_setup_find HS).
Qed.

(* which default sub-command the help resolver explains: the first one that parses the line under its own leniency,
   else the first one; None: no default sub-command *)
Fixpoint first_parsable (ds : list bcmd) (toks : list str) : option bcmd :=
  match ds with
  | [] => None
  | d :: r => match parse (b_fmt d) (b_lenient d) toks with Ok _ => Some d | Err _ => first_parsable r toks end
  end.
Definition help_choice (ds : list bcmd) (toks : list str) : option bcmd :=
  match first_parsable ds toks with Some d => Some d | None => match ds with d :: _ => Some d | [] => None end end.
(* no probe raises NoSuchOption before a default parses the line (a LENIENT default never raises it) *)
Fixpoint probes_quietly (ds : list bcmd) (toks : list str) : Prop :=
  match ds with
  | [] => True
  | d :: r => match parse (b_fmt d) (b_lenient d) toks with
              | Ok _ => True
              | Err k => k <> NoSuchOption /\ probes_quietly r toks
              end
  end.

Lemma help_pick_choice toks : forall ds first, Forall (fun d => good (b_fmt d)) ds -> probes_quietly ds toks ->
  exists r, help_pick_default ds toks first =
    Ok (match first_parsable ds toks with
        | Some d => Some (d, r)
        | None => match first, ds with
                  | Some (b, _), _ => Some (b, r)
                  | None, d :: _ => Some (d, r)
                  | None, [] => None end end).
Proof.
  intros ds first. rewrite help_pick_gpick. revert first.
  induction ds as [|d r IH]; intros first Hg Hq; cbn [gpick first_parsable].
  - destruct first as [[b k]|]; [exists (Err k)|exists (Err CannotParse)]; reflexivity.
  - inversion Hg as [|? ? Hd Hr]; subst. cbn [probes_quietly] in Hq.
    destruct (parse (b_fmt d) (b_lenient d) toks) as [x|k] eqn:E; [exists (Ok x); reflexivity|]. destruct Hq as [Hk Hq].
    (* a well-formed format raises a refusal, an unknown option or a value error; the second is excluded *)
    assert (is_unfit k = true) as -> by (destruct (proj1 (listed_parse_errors _ _ _ _ (proj1 Hd) (proj2 Hd) E)) as [->|[->| ->]]; [reflexivity|congruence|reflexivity]).
    destruct (IH (match first with None => Some (d, k) | s => s end) Hr Hq) as [r0 ->]. exists r0.
    destruct first as [[b k0]|]; [reflexivity|]. destruct (first_parsable r toks); reflexivity.
Qed.

Lemma first_parsable_in ds toks d : first_parsable ds toks = Some d -> In d ds.
Proof.
  induction ds as [|c r IH]; cbn [first_parsable]; [discriminate|].
  destruct (parse (b_fmt c) (b_lenient c) toks); [intros H; inversion H; now left|intros H; right; now apply IH].
Qed.

Section Total.
  Variables (cfg : appcfg) (a : application) (debug : bool) (path rest : list str).
  Hypothesis Hb : build_app cfg = Ok a.
  Hypothesis Hcfg : default_help_config cfg = true.
  Hypothesis Hwf : cfg_wf cfg = true.
  Hypothesis Hplain : forallb lead_ok path = true.
  Hypothesis Hh : not_help_word path.
  Hypothesis Hsw : wants_help (option_tokens rest) = true.
  Hypothesis Hstop : starts_stopped rest = true.
  Variables (b : bcmd) (p : list str).
  Hypothesis Hw : walk (named_of (ap_cmds a)) None path = Ok (Some (b, p)).

  Lemma reached_good : tree_ok good b.
  Proof. exact (walk_tree_ok good path (ap_cmds a) None b p (build_app_good cfg a Hb Hwf) ltac:(discriminate) Hw). Qed.

  (* the help target of the line: b's default sub-command chosen by help_choice, else b - it always exists *)
  Lemma help_target_total : probes_quietly (defaults_of (b_subs b)) (path ++ rest) ->
    help_target a (path ++ rest) =
      Ok (match help_choice (defaults_of (b_subs b)) (path ++ rest) with Some d => p ++ [b_name d] | None => p end).
  Proof.
    intros Hq. pose proof reached_good as Hg. apply tree_ok_unfold in Hg as [Hgb Hgs].
    assert (Forall (fun d => good (b_fmt d)) (defaults_of (b_subs b))) as Hgd.
    { apply Forall_forall. intros d Hd. apply defaults_of_in in Hd. pose proof (proj1 (Forall_forall _ _) Hgs d Hd) as H.
      now apply tree_ok_unfold in H as [H _]. }
    rewrite (help_target_behind_path a path rest b p Hplain Hh Hstop Hw).
    destruct (help_pick_choice (path ++ rest) (defaults_of (b_subs b)) None Hgd Hq) as [r ->]. cbn [bind]. unfold help_choice.
    destruct (first_parsable (defaults_of (b_subs b)) (path ++ rest)) as [d|] eqn:Ef.
    - rewrite (help_lenient_good (b_fmt d)); [reflexivity|]. apply (proj1 (Forall_forall _ _) Hgd). eapply first_parsable_in; eauto.
    - destruct (defaults_of (b_subs b)) as [|d ds] eqn:Ed.
      + now rewrite (help_lenient_good (b_fmt b) _ Hgb).
      + inversion Hgd; subst. now rewrite (help_lenient_good (b_fmt d)).
  Qed.

  (* the run: an error of the help command's own parse (a value error of a typed GLOBAL option), name and version when
     the version switch was given as well, else THE PAGE - status 0, no handler *)
  Lemma help_anywhere_total : probes_quietly (defaults_of (b_subs b)) (path ++ rest) ->
    sm_action (run_summary debug a (path ++ rest)) =
      match help_line_parse a (path ++ rest) with
      | Err k => AError k
      | Ok (fx, x) =>
        if args_is_option_set fx x S_version || wants_version (option_tokens rest) then AVersion [S_help]
        else AHelpCmd (match help_choice (defaults_of (b_subs b)) (path ++ rest) with Some d => p ++ [b_name d] | None => p end)
      end.
  Proof.
    intros Hq. rewrite (help_anywhere_run cfg a debug path rest Hb Hcfg Hplain (walked_nonempty _ _ _ Hw) Hh Hsw).
    destruct (help_line_parse a (path ++ rest)) as [[fx x]|k]; [|reflexivity].
    destruct (args_is_option_set fx x S_version || wants_version (option_tokens rest)); [reflexivity|].
    unfold help_page. now rewrite (help_target_total Hq).
  Qed.

  (* closed form: a configuration with the version option, no token spelling it, the help command's parse not failing *)
  Lemma help_anywhere_total_closed : defines_version cfg = true -> no_version_spelling (option_tokens rest) = true ->
    probes_quietly (defaults_of (b_subs b)) (path ++ rest) ->
    (forall k, help_line_parse a (path ++ rest) <> Err k) ->
    sm_action (run_summary debug a (path ++ rest)) =
      AHelpCmd (match help_choice (defaults_of (b_subs b)) (path ++ rest) with Some d => p ++ [b_name d] | None => p end).
  Proof.
    intros Hv Hno Hq Hok. rewrite (help_anywhere_total Hq).
    destruct (help_line_parse a (path ++ rest)) as [[fx x]|k] eqn:E; [|destruct (Hok k eq_refl)].
    rewrite (help_line_version_not_set cfg a _ fx x Hb Hcfg Hv E) by (now rewrite (no_spelling_line _ _ Hplain)).
    now rewrite (no_spelling_no_token _ Hno).
  Qed.
End Total.

(* HelpResolver as it was before fix 488171f: DefaultResolver's probe loop, and a lenient parse whose ValueError escaped
   (the Examples of Props/C09.v and Props/C13.v that end in _before_the_repair show the difference) *)
Definition help_target_before_the_repair (a : application) (toks : list str) : res (list str) :=
  let toks := match toks with t :: r => if str_eqb t S_help then r else toks | [] => [] end in
  let names := leading toks in
  do w <- walk (named_of (ap_cmds a)) None names;
  match w with
  | Some (b, path) =>
    do d <- pick_default (defaults_of (b_subs b)) toks None;
    match d with
    | Some (dc, r) => do x <- parse (b_fmt dc) true toks; Ok (path ++ [b_name dc])
    | None => do x <- parse (b_fmt b) true toks; Ok path
    end
  | None =>
    match names with
    | _ :: _ => Err CannotResolve
    | [] =>
      do d <- pick_default (defaults_of (ap_cmds a)) toks None;
      match d with
      | Some (dc, r) => do x <- parse (b_fmt dc) true toks; Ok [b_name dc]
      | None => Err CannotResolve
      end
    end
  end.
