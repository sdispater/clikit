(* Proofs about Model/OutputM.v (C11): a text and its lines (split_on NL against join_with NL, rstrip_nl); the
   line-writing methods; indentation is kept by every statement; and scopes are lexical: lexec, the run with the
   indentation handed down as a parameter, simulates exec. *)
From Coq Require Import Lia.
From Clikit Require Import Base.Prelude Base.Res Model.Conv Model.Markup Model.OutputM Proofs.ListLemmas Proofs.MarkupLemmas.

Definition no_nl (l : str) : Prop := Forall (fun c => c <> NL) l.
Lemma split_lines_no_nl s : Forall no_nl (split_on NL s).
Proof.
  induction s as [|c r IH]; cbn [split_on]; [repeat constructor|].
  destruct (N.eqb_spec c NL) as [->|Hc]; [constructor; [constructor|exact IH]|].
  destruct (split_on NL r) as [|l ls]; [repeat constructor; exact Hc|].
  inversion IH; subst. constructor; [constructor; assumption|assumption].
Qed.
Lemma split_no_nl l : no_nl l -> split_on NL l = [l].
Proof.
  induction 1 as [|c l Hc Hl IH]; cbn [split_on]; [reflexivity|].
  destruct (N.eqb_spec c NL); [contradiction|]. now rewrite IH.
Qed.
Lemma split_app_nl l r : no_nl l -> split_on NL (l ++ NL :: r) = l :: split_on NL r.
Proof.
  induction 1 as [|c l Hc Hl IH]; cbn [split_on app]; [reflexivity|].
  destruct (N.eqb_spec c NL); [contradiction|]. now rewrite IH.
Qed.
Lemma split_join ls : ls <> [] -> Forall no_nl ls -> split_on NL (join_with NL ls) = ls.
Proof.
  induction ls as [|l r IH]; intros Hne H; [congruence|]. inversion H as [|? ? Hl Hr]; subst.
  destruct r as [|l2 r']; cbn [join_with]; [apply split_no_nl, Hl|].
  rewrite (split_app_nl l _ Hl). f_equal. apply IH; [discriminate|exact Hr].
Qed.
Lemma join_split s : join_with NL (split_on NL s) = s.
Proof.
  induction s as [|c r IH]; cbn [split_on]; [reflexivity|].
  destruct (N.eqb_spec c NL) as [->|Hc].
  - pose proof (split_on_nonempty NL r) as Hne. destruct (split_on NL r) as [|l ls] eqn:E; [congruence|].
    cbn [join_with app] in *. now rewrite IH.
  - pose proof (split_on_nonempty NL r) as Hne. destruct (split_on NL r) as [|l ls] eqn:E; [congruence|].
    destruct ls; cbn [join_with app] in *; rewrite <- IH; reflexivity.
Qed.

Lemma spaces_no_nl n : no_nl (spaces n).
Proof. unfold spaces. induction (Z.to_nat n); cbn; constructor; [discriminate|assumption]. Qed.
Lemma rstrip_nl_rev_spec r : exists k, r = repeat NL k ++ rstrip_nl_rev r /\ (match rstrip_nl_rev r with c :: _ => c <> NL | [] => True end).
Proof.
  induction r as [|c r IH]; cbn [rstrip_nl_rev]; [exists 0; split; [reflexivity|exact I]|].
  destruct (N.eqb_spec c NL) as [->|Hc].
  - destruct IH as (k & E & H). exists (S k). split; [cbn; now rewrite <- E|exact H].
  - exists 0. split; [reflexivity|exact Hc].
Qed.
Lemma rstrip_nl_spec s : exists k, s = rstrip_nl s ++ repeat NL k /\ (match rev (rstrip_nl s) with c :: _ => c <> NL | [] => True end).
Proof.
  unfold rstrip_nl. destruct (rstrip_nl_rev_spec (rev s)) as (k & E & H). exists k. split.
  - rewrite <- (rev_involutive s), E at 1. rewrite rev_app_distr. f_equal.
    clear. induction k; cbn; [reflexivity|]. rewrite IHk. clear. induction k; cbn; [reflexivity|]. now rewrite <- IHk.
  - rewrite rev_involutive. exact H.
Qed.
Lemma rstrip_nl_id s : (match rev s with c :: _ => c <> NL | [] => True end) -> rstrip_nl s = s.
Proof.
  unfold rstrip_nl. intros H. destruct (rev s) as [|c r] eqn:E.
  - cbn. apply (f_equal (@rev N)) in E. rewrite rev_involutive in E. now rewrite E.
  - cbn [rstrip_nl_rev]. destruct (N.eqb_spec c NL); [contradiction|]. rewrite <- E. apply rev_involutive.
Qed.

(* the text as it goes to the formatter: indented when the output has an indentation *)
Definition line_shown (o : outp) (s : str) : str := if (0 <? o_indent o)%Z then indent_text (o_indent o) s else s.
Definition line_render (o : outp) (f : formatter) (s : str) : res (formatter * str) :=
  if o_on o then format f (line_shown o s) None else remove_format f (line_shown o s).
Definition buf_push (o : outp) (f : formatter) (b : str) : outp := with_buf o f (o_buf o ++ b).

(* write, indenting: on an output that is not a decorated section the (indented) text as the formatter renders it, then
   the line feed if one is asked for; on a decorated section add_content measures the lines first, the text is
   formatted, and the line is ended whatever was asked for *)
Lemma write_nonsec o s nl : o_sec o && o_on o = false ->
  write o s nl true = do x <- line_render o (o_fmt o) s; Ok (buf_push o (fst x) (snd x ++ if nl then [NL] else [])).
Proof.
  intros Hs. unfold write, line_render, line_shown, buf_push. rewrite Hs. cbn [bind orb with_buf o_indent o_on o_sec o_fmt o_buf].
  now rewrite Bool.andb_true_r, !Bool.orb_false_r.
Qed.
Lemma write_sec o s nl : o_sec o && o_on o = true ->
  write o s nl true
  = do f0 <- add_content_effect o s; do x <- format f0 (line_shown o s) None; Ok (buf_push o (fst x) (snd x ++ [NL])).
Proof.
  intros Hs. unfold write, line_shown, buf_push. rewrite Hs. apply Bool.andb_true_iff in Hs as [_ Hon].
  destruct (add_content_effect o s) as [f0|e]; cbn [bind orb with_buf o_indent o_on o_sec o_fmt o_buf]; [|reflexivity].
  now rewrite Hon, Bool.andb_true_r, Bool.orb_true_r.
Qed.

Lemma write_shape o s nl o' : write o s nl true = Ok o' ->
  exists body, o_buf o' = o_buf o ++ body ++ (if nl || (o_sec o && o_on o) then [NL] else []) /\ o_indent o' = o_indent o.
Proof.
  destruct (o_sec o && o_on o) eqn:Hs; [rewrite (write_sec o s nl Hs); intros H; bind_inv H f0 H0|rewrite (write_nonsec o s nl Hs); intros H];
    bind_inv H x Hx; injection H as <-; rewrite ?Bool.orb_true_r, ?Bool.orb_false_r; eexists; split; reflexivity.
Qed.
Lemma write_line_shape o s o' : do_write o WWriteLine s = Ok o' ->
  exists body, o_buf o' = o_buf o ++ body ++ [NL] /\ o_indent o' = o_indent o.
Proof. exact (write_shape o s true o'). Qed.
Lemma write_line_raw_shape o s : exists o',
  do_write o WWriteLineRaw s = Ok o' /\ o_buf o' = o_buf o ++ rstrip_nl s ++ [NL] /\ o_indent o' = o_indent o /\ o_fmt o' = o_fmt o.
Proof. eexists. cbn. repeat split. Qed.
Lemma do_write_indent o m s o' : do_write o m s = Ok o' -> o_indent o' = o_indent o.
Proof.
  destruct m; cbn [do_write]; intros H; [apply write_shape in H as (_ & _ & H); exact H ..| |]; now injection H as <-.
Qed.

(* on every output that is not a decorated section: write_line succeeds exactly when write does, and leaves exactly what
   write leaves followed by ONE line feed (same formatter state, same indentation) *)
Lemma write_line_is_write_nl o s : o_sec o && o_on o = false ->
  do_write o WWriteLine s = (do o1 <- do_write o WWrite s; Ok (buf_push o1 (o_fmt o1) [NL])).
Proof.
  intros Hs. cbn [do_write]. rewrite !(write_nonsec o s _ Hs). destruct (line_render o (o_fmt o) s) as [x|e]; cbn [bind]; [|reflexivity].
  unfold buf_push, with_buf. cbn [o_indent o_on o_sec o_fmt o_buf]. now rewrite app_nil_r, <- app_assoc.
Qed.
(* a decorated section ends the line whichever of the two is called: write and write_line are the same call *)
Lemma section_write_is_write_line o s : o_sec o && o_on o = true -> do_write o WWrite s = do_write o WWriteLine s.
Proof. intros Hs. cbn [do_write]. now rewrite !(write_sec o s _ Hs). Qed.

Section StmtInd.
Variable P : stmt -> Prop.
Hypothesis Hw : forall t m text, P (SWrite t m text).
Hypothesis Hs : forall lv incr n body, Forall P body -> P (SScope lv incr n body).
Hypothesis Hr : P SRaise.
Hypothesis Ht : forall body, Forall P body -> P (STry body).
Hypothesis Hi : forall body, Forall P body -> P (SInSection body).
Fixpoint stmt_ind' (s : stmt) : P s :=
  let all := fix all (l : list stmt) : Forall P l :=
    match l with [] => Forall_nil P | x :: r => Forall_cons x (stmt_ind' x) (all r) end in
  match s with
  | SWrite t m text => Hw t m text
  | SScope lv incr n body => Hs lv incr n body (all body)
  | SRaise => Hr
  | STry body => Ht body (all body)
  | SInSection body => Hi body (all body)
  end.
End StmtInd.

(* the inner loop of exec is exec_list *)
Lemma exec_run l : forall st,
  (fix run (l : list stmt) (st0 : iost) {struct l} : iost * bool :=
     match l with [] => (st0, false) | x :: r => let '(st', raised) := exec x st0 in if raised then (st', true) else run r st' end) l st
  = exec_list l st.
Proof. induction l as [|x r IH]; intros st; cbn [exec_list]; [reflexivity|]. destruct (exec x st) as [st' [|]]; [reflexivity|apply IH]. Qed.
Lemma exec_scope lv incr n body st :
  exec (SScope lv incr n body) st = let '(st', raised) := exec_list body (scope_enter lv incr n st) in (scope_exit lv st st', raised).
Proof. cbn [exec]. now rewrite exec_run. Qed.
Lemma exec_try body st : exec (STry body) st = let '(st', _) := exec_list body st in (st', false).
Proof. cbn [exec]. now rewrite exec_run. Qed.
Lemma exec_insection body st :
  exec (SInSection body) st = let '(st', raised) := exec_list body (in_sections st) in (out_sections st st', raised).
Proof. cbn [exec]. now rewrite exec_run. Qed.

Definition indents (st : iost) : Z * Z := (o_indent (io_out st), o_indent (io_err st)).

(* whatever a statement does - and however it is left - the indentation that held before it holds after it *)
Lemma exec_list_keeps body : Forall (fun x => forall st, indents (fst (exec x st)) = indents st) body ->
  forall st, indents (fst (exec_list body st)) = indents st.
Proof.
  induction 1 as [|x r Hx _ IH]; intros st; cbn [exec_list]; [reflexivity|].
  specialize (Hx st). destruct (exec x st) as [st' [|]]; cbn [fst] in *; [exact Hx|]. now rewrite IH.
Qed.
Lemma exec_keeps_indents s : forall st, indents (fst (exec s st)) = indents st.
Proof.
  induction s as [t m text|lv incr n body IH| |body IH|body IH] using stmt_ind'; intros st.
  - cbn [exec]. destruct t.
    + destruct (do_write (io_out st) m text) as [o|e] eqn:E; [|reflexivity]. unfold indents. cbn. now rewrite (do_write_indent _ _ _ _ E).
    + destruct (do_write (io_err st) m text) as [o|e] eqn:E; [|reflexivity]. unfold indents. cbn. now rewrite (do_write_indent _ _ _ _ E).
  - rewrite exec_scope. pose proof (exec_list_keeps body IH (scope_enter lv incr n st)) as HL.
    destruct (exec_list body (scope_enter lv incr n st)) as [st' r]. cbn [fst] in *.
    unfold indents, scope_exit, scope_enter in *. destruct lv; cbn in *; inversion HL; try reflexivity; congruence.
  - reflexivity.
  - rewrite exec_try. pose proof (exec_list_keeps body IH st) as HL. destruct (exec_list body st) as [st' r]. exact HL.
  - rewrite exec_insection. destruct (exec_list body (in_sections st)) as [st' r]. reflexivity.
Qed.
Lemma exec_list_keeps_indents l : forall st, indents (fst (exec_list l st)) = indents st.
Proof. apply exec_list_keeps, Forall_forall. intros x _. apply exec_keeps_indents. Qed.

(* scopes are lexical: the indentation in force is a parameter handed down, never restored *)
Definition set_env (st : iost) (env : Z * Z) : iost :=
  {| io_out := with_indent (io_out st) (fst env); io_err := with_indent (io_err st) (snd env) |}.
Definition env_enter (lv : level) (incr : bool) (n : Z) (env : Z * Z) : Z * Z :=
  (if touches lv TOut then (if incr then fst env + n else n)%Z else fst env,
   if touches lv TErr then (if incr then snd env + n else n)%Z else snd env).

Fixpoint lexec (s : stmt) (env : Z * Z) (st : iost) : iost * bool :=
  let run := fix run (l : list stmt) (env : Z * Z) (st : iost) : iost * bool :=
    match l with
    | [] => (st, false)
    | x :: r => let '(st', raised) := lexec x env st in if raised then (st', true) else run r env st'
    end in
  match s with
  | SWrite t m text => exec (SWrite t m text) (set_env st env)
  | SScope lv incr n body => run body (env_enter lv incr n env) st
  | SRaise => (st, true)
  | STry body => let '(st', _) := run body env st in (st', false)
  | SInSection body => let '(st', raised) := run body env (in_sections st) in (out_sections st st', raised)
  end.
Fixpoint lexec_list (l : list stmt) (env : Z * Z) (st : iost) : iost * bool :=
  match l with
  | [] => (st, false)
  | x :: r => let '(st', raised) := lexec x env st in if raised then (st', true) else lexec_list r env st'
  end.
Lemma lexec_run l : forall env st,
  (fix run (l : list stmt) (env : Z * Z) (st : iost) : iost * bool :=
     match l with [] => (st, false) | x :: r => let '(st', raised) := lexec x env st in if raised then (st', true) else run r env st' end) l env st
  = lexec_list l env st.
Proof. induction l as [|x r IH]; intros env st; cbn [lexec_list]; [reflexivity|]. destruct (lexec x env st) as [st' [|]]; [reflexivity|apply IH]. Qed.

Lemma with_indent_same o : with_indent o (o_indent o) = o. Proof. destruct o; reflexivity. Qed.
Lemma set_env_same st : set_env st (indents st) = st.
Proof. destruct st as [o e]. unfold set_env, indents. cbn. now rewrite !with_indent_same. Qed.
Lemma set_env_twice st e1 e2 : set_env (set_env st e1) e2 = set_env st e2.
Proof. reflexivity. Qed.
Lemma indents_set_env st env : indents (set_env st env) = env.
Proof. destruct env; reflexivity. Qed.
Lemma scope_enter_env lv incr n st : scope_enter lv incr n st = set_env st (env_enter lv incr n (indents st)).
Proof.
  destruct st as [o e]. unfold scope_enter, set_env, env_enter, indents, enter. cbn [io_out io_err fst snd].
  destruct lv; cbn [touches]; rewrite ?with_indent_same; reflexivity.
Qed.
Lemma scope_exit_env lv incr n st st2 :
  scope_exit lv st (set_env st2 (env_enter lv incr n (indents st))) = set_env st2 (indents st).
Proof.
  destruct st as [o e], st2 as [o2 e2]. unfold scope_exit, set_env, env_enter, indents. cbn [io_out io_err fst snd].
  destruct lv; cbn [touches]; reflexivity.
Qed.

(* equal except for the indentation fields *)
Definition same_but_indent (a b : iost) : Prop := set_env a (0, 0)%Z = set_env b (0, 0)%Z.
Lemma same_but_indent_env a b : same_but_indent a b -> forall e, set_env a e = set_env b e.
Proof. intros H e. rewrite <- (set_env_twice a (0, 0)%Z e), <- (set_env_twice b (0, 0)%Z e). unfold same_but_indent in H. now rewrite H. Qed.
Lemma same_but_indent_refl a : same_but_indent a a. Proof. reflexivity. Qed.
Lemma same_but_indent_set_env a e : same_but_indent (set_env a e) a. Proof. reflexivity. Qed.
Lemma same_but_indent_trans a b c : same_but_indent a b -> same_but_indent b c -> same_but_indent a c. Proof. unfold same_but_indent. congruence. Qed.
Lemma same_but_indent_scope_exit lv s a : same_but_indent (scope_exit lv s a) a.
Proof. destruct a as [o e]. unfold same_but_indent, scope_exit, set_env. destruct lv; reflexivity. Qed.

(* the two runs of a statement, from states equal except for the indentation fields, raise alike and end in such states *)
Definition sim_lexec (s : stmt) (a b : iost) : Prop :=
  let '(a', r1) := exec s a in let '(b', r2) := lexec s (indents a) b in r1 = r2 /\ same_but_indent a' b'.
Lemma sim_lexec_list body : Forall (fun x => forall a b, same_but_indent a b -> sim_lexec x a b) body -> forall a b, same_but_indent a b ->
  let '(a', r1) := exec_list body a in let '(b', r2) := lexec_list body (indents a) b in r1 = r2 /\ same_but_indent a' b'.
Proof.
  induction 1 as [|x r Hx _ IH]; intros a b Hab; cbn [exec_list lexec_list]; [split; [reflexivity|exact Hab]|].
  specialize (Hx a b Hab). unfold sim_lexec in Hx. pose proof (exec_keeps_indents x a) as HK.
  destruct (exec x a) as [a1 r1], (lexec x (indents a) b) as [b1 r2]. destruct Hx as [-> H1]. cbn [fst] in HK.
  destruct r2; [split; [reflexivity|exact H1]|]. rewrite <- HK. apply IH, H1.
Qed.
Lemma exec_sim_lexec s : forall a b, same_but_indent a b -> sim_lexec s a b.
Proof.
  induction s as [t m text|lv incr n body IH| |body IH|body IH] using stmt_ind'; intros a b Hab; unfold sim_lexec.
  - cbn [lexec]. rewrite <- (same_but_indent_env a b Hab), set_env_same. destruct (exec (SWrite t m text) a) as [a' r]. split; reflexivity.
  - rewrite exec_scope. cbn [lexec]. rewrite lexec_run, scope_enter_env.
    set (env' := env_enter lv incr n (indents a)).
    pose proof (sim_lexec_list body IH (set_env a env') b (same_but_indent_trans _ _ _ (same_but_indent_set_env a env') Hab)) as HL. rewrite indents_set_env in HL.
    destruct (exec_list body (set_env a env')) as [a1 r1], (lexec_list body env' b) as [b1 r2]. destruct HL as [-> H1].
    split; [reflexivity|]. exact (same_but_indent_trans _ _ _ (same_but_indent_scope_exit lv a a1) H1).
  - cbn. split; [reflexivity|exact Hab].
  - rewrite exec_try. cbn [lexec]. rewrite lexec_run. pose proof (sim_lexec_list body IH a b Hab) as HL.
    destruct (exec_list body a) as [a1 r1], (lexec_list body (indents a) b) as [b1 r2]. destruct HL as [_ H1].
    split; [reflexivity|exact H1].
  - (* the body runs on the sections of both outputs: same indentations, then back to the outputs *)
    rewrite exec_insection. cbn [lexec]. rewrite lexec_run.
    assert (same_but_indent (in_sections a) (in_sections b)) as Hs.
    { unfold same_but_indent, set_env, in_sections, as_section in *. cbn in *. inversion Hab. reflexivity. }
    pose proof (sim_lexec_list body IH _ _ Hs) as HL. change (indents (in_sections a)) with (indents a) in HL.
    destruct (exec_list body (in_sections a)) as [a1 r1], (lexec_list body (indents a) (in_sections b)) as [b1 r2].
    destruct HL as [-> H1]. split; [reflexivity|].
    unfold same_but_indent, set_env, out_sections, leave_section in *. cbn in *. inversion Hab. inversion H1. reflexivity.
Qed.
Lemma exec_list_sim_lexec l : forall a b, same_but_indent a b ->
  let '(a', r1) := exec_list l a in let '(b', r2) := lexec_list l (indents a) b in r1 = r2 /\ same_but_indent a' b'.
Proof. apply sim_lexec_list, Forall_forall. intros x _. apply exec_sim_lexec. Qed.
