(* Proofs about Model/Gate.v: the gate function and the table of gate calls (C10). *)
From Coq Require Import Lia.
From Clikit Require Import Base.Prelude Model.Gate Proofs.Bits.

Lemma may_write_level q v f : (0 <= v)%Z ->
  may_write q v f = negb q && (lowest_level f <=? v)%Z.
Proof.
  intros Hv. unfold may_write, lowest_level.
  destruct q; cbn [negb andb]; [reflexivity|].
  destruct f as [f|].
  - change VERBOSE with (2 ^ 0)%Z at 1. change VERY_VERBOSE with (2 ^ 1)%Z at 1. change DEBUG with (2 ^ 2)%Z at 1.
    rewrite !land_pow2_testbit by lia. rewrite !negb_involutive.
    destruct (Z.testbit f 0); [reflexivity|].
    destruct (Z.testbit f 1); [reflexivity|].
    destruct (Z.testbit f 2); [reflexivity|].
    unfold NORMAL. symmetry. apply Z.leb_le. lia.
  - cbn. unfold NORMAL. symmetry. apply Z.leb_le. lia.
Qed.

(* what passes a gate call with flags passes one without *)
Lemma may_write_none q v f : may_write q v f = true -> may_write q v None = true.
Proof. unfold may_write. destruct q; [discriminate|]. reflexivity. Qed.

(* the gate function is monotone in the verbosity for EVERY integer (gate_monotone of Props/C10.v asks 0 <= v, which
   only the reading through lowest_level needs), quiet or not *)
Lemma may_write_monotone q v v' f : (v <= v')%Z -> may_write q v f = true -> may_write q v' f = true.
Proof.
  intros Hv. unfold may_write. destruct q; [discriminate|].
  destruct (negb (Z.land _ VERBOSE =? 0)%Z); [rewrite !Z.leb_le; lia|].
  destruct (negb (Z.land _ VERY_VERBOSE =? 0)%Z); [rewrite !Z.leb_le; lia|].
  destruct (negb (Z.land _ DEBUG =? 0)%Z); [rewrite !Z.leb_le; lia|]. auto.
Qed.

(* every row of the table starts with the gate call that gets the flags of the method (the caller's, or none for a
   method without a flags parameter); the calls behind it are made without flags *)
Lemma path_shape k a m p : path k a m = Some p ->
  exists r, p = (if takes_flags m then FCaller else FNone) :: r /\ Forall (eq FNone) r.
Proof. destruct k, a, m; cbn; intros [= <-]; eexists; (split; [reflexivity|]); repeat constructor. Qed.

(* so an entry point emits exactly when the gate lets its first call pass: the calls behind it ask without flags *)
Lemma emits_first_gate k a m q v f p :
  path k a m = Some p ->
  emits k a m q v (if takes_flags m then f else None) = may_write q v (if takes_flags m then f else None).
Proof.
  unfold emits. intros Hp. rewrite Hp. destruct (path_shape _ _ _ _ Hp) as (r & -> & Hr). cbn [forallb].
  set (fl := if takes_flags m then f else None).
  replace (match (if takes_flags m then FCaller else FNone) with FCaller => fl | FNone => None end) with fl
    by (unfold fl; destruct (takes_flags m); reflexivity).
  destruct (may_write q v fl) eqn:E; [|reflexivity]. apply forallb_forall. intros s Hs.
  rewrite <- (proj1 (Forall_forall _ _) Hr s Hs). exact (may_write_none _ _ _ E).
Qed.
