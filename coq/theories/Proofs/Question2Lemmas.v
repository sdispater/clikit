(* Proofs about Model/QuestionText.v (C18): the text layer agrees with the outcome layer of Model/Question.v. *)
From Coq Require Import Lia.
From Clikit Require Import Base.Prelude Base.Res Model.Conv Model.Question Model.QuestionText Proofs.QuestionLemmas.

(* the validator has a message exactly for what it rejects *)
Lemma value_msg_agrees cs v :
  match validate_value cs v with inr _ => value_msg cs v = None | inl _ => exists m, value_msg cs v = Some m end.
Proof.
  unfold validate_value, value_msg. destruct (positions cs v 0) as [|i [|j r]]; eauto.
  destruct (int_of_str v) as [z|]; eauto.
  destruct ((0 <=? z)%Z && (z <? Z.of_nat (length cs))%Z); eauto.
  destruct (nth_error cs (Z.to_nat z)); eauto.
Qed.
Lemma values_msg_agrees cs : forall vs,
  match validate_values cs vs with inr _ => values_msg cs vs = None | inl _ => exists m, values_msg cs vs = Some m end.
Proof.
  induction vs as [|v r IH]; cbn; [reflexivity|].
  pose proof (value_msg_agrees cs v) as H. destruct (validate_value cs v) as [e|x].
  - destruct H as [m ->]. eauto.
  - rewrite H. destruct (validate_values cs r) as [e|xs]; exact IH.
Qed.
Lemma validate_msg_agrees q s :
  match validate q s with inr _ => validate_msg q s = None | inl _ => exists m, validate_msg q s = Some m end.
Proof.
  unfold validate, validate_msg. destruct s as [s|]; [|eauto]. destruct (q_multi q).
  - destruct (forallb _ _); [|eauto].
    pose proof (values_msg_agrees (q_choices q) (split_on COMMA (remove_spaces s))) as H.
    destruct (validate_values _ _); exact H.
  - pose proof (value_msg_agrees (q_choices q) s) as H. destruct (validate_value _ _); exact H.
Qed.

(* the error output is a dialogue: prompt, then (error line, prompt) per error printed *)
Definition tail_text (p : str) (msgs : list str) : str := concat (map (fun m => m ++ [NLc] ++ p) msgs).
Definition pre_of (last : option str) : str := match last with Some m => m ++ [NLc] | None => [] end.

Lemma ask_text_zero q p script last : ask_text q p script (Some 0) last = ([], last).
Proof. destruct script; reflexivity. Qed.
Lemma ask_text_nil q p att last : att <> Some 0 -> ask_text q p [] att last = (pre_of last ++ p, None).
Proof. destruct att as [[|k]|]; [congruence| |]; reflexivity. Qed.
Lemma ask_text_step q p line rest att last : att <> Some 0 ->
  ask_text q p (line :: rest) att last =
  match validate_msg q (effective_answer q line) with
  | None => (pre_of last ++ p, None)
  | Some m => let '(t, f) := ask_text q p rest (option_map pred att) (Some m) in (pre_of last ++ p ++ t, f)
  end.
Proof. destruct att as [[|k]|]; [congruence| |]; reflexivity. Qed.

Lemma ask_text_dialogue q p : forall script att laste lastm n e pr, att <> Some 0 ->
  exists msgs,
    fst (ask_text q p script att lastm) = pre_of lastm ++ p ++ tail_text p msgs /\
    o_errors_printed (ask_loop q script att laste n e pr) = bump laste e + length msgs /\
    o_prompts (ask_loop q script att laste n e pr) = S pr + length msgs.
Proof.
  induction script as [|line rest IH]; intros att laste lastm n e pr Ha.
  - exists []. rewrite ask_text_nil, ask_loop_nil by exact Ha. cbn. rewrite app_nil_r. repeat split; lia.
  - rewrite ask_text_step, ask_loop_step by exact Ha.
    pose proof (validate_msg_agrees q (effective_answer q line)) as Hv.
    destruct (validate q (effective_answer q line)) as [er|a].
    + destruct Hv as [m ->]. destruct (budget_cases (option_map pred att)) as [E|E].
      * (* the budget is used up by this entry: its error is raised, nothing more is written *)
        exists []. rewrite E, ask_text_zero, ask_loop_zero. cbn. rewrite !app_nil_r. repeat split; lia.
      * destruct (IH (option_map pred att) (Some er) (Some m) (S n) (bump laste e) (S pr) E) as (msgs & H1 & H2 & H3).
        exists (m :: msgs). destruct (ask_text q p rest (option_map pred att) (Some m)) as [t f]. cbn [fst] in *. subst t.
        rewrite H2, H3. cbn [pre_of tail_text map concat length bump]. rewrite <- !app_assoc. repeat split; lia.
    + rewrite Hv. exists []. cbn. rewrite !app_nil_r. repeat split; lia.
Qed.

(* a question that fails says why: the message of an entry *)
Lemma ask_text_failure q p : forall script att laste lastm n e pr er,
  o_end (ask_loop q script att laste n e pr) = Failed er ->
  (att = Some 0 -> lastm <> None) -> exists m, snd (ask_text q p script att lastm) = Some m.
Proof.
  induction script as [|line rest IH]; intros att laste lastm n e pr er He H0; (destruct (budget_cases att) as [->|Ha];
    [rewrite ask_text_zero; destruct lastm as [m|]; [cbn; eauto|exfalso; apply H0; reflexivity]|]).
  - rewrite ask_loop_nil in He by exact Ha. discriminate.
  - rewrite ask_loop_step in He by exact Ha. rewrite ask_text_step by exact Ha.
    pose proof (validate_msg_agrees q (effective_answer q line)) as Hv.
    destruct (validate q (effective_answer q line)) as [er'|a]; [|discriminate]. destruct Hv as [m ->].
    destruct (IH _ _ (Some m) _ _ _ er He ltac:(discriminate)) as [m' Hm].
    destruct (ask_text q p rest (option_map pred att) (Some m)) as [t f]. cbn in *. eauto.
Qed.

(* the plain question with a validator: the same accounting *)
Definition plain_rejected (p : plainq) (acc : list str) (line : str) : Prop := plain_check acc (plain_value p line) <> None.
Lemma plain_loop_zero p acc prompt script last n :
  plain_loop p acc prompt script (Some 0) last n = {| pt_end := Failed VInvalid; pt_msg := last; pt_read := n; pt_text := [] |}.
Proof. destruct script; reflexivity. Qed.
Lemma plain_loop_step p acc prompt line rest att last n : att <> Some 0 ->
  plain_loop p acc prompt (line :: rest) att last n =
  match plain_check acc (plain_value p line) with
  | None => {| pt_end := Answered (plain_answer (plain_value p line)); pt_msg := None; pt_read := S n; pt_text := pre_of last ++ prompt |}
  | Some m =>
    let r := plain_loop p acc prompt rest (option_map pred att) (Some m) (S n) in
    {| pt_end := pt_end r; pt_msg := pt_msg r; pt_read := pt_read r; pt_text := pre_of last ++ prompt ++ pt_text r |}
  end.
Proof. destruct att as [[|k]|]; [congruence| |]; reflexivity. Qed.

Lemma plain_loop_until_valid p acc prompt : forall bad good rest att last n,
  Forall (plain_rejected p acc) bad -> plain_check acc (plain_value p good) = None -> more_than (length bad) att ->
  let r := plain_loop p acc prompt (bad ++ good :: rest) att last n in
  pt_end r = Answered (plain_answer (plain_value p good)) /\ pt_read r = n + length bad + 1.
Proof.
  induction bad as [|b bad IH]; intros good rest att last n Hb Hg Hk; cbn [app length] in *;
    rewrite plain_loop_step by exact (more_than_pos _ _ Hk).
  - rewrite Hg. cbn. split; [reflexivity|lia].
  - inversion Hb as [|? ? Hb1 Hb2]; subst. destruct (plain_check acc (plain_value p b)) as [m|] eqn:E; [|contradiction].
    destruct (IH good rest (option_map pred att) (Some m) (S n) Hb2 Hg (more_than_pred _ _ Hk)) as [H1 H2].
    cbn [pt_end pt_read]. split; [exact H1|]. cbv zeta in H2. rewrite H2. lia.
Qed.
Lemma plain_loop_budget p acc prompt : forall bad rest last n,
  Forall (plain_rejected p acc) bad -> bad <> [] ->
  let r := plain_loop p acc prompt (bad ++ rest) (Some (length bad)) last n in
  pt_end r = Failed VInvalid /\ pt_read r = n + length bad /\ pt_msg r <> None.
Proof.
  induction bad as [|b bad IH]; intros rest last n Hb Hne; [congruence|].
  inversion Hb as [|? ? Hb1 Hb2]; subst. cbn [app length]. rewrite plain_loop_step by discriminate.
  destruct (plain_check acc (plain_value p b)) as [m|] eqn:E; [|contradiction]. cbn [pt_end pt_read pt_msg option_map pred].
  destruct bad as [|b' bad'].
  - cbn [app length]. rewrite plain_loop_zero. cbn. repeat split; try lia. discriminate.
  - destruct (IH rest (Some m) (S n) Hb2 ltac:(discriminate)) as (H1 & H2 & H3). cbv zeta in *. rewrite H1, H2. repeat split; auto. cbn [length]. lia.
Qed.
