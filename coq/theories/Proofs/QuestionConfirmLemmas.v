(* ConfirmationQuestion: what "the answer matches the pattern" means for the prefix patterns of the model, with and without
   the (?i) flag, characterised on the strings themselves; and the general answer table (ask_confirm_g; ask_confirm is
   ask_confirm_g true by definition). *)
From Coq Require Import List NArith Bool Lia.
From Clikit Require Import Base.Prelude Base.Res Model.Conv Model.Question.
Import ListNotations.

Lemma starts_with_cs_iff p s : starts_with_cs p s = true <-> exists t, s = p ++ t.
Proof.
  revert s; induction p as [|a p IH]; intros s; cbn [starts_with_cs].
  - split; [intros _; exists s; reflexivity | reflexivity].
  - destruct s as [|b s].
    + split; [discriminate | intros [t Ht]; discriminate Ht].
    + rewrite andb_true_iff, N.eqb_eq, IH. split.
      * intros [-> [t ->]]. exists t. reflexivity.
      * intros [t Ht]. cbn [app] in Ht. injection Ht as -> ->. split; [reflexivity | exists t; reflexivity].
Qed.

Lemma starts_with_ci_iff p s :
  starts_with_ci p s = true <-> exists u t, s = u ++ t /\ map lower_char u = map lower_char p.
Proof.
  revert s; induction p as [|a p IH]; intros s; cbn [starts_with_ci].
  - split; [intros _; exists [], s; split; reflexivity | reflexivity].
  - destruct s as [|b s].
    + split; [discriminate |].
      intros [u [t [Hs Hm]]]. destruct u as [|x u]; [discriminate Hm | discriminate Hs].
    + rewrite andb_true_iff, N.eqb_eq, IH. split.
      * intros [Hab [u [t [-> Hm]]]]. exists (b :: u), t. split; [reflexivity |]. cbn [map]. rewrite Hm, Hab. reflexivity.
      * intros [u [t [Hs Hm]]]. destruct u as [|x u]; [discriminate Hm |].
        cbn [app] in Hs. injection Hs as -> ->. cbn [map] in Hm. injection Hm as Hx Hm.
        split; [symmetry; exact Hx | exists u, t; split; [reflexivity | exact Hm]].
Qed.

Lemma confirm_table_g ci dflt prefix line rest :
  ask_confirm_g ci true dflt prefix (line :: rest)
  = (CBool (match strip_ws line with [] => dflt | t => (if ci then starts_with_ci else starts_with_cs) prefix t end), 1).
Proof. unfold ask_confirm_g. cbn [negb]. destruct (strip_ws line); reflexivity. Qed.

(* the case matters without the flag, and only then *)
Example case_matters_without_the_flag :
  fst (ask_confirm_g false true false [89%N] ([121%N] :: [])) = CBool false /\
  fst (ask_confirm_g true true false [89%N] ([121%N] :: [])) = CBool true /\
  fst (ask_confirm_g false true false [89%N] ([89%N; 101%N; 115%N] :: [])) = CBool true.
Proof. vm_compute. repeat split. Qed.
