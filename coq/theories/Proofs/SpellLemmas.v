(* C01: a well-formed line parses to the assignment it spells (Model/Spell.v): the token loop over the whole
   rendered line, parse_spells, and instances on concrete formats. *)
From Coq Require Import Lia String Ascii.
From Clikit Require Import Base.Prelude Base.Res Model.Conv Model.Flags Model.Format Model.Parser Model.Spell
     Proofs.StrLemmas Proofs.FormatLemmas Proofs.ParserLemmas Proofs.SpellOpts Proofs.SpellArgs Proofs.SpellDenote.

(* to the token loop the leading command-name spellings are positional items *)
Lemma items_ok_names tx f g names items : Forall (fun s => plain_tok s = true) names ->
  items_ok_with tx f g items = true -> items_ok_with tx f g (map IPos names ++ items) = true.
Proof.
  induction 1 as [|s r Hs Hr IH]; intros Hi; [exact Hi|]. cbn [map app items_ok_with item_ok_with looks_ahead].
  rewrite (IH Hi). unfold plain_tok in Hs. apply andb_prop in Hs as [_ Hs]. unfold pos_tok. rewrite Hs. reflexivity.
Qed.
Lemma names_as_items names items :
  flat_map render_item (map IPos names ++ items) = names ++ flat_map render_item items /\
  flat_map item_pos (map IPos names ++ items) = names ++ flat_map item_pos items /\
  flat_map item_events (map IPos names ++ items) = flat_map item_events items.
Proof.
  induction names as [|s r (IH1 & IH2 & IH3)]; [repeat split; reflexivity|].
  cbn [map app flat_map render_item item_pos item_events]. rewrite IH1, IH2, IH3. repeat split; reflexivity.
Qed.

(* a line as a list of items, the spellings in front *)
Lemma line_as_items tx f g cns d : names_ok cns (ld_names d) = true -> items_ok_with tx f g (ld_items d) = true ->
  let items := map IPos (ld_names d) ++ ld_items d in
  items_ok_with tx f g items = true /\ render d = flat_map render_item items ++ render_tail (ld_tail d) /\
  ld_names d ++ values d = flat_map item_pos items ++ match ld_tail d with Some l => l | None => [] end /\
  events d = flat_map item_events items.
Proof.
  intros Hn Hit. destruct (names_as_items (ld_names d) (ld_items d)) as (E1 & E2 & E3).
  unfold render, values, events. rewrite E1, E2, E3, <- !app_assoc.
  split; [apply items_ok_names; [eapply names_ok_plain; exact Hn|exact Hit]|]. repeat split; reflexivity.
Qed.

Lemma loop_line_with tx f g A cns len d : (forall o s, tx o s = true -> o_accepts o = true) ->
  fmt_facts f g A cns -> names_ok cns (ld_names d) = true -> items_ok_with tx f g (ld_items d) = true ->
  shape A (ld_names d ++ values d) = true ->
  loop (S (length (render d))) g len true ps_empty (render d) =
  ({| ps_args := place A (ld_names d ++ values d); ps_opts := fold_left raw_event (events d) [] |}, None).
Proof.
  intros Htx FF Hn Hit. destruct (line_as_items tx f g cns d Hn Hit) as (Hit' & -> & -> & ->). intros Hsh.
  apply (loop_rendered f g A len (ff_args _ _ _ _ FF) (ff_names _ _ _ _ FF) (ff_nodup _ _ _ _ FF) tx Htx);
    [exact Hit'|exact Hsh|lia].
Qed.

Lemma wf_line_facts f g A cns d : fmt_facts f g A cns -> wf_line f d = true ->
  names_ok cns (ld_names d) = true /\ items_ok f g (ld_items d) = true /\ fits (get_arguments_all f) (values d) = true /\
  req_ok (get_arguments_all f) (values d) = true /\ no_clash cns (ld_names d) (values d) = true.
Proof.
  intros FF H. unfold wf_line in H. rewrite (ff_aug _ _ _ _ FF) in H.
  apply andb_prop in H as [H Hclash]. apply andb_prop in H as [H Hreq]. apply andb_prop in H as [H Hfit].
  apply andb_prop in H as [Hn Hit]. auto.
Qed.

Theorem parse_spells_lemma f d : fmt_ok f = true -> wf_line f d = true ->
  forall lenient, parse f lenient (render d) = Ok (denote f d).
Proof.
  intros Hf Hwf len. destruct (fmt_ok_inv f Hf) as (g & A & cns & FF).
  destruct (wf_line_facts f g A cns d FF Hwf) as (Hn & Hit & Hfit & Hreq & Hclash).
  apply (parse_scanned f g A cns len (render d) (ld_names d) (values d) (events d) FF);
    [|exact (names_ok_match _ _ Hn)|exact Hfit|exact Hclash|exact Hreq|exact (items_events_ok text_ok f g _ Hit)].
  exact (loop_line_with text_ok f g A cns len d text_ok_acc FF Hn Hit (shape_line f g A cns FF _ _ Hn Hfit)).
Qed.

(* "line spells asg under f": the form in which DESIGN.md states C01 *)
Definition spells (f : fmt) (asg : args) (line : list str) : Prop :=
  exists d, wf_line f d = true /\ render d = line /\ denote f d = asg.

(* a side condition decided once, then used for the rest *)
Lemma and_with (P Q : Prop) : P -> (P -> Q) -> P /\ Q.
Proof. intros HP HQ. exact (conj HP (HQ HP)). Qed.

Module SpellExamples.
  Definition s (x : string) : str := map N_of_ascii (list_ascii_of_string x).
  (* NO_VALUE | STRING | PREFER_SHORT *)
  Definition o_verbose := {| o_long := s "verbose"; o_short := Some (s "v"); o_flags := 134; o_default := VNone |}.
  Definition o_quiet := {| o_long := s "quiet"; o_short := Some (s "q"); o_flags := 134; o_default := VNone |}.
  (* REQUIRED_VALUE | INTEGER *)
  Definition o_num := {| o_long := s "num"; o_short := Some (s "n"); o_flags := 522; o_default := VNone |}.
  (* REQUIRED_VALUE | MULTI_VALUED | STRING *)
  Definition o_tag := {| o_long := s "tag"; o_short := Some (s "t"); o_flags := 170; o_default := VList [] |}.
  (* OPTIONAL_VALUE | STRING *)
  Definition o_color := {| o_long := s "color"; o_short := Some (s "c"); o_flags := 146; o_default := VStr (s "auto") |}.
  (* OPTIONAL_VALUE | INTEGER | NULLABLE, no short name *)
  Definition o_level := {| o_long := s "level"; o_short := None; o_flags := 2577; o_default := VInt 3 |}.
  Definition a_host := {| a_name := s "host"; a_flags := 17; a_default := VNone |}.        (* REQUIRED | STRING *)
  Definition a_port := {| a_name := s "port"; a_flags := 66; a_default := VInt 80 |}.      (* OPTIONAL | INTEGER *)
  Definition a_files := {| a_name := s "files"; a_flags := 22; a_default := VList [] |}.   (* OPTIONAL | MULTI_VALUED | STRING *)
  Definition c_server := {| cn_name := s "server"; cn_aliases := [s "srv"] |}.
  Definition c_add := {| cn_name := s "add"; cn_aliases := [] |}.
  Definition mk (es : list element) (b : option fmt) : fmt :=
    match format_of_elements es b with Ok f => f | Err _ => empty_builder None end.
  (* command names, three arguments (required, optional typed, multi-valued), six options *)
  Definition F1 := mk [ECName c_server; ECName c_add; EArg a_host; EArg a_port; EArg a_files;
                       EOpt o_verbose; EOpt o_quiet; EOpt o_num; EOpt o_tag; EOpt o_color; EOpt o_level] None.
  (* the same spread over a base format *)
  Definition F2 := mk [ECName c_add; EArg a_port; EArg a_files; EOpt o_num; EOpt o_tag; EOpt o_level]
                      (Some (mk [ECName c_server; EArg a_host; EOpt o_verbose; EOpt o_quiet; EOpt o_color] None)).
  (* options only *)
  Definition F0 := mk [EOpt o_verbose; EOpt o_quiet; EOpt o_num; EOpt o_tag; EOpt o_color; EOpt o_level] None.

  (* an argument that has the name of the first pseudo-argument (the parser's fresh-name loop must skip it) *)
  Definition a_cmd11 := {| a_name := s "cmd11"; a_flags := 17; a_default := VNone |}.
  Definition F3 := mk [ECName c_server; ECName c_add; EArg a_cmd11; EArg a_host; EOpt o_verbose] None.
  Definition D6 := {| ld_names := [s "server"]; ld_items := [IPos (s "x"); IFlag o_verbose false; IPos (s "y")]; ld_tail := None |}.
  Example F3_ok : fmt_ok F3 = true /\ wf_line F3 D6 = true /\
                  denote F3 D6 = {| ar_opts := [(s "verbose", VBool true)];
                                    ar_args := [(s "cmd11", VStr (s "x")); (s "host", VStr (s "y"))] |}.
  Proof. split; [|split]; vm_compute; reflexivity. Qed.

  Example F0_ok : fmt_ok F0 = true. Proof. vm_compute. reflexivity. Qed.
  Example F1_ok : fmt_ok F1 = true. Proof. vm_compute. reflexivity. Qed.
  Example F2_ok : fmt_ok F2 = true. Proof. vm_compute. reflexivity. Qed.

  (* every item form; aliases for the command names; "--" tail with dash-leading and empty tokens *)
  Definition D1 := {| ld_names := [s "srv"; s "add"];
    ld_items := [IFlag o_verbose true; IPos (s "h1"); IVal o_num LongEq (s "-5"); IVal o_tag ShortGlued (s "x");
                 IGroup [o_verbose; o_quiet] (Some (o_tag, GSep (s "y"))); IPos (s "8080"); IBare o_color false;
                 IVal o_tag LongSep (s "z"); IBare o_level true];
    ld_tail := Some [s "-a"; s ""; s "b"] |}.
  Example D1_wf : wf_line F1 D1 = true. Proof. vm_compute. reflexivity. Qed.
  Example D1_tokens : render D1 =
    [s "srv"; s "add"; s "--verbose"; s "h1"; s "--num=-5"; s "-tx"; s "-vqt"; s "y"; s "8080"; s "-c"; s "--tag"; s "z";
     s "--level"; s "--"; s "-a"; s ""; s "b"].
  Proof. vm_compute. reflexivity. Qed.
  Example D1_value : denote F1 D1 =
    {| ar_opts := [(s "verbose", VBool true); (s "num", VInt (-5)); (s "tag", VList [VStr (s "x"); VStr (s "y"); VStr (s "z")]);
                   (s "quiet", VBool true); (s "color", VStr (s "auto")); (s "level", VInt 3)];
       ar_args := [(s "host", VStr (s "h1")); (s "port", VInt 8080); (s "files", VList [VStr (s "-a"); VStr (s ""); VStr (s "b")])] |}.
  Proof. vm_compute. reflexivity. Qed.
  Example D1_parses : forall lenient, parse F1 lenient (render D1) = Ok (denote F1 D1).
  Proof. exact (parse_spells_lemma F1 D1 F1_ok D1_wf). Qed.
  Example D1_parses_over_base : wf_line F2 D1 = true /\ forall lenient, parse F2 lenient (render D1) = Ok (denote F2 D1).
  Proof. apply and_with; [vm_compute; reflexivity|exact (parse_spells_lemma F2 D1 F2_ok)]. Qed.

  (* command names omitted; short separated value; grouped flags with glued value; "null" of a nullable option *)
  Definition D2 := {| ld_names := [];
    ld_items := [IVal o_num ShortSep (s "12"); IPos (s "h2"); IGroup [o_quiet; o_verbose] (Some (o_color, GGlued (s "red")));
                 IVal o_level LongEq (s "null"); IVal o_num ShortGlued (s "7")];
    ld_tail := None |}.
  Example D2_parses : wf_line F1 D2 = true /\ forall lenient, parse F1 lenient (render D2) = Ok (denote F1 D2).
  Proof. apply and_with; [vm_compute; reflexivity|exact (parse_spells_lemma F1 D2 F1_ok)]. Qed.
  Example D2_value : denote F1 D2 =
    {| ar_opts := [(s "num", VInt 7); (s "quiet", VBool true); (s "verbose", VBool true); (s "color", VStr (s "red")); (s "level", VNone)];
       ar_args := [(s "host", VStr (s "h2"))] |}.
  Proof. vm_compute. reflexivity. Qed.

  (* first command name only; grouped flags alone; group with omitted optional value at the end of the line *)
  Definition D3 := {| ld_names := [s "server"];
    ld_items := [IGroup [o_verbose; o_quiet; o_verbose] None; IPos (s "h3"); IFlag o_quiet false;
                 IGroup [o_verbose] (Some (o_color, GBare))];
    ld_tail := Some [] |}.
  Example D3_parses : wf_line F1 D3 = true /\ forall lenient, parse F1 lenient (render D3) = Ok (denote F1 D3).
  Proof. apply and_with; [vm_compute; reflexivity|exact (parse_spells_lemma F1 D3 F1_ok)]. Qed.

  (* options only (the lines of parse_spells_stage1) *)
  Definition D4 := {| ld_names := [];
    ld_items := [IVal o_tag LongEq (s "a=b"); IBare o_color true; IGroup [o_verbose; o_quiet] (Some (o_num, GSep (s "3")));
                 IVal o_color ShortSep (s "x"); IFlag o_verbose false; IVal o_tag ShortSep (s "c")];
    ld_tail := None |}.
  Example D4_parses : wf_line F0 D4 = true /\ no_positionals D4 = true /\ no_names D4 = true /\
                      forall lenient, parse F0 lenient (render D4) = Ok (denote F0 D4).
  Proof.
    apply and_with; [vm_compute; reflexivity|]. intros Hwf.
    split; [reflexivity|]. split; [reflexivity|exact (parse_spells_lemma F0 D4 F0_ok Hwf)].
  Qed.

  (* "-" and the empty token as positionals; "-" may even follow an omitted optional value *)
  Definition D5 := {| ld_names := [s "server"; s "add"];
    ld_items := [IBare o_color true; IPos (s "-"); IPos (s "80"); IFlag o_quiet false; IPos (s "")];
    ld_tail := None |}.
  Example D5_parses : wf_line F1 D5 = true /\ forall lenient, parse F1 lenient (render D5) = Ok (denote F1 D5).
  Proof. apply and_with; [vm_compute; reflexivity|exact (parse_spells_lemma F1 D5 F1_ok)]. Qed.

  (* lines the side conditions exclude, and what the parser does with them *)
  (* an omitted optional value followed by a positional: the positional is swallowed *)
  Definition X1 := {| ld_names := []; ld_items := [IBare o_color true; IPos (s "h")]; ld_tail := None |}.
  Example X1_excluded : wf_line F1 X1 = false /\ parse F1 true (render X1) <> Ok (denote F1 X1).
  Proof. split; [vm_compute; reflexivity|vm_compute; discriminate]. Qed.
  (* an omitted command name followed by a value equal to it *)
  Definition X2 := {| ld_names := []; ld_items := [IPos (s "srv")]; ld_tail := None |}.
  Example X2_excluded : wf_line F1 X2 = false /\ parse F1 true (render X2) <> Ok (denote F1 X2).
  Proof. split; [vm_compute; reflexivity|vm_compute; discriminate]. Qed.
  (* an omitted optional value followed by an empty token: the token is swallowed *)
  Definition X3 := {| ld_names := [s "server"; s "add"]; ld_items := [IPos (s "h"); IBare o_color true; IPos (s "")]; ld_tail := None |}.
  Example X3_excluded : wf_line F1 X3 = false /\ parse F1 true (render X3) <> Ok (denote F1 X3).
  Proof. split; [vm_compute; reflexivity|vm_compute; discriminate]. Qed.
  (* "--name=" : the empty value counts as no value; for a REQUIRED_VALUE option the line is rejected *)
  Definition X4 := {| ld_names := []; ld_items := [IVal o_num LongEq (s "")]; ld_tail := None |}.
  Example X4_excluded : wf_line F0 X4 = false /\ parse F0 false (render X4) = Err CannotParse.
  Proof. split; vm_compute; reflexivity. Qed.
  (* a value after "--" that equals the first omitted command name is still taken for the command name *)
  Definition X5 := {| ld_names := []; ld_items := []; ld_tail := Some [s "server"] |}.
  Example X5_excluded : wf_line F1 X5 = false /\ parse F1 true (render X5) <> Ok (denote F1 X5).
  Proof. split; [vm_compute; reflexivity|vm_compute; discriminate]. Qed.
End SpellExamples.
