(* C09: the help switch ANYWHERE among the tokens of the line before "--" (not only directly behind a path of plain
   tokens): further global switches, the command's own options with their values, the command's arguments.
   The listener parses the whole line leniently with the help command's format (help_line_parse); its argument "command"
   is set as soon as the line starts with a plain token that is not the word "help", so HelpTextHandler shows the page of
   help_target - unless the version switch was given as well, or the help command's own parse raised a value error.

   No hypothesis on what stands behind the leading tokens: the proof follows the token loop over ARBITRARY tokens with
   the invariant "the argument scratch map is the placement of the positionals read so far" (SpellArgs.place), which
   the option branches leave alone and every positional extends, because a format ending in a multi-valued argument
   absorbs any number of values. *)
From Clikit Require Import Base.Prelude Base.Res Model.Conv Model.Flags Model.Format Model.Parser Model.Spell
     Model.Resolver Model.Tokenizer Model.Switches
     Proofs.StrLemmas Proofs.ListLemmas Proofs.FormatLemmas Proofs.ParserLemmas Proofs.SpellOpts Proofs.SpellArgs Proofs.FmtOkLemmas
     Proofs.ResolverLemmas Proofs.SwitchesLemmas Proofs.HelpTargetLemmas Proofs.HelpSamePageLemmas Proofs.HelpRunLemmas Proofs.SwitchesHelpLemmas.
From Clikit Require Proofs.ClassifyLemmas.

(* The option branches of the token loop leave the argument scratch map alone (ClassifyLemmas.frame: for the state
   they return); so does the state a group of short options leaves behind when it fails midway. *)
Lemma short_set_args_left f : forall name st t, ps_args (snd (short_set f st name t)) = ps_args st.
Proof.
  induction name as [|c rest IH]; intros st t; cbn [short_set]; [reflexivity|].
  destruct (negb (has_option f [c] true)); [reflexivity|].
  destruct (get_option f [c] true) as [o|k]; [|reflexivity].
  destruct (o_accepts o).
  - destruct (add_long_option f st (o_long o) _ t) as [[st1 t1]|k] eqn:E; [|reflexivity].
    apply (ClassifyLemmas.add_long_frame _ _ _ _ _ _ _ E).
  - destruct (add_long_option f st (o_long o) None t) as [[st1 t1]|k] eqn:E; [|reflexivity].
    rewrite IH. apply (ClassifyLemmas.add_long_frame _ _ _ _ _ _ _ E).
Qed.
Lemma parse_short_args_left f st tok t : ps_args (snd (parse_short_option f st tok t)) = ps_args st.
Proof.
  assert (forall n v t0, ps_args (match add_short_option f st n v t0 with Ok (st', _) => st' | Err _ => st end) = ps_args st) as Hadd.
  { intros n v t0. destruct (add_short_option f st n v t0) as [[st' t']|k] eqn:E; [|reflexivity].
    apply (ClassifyLemmas.add_short_frame _ _ _ _ _ _ _ E). }
  unfold parse_short_option. destruct (skipn 1 tok) as [|c [|c2 rest]]; [reflexivity| |].
  - destruct (accepts f [c]); [destruct (take_value t) as [v t1]|]; apply Hadd.
  - destruct (accepts f [c]); [apply Hadd|apply short_set_args_left].
Qed.

(* a format whose arguments absorb every sequence of values *)
Section Absorb.
  Variables (g : fmt) (A : list (str * arg)).
  Hypothesis HA : get_arguments_all g = A.
  Hypothesis Hnm : Forall (fun na => fst na = a_name (snd na)) A.
  Hypothesis Hnd : NoDup (map fst A).
  Hypothesis Habs : forall P, shape A P = true.

  Lemma absorb_argument len st tok Pdone : ps_args st = place A Pdone ->
    parse_argument g len st tok = Ok {| ps_args := place A (Pdone ++ [tok]); ps_opts := ps_opts st |}.
  Proof.
    intros Hst. destruct st as [pa po]. cbn [ps_args ps_opts] in *. subst pa.
    pose proof (parg_place g len po tok A [] [] Pdone HA Hnm Hnd eq_refl (Habs _)) as H. cbn [app] in H. exact H.
  Qed.

  (* the token loop over ARBITRARY tokens: whatever the options do (stored, refused, unknown - the loop may stop at
     any of them), the argument scratch map stays the placement of the positionals read so far *)
  Lemma loop_absorbs len : forall fuel toks p st Pdone, ps_args st = place A Pdone ->
    exists more, ps_args (fst (loop fuel g len p st toks)) = place A (Pdone ++ more).
  Proof.
    induction fuel as [|fuel IH]; intros toks p st Pdone Hst; cbn [loop].
    - exists []. now rewrite app_nil_r.
    - destruct toks as [|tok rest]; [exists []; now rewrite app_nil_r|].
      assert (exists more, ps_args (fst (match parse_argument g len st tok with
                                          | Ok st' => loop fuel g len p st' rest | Err k => (st, Some k) end))
                           = place A (Pdone ++ more)) as Harg.
      { rewrite (absorb_argument len st tok Pdone Hst).
        destruct (IH rest p {| ps_args := place A (Pdone ++ [tok]); ps_opts := ps_opts st |} (Pdone ++ [tok]) eq_refl) as [more Hm].
        exists (tok :: more). rewrite Hm, <- app_assoc. reflexivity. }
      destruct (p && negb (nonempty tok)); [exact Harg|].
      destruct (p && is_dd tok); [apply IH; exact Hst|].
      destruct (p && starts_dd tok).
      { destruct (parse_long_option g st tok rest) as [[st' rest']|k] eqn:E.
        - apply IH. rewrite <- Hst. apply (ClassifyLemmas.parse_long_frame _ _ _ _ _ _ E).
        - exists []. now rewrite app_nil_r. }
      destruct (p && starts_dash tok && negb (str_eqb tok [DASH])); [|exact Harg].
      pose proof (parse_short_args_left g st tok rest) as S1. pose proof (ClassifyLemmas.parse_short_frame g st tok rest) as S2.
      destruct (parse_short_option g st tok rest) as [[[st' rest']|k] st2]; cbn [fst snd] in *.
      + apply IH. rewrite <- Hst. apply (S2 _ _ eq_refl).
      + exists []. rewrite app_nil_r, S1. exact Hst.
  Qed.
End Absorb.

Lemma set_option_args f a n v a' : set_option f a n v = Ok a' -> ar_args a' = ar_args a.
Proof.
  unfold set_option. destruct (get_option f n true) as [o|k]; cbn [bind]; [|discriminate].
  match goal with |- (do pv <- ?X; _) = _ -> _ => destruct X as [pv|k]; cbn [bind]; [|discriminate] end.
  intros H. inversion H. reflexivity.
Qed.
Lemma set_options_args f : forall l a a', set_options f a l = Ok a' -> ar_args a' = ar_args a.
Proof.
  induction l as [|[n v] r IH]; intros a a'; cbn [set_options]; [intros H; inversion H; reflexivity|].
  destruct (has_option f n true); [|apply IH].
  destruct (set_option f a n v) as [a1|k] eqn:E; cbn [bind]; [|discriminate].
  intros H. rewrite (IH _ _ H). eapply set_option_args; eauto.
Qed.

(* a lenient parse that succeeds, taken apart: where the token loop stopped, the re-alignment, the two conversions *)
Lemma parse_lenient_ok_inv f g A cns toks x : fmt_facts f g A cns -> parse f true toks = Ok x ->
  exists st1 e st2 a1, loop (S (length toks)) g true true ps_empty toks = (st1, e) /\
    insert_missing A cns true st1 = Ok st2 /\
    set_arguments f {| ar_opts := []; ar_args := [] |} (ps_args st2) = Ok a1 /\ set_options f a1 (ps_opts st1) = Ok x.
Proof.
  intros FF. unfold parse, parse_on. rewrite (ff_aug _ _ _ _ FF).
  destruct (loop (S (length toks)) g true true ps_empty toks) as [st1 e].
  destruct (match e with Some CannotParse | Some NoSuchOption => None | _ => e end) as [k|]; [cbn [snd]; discriminate|].
  pose proof (insert_missing_spec A cns true st1) as Hi.
  destruct (insert_missing A cns true st1) as [st2|k] eqn:Ei; [|cbn [snd]; discriminate].
  rewrite andb_false_r. cbn [snd]. intros H. apply bind_ok in H as (a1 & Ha & Hx). rewrite Hi in Hx. exists st1, e, st2, a1. auto.
Qed.

Section HelpParseAny.
  Variables (f : fmt) (a : arg).
  Hypothesis Hinv : fmt_inv f.
  Hypothesis Hargs : get_arguments_all f = [(a_name a, a)].
  Hypothesis Hcns : get_command_names_all f = [help_cname].
  Hypothesis Hmulti : a_multi a = true.
  Hypothesis Htype : a_type a = TStr.

  (* every line t1 :: r whose first token is plain and is not the word "help": when the lenient parse succeeds,
     the argument "command" is set (to all the positionals the loop read, t1 first) *)
  Lemma help_parse_sets_command t1 r x : lead_ok t1 = true -> str_eqb t1 S_help = false ->
    parse f true (t1 :: r) = Ok x -> shas (a_name a) (ar_args x) = true.
  Proof.
    intros Hl Hh Hp. pose proof (wf_implies_fmt_ok_lemma f Hinv) as Hok. apply fmt_ok_inv in Hok as (g & A & cns & FF).
    destruct (help_aug_shape f Hinv Hcns) as (g' & A' & n & E'). rewrite (ff_aug _ _ _ _ FF) in E'. inversion E'; subst g' A' cns. clear E'.
    assert (forall P, shape A P = true) as Habs.
    { intros P. apply (shape_line f g A [(n, help_cname)] FF [] P eq_refl).
      destruct P as [|p P']; [rewrite Hargs; reflexivity|apply (fits_some f a Hargs Hmulti Htype p P')]. }
    destruct (parse_lenient_ok_inv f g A _ _ x FF Hp) as ([pa po] & e & st2 & a1 & Hloop & Hins & Hset & Hopts).
    (* the loop places t1, and whatever it reads behind it, on the arguments *)
    assert (exists more, pa = place A (t1 :: more)) as [more ->].
    { assert (pos_tok t1 = true) as Hpos.
      { unfold lead_ok in Hl. unfold pos_tok. destruct (starts_dash t1); [now rewrite andb_false_r in Hl|reflexivity]. }
      cbn [length] in Hloop. rewrite (loop_arg g true _ true ps_empty t1 r (fun _ => Hpos)) in Hloop.
      rewrite (absorb_argument g A (ff_args _ _ _ _ FF) (ff_names _ _ _ _ FF) (ff_nodup _ _ _ _ FF) Habs true ps_empty t1 []
                 (eq_sym (place_nil A))) in Hloop.
      destruct (loop_absorbs g A (ff_args _ _ _ _ FF) (ff_names _ _ _ _ FF) (ff_nodup _ _ _ _ FF) Habs true (S (length r)) r true
                  {| ps_args := place A [t1]; ps_opts := ps_opts ps_empty |} [t1] eq_refl) as [more Hm].
      cbn [app] in Hloop. rewrite Hloop in Hm. exists more. exact Hm. }
    destruct (fits_some f a Hargs Hmulti Htype t1 more) as [Hfit Hreq].
    assert (no_clash [(n, help_cname)] [] (t1 :: more) = true) as Hclash.
    { unfold no_clash. cbn [length skipn snd]. unfold cname_match, help_cname. cbn [cn_name cn_aliases existsb].
      rewrite str_eqb_sym, Hh. now rewrite andb_false_r. }
    destruct (finish f g A [(n, help_cname)] FF [] (t1 :: more) eq_refl Hfit Hclash Hreq true po) as (st2' & I1 & _ & _ & I4).
    cbn [app] in I1. rewrite I1 in Hins. inversion Hins; subst st2'. rewrite I4 in Hset. inversion Hset; subst a1.
    rewrite (set_options_args f _ _ _ Hopts). cbn [ar_args]. apply (placed_some f a Hargs Hmulti).
  Qed.
End HelpParseAny.

(* resolve_help_command: command = application.get_command("help"); parsed_args = command.parse(args, True) *)
Definition help_line_parse (a : application) (toks : list str) : res (fmt * args) :=
  match find_cmd a S_help with
  | None => Err NoSuchCommand
  | Some hc => do x <- parse (b_fmt hc) true toks; Ok (b_fmt hc, x)
  end.

Lemma run_with_help_switch debug a toks : wants_help (option_tokens toks) = true ->
  sm_action (run_summary debug a toks) =
    match help_line_parse a toks with
    | Err k => AError k
    | Ok (f, x) =>
      if args_is_option_set f x S_version || wants_version (option_tokens toks) then AVersion [S_help]
      else if args_is_argument_set f x (AName COMMAND) then help_page a toks else AHelpApp
    end.
Proof.
  intros H. unfold run_summary, help_line_parse. cbn [sm_action]. rewrite H.
  destruct (find_cmd a S_help) as [hc|]; [|reflexivity].
  destruct (parse (b_fmt hc) true toks) as [x|k]; reflexivity.
Qed.

Section RunAny.
  Variables (a : application) (hc : bcmd) (f : fmt) (arg : arg) (o : opt).
  Hypothesis HS : help_setup a hc f arg o.

  Lemma help_line_parse_setup toks : help_line_parse a toks = (do x <- parse f true toks; Ok (f, x)).
  Proof. unfold help_line_parse. now rewrite (help_setup_find HS), (help_setup_fmt HS). Qed.

  (* the line starts with a plain token that is not the word "help": the listener's parse sets "command" *)
  Lemma command_set_on_any_line t1 r fx x : lead_ok t1 = true -> str_eqb t1 S_help = false ->
    help_line_parse a (t1 :: r) = Ok (fx, x) -> fx = f /\ args_is_argument_set fx x (AName COMMAND) = true.
  Proof.
    intros Hl Hh. rewrite help_line_parse_setup. intros H. apply bind_ok in H as (x0 & Ep & H). inversion H; subst fx x0.
    split; [reflexivity|]. destruct (command_arg_spec arg (hs_arg HS)) as (N & M & _ & _ & T).
    rewrite (command_set HS), <- N. exact (help_parse_sets_command f arg (hs_inv HS) (hs_args HS) (hs_cns HS) M T t1 r x Hl Hh Ep).
  Qed.

  Lemma run_help_anywhere debug t1 r : lead_ok t1 = true -> str_eqb t1 S_help = false ->
    wants_help (option_tokens (t1 :: r)) = true ->
    sm_action (run_summary debug a (t1 :: r)) =
      match help_line_parse a (t1 :: r) with
      | Err k => AError k
      | Ok (fx, x) =>
        if args_is_option_set fx x S_version || wants_version (option_tokens (t1 :: r)) then AVersion [S_help]
        else help_page a (t1 :: r)
      end.
  Proof.
    intros Hl Hh Hw. rewrite (run_with_help_switch debug a _ Hw).
    destruct (help_line_parse a (t1 :: r)) as [[fx x]|k] eqn:E; [|reflexivity].
    destruct (command_set_on_any_line t1 r fx x Hl Hh E) as [_ ->]. reflexivity.
  Qed.
End RunAny.
Arguments help_line_parse_setup {a hc f arg o}.

(* a line = its leading plain tokens followed by a rest that starts with a stopper (an option-like token, "--", the
   empty token) or is empty *)
Definition starts_stopped (rest : list str) : bool := match rest with [] => true | s :: _ => stopper s end.
Lemma leading_app_stopped path rest : forallb lead_ok path = true -> starts_stopped rest = true -> leading (path ++ rest) = path.
Proof.
  intros Hp Hr. destruct rest as [|s r]; [rewrite app_nil_r; now apply leading_all|]. now apply leading_cut.
Qed.
Lemma walked_nonempty named path w : walk named None path = Ok (Some w) -> path <> [].
Proof. intros H ->. cbn in H. discriminate. Qed.
Lemma not_help_app path rest : path <> [] -> not_help_word path -> not_help_word (path ++ rest).
Proof. intros Hne Hh. destruct path as [|t r]; [congruence|exact Hh]. Qed.
(* ... so the help target of path ++ rest is decided by the command the path walks to *)
Lemma help_target_behind_path a path rest b p : forallb lead_ok path = true -> not_help_word path -> starts_stopped rest = true ->
  walk (named_of (ap_cmds a)) None path = Ok (Some (b, p)) ->
  help_target a (path ++ rest) =
    (do d <- help_pick_default (defaults_of (b_subs b)) (path ++ rest) None;
     match d with
     | Some (dc, _) => do _ <- help_lenient (b_fmt dc) (path ++ rest); Ok (p ++ [b_name dc])
     | None => do _ <- help_lenient (b_fmt b) (path ++ rest); Ok p
     end).
Proof.
  intros Hp Hh Hst Hw. apply help_target_walk; [|now rewrite (leading_app_stopped _ _ Hp Hst)].
  exact (not_help_app path rest (walked_nonempty _ _ _ Hw) Hh).
Qed.
(* the switch stands somewhere among the option tokens *)
Lemma wants_help_in sw ots : sw = T_help \/ sw = T_h -> In sw ots -> wants_help ots = true.
Proof.
  intros Hsw Hin. apply has_token_In in Hin. unfold wants_help. destruct Hsw as [-> | ->]; rewrite Hin; [apply orb_true_r|reflexivity].
Qed.

Section Anywhere.
  Variables (cfg : appcfg) (a : application) (debug : bool) (path rest : list str).
  Hypothesis Hb : build_app cfg = Ok a.
  Hypothesis Hcfg : default_help_config cfg = true.
  Hypothesis Hplain : forallb lead_ok path = true.
  Hypothesis Hne : path <> [].
  Hypothesis Hh : not_help_word path.
  Hypothesis Hsw : wants_help (option_tokens rest) = true.

  (* the general statement: an error of the help command's own lenient parse (a value error of a global option: nothing
     else is possible, C09 help_parse_fails_only_with_a_value_error), name and version when the version switch was given as well (parsed,
     or as a token), else the page of the help target of the line (or the reason why there is none) *)
  Lemma help_anywhere_run :
    sm_action (run_summary debug a (path ++ rest)) =
      match help_line_parse a (path ++ rest) with
      | Err k => AError k
      | Ok (fx, x) =>
        if args_is_option_set fx x S_version || wants_version (option_tokens rest) then AVersion [S_help]
        else help_page a (path ++ rest)
      end.
  Proof.
    destruct (default_help_setup cfg a Hb Hcfg) as (hc & f & arg & o & HS).
    destruct path as [|t1 p']; [congruence|]. cbn [forallb] in Hplain. apply andb_prop in Hplain as [Ht Hp'].
    assert (forallb lead_ok (t1 :: p') = true) as Hpl by (cbn [forallb]; now rewrite Ht, Hp').
    rewrite <- (wants_version_line (t1 :: p') rest Hpl). cbn [app].
    apply (run_help_anywhere a hc f arg o HS debug t1 (p' ++ rest) Ht Hh).
    change (t1 :: p' ++ rest) with ((t1 :: p') ++ rest). now rewrite (wants_help_line _ _ Hpl).
  Qed.

  (* the version switch is not given as well, and the help command's parse does not fail *)
  Lemma help_anywhere_page fx x : help_line_parse a (path ++ rest) = Ok (fx, x) ->
    args_is_option_set fx x S_version = false -> wants_version (option_tokens rest) = false ->
    sm_action (run_summary debug a (path ++ rest)) = help_page a (path ++ rest).
  Proof. intros Hparse Hnov Hnovt. rewrite help_anywhere_run, Hparse, Hnov, Hnovt. reflexivity. Qed.
End Anywhere.
