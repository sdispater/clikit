(* C12: what the statements about REACHABLE logs need beside the simulation: the log is sorted by listener id (so the
   hypothesis of spec_order_sorted holds, and no id is repeated: lid_lt_NoDup), and the order "priority down, then id up"
   is asymmetric. *)
From Coq Require Import Lia Permutation Sorted.
From Clikit Require Import Base.Prelude Model.Dispatcher Proofs.DispatcherLemmas Proofs.DispatcherQueryLemmas.

Definition before (a b : reg) : Prop := (r_prio a > r_prio b)%Z \/ (r_prio a = r_prio b /\ (r_lid a < r_lid b)%N).
Lemma before_asym a b : before a b -> before b a -> False.
Proof. exact (kl_before_asym (kl_of a) (kl_of b)). Qed.

(* part of the invariant the reached state has with the log *)
Lemma log_sorted ops : StronglySorted lid_lt (log_of ops).
Proof. rewrite <- qafter_init_log. destruct (reach_init ops) as ((_ & _ & _ & _ & H & _) & _). exact H. Qed.
