(* Model/Spinner.v (C19).  The automatic mode: what every step of either thread keeps - every write is a whole frame
   (writes_whole), the exit stops and joins the spinner (join_inv, with the measure rank for the completion), how the
   block ends is decided by the body (raise_decided), a normal exit ends with the end-message frame (end_frame_inv).
   Manual mode: the throttle (adv_times_spaced) and the last frame (last_frame_current). *)
From Coq Require Import Lia Arith.
From Clikit Require Import Base.Prelude Base.Res Base.Term Model.Spinner Proofs.TermLemmas Proofs.ListLemmas.

(* auto(start, end) before the main thread's first step: init is that step *)
Definition auto_start (t0 iv : Z) (sm em : str) (acts : list action) : st :=
  {| clock := t0; msg := sm; cur := 0; upd := (t0 + iv)%Z; stop := false; interval := iv; end_msg := em; sp := PS 0;
     mp := PW (Some (frame 0 sm)); mphase_ := MBody; body := acts; writes := [] |}.
Lemma init_eq t0 iv sm em acts : init t0 iv sm em acts = step (auto_start t0 iv sm em acts) false.
Proof. reflexivity. Qed.

Lemma fold_left_inv {A B} (f : A -> B -> A) (I : A -> Prop) : (forall a b, I a -> I (f a b)) ->
  forall l a, I a -> I (fold_left f l a).
Proof. intros Hf. induction l as [|b r IH]; intros a H; cbn; [exact H|]. apply IH, Hf, H. Qed.

(* What holds at the start and every step keeps, whichever thread takes it, holds of the state the automatic mode ends in. *)
Section Invariant.
Variable I : st -> Prop.
Hypothesis I_step : forall s b, I s -> I (step s b).
Lemma run_schedule_inv sched : forall s, I s -> I (run_schedule s sched).
Proof. exact (fold_left_inv step I I_step sched). Qed.
Lemma complete_inv fuel : forall s, I s -> I (complete fuel s).
Proof.
  induction fuel as [|f IH]; intros s H; cbn; [exact H|]. destruct (all_done s); [exact H|].
  apply IH. destruct (main_blocked s); [apply (I_step s true H)|apply (I_step s false H)].
Qed.
Lemma init_keeps t0 iv sm em acts : I (auto_start t0 iv sm em acts) -> I (init t0 iv sm em acts).
Proof. intros H. rewrite init_eq. apply I_step, H. Qed.
Lemma run_auto_inv t0 iv sm em acts sched : I (auto_start t0 iv sm em acts) -> I (run_auto t0 iv sm em acts sched).
Proof. intros H. apply complete_inv, run_schedule_inv, init_keeps, H. Qed.
End Invariant.

(* A step of the main thread: unless it is blocked it performs the pending operation and runs to its next yield.
   Each invariant is shown for main_to_yield once, from what it needs of the state in between. *)
Definition perform (s : st) : st :=
  match mp s with
  | PW t => upd_st s (clock s) (msg s) (cur s) (upd s) (stop s) (sp s) (mp s) (mphase_ s) (body s) (writes s ++ [(false, t)])
  | PS d => upd_st s (clock s + d)%Z (msg s) (cur s) (upd s) (stop s) (sp s) (mp s) (mphase_ s) (body s) (writes s)
  | _ => s
  end.
Lemma step_main_eq s : step_main s = if main_blocked s then s else main_to_yield (perform s).
Proof. unfold step_main, main_blocked, perform. destruct (mp s); try reflexivity. destruct (sp s); reflexivity. Qed.
Lemma main_to_yield_sp s : sp (main_to_yield s) = sp s.
Proof. unfold main_to_yield. destruct (mphase_ s); try reflexivity. destruct (body s) as [|[m|d|] r]; reflexivity. Qed.
(* the spinner, from the top of its loop, changes only its own fields *)
Lemma spin_to_yield_eq s : exists c u p,
  spin_to_yield s = upd_st s (clock s) (msg s) c u (stop s) p (mp s) (mphase_ s) (body s) (writes s) /\ p <> PJ.
Proof.
  unfold spin_to_yield. destruct (stop s); [|destruct (clock s <? upd s)%Z]; eexists _, _, _; (split; [reflexivity|discriminate]).
Qed.

Definition whole : option str -> Prop := fun t => match t with Some f => exists c m, f = frame c m | None => True end.
Section Whole.
Variable P : str -> Prop.
Definition wholeP (t : option str) : Prop := match t with Some f => exists c m, f = frame c m /\ P m | None => True end.
Definition pend_whole (p : pending) : Prop := match p with PW t => wholeP t | _ => True end.
Definition act_ok (a : action) : Prop := match a with ASet m => P m | _ => True end.
Definition writes_whole (s : st) : Prop :=
  Forall (fun w => wholeP (snd w)) (writes s) /\ pend_whole (sp s) /\ pend_whole (mp s) /\
  P (msg s) /\ P (end_msg s) /\ Forall act_ok (body s).

Lemma wholeP_frame c m : P m -> wholeP (Some (frame c m)).
Proof. intros H. exists c, m. auto. Qed.
Lemma spin_to_yield_writes_whole s : writes_whole s -> writes_whole (spin_to_yield s).
Proof.
  intros (H1 & H2 & H3 & H4 & H5 & H6). unfold spin_to_yield.
  destruct (stop s); [|destruct (clock s <? upd s)%Z]; repeat split; cbn [writes sp mp msg end_msg body upd_st pend_whole]; auto using wholeP_frame.
Qed.
Lemma main_to_yield_writes_whole s : writes_whole s -> writes_whole (main_to_yield s).
Proof.
  intros (H1 & H2 & H3 & H4 & H5 & H6). unfold main_to_yield.
  destruct (mphase_ s); [destruct H6 as [|[m|d|] r Ha Hr]|..]; repeat split; cbn [writes sp mp msg end_msg body upd_st pend_whole]; auto using wholeP_frame.
Qed.
Lemma writes_snoc (l : list (bool * option str)) b t :
  Forall (fun w => wholeP (snd w)) l -> wholeP t -> Forall (fun w => wholeP (snd w)) (l ++ [(b, t)]).
Proof. intros H1 H2. apply Forall_app. split; [exact H1|]. constructor; [exact H2|constructor]. Qed.
Lemma perform_writes_whole s : writes_whole s -> writes_whole (perform s).
Proof.
  unfold perform. destruct (mp s) as [t|d| |] eqn:Em; auto; unfold writes_whole; cbn [writes sp mp msg end_msg body upd_st]; rewrite Em;
    intros (H1 & H2 & H3 & H4 & H5 & H6); repeat split; auto. apply writes_snoc; assumption.
Qed.
Lemma step_writes_whole s b : writes_whole s -> writes_whole (step s b).
Proof.
  destruct b; cbn [step].
  - unfold step_spinner. destruct (sp s) as [t|d| |] eqn:Es; auto.
    + unfold writes_whole. cbn [writes sp mp msg end_msg body upd_st]. rewrite Es. intros (H1 & H2 & H3 & H4 & H5 & H6).
      repeat split; auto using writes_snoc.
    + intros (H1 & H2 & H3 & H4 & H5 & H6). apply spin_to_yield_writes_whole. repeat split; auto.
  - rewrite step_main_eq. destruct (main_blocked s); [auto|]. intros H. apply main_to_yield_writes_whole, perform_writes_whole, H.
Qed.
Lemma all_writes_wholeP t0 iv sm em acts sched : P sm -> P em -> Forall act_ok acts ->
  Forall (fun w => wholeP (snd w)) (writes (run_auto t0 iv sm em acts sched)).
Proof.
  intros Hs He Ha. refine (proj1 (run_auto_inv writes_whole step_writes_whole _ _ _ _ _ _ _)).
  repeat split; cbn [auto_start writes sp mp msg end_msg body pend_whole]; auto using wholeP_frame.
Qed.
End Whole.

Lemma all_writes_whole t0 iv sm em acts sched :
  Forall (fun w => whole (snd w)) (writes (run_auto t0 iv sm em acts sched)).
Proof.
  eapply Forall_impl; [|apply (all_writes_wholeP (fun _ => True)); auto].
  - intros [b [f|]]; cbn; auto. intros (c & m & H & _). eauto.
  - apply Forall_forall. intros [m|d|] _; exact I.
Qed.

(* on the terminal: a whole-frame write replaces the line, whatever it held; a line break opens an empty one *)
Section Line.
Variable w : nat.
Lemma newline_opens_row R r c :
  feed w {| rows := R ++ [r]; cr := length R; cc := c |} (emits_of_write None)
  = {| rows := (R ++ [r]) ++ [[]]; cr := length (R ++ [r]); cc := 0 |}.
Proof.
  cbn [emits_of_write]. unfold feed. cbn [fold_left feed1 rows cr].
  replace (S (length R)) with (length (R ++ [r])) by (rewrite app_length; cbn; lia).
  now rewrite upd_row_new.
Qed.

Lemma fill_short : forall s cur, length cur + length s <= w -> fill w cur s = [cur ++ s].
Proof.
  induction s as [|c s IH]; intros cur H; cbn [fill]; [now rewrite app_nil_r|].
  assert (Nat.eqb (length cur) w = false) as -> by (apply Nat.eqb_neq; cbn in H; lia).
  rewrite IH by (rewrite app_length; cbn in *; lia). now rewrite <- app_assoc.
Qed.

Hypothesis w_pos : 1 <= w.

Lemma frame_replaces_line R r c (f : str) : length f <= w ->
  feed w {| rows := R ++ [r]; cr := length R; cc := c |} (emits_of_write (Some f))
  = {| rows := R ++ [f]; cr := length R; cc := length f |}.
Proof.
  intros Hf. cbn [emits_of_write]. unfold feed. cbn [fold_left feed1 rows cr cc].
  rewrite upd_row_last.
  change (fold_left (feed1 w) (map Ch f) {| rows := R ++ [[]]; cr := length R; cc := 0 |})
    with (feed w {| rows := R ++ [[]]; cr := length R; cc := length (@nil N) |} (map Ch f)).
  rewrite (feed_text w w_pos f R []) by (cbn; lia).
  rewrite (fill_short f []) by (cbn; lia). cbn [app length last]. f_equal. lia.
Qed.

Definition ok_row (r : list N) : Prop := r = [] \/ exists c m, r = frame c m.
Definition short (t : option str) : Prop := match t with Some f => length f <= w | None => True end.

Lemma rows_are_frames : forall ws R r c,
  Forall whole ws -> Forall short ws -> Forall ok_row R -> ok_row r ->
  let t := feed w {| rows := R ++ [r]; cr := length R; cc := c |} (flat_map emits_of_write ws) in
  Forall ok_row (rows t).
Proof.
  assert (forall R r, Forall ok_row R -> ok_row r -> Forall ok_row (R ++ [r])) as Hsnoc.
  { intros R r HR Hr. apply Forall_app. split; [exact HR|]. constructor; [exact Hr|constructor]. }
  induction ws as [|x ws IH]; intros R r c Hw Hs HR Hr; cbv zeta; cbn [flat_map]; [apply Hsnoc; assumption|].
  inversion Hw as [|? ? Hx Hws]; subst. inversion Hs as [|? ? Sx Sws]; subst. rewrite feed_app. destruct x as [f|].
  - rewrite (frame_replaces_line R r c f Sx). apply IH; auto. right. exact Hx.
  - rewrite newline_opens_row. apply IH; auto. left. reflexivity.
Qed.
End Line.

(* leaving the automatic mode always stops and joins the spinner *)
Definition after_join (s : st) : bool :=
  match mphase_ s with MEndFrame | MFinished _ => true | _ => false end.
Definition phase_ok (s : st) : Prop :=
  match mphase_ s, mp s with
  | MBody, (PW _ | PS _) => True
  | MAfterRaiseNl, PW None => True
  | MAfterJoinRaise, PJ | MAfterJoinExit, PJ => True
  | MEndFrame, PW (Some _) => True
  | MFinished false, PW None => True
  | MFinished _, PDone => True
  | _, _ => False
  end.
(* the spinner thread never joins anything; the main thread joins with the flag set, and goes on when the spinner has ended *)
Definition join_inv (s : st) : Prop :=
  phase_ok s /\ sp s <> PJ /\ (mp s = PJ -> stop s = true) /\ (after_join s = true -> sp s = PDone /\ stop s = true).

Lemma step_spinner_join_inv s : join_inv s -> join_inv (step_spinner s).
Proof.
  intros HJ. pose proof HJ as (H1 & H2 & H3 & H4). unfold step_spinner. destruct (sp s) as [t|d| |] eqn:Es; try exact HJ.
  - (* a spinner write: not after the join *)
    unfold join_inv, phase_ok, after_join in *. cbn [mphase_ mp sp stop upd_st]. split; [exact H1|]. split; [discriminate|]. split; [exact H3|].
    intros Ha. destruct (H4 Ha) as [Hd _]. congruence.
  - match goal with |- join_inv (spin_to_yield ?x) => destruct (spin_to_yield_eq x) as (c & u & p & -> & Hp) end.
    unfold join_inv, phase_ok, after_join in *. cbn [mphase_ mp sp stop upd_st]. split; [exact H1|]. split; [exact Hp|]. split; [exact H3|].
    intros Ha. destruct (H4 Ha) as [Hd _]. congruence.
Qed.

(* what main_to_yield needs to know: from the join on, the spinner has ended and the flag is set *)
Definition joined (s : st) : Prop :=
  sp s <> PJ /\ match mphase_ s with MBody | MAfterRaiseNl => True | _ => sp s = PDone /\ stop s = true end.
Lemma main_to_yield_join_inv s : joined s -> join_inv (main_to_yield s).
Proof.
  unfold joined, main_to_yield, join_inv, phase_ok, after_join. intros [Hn H].
  destruct (mphase_ s) as [| | | | |[|]]; [destruct (body s) as [|[m|d|] rest]|..]; cbn [mphase_ mp sp stop upd_st];
    repeat split; auto; try discriminate; apply H.
Qed.
Lemma join_inv_joined s : join_inv s -> main_blocked s = false -> joined (perform s).
Proof.
  unfold join_inv, phase_ok, after_join, main_blocked, joined, perform. intros (H1 & Hn & H2 & H3) Hb. split.
  - destruct (mp s); exact Hn.
  - destruct (mp s) as [t|d| |] eqn:Em; cbn [mphase_ sp stop upd_st]; destruct (mphase_ s); try contradiction; auto.
    all: destruct (sp s); try discriminate; auto.
Qed.
Lemma step_join_inv s b : join_inv s -> join_inv (step s b).
Proof.
  intros H. destruct b; cbn [step]; [apply step_spinner_join_inv, H|]. rewrite step_main_eq.
  destruct (main_blocked s) eqn:Hb; [exact H|apply main_to_yield_join_inv, join_inv_joined; assumption].
Qed.
Lemma start_join_inv t0 iv sm em acts : join_inv (auto_start t0 iv sm em acts).
Proof. unfold join_inv, phase_ok, after_join; cbn. repeat split; auto; discriminate. Qed.
Lemma init_join_inv t0 iv sm em acts : join_inv (init t0 iv sm em acts).
Proof. apply init_keeps; [exact step_join_inv|apply start_join_inv]. Qed.

(* a measure that decreases with every step of the completion policy *)
Definition rank_phase (s : st) : nat :=
  match mphase_ s with
  | MBody => 2 * length (body s) + 8
  | MAfterRaiseNl => 6 | MAfterJoinRaise => 4 | MAfterJoinExit => 6 | MEndFrame => 4 | MFinished _ => 2
  end.
Definition rank_main (s : st) : nat := match mp s with PDone => 0 | _ => rank_phase s end.
Definition rank_sp (s : st) : nat := match sp s with PW _ => 2 | PS _ => 1 | _ => 0 end.
Definition rank (s : st) : nat := 3 * rank_main s + rank_sp s.

Lemma main_to_yield_rank s : rank_main (main_to_yield s) < rank_phase s.
Proof.
  unfold main_to_yield, rank_main, rank_phase.
  destruct (mphase_ s); [destruct (body s) as [|[m|d|] r]|..]; cbn [mphase_ mp body upd_st length]; lia.
Qed.
Lemma step_main_rank s : main_blocked s = false ->
  rank_main (step_main s) < rank_main s /\ rank_sp (step_main s) = rank_sp s.
Proof.
  intros Hb. rewrite step_main_eq, Hb. pose proof (main_to_yield_rank (perform s)) as Hr.
  unfold rank_sp, rank_main at 2. rewrite main_to_yield_sp. unfold main_blocked, perform in *. destruct (mp s); try discriminate; auto.
Qed.

Lemma step_spinner_rank s : join_inv s -> main_blocked s = true -> all_done s = false ->
  rank_sp (step_spinner s) < rank_sp s /\ rank_main (step_spinner s) = rank_main s.
Proof.
  intros (H1 & HN & H2 & H3) Hb Hd. unfold step_spinner, main_blocked, all_done, rank_main, rank_phase, rank_sp, phase_ok, after_join in *.
  destruct (mp s) as [[f|]|d| |] eqn:Em; try discriminate.
  - (* joining: the stop flag is set, so the spinner ends at its next loop test *)
    specialize (H2 eq_refl).
    destruct (sp s) as [t|d| |] eqn:Es; try discriminate; try congruence.
    + cbn. rewrite ?Em. split; [lia|reflexivity].
    + unfold spin_to_yield. cbn [stop upd_st]. rewrite H2. cbn. rewrite ?Em. split; [lia|reflexivity].
  - (* main finished: then the spinner had ended already *)
    destruct (mphase_ s) as [| | | | |r] eqn:Ep; try contradiction.
    destruct (H3 eq_refl) as [Hs _]. rewrite Hs in Hd. discriminate.
Qed.

Lemma complete_done : forall fuel s, join_inv s -> rank s <= fuel -> all_done (complete fuel s) = true /\ join_inv (complete fuel s).
Proof.
  induction fuel as [|f IH]; intros s HJ Hr.
  - cbn. split; [|exact HJ]. destruct HJ as (_ & HN & _). unfold rank, rank_main, rank_phase, rank_sp, all_done in *.
    destruct (mp s), (sp s); try reflexivity; try congruence; destruct (mphase_ s); lia.
  - cbn [complete]. destruct (all_done s) eqn:Hd; [auto|].
    destruct (main_blocked s) eqn:Hb.
    + destruct (step_spinner_rank s HJ Hb Hd) as [R1 R2]. apply IH; [apply (step_join_inv s true HJ)|]. unfold rank in *. lia.
    + destruct (step_main_rank s Hb) as [R1 R2]. apply IH; [apply (step_join_inv s false HJ)|]. unfold rank in *. lia.
Qed.

Lemma rank_bound s : rank s <= 6 * length (body s) + 30.
Proof.
  assert (rank_phase s <= 2 * length (body s) + 8) by (unfold rank_phase; destruct (mphase_ s); lia).
  unfold rank, rank_main, rank_sp. destruct (mp s), (sp s); lia.
Qed.

(* how the automatic mode ends is decided by the body alone: raised iff the body has a raise *)
Definition has_raise (acts : list action) : bool := existsb (fun a => match a with ARaise => true | _ => false end) acts.
Definition raise_decided (hr : bool) (s : st) : Prop :=
  match mphase_ s with
  | MBody => has_raise (body s) = hr
  | MAfterRaiseNl | MAfterJoinRaise | MFinished true => hr = true
  | MAfterJoinExit | MEndFrame | MFinished false => hr = false
  end.
Lemma main_to_yield_raise_decided hr s : raise_decided hr s -> raise_decided hr (main_to_yield s).
Proof.
  unfold raise_decided, main_to_yield. destruct (mphase_ s) as [| | | | |r] eqn:Ep; cbn [mphase_ body upd_st]; auto.
  destruct (body s) as [|[m|d|] rest]; cbn [mphase_ body upd_st has_raise existsb orb]; auto.
Qed.
Lemma step_raise_decided hr s b : raise_decided hr s -> raise_decided hr (step s b).
Proof.
  intros H. destruct b; cbn [step].
  - unfold step_spinner. destruct (sp s); try exact H.
    match goal with |- raise_decided hr (spin_to_yield ?x) => destruct (spin_to_yield_eq x) as (c & u & p & -> & _) end. exact H.
  - rewrite step_main_eq. destruct (main_blocked s); [exact H|]. apply main_to_yield_raise_decided. unfold perform. destruct (mp s); exact H.
Qed.

Lemma auto_ends t0 iv sm em acts sched :
  let f := run_auto t0 iv sm em acts sched in
  mp f = PDone /\ sp f = PDone /\ stop f = true /\ mphase_ f = MFinished (has_raise acts).
Proof.
  cbv zeta.
  assert (raise_decided (has_raise acts) (run_auto t0 iv sm em acts sched)) as HR.
  { apply run_auto_inv; [apply step_raise_decided|reflexivity]. }
  unfold run_auto in *. set (s := run_schedule (init t0 iv sm em acts) sched) in *.
  assert (join_inv s) as HJ by (apply run_schedule_inv; [exact step_join_inv|apply init_join_inv]).
  destruct (complete_done (6 * length (body s) + 30) s HJ (rank_bound s)) as [Hd (H1 & _ & _ & H3)].
  set (f := complete (6 * length (body s) + 30) s) in *.
  unfold all_done, phase_ok, after_join, raise_decided in *.
  destruct (mp f); try discriminate. destruct (sp f); try discriminate.
  destruct (mphase_ f) as [| | | | |r]; try contradiction. destruct (H3 eq_refl) as [_ Hs]. destruct r; rewrite HR; auto.
Qed.

(* a normal exit leaves the end message as the last frame, followed by the line break *)
Definition ends_ok (s : st) : Prop :=
  match mphase_ s, mp s with
  | MFinished false, PW None => exists pre, writes s = pre ++ [(false, Some (frame 0 (end_msg s)))]
  | MFinished false, PDone => exists pre, writes s = pre ++ [(false, Some (frame 0 (end_msg s))); (false, None)]
  | _, _ => True
  end.

Definition end_frame_inv (em : str) (s : st) : Prop :=
  end_msg s = em /\
  match mphase_ s, mp s with
  | MEndFrame, PW t => t = Some (frame 0 em)
  | MFinished false, PW None => exists pre, writes s = pre ++ [(false, Some (frame 0 em))]
  | MFinished false, PDone => exists pre, writes s = pre ++ [(false, Some (frame 0 em)); (false, None)]
  | _, _ => True
  end.
(* the same between the pending operation and the run to the next yield *)
Definition end_frame_mid (em : str) (s : st) : Prop :=
  end_msg s = em /\
  match mphase_ s with
  | MEndFrame => exists pre, writes s = pre ++ [(false, Some (frame 0 em))]
  | MFinished false => exists pre, writes s = pre ++ [(false, Some (frame 0 em)); (false, None)]
  | _ => True
  end.
Lemma main_to_yield_end_frame_inv em s : end_frame_mid em s -> end_frame_inv em (main_to_yield s).
Proof.
  unfold end_frame_mid, end_frame_inv, main_to_yield. intros [He H]. 
  destruct (mphase_ s) as [| | | | |[|]]; [destruct (body s) as [|[m|d|] rest]|..]; cbn [mphase_ mp end_msg writes upd_st];
    (split; [exact He|]); auto. now rewrite He.
Qed.
Lemma perform_end_frame_inv em s : phase_ok s -> end_frame_inv em s -> end_frame_mid em (perform s).
Proof.
  unfold phase_ok, end_frame_inv, end_frame_mid, perform. intros Hp [He H]. 
  destruct (mp s) as [[f|]|d| |]; cbn [mphase_ end_msg writes upd_st]; (split; [exact He|]);
    destruct (mphase_ s) as [| | | | |[|]]; try contradiction; auto.
  - injection H as ->. eexists. reflexivity.
  - destruct H as [pre ->]. exists pre. now rewrite <- app_assoc.
Qed.

Lemma step_spinner_end_frame_inv em s : join_inv s -> end_frame_inv em s -> end_frame_inv em (step_spinner s).
Proof.
  intros (H1 & _ & H2 & H3) [He HE]. unfold step_spinner. destruct (sp s) as [t|d| |] eqn:Es; try (split; assumption).
  - (* a spinner write: impossible once the main thread is past the join *)
    unfold end_frame_inv, after_join in *. cbn [end_msg mphase_ mp writes upd_st]. split; [exact He|].
    destruct (mphase_ s) as [| | | | |r] eqn:Ep; auto; destruct (H3 eq_refl) as [Hd _]; congruence.
  - match goal with |- end_frame_inv em (spin_to_yield ?x) => destruct (spin_to_yield_eq x) as (c & u & p & -> & _) end. split; assumption.
Qed.
Lemma step_join_end em s b : join_inv s /\ end_frame_inv em s -> join_inv (step s b) /\ end_frame_inv em (step s b).
Proof.
  intros [HJ HE]. split; [apply step_join_inv, HJ|]. destruct b; cbn [step]; [apply step_spinner_end_frame_inv; assumption|].
  rewrite step_main_eq. destruct (main_blocked s); [exact HE|]. apply main_to_yield_end_frame_inv, perform_end_frame_inv; [apply HJ|exact HE].
Qed.

Lemma run_auto_join_end t0 iv sm em acts sched :
  join_inv (run_auto t0 iv sm em acts sched) /\ end_frame_inv em (run_auto t0 iv sm em acts sched).
Proof.
  apply run_auto_inv; [apply step_join_end|]. split; [apply start_join_inv|split; [reflexivity|exact I]].
Qed.

(* manual mode *)
Lemma indicator_in_values c : In (indicator c) values.
Proof. unfold indicator. apply nth_In. cbn [values length]. apply Nat.mod_upper_bound. discriminate. Qed.

Fixpoint adv_times (iv : Z) (s : mst) (now : Z) (ops : list (Z * mop)) : list Z :=
  match ops with
  | [] => []
  | (dt, o) :: r =>
    let now' := (now + dt)%Z in
    (match o with MAdvance => if (now' <? m_upd s)%Z then [] else [now'] | _ => [] end)
    ++ adv_times iv (manual_step iv s now' o) now' r
  end.
Fixpoint spaced (iv : Z) (l : list Z) : Prop :=
  match l with a :: (b :: _) as r => (a + iv <= b)%Z /\ spaced iv r | _ => True end.

Lemma adv_times_spaced iv : (0 <= iv)%Z -> forall ops s now,
  Forall (fun t => m_upd s <= t)%Z (adv_times iv s now ops) /\ spaced iv (adv_times iv s now ops).
Proof.
  intros Hiv. induction ops as [|[dt o] r IH]; intros s now; cbn [adv_times]; [split; [constructor|exact I]|].
  destruct (IH (manual_step iv s (now + dt)%Z o) (now + dt)%Z) as [F S].
  destruct o as [|m|m rs]; cbn [app]; try (cbn [manual_step m_upd] in F; split; assumption).
  cbn [manual_step] in *. destruct (now + dt <? m_upd s)%Z eqn:Et; cbn [app m_upd] in *; [split; assumption|].
  apply Z.ltb_ge in Et. split.
  - constructor; [exact Et|]. eapply Forall_impl; [|exact F]. cbn. intros. lia.
  - destruct (adv_times iv _ (now + dt)%Z r) as [|b l] eqn:El; [exact I|]. split; [|exact S].
    inversion F; subst. lia.
Qed.

(* the last frame shows the current position and message *)
Definition last_frame_current (s : mst) : Prop :=
  exists pre, m_frames s = pre ++ [Some (frame (m_cur s) (m_msg s))] \/ m_frames s = pre ++ [Some (frame (m_cur s) (m_msg s)); None].
Lemma manual_step_last_frame_current iv s now o : last_frame_current s -> last_frame_current (manual_step iv s now o).
Proof.
  intros HP. destruct o as [|m|m rs]; cbn [manual_step]; [destruct (now <? m_upd s)%Z; [exact HP|]|..];
    eexists; cbn [m_frames m_cur m_msg]; [left|left|right]; reflexivity.
Qed.
Lemma manual_run_last_frame_current iv : forall ops s now, last_frame_current s -> last_frame_current (manual_run iv s now ops).
Proof. induction ops as [|[dt o] r IH]; intros s now H; cbn [manual_run]; [exact H|]. apply IH, manual_step_last_frame_current, H. Qed.
Lemma manual_init_last_frame_current t0 iv m : last_frame_current (manual_init t0 iv m).
Proof. exists []. left. reflexivity. Qed.

(* the line never shows a mixture of two frames: at every point of the write history *)
Definition fits (w : nat) (m : str) : Prop := length m + 3 <= w.
Lemma writes_short w t0 iv sm em acts sched :
  fits w sm -> fits w em -> Forall (act_ok (fits w)) acts ->
  Forall (short w) (map snd (writes (run_auto t0 iv sm em acts sched))).
Proof.
  intros Hs He Ha. pose proof (all_writes_wholeP (fits w) t0 iv sm em acts sched Hs He Ha) as HW.
  apply Forall_map. eapply Forall_impl; [|exact HW]. intros [b [x|]]; cbn; auto. intros (c & m & Ef & Hm). subst x.
  unfold frame, fits in *. cbn [length]. lia.
Qed.

Lemma line_never_mixed_lemma w t0 iv sm em acts sched n :
  1 <= w -> fits w sm -> fits w em -> Forall (act_ok (fits w)) acts ->
  let f := run_auto t0 iv sm em acts sched in
  Forall ok_row (rows (feed w term_init (flat_map (fun x => emits_of_write (snd x)) (firstn n (writes f))))).
Proof.
  intros Hw Hs He Ha. cbv zeta. rewrite <- flat_map_map, <- firstn_map.
  apply (rows_are_frames w Hw _ [] [] 0).
  - apply Forall_firstn, Forall_map, all_writes_whole.
  - apply Forall_firstn, writes_short; assumption.
  - constructor.
  - left. reflexivity.
Qed.
