(* C09: the help switch on a line WITHOUT a leading plain token ("-h", "-q -h", "-h cmd", "-q -h srv").
   The PRE_RESOLVE listener parses the line leniently with the help command's format; what differs from a line with a
   path is whether the argument "command" gets a value:
   - a line of option-like tokens only: no positional is read (loop_options_only), "command" stays unset, HelpTextHandler
     prints the APPLICATION page;
   - otherwise the handler asks HelpResolver, whose walk finds no leading token and falls back to the application's
     default commands (help_target_no_path): with DefaultApplicationConfig that is the help command itself. *)
From Clikit Require Import Base.Prelude Base.Res Model.Conv Model.Flags Model.Format Model.Parser Model.Spell
     Model.Resolver Model.Tokenizer Model.Switches
     Proofs.StrLemmas Proofs.DictLemmas Proofs.FormatLemmas Proofs.ParserLemmas Proofs.SpellOpts Proofs.SpellArgs Proofs.FmtOkLemmas
     Proofs.ResolverLemmas Proofs.SwitchesLemmas Proofs.HelpTargetLemmas Proofs.HelpSamePageLemmas Proofs.HelpRunLemmas
     Proofs.SwitchesHelpLemmas Proofs.HelpAnywhereLemmas.

(* an option-like token: starts with "-", is neither "-" nor "--" *)
Definition optlike (t : str) : bool := starts_dash t && negb (str_eqb t [DASH]) && negb (is_dd t).

(* a line of option-like tokens: the token loop reads no positional *)
Lemma loop_options_only g len : forall fuel toks st, Forall (fun t => optlike t = true) toks ->
  ps_args (fst (loop fuel g len true st toks)) = ps_args st.
Proof.
  induction fuel as [|fuel IH]; intros toks st Ht; cbn [loop]; [reflexivity|].
  destruct toks as [|tok rest]; [reflexivity|]. inversion Ht as [|? ? Hk Hr]; subst.
  unfold optlike in Hk. apply andb_prop in Hk as [Hk Hdd]. apply andb_prop in Hk as [Hsd Hd1].
  assert (nonempty tok = true) as -> by (destruct tok; [discriminate|reflexivity]).
  apply negb_true_iff in Hdd. rewrite Hdd. cbn [andb negb].
  destruct (starts_dd tok).
  - destruct (parse_long_option g st tok rest) as [[st' rest']|k] eqn:E; [|reflexivity].
    destruct (ClassifyLemmas.parse_long_frame _ _ _ _ _ _ E) as [Ha [c ->]]. apply Forall_app in Hr as [_ Hr].
    rewrite (IH _ _ Hr). exact Ha.
  - rewrite Hsd, Hd1. cbn [andb]. pose proof (parse_short_args_left g st tok rest) as S1.
    pose proof (ClassifyLemmas.parse_short_frame g st tok rest) as S2.
    destruct (parse_short_option g st tok rest) as [[[st' rest']|k] st2]; cbn [fst snd] in *; [|exact S1].
    destruct (S2 _ _ eq_refl) as [Ha [c ->]]. apply Forall_app in Hr as [_ Hr].
    rewrite (IH _ _ Hr). exact Ha.
Qed.


(* no positional on the line: the parse sets no argument of the format (any format with the facts of C01) *)
Lemma parse_options_only f toks x : fmt_inv f -> Forall (fun t => optlike t = true) toks ->
  parse f true toks = Ok x -> ar_args x = [].
Proof.
  intros Hinv Ht Hp. pose proof (wf_implies_fmt_ok_lemma f Hinv) as Hok. apply fmt_ok_inv in Hok as (g & A & cns & FF).
  destruct (parse_lenient_ok_inv f g A cns toks x FF Hp) as ([pa po] & e & st2 & a1 & Hloop & Hins & Hset & Hopts).
  pose proof (loop_options_only g true (S (length toks)) toks ps_empty Ht) as Hl. rewrite Hloop in Hl. cbn [fst ps_args ps_empty] in Hl. subst pa.
  (* nothing to re-align: what is handed to set_arguments is the command names alone, and none of them is an argument of f *)
  unfold insert_missing in Hins. cbn [ps_args ps_opts flatten flat_map skip_names copy_values bind] in Hins.
  inversion Hins; subst st2. clear Hins. cbn [ps_args] in Hset.
  set (fixed0 := map (fun c : str * cname => (fst c, RCmd (snd c))) cns) in Hset.
  change (fold_left (fun d kv => sset (fst kv) (snd kv) d) fixed0 []) with (supd [] fixed0) in Hset.
  rewrite set_arguments_filter, filter_none in Hset.
  - cbn [set_arguments] in Hset. inversion Hset; subst a1. now rewrite (set_options_args f _ _ _ Hopts).
  - intros k Hk. apply in_keys_supdate in Hk as [[]|Hk]. rewrite shas_sget, (ff_fresh _ _ _ _ FF k); [reflexivity|].
    unfold fixed0 in Hk. rewrite map_map in Hk. exact Hk.
Qed.

(* no leading plain token: the help resolver falls back to the application's default commands *)
Lemma help_target_no_path a toks : leading toks = [] ->
  help_target a toks =
    (do d <- help_pick_default (defaults_of (ap_cmds a)) toks None;
     match d with
     | Some (dc, _) => do _ <- help_lenient (b_fmt dc) toks; Ok [b_name dc]
     | None => Err CannotResolve
     end).
Proof.
  intros Hl. unfold help_target. fold (skip_help_word toks). rewrite skip_help_word_id, Hl; cbn [walk bind].
  2:{ (* "help" is a plain token: it would be a leading one *)
      destruct toks as [|t r]; [exact I|]. cbn [not_help_word]. destruct (str_eqb_spec t S_help) as [->|]; [|reflexivity].
      rewrite leading_step in Hl. discriminate. }
  destruct (help_pick_default (defaults_of (ap_cmds a)) toks None) as [[[dc r]|]|k]; reflexivity.
Qed.
