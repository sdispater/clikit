(* C08, the tokenizer of Model/Tokenizer.v: the fuel never runs out (toks_fuel) and more of it changes no result
   (toks_mono), so the lemmas below exhibit some fuel and toks_tokenize carries them to tokenize; text without quotes and backslashes splits at
   white space (words, toks_plain); rendering a list of expressible tokens with any quoting style and any white space and
   tokenising it gives the list back (items, render, toks_render); option_tokens. *)
From Coq Require Import Lia.
From Clikit Require Import Base.Prelude Base.Res Model.Tokenizer.

Lemma esc_shorter c r : length (snd (esc (c :: r))) <= length r.
Proof. destruct r as [|n t]; cbn; [lia|]. destruct (is_quote n); cbn; lia. Qed.

Lemma quoted_fuel : forall f d s acc, length s < f ->
  exists inner r, quoted f d s acc = TOk (inner, r) /\ length r <= length s.
Proof.
  induction f as [|f IH]; intros d s acc H; [lia|]. cbn [quoted].
  destruct s as [|c r]; [exists acc, []; auto|]. cbn [length] in *.
  destruct (N.eqb c d); [exists acc, r; auto|].
  destruct (N.eqb c BS).
  - pose proof (esc_shorter c r) as Hl. destruct (esc (c :: r)) as [sq r']. cbn [snd] in Hl.
    destruct (IH d r' (acc ++ sq) ltac:(lia)) as (i & r2 & -> & Hr). exists i, r2. split; [reflexivity|lia].
  - destruct (is_quote c).
    + destruct (IH c r [] ltac:(lia)) as (i1 & r1 & -> & H1).
      destruct (IH d r1 (acc ++ [c] ++ i1 ++ [c]) ltac:(lia)) as (i2 & r2 & -> & H2).
      exists i2, r2. split; [reflexivity|lia].
    + destruct (IH d r (acc ++ [c]) ltac:(lia)) as (i & r2 & -> & Hr). exists i, r2. split; [reflexivity|lia].
Qed.

(* a token from a non-empty string consumes at least one character *)
Lemma token_fuel : forall f s acc, length s < f ->
  exists t r, token f s acc = TOk (t, r) /\ length r <= pred (length s).
Proof.
  induction f as [|f IH]; intros s acc H; [lia|]. cbn [token].
  destruct s as [|c r]; [exists acc, []; auto|]. cbn [length pred] in *.
  destruct (is_space c); [exists acc, r; auto|].
  destruct (N.eqb c BS).
  - pose proof (esc_shorter c r) as Hl. destruct (esc (c :: r)) as [sq r']. cbn [snd] in Hl.
    destruct (IH r' (acc ++ sq) ltac:(lia)) as (t & r2 & -> & Hr). exists t, r2. split; [reflexivity|lia].
  - destruct (is_quote c).
    + destruct (quoted_fuel f c r [] ltac:(lia)) as (i1 & r1 & -> & H1).
      destruct (IH r1 (acc ++ i1) ltac:(lia)) as (t & r2 & -> & H2). exists t, r2. split; [reflexivity|lia].
    + destruct (IH r (acc ++ [c]) ltac:(lia)) as (t & r2 & -> & Hr). exists t, r2. split; [reflexivity|lia].
Qed.

Lemma toks_fuel : forall f s, length s + 1 < f -> exists ts, toks f s = TOk ts.
Proof.
  induction f as [|f IH]; intros s H; [lia|]. cbn [toks].
  destruct s as [|c r]; [exists []; reflexivity|]. cbn [length] in H.
  destruct (is_space c); [apply IH; lia|].
  destruct (token_fuel f (c :: r) [] ltac:(cbn; lia)) as (t & r2 & -> & Hr). cbn [length pred] in Hr.
  destruct (IH r2 ltac:(lia)) as (ts & ->). exists (t :: ts). reflexivity.
Qed.

Lemma quoted_mono : forall f f' d s acc x, quoted f d s acc = TOk x -> f <= f' -> quoted f' d s acc = TOk x.
Proof.
  induction f as [|f IH]; intros f' d s acc x H Hl; [discriminate|].
  destruct f' as [|f']; [lia|]. apply le_S_n in Hl. cbn [quoted] in *.
  destruct s as [|c r]; [exact H|]. destruct (N.eqb c d); [exact H|]. destruct (N.eqb c BS).
  - destruct (esc (c :: r)). eauto.
  - destruct (is_quote c); [|eauto].
    destruct (quoted f c r []) as [[i r1]|] eqn:E; [|discriminate]. rewrite (IH _ _ _ _ _ E Hl). eauto.
Qed.

Lemma token_mono : forall f f' s acc x, token f s acc = TOk x -> f <= f' -> token f' s acc = TOk x.
Proof.
  induction f as [|f IH]; intros f' s acc x H Hl; [discriminate|].
  destruct f' as [|f']; [lia|]. apply le_S_n in Hl. cbn [token] in *.
  destruct s as [|c r]; [exact H|]. destruct (is_space c); [exact H|]. destruct (N.eqb c BS).
  - destruct (esc (c :: r)). eauto.
  - destruct (is_quote c); [|eauto].
    destruct (quoted f c r []) as [[i r1]|] eqn:E; [|discriminate]. rewrite (quoted_mono _ _ _ _ _ _ E Hl). eauto.
Qed.

Lemma toks_mono : forall f f' s ts, toks f s = TOk ts -> f <= f' -> toks f' s = TOk ts.
Proof.
  induction f as [|f IH]; intros f' s ts H Hl; [discriminate|].
  destruct f' as [|f']; [lia|]. apply le_S_n in Hl. cbn [toks] in *.
  destruct s as [|c r]; [exact H|]. destruct (is_space c); [eauto|].
  destruct (token f (c :: r) []) as [[t r1]|] eqn:E; [|discriminate]. rewrite (token_mono _ _ _ _ _ E Hl).
  destruct (toks f r1) as [ts1|] eqn:E1; [|discriminate]. rewrite (IH _ _ _ E1 Hl). exact H.
Qed.

Lemma toks_tokenize f s ts : toks f s = TOk ts -> tokenize s = TOk ts.
Proof.
  intros H. unfold tokenize. destruct (toks_fuel (S (S (length s))) s) as [ts' H']; [lia|]. rewrite H'.
  pose proof (toks_mono _ _ _ _ H (Nat.le_max_l f (S (S (length s))))) as A.
  pose proof (toks_mono _ _ _ _ H' (Nat.le_max_r f (S (S (length s))))) as B. congruence.
Qed.

Lemma option_tokens_all ts : forallb (fun t => negb (is_ddash t)) ts = true -> option_tokens ts = ts.
Proof.
  induction ts as [|t r IH]; cbn; [reflexivity|]. intros H. apply andb_prop in H as [Ht Hr].
  destruct (is_ddash t); [discriminate|]. now rewrite IH.
Qed.

Definition plain_char (c : N) : bool := negb (is_quote c) && negb (N.eqb c BS).
(* the specification: maximal runs of non-whitespace characters *)
Fixpoint words_aux (cur : str) (s : str) : list str :=
  match s with
  | [] => match cur with [] => [] | _ => [cur] end
  | c :: r => if is_space c then (match cur with [] => words_aux [] r | _ => cur :: words_aux [] r end)
              else words_aux (cur ++ [c]) r
  end.
Definition words (s : str) : list str := words_aux [] s.

Lemma plain_not_bs c : plain_char c = true -> N.eqb c BS = false /\ is_quote c = false.
Proof. unfold plain_char. intros H. apply andb_prop in H as [H1 H2]. now destruct (N.eqb c BS), (is_quote c). Qed.

Fixpoint tw (s : str) : str :=      (* the leading non-whitespace run *)
  match s with [] => [] | c :: r => if is_space c then [] else c :: tw r end.
Fixpoint dw (s : str) : str :=      (* what follows that run and the one whitespace character ending it *)
  match s with [] => [] | c :: r => if is_space c then r else dw r end.

Lemma wa_span : forall s acc,
  words_aux acc s = match acc ++ tw s with [] => words_aux [] (dw s) | w => w :: words_aux [] (dw s) end.
Proof.
  induction s as [|c r IH]; intros acc; cbn [words_aux tw dw].
  - rewrite app_nil_r. destruct acc; reflexivity.
  - destruct (is_space c).
    + rewrite app_nil_r. destruct acc; reflexivity.
    + rewrite IH, <- app_assoc. reflexivity.
Qed.
Lemma dw_len s : length (dw s) <= length s.
Proof. induction s as [|c r IH]; cbn [dw length]; [lia|]. destruct (is_space c); lia. Qed.
Lemma dw_plain s : forallb plain_char s = true -> forallb plain_char (dw s) = true.
Proof.
  induction s as [|c r IH]; cbn [dw forallb]; [auto|]. intros H. apply andb_prop in H as [Hc Hr].
  destruct (is_space c); [exact Hr | apply IH, Hr].
Qed.

Lemma token_plain : forall f s acc, forallb plain_char s = true -> length s < f ->
  token f s acc = TOk (acc ++ tw s, dw s).
Proof.
  induction f as [|f IH]; intros s acc Hp H; [lia|]. cbn [token].
  destruct s as [|c r]; [cbn; now rewrite app_nil_r|].
  cbn [length] in H. cbn in Hp. apply andb_prop in Hp as [Hc Hr].
  destruct (plain_not_bs c Hc) as [Hbs Hq]. cbn [tw dw].
  destruct (is_space c); [now rewrite app_nil_r|].
  rewrite Hbs, Hq, (IH r (acc ++ [c]) Hr ltac:(lia)), <- app_assoc. reflexivity.
Qed.

Lemma toks_plain : forall f s, forallb plain_char s = true -> length s + 1 < f -> toks f s = TOk (words s).
Proof.
  induction f as [|f IH]; intros s Hp H; [lia|]. cbn [toks]. unfold words.
  destruct s as [|c r]; [reflexivity|]. cbn [length] in H.
  pose proof Hp as Hp'. cbn in Hp'. apply andb_prop in Hp' as [Hc Hr].
  destruct (is_space c) eqn:Es.
  - cbn [words_aux]. rewrite Es. apply IH; [assumption|lia].
  - rewrite (token_plain f (c :: r) [] Hp ltac:(cbn; lia)).
    rewrite wa_span. cbn [app tw dw]. rewrite Es.
    pose proof (dw_len r).
    rewrite (IH (dw r) (dw_plain r Hr) ltac:(lia)). reflexivity.
Qed.

Lemma quote_cases q : is_quote q = true -> q = SQ \/ q = DQ.
Proof.
  unfold is_quote. intros H. apply orb_prop in H as [H|H]; apply N.eqb_eq in H; auto.
Qed.

Lemma expressible_induction (P : str -> Prop) :
  P [] ->
  (forall d r, is_quote d = false -> P r -> P (BS :: d :: r)) ->
  (forall c r, c <> BS -> P r -> P (c :: r)) ->
  forall t, expressible t = true -> P t.
Proof.
  intros H0 Hb Hc. fix IH 1. intros [|c r]; [intros _; exact H0|]. cbn [expressible].
  destruct (N.eqb_spec c BS) as [->|Hn]; intros He.
  - destruct r as [|d r']; [discriminate|]. destruct (is_quote d) eqn:Ed; [discriminate|].
    exact (Hb d r' Ed (IH r' He)).
  - exact (Hc c r Hn (IH r He)).
Qed.

(* reading back an escaped text up to the closing quote; each character (or escaped pair) costs one unit of fuel *)
Lemma quoted_escape q rest : is_quote q = true -> forall t, expressible t = true -> forall acc,
  exists f, quoted f q (escape t ++ q :: rest) acc = TOk (acc ++ t, rest).
Proof.
  intros Hq.
  assert (N.eqb BS q = false) as Hbq by (destruct (quote_cases q Hq); subst; reflexivity).
  apply (expressible_induction (fun t => forall acc, exists f, quoted f q (escape t ++ q :: rest) acc = TOk (acc ++ t, rest))).
  - intros acc. exists 1. cbn. rewrite N.eqb_refl, app_nil_r. reflexivity.
  - intros d r Ed IH acc. destruct (IH (acc ++ [BS; d])) as [f Hf]. exists (S f).
    cbn [escape]. change (is_quote BS) with false. rewrite Ed. cbn [app quoted]. rewrite Hbq.
    change (N.eqb BS BS) with true. cbn [esc]. rewrite Ed, Hf, <- app_assoc. reflexivity.
  - intros c r Hc IH acc. destruct (IH (acc ++ [c])) as [f Hf]. exists (S f).
    cbn [escape]. destruct (is_quote c) eqn:Ec; cbn [app quoted].
    + rewrite Hbq. change (N.eqb BS BS) with true. cbn [esc]. rewrite Ec, Hf, <- app_assoc. reflexivity.
    + assert (N.eqb c q = false) as -> by (apply N.eqb_neq; congruence).
      apply N.eqb_neq in Hc. rewrite Hc, Ec, Hf, <- app_assoc. reflexivity.
Qed.

(* what may follow a token: the end of the string or a whitespace character *)
Definition sep_start (rest : str) : bool := match rest with [] => true | w :: _ => is_space w end.

Lemma token_sep f rest acc : sep_start rest = true -> token (S f) rest acc = TOk (acc, tl rest).
Proof. destruct rest as [|w r]; cbn [sep_start token tl]; [reflexivity|]. now intros ->. Qed.

Lemma token_quoted q t rest :
  is_quote q = true -> expressible t = true -> sep_start rest = true ->
  exists f, token f (quote q t ++ rest) [] = TOk (t, tl rest).
Proof.
  intros Hq He Hs. destruct (quoted_escape q rest Hq t He []) as [[|f] Hf]; [discriminate|].
  exists (S (S f)). unfold quote. cbn [app token].
  assert (is_space q = false /\ N.eqb q BS = false) as [-> ->] by (destruct (quote_cases q Hq); subst; split; reflexivity).
  rewrite Hq, <- app_assoc. cbn [app]. rewrite Hf. apply token_sep, Hs.
Qed.

Definition bare_char (c : N) : bool := plain_char c && negb (is_space c).
Lemma token_bare : forall t rest acc, forallb bare_char t = true -> sep_start rest = true ->
  exists f, token f (t ++ rest) acc = TOk (acc ++ t, tl rest).
Proof.
  induction t as [|c r IH]; intros rest acc Hb Hs.
  - exists 1. rewrite app_nil_r. apply token_sep, Hs.
  - cbn in Hb. apply andb_prop in Hb as [Hc Hr]. unfold bare_char in Hc. apply andb_prop in Hc as [Hp Hns].
    destruct (plain_not_bs c Hp) as [Hbs Hq]. destruct (IH rest (acc ++ [c]) Hr Hs) as [f Hf]. exists (S f).
    cbn [app token]. destruct (is_space c); [discriminate|]. rewrite Hbs, Hq, Hf, <- app_assoc. reflexivity.
Qed.

Inductive style := Bare | Single | Double.
Definition rend (st : style) (t : str) : str :=
  match st with Bare => t | Single => quote SQ t | Double => quote DQ t end.
Definition item_ok (st : style) (t : str) : bool :=
  match st with
  | Bare => negb (match t with [] => true | _ => false end) && forallb bare_char t
  | _ => expressible t
  end.

Lemma token_item st t rest :
  item_ok st t = true -> sep_start rest = true -> exists f, token f (rend st t ++ rest) [] = TOk (t, tl rest).
Proof.
  intros Hi Hs. destruct st; cbn [rend item_ok] in *.
  - apply andb_prop in Hi as [_ Hb]. apply (token_bare t rest [] Hb Hs).
  - apply token_quoted; auto.
  - apply token_quoted; auto.
Qed.
Lemma rend_head st t : item_ok st t = true -> exists c r, rend st t = c :: r /\ is_space c = false.
Proof.
  intros Hi. destruct st; cbn [rend item_ok] in *.
  - apply andb_prop in Hi as [Hn Hb]. destruct t as [|c r]; [discriminate|]. exists c, r. split; [reflexivity|].
    cbn in Hb. apply andb_prop in Hb as [Hc _]. unfold bare_char in Hc. apply andb_prop in Hc as [_ Hc].
    now destruct (is_space c).
  - eexists _, _. split; [reflexivity|reflexivity].
  - eexists _, _. split; [reflexivity|reflexivity].
Qed.

(* a command string: each token (in some style) preceded by a run of whitespace, then trailing whitespace *)
Definition item := (str * style * str)%type.       (* (whitespace before, style, token) *)
Definition it_tok (i : item) : str := snd i.
Fixpoint render (items : list item) (trail : str) : str :=
  match items with
  | [] => trail
  | (pre, st, t) :: r => pre ++ rend st t ++ render r trail
  end.
Definition all_space (s : str) : bool := forallb is_space s.
Definition items_ok (items : list item) : bool :=
  forallb (fun i : item => let '(pre, st, t) := i in all_space pre && item_ok st t) items.
(* every token but the first is separated from its predecessor by at least one whitespace character *)
Definition seps_ok (items : list item) : bool :=
  match items with
  | [] => true
  | _ :: r => forallb (fun i : item => let '(pre, _, _) := i in negb (match pre with [] => true | _ => false end)) r
  end.

Lemma toks_skip pre s f ts : all_space pre = true -> toks f s = TOk ts -> toks (length pre + f) (pre ++ s) = TOk ts.
Proof.
  intros Hp H. induction pre as [|c r IH]; [exact H|]. cbn in Hp. apply andb_prop in Hp as [Hc Hr].
  cbn [length app Nat.add toks]. rewrite Hc. exact (IH Hr).
Qed.

(* a token eats the separator that ends it; tokenising what follows does not miss it *)
Lemma toks_tl f s ts : sep_start s = true -> toks f s = TOk ts -> toks f (tl s) = TOk ts.
Proof.
  destruct s as [|w r]; [auto|]. destruct f; [discriminate|]. cbn [sep_start tl]. intros Hw H.
  cbn [toks] in H. rewrite Hw in H. exact (toks_mono f (S f) r ts H (Nat.le_succ_diag_r f)).
Qed.

Lemma render_rest_ok i r trail :
  items_ok r = true -> all_space trail = true -> seps_ok (i :: r) = true ->
  sep_start (render r trail) = true.
Proof.
  intros Hi Ht Hs. destruct r as [|[[pre st] t] r']; cbn [render].
  - destruct trail; cbn in *; [reflexivity|]. apply andb_prop in Ht as [H _]. exact H.
  - cbn in Hs, Hi. apply andb_prop in Hs as [Hp _]. apply andb_prop in Hi as [Hi _]. apply andb_prop in Hi as [Hpre _].
    destruct pre as [|w p]; [discriminate|]. cbn in *. apply andb_prop in Hpre as [Hw _]. exact Hw.
Qed.

Lemma seps_ok_tl i r : seps_ok (i :: r) = true -> seps_ok r = true.
Proof. destruct r; [reflexivity|]. cbn. intros H. apply andb_prop in H. apply H. Qed.

Lemma toks_render : forall items trail,
  items_ok items = true -> all_space trail = true -> seps_ok items = true ->
  exists f, toks f (render items trail) = TOk (map it_tok items).
Proof.
  induction items as [|[[pre st] t] r IH]; intros trail Hi Ht Hs; cbn [render map].
  - exists (length trail + 1). rewrite <- (app_nil_r trail) at 2. now apply toks_skip.
  - cbn in Hi. apply andb_prop in Hi as [H1 Hir]. apply andb_prop in H1 as [Hpre Hit].
    pose proof (render_rest_ok _ r trail Hir Ht Hs) as Hsep.
    destruct (IH trail Hir Ht (seps_ok_tl _ _ Hs)) as [f2 H2]. apply (toks_tl _ _ _ Hsep) in H2.
    destruct (token_item st t (render r trail) Hit Hsep) as [f1 H1].
    destruct (rend_head st t Hit) as (c & rr & Hrend & Hc). rewrite Hrend in *.
    exists (length pre + S (max f1 f2)). apply toks_skip; [exact Hpre|]. cbn [app toks] in *. rewrite Hc.
    rewrite (token_mono _ _ _ _ _ H1 (Nat.le_max_l f1 f2)), (toks_mono _ _ _ _ H2 (Nat.le_max_r f1 f2)). reflexivity.
Qed.
