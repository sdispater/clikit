(* The str-keyed dictionaries of the models (sget / sset / shas / supdate of Model/Format.v), reasoned about without unfolding them. *)
From Clikit Require Import Base.Prelude Base.Res Model.Conv Model.Flags Model.Format Proofs.StrLemmas Proofs.ListLemmas.

Section Dict.
  Context {V : Type}.
  Implicit Types (d : list (str * V)) (k n : str) (v : V).

  Lemma sget_set n k v d : sget n (sset k v d) = if str_eqb n k then Some v else sget n d.
  Proof. apply aget_aset, str_eqb_spec. Qed.
  Lemma sget_set_same k v d : sget k (sset k v d) = Some v.
  Proof. now rewrite sget_set, str_eqb_refl. Qed.
  Lemma shas_sget n d : shas n d = match sget n d with Some _ => true | None => false end.
  Proof. reflexivity. Qed.
  Lemma shas_set n k v d : shas n (sset k v d) = str_eqb n k || shas n d.
  Proof. rewrite !shas_sget, sget_set. now destruct (str_eqb n k). Qed.
  Lemma shas_in n d : shas n d = true <-> In n (map fst d).
  Proof. apply ahas_in, str_eqb_spec. Qed.
  Lemma shas_false_iff n d : shas n d = false <-> ~ In n (map fst d).
  Proof. rewrite <- shas_in. destruct (shas n d); intuition congruence. Qed.
  Lemma sget_none_iff n d : sget n d = None <-> ~ In n (map fst d).
  Proof. apply aget_none_iff, str_eqb_spec. Qed.
  Lemma sget_some_in n v d : sget n d = Some v -> In (n, v) d.
  Proof. apply aget_in, str_eqb_spec. Qed.
  Lemma sget_of_in n v d : NoDup (map fst d) -> In (n, v) d -> sget n d = Some v.
  Proof. apply aget_of_in, str_eqb_spec. Qed.
  Lemma sget_concat n d1 d2 : sget n (d1 ++ d2) = match sget n d1 with Some v => Some v | None => sget n d2 end.
  Proof. apply aget_app. Qed.
  Lemma sset_new k v d : sget k d = None -> sset k v d = d ++ [(k, v)].
  Proof. apply aset_absent. Qed.
  Lemma sset_keys k v d : map fst (sset k v d) = map fst d ++ (if shas k d then [] else [k]).
  Proof. apply aset_keys. Qed.
  Lemma sset_nodup k v d : NoDup (map fst d) -> NoDup (map fst (sset k v d)).
  Proof. apply aset_nodup, str_eqb_spec. Qed.
  Lemma sset_same k v d : sget k d = Some v -> sset k v d = d.
  Proof. apply aset_same. Qed.
  Lemma sget_fold_sset (ks : list str) v n d :
    sget n (fold_left (fun d k => sset k v d) ks d) = if existsb (str_eqb n) ks then Some v else sget n d.
  Proof. apply aget_fold_aset, str_eqb_spec. Qed.
  Lemma in_sset k v d k' v' : In (k', v') (sset k v d) -> (k' = k /\ v' = v) \/ In (k', v') d.
  Proof. apply in_aset, str_eqb_spec. Qed.
  Lemma in_keys_sset k v d k' : In k' (map fst (sset k v d)) -> k' = k \/ In k' (map fst d).
  Proof.
    rewrite sset_keys, in_app_iff. intros [H|H]; [now right|]. destruct (shas k d); [destruct H|].
    destruct H as [<-|[]]. now left.
  Qed.
  Lemma Forall_sset (P : str * V -> Prop) k v d : Forall P d -> P (k, v) -> Forall P (sset k v d).
  Proof.
    intros Hd Hv. apply Forall_forall. intros [k' v'] Hin. apply in_sset in Hin as [[-> ->]|Hin]; [exact Hv|].
    rewrite Forall_forall in Hd. now apply Hd.
  Qed.
End Dict.

Lemma sset_app_notin {V} k (v : V) pre X : ~ In k (map fst pre) -> sset k v (pre ++ X) = pre ++ sset k v X.
Proof.
  unfold sset. induction pre as [|[k1 v1] r IH]; cbn [app map fst aset]; intros H; [reflexivity|].
  destruct (str_eqb_spec k k1) as [->|Hn]; [exfalso; apply H; now left|]. rewrite IH by (intros Hi; apply H; now right). reflexivity.
Qed.
Lemma sget_app_notin {V} k (pre X : list (str * V)) : ~ In k (map fst pre) -> sget k (pre ++ X) = sget k X.
Proof. intros H. now rewrite sget_concat, (proj2 (sget_none_iff k pre) H). Qed.
Lemma sset_mid {V} k (v w : V) done d : ~ In k (map fst done) ->
  sset k v (done ++ (k, w) :: d) = done ++ (k, v) :: d.
Proof. intros H. rewrite sset_app_notin by exact H. unfold sset. cbn [aset]. now rewrite str_eqb_refl. Qed.

(* two dictionaries with the same keys in the same order, related value by value *)
Lemma Forall2_sset {A B} (P : str * A -> str * B -> Prop) k rv tv :
  (forall r t, P r t -> fst r = fst t) -> P (k, rv) (k, tv) ->
  forall R T, Forall2 P R T -> Forall2 P (sset k rv R) (sset k tv T).
Proof.
  intros Hkey Hp. induction 1 as [|[k1 r1] [k2 t1] R' T' H1 HF IH]; cbn.
  - constructor; [exact Hp|constructor].
  - pose proof (Hkey _ _ H1) as E. cbn in E. subst k2.
    destruct (str_eqb_spec k k1) as [->|Hn]; constructor; assumption.
Qed.
Lemma Forall2_sget {A B} (P : str * A -> str * B -> Prop) k :
  (forall r t, P r t -> fst r = fst t) ->
  forall R T, Forall2 P R T ->
  match sget k R with
  | Some rv => exists tv, sget k T = Some tv /\ P (k, rv) (k, tv)
  | None => sget k T = None
  end.
Proof.
  intros Hkey. induction 1 as [|[k1 r1] [k2 t1] R' T' H1 HF IH]; cbn; [reflexivity|].
  pose proof (Hkey _ _ H1) as E. cbn in E. subst k2.
  destruct (str_eqb_spec k k1) as [->|Hn]; [eauto|exact IH].
Qed.

(* dict.update (supdate of Model/Format.v) *)
Lemma fold_sset_has {V} n (l : list (str * V)) : forall d,
  shas n (fold_left (fun d kv => sset (fst kv) (snd kv) d) l d) = shas n d || shas n l.
Proof.
  induction l as [|[k v] r IH]; intros d; cbn [fold_left fst snd]; [cbn; now rewrite orb_false_r|].
  rewrite IH, !shas_sget, sget_set. cbn [sget aget].
  destruct (str_eqb n k); [now rewrite orb_true_r|reflexivity].
Qed.
Lemma supdate_keys {V} (d2 d1 : list (str * V)) : exists l, map fst (supdate d1 d2) = map fst d1 ++ l.
Proof.
  unfold supdate. revert d1. induction d2 as [|[k v] r IH]; intros d1; cbn [fold_left fst snd].
  - exists []. now rewrite app_nil_r.
  - destruct (IH (sset k v d1)) as [l Hl]. rewrite Hl, sset_keys, <- app_assoc. eauto.
Qed.
Lemma in_keys_supdate {V} (X : list (str * V)) : forall D k, In k (map fst (supdate D X)) -> In k (map fst D) \/ In k (map fst X).
Proof.
  unfold supdate. induction X as [|[k1 v1] r IH]; intros D k; cbn [fold_left fst snd map]; [auto|].
  intros H. apply IH in H as [H|H]; [|right; now right]. apply in_keys_sset in H as [->|H]; [right; now left|now left].
Qed.
Lemma supdate_keeps {V} k : forall (r d : list (str * V)), shas k d = true -> shas k (supdate d r) = true.
Proof.
  unfold supdate. induction r as [|[k2 v2] r IH]; intros d Hd; cbn [fold_left fst snd]; [exact Hd|]. apply IH.
  rewrite shas_set, Hd. apply orb_true_r.
Qed.
Lemma supdate_fresh {V} (d1 d2 : list (str * V)) :
  NoDup (map fst d2) -> (forall k, In k (map fst d2) -> sget k d1 = None) -> supdate d1 d2 = d1 ++ d2.
Proof.
  unfold supdate. revert d1. induction d2 as [|[k v] r IH]; intros d1 Hnd Hfr; cbn; [now rewrite app_nil_r|].
  inversion Hnd as [|? ? Hk Hr]; subst.
  rewrite sset_new by (apply Hfr; now left).
  rewrite IH; [now rewrite <- app_assoc|assumption|].
  intros k' Hk'. rewrite sget_concat, Hfr by (now right).
  apply sget_none_iff. intros [<-|[]]. contradiction.
Qed.
Lemma sget_supdate_own {V} n (d1 d2 : list (str * V)) :
  sget n (supdate d1 d2) = None -> sget n d2 = None.
Proof.
  unfold supdate. revert d1. induction d2 as [|[k v] r IH]; intros d1; cbn; [reflexivity|].
  intros H. destruct (str_eqb_spec n k) as [E|Hn].
  - exfalso. subst k. pose proof (supdate_keeps n r (sset n v d1)) as Hk. unfold supdate in Hk.
    rewrite !shas_sget, sget_set_same, H in Hk. discriminate (Hk eq_refl).
  - eapply IH; eauto.
Qed.
Lemma in_supdate {V} (d2 d1 : list (str * V)) k v : In (k, v) (supdate d1 d2) -> In (k, v) d1 \/ In (k, v) d2.
Proof.
  unfold supdate. revert d1. induction d2 as [|[k2 v2] r IH]; intros d1; cbn [fold_left fst snd]; [auto|].
  intros H. apply IH in H as [H|H]; [|right; now right].
  apply in_sset in H as [[-> ->]|H]; [right; now left|now left].
Qed.
(* dict.update, read at a key all of whose new values are the same *)
Lemma sget_supdate_all {V} n (o : V) (d2 d1 : list (str * V)) :
  (forall v, In (n, v) d2 -> v = o) ->
  sget n (supdate d1 d2) = if existsb (fun kv => str_eqb n (fst kv)) d2 then Some o else sget n d1.
Proof.
  unfold supdate. revert d1. induction d2 as [|[k2 v2] r IH]; intros d1 Hall; cbn [fold_left existsb fst snd]; [reflexivity|].
  rewrite IH by (intros v Hv; apply Hall; now right).
  destruct (existsb (fun kv => str_eqb n (fst kv)) r); [now rewrite orb_true_r|]. rewrite orb_false_r.
  rewrite sget_set. destruct (str_eqb_spec n k2) as [->|]; [|reflexivity].
  now rewrite (Hall v2 (or_introl eq_refl)).
Qed.
Lemma in_existsb_key {V} n (v : V) d : In (n, v) d -> existsb (fun kv => str_eqb n (fst kv)) d = true.
Proof. intros H. apply existsb_exists. exists (n, v). split; [exact H|apply str_eqb_refl]. Qed.
Lemma supdate_carry {V} n (o : V) d1 d2 :
  sget n d1 = None -> In (n, o) d2 -> (forall v, In (n, v) d2 -> v = o) ->
  In (n, o) (supdate d1 d2) /\ forall v, In (n, v) (supdate d1 d2) -> v = o.
Proof.
  intros H1 Hin Hall. split.
  - apply sget_some_in. rewrite (sget_supdate_all n o d2 d1 Hall), (in_existsb_key _ _ _ Hin). reflexivity.
  - intros v Hv. apply in_supdate in Hv as [Hv|Hv]; [|now apply Hall].
    exfalso. apply (proj1 (sget_none_iff n d1) H1). change n with (fst (n, v)). now apply in_map.
Qed.
