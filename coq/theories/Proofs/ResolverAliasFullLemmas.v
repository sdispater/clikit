(* C03: "replacing a name on the path by any of its aliases never changes the selection" - the whole resolver answer
   (selected name path, format, parsed arguments and options, or the same error), with the parser side discharged.
   ResolverAliasLemmas.walk_respelled (two spellings of the path walk to the same command) and
   ParserAliasLemmas.parse_respelled (a format whose first command names match both spellings parses them alike) are
   joined by what build_app guarantees about the formats in the tree: the format of a command lists the command names of
   its non-anonymous ancestors and itself, each with its aliases (CommandConfig.build_args_format: `cname` with aliases,
   on top of the parent's format), so every format at or below a command on the respelled path starts with the command
   names the two spellings match. *)
From Coq Require Import Lia.
From Clikit Require Import Base.Prelude Base.Res Model.Conv Model.Flags Model.Format Model.Parser Model.Spell Model.Resolver
     Proofs.StrLemmas Proofs.FormatLemmas Proofs.ParserLemmas Proofs.SpellOpts Proofs.SpellArgs Proofs.FmtOkLemmas
     Proofs.ResolverLemmas Proofs.ResolverAliasLemmas Proofs.HelpSamePageLemmas Proofs.HelpRunLemmas Proofs.ParserAliasLemmas.
From Clikit Require Proofs.FormatWfLemmas.

(* the command names among the elements of a command (FormatWfLemmas.format_of_elements_lists_lemma: they are what the
   format lists on top of its base) *)
Lemma cnames_in_app es1 es2 : FormatWfLemmas.cnames_in (es1 ++ es2) = FormatWfLemmas.cnames_in es1 ++ FormatWfLemmas.cnames_in es2.
Proof. apply flat_map_app. Qed.
Lemma cnames_in_args (l : list arg) : FormatWfLemmas.cnames_in (map EArg l) = [].
Proof. induction l; [reflexivity|assumption]. Qed.
Lemma cmd_elements_cnames name al anon opts args :
  FormatWfLemmas.cnames_in (cmd_elements name al anon opts args) = if anon then [] else [{| cn_name := name; cn_aliases := al |}].
Proof.
  unfold cmd_elements. rewrite !cnames_in_app, (proj2 (opts_no_args opts)), cnames_in_args, !app_nil_r. destruct anon; reflexivity.
Qed.

Definition own_cname (b : bcmd) : list cname :=
  if b_anonymous b then [] else [{| cn_name := b_name b; cn_aliases := b_aliases b |}].
(* the format of b lists base ++ its own command name; the same below it, one level deeper; every format is well formed *)
Fixpoint cn_tree (base : list cname) (b : bcmd) : Prop :=
  match b with BCmd name al _ anon _ f subs =>
    let mine := base ++ (if anon then [] else [{| cn_name := name; cn_aliases := al |}]) in
    get_command_names_all f = mine /\ fmt_inv f /\
    (fix go (l : list bcmd) : Prop := match l with [] => True | x :: r => cn_tree mine x /\ go r end) subs end.
Lemma cn_tree_unfold base b : cn_tree base b <->
  get_command_names_all (b_fmt b) = base ++ own_cname b /\ fmt_inv (b_fmt b) /\ Forall (cn_tree (base ++ own_cname b)) (b_subs b).
Proof.
  destruct b as [n al d an len f subs]. cbn [cn_tree b_fmt b_subs]. unfold own_cname. cbn [b_anonymous b_name b_aliases].
  split; intros (H1 & H2 & H3); (split; [exact H1|split; [exact H2|]]).
  - induction subs as [|x r IH]; constructor; [apply H3|apply IH, H3].
  - induction subs as [|x r IH]; [exact I|]. inversion H3; subst. split; [assumption|apply IH; assumption].
Qed.

(* arguments as constructed objects (C07: exactly one of REQUIRED / OPTIONAL after normalisation) *)
Fixpoint cmd_args_valid (c : cmd) : bool :=
  match c with Cmd _ _ _ _ _ _ _ args subs =>
    forallb arg_valid args && (fix go (l : list cmd) : bool := match l with [] => true | x :: r => cmd_args_valid x && go r end) subs end.
Lemma cmd_args_valid_unfold name al d an en len opts args subs :
  cmd_args_valid (Cmd name al d an en len opts args subs) = forallb arg_valid args && forallb cmd_args_valid subs.
Proof. cbn [cmd_args_valid]. f_equal. Qed.
Definition cfg_args_valid (cfg : appcfg) : bool := forallb arg_valid (ac_args cfg) && forallb cmd_args_valid (ac_cmds cfg).

Lemma args_elements_valid (l : list arg) : forallb arg_valid l = true -> forallb element_valid (map EArg l) = true.
Proof.
  induction l as [|a r IH]; intros H; [reflexivity|]. cbn [forallb] in H. apply andb_prop in H as [Ha Hr]. cbn [map forallb element_valid].
  now rewrite Ha, IH.
Qed.
Lemma cmd_elements_valid name al anon opts args : forallb arg_valid args = true ->
  forallb element_valid (cmd_elements name al anon opts args) = true.
Proof.
  intros H. unfold cmd_elements. rewrite !forallb_app. rewrite opts_valid.
  rewrite (args_elements_valid args H).
  destruct anon; reflexivity.
Qed.

Lemma build_cmd_cn : forall c base bf b, cmd_args_valid c = true ->
  fmt_inv bf -> get_command_names_all bf = base -> build_cmd (Some bf) c = Ok b -> cn_tree base b.
Proof.
  induction c as [name al d an en len opts args subs IH] using cmd_ind'. intros base bf b Hv Hi Hc H.
  rewrite cmd_args_valid_unfold in Hv. apply andb_prop in Hv as [Hva Hvs].
  apply build_cmd_inv in H as (f & bs & Ef & -> & Hbs).
  pose proof (cmd_elements_valid name al an opts args Hva) as Hev.
  destruct (format_of_elements_fmt_ok_lemma _ (Some bf) f Hi Hev Ef) as [Hfi _].
  destruct (FormatWfLemmas.format_of_elements_lists_lemma _ (Some bf) f Hi Hev Ef) as (_ & _ & _ & _ & _ & Hcn).
  rewrite cmd_elements_cnames in Hcn. cbn [get_command_names] in Hcn. rewrite Hc in Hcn.
  apply cn_tree_unfold. unfold own_cname. cbn [b_fmt b_subs b_anonymous b_name b_aliases].
  split; [exact Hcn|]. split; [exact Hfi|]. apply (built_all f _ subs bs Hbs). intros s b' Hs Hb'.
  exact (proj1 (Forall_forall _ _) IH s Hs _ f b' (proj1 (forallb_forall _ _) Hvs s Hs) Hfi Hcn Hb').
Qed.
Theorem build_app_cn cfg a : build_app cfg = Ok a -> cfg_args_valid cfg = true -> Forall (cn_tree []) (ap_cmds a).
Proof.
  unfold cfg_args_valid. intros H Hv. apply andb_prop in Hv as [Hva Hvc]. apply build_app_inv in H as [Eg Hcs].
  assert (forallb element_valid (map EArg (ac_args cfg) ++ map EOpt (ac_opts cfg)) = true) as Hev.
  { rewrite forallb_app, opts_valid, andb_true_r. now apply args_elements_valid. }
  destruct (format_of_elements_fmt_ok_lemma _ None _ I Hev Eg) as [Hgi _].
  destruct (FormatWfLemmas.format_of_elements_lists_lemma _ None _ I Hev Eg) as (_ & _ & _ & _ & _ & Hgc).
  rewrite cnames_in_app, cnames_in_args, (proj2 (opts_no_args (ac_opts cfg))) in Hgc.
  apply (built_all _ _ _ _ Hcs). intros c b Hc.
  exact (build_cmd_cn c [] _ b (proj1 (forallb_forall _ _) Hvc c Hc) Hgi Hgc).
Qed.

(* f is well formed and lists the command names cs first *)
Definition starts_with (cs : list cname) (f : fmt) : Prop := fmt_inv f /\ exists more, get_command_names_all f = cs ++ more.
(* every format at or below b starts with the command names cs *)
Lemma cn_tree_starts cs : forall b base more, base = cs ++ more -> cn_tree base b -> tree_ok (starts_with cs) b.
Proof.
  fix F 1. intros [n al d an len f subs] base more Hb H. apply cn_tree_unfold in H as (H1 & H2 & H3).
  apply tree_ok_unfold. cbn [b_fmt b_subs] in *. split.
  - split; [exact H2|]. exists (more ++ own_cname (BCmd n al d an len f subs)). rewrite H1, Hb, app_assoc. reflexivity.
  - clear H1 H2. induction subs as [|x r IH]; constructor.
    + inversion H3; subst. eapply (F x _ (more ++ own_cname (BCmd n al d an len f (x :: r)))); [|eassumption]. now rewrite app_assoc.
    + inversion H3; subst. apply IH. assumption.
Qed.

Lemma cn_tree_below cs b : cn_tree cs b -> tree_ok (starts_with (cs ++ own_cname b)) b.
Proof.
  intros H. apply cn_tree_unfold in H as (H1 & H2 & H3). apply tree_ok_unfold. split.
  - split; [exact H2|]. exists []. now rewrite app_nil_r.
  - apply Forall_forall. intros x Hx. apply (cn_tree_starts (cs ++ own_cname b) x (cs ++ own_cname b) []); [now rewrite app_nil_r|].
    exact (proj1 (Forall_forall _ _) H3 x Hx).
Qed.

Definition matches (cs : list cname) (ks : list str) : Prop := Forall2 (fun c k => cname_match c k = true) cs ks.

Lemma key_matches b k : In k (keys b) -> b_anonymous b = false -> matches (own_cname b) [k].
Proof.
  intros Hk Ha. unfold own_cname. rewrite Ha. constructor; [|constructor]. unfold cname_match. cbn [cn_name cn_aliases].
  destruct Hk as [<-|Hk]; [now rewrite str_eqb_refl|]. apply orb_true_iff. right. apply existsb_exists. exists k. split; [exact Hk|apply str_eqb_refl].
Qed.

Lemma walk_from_some : forall names named c w, walk named (Some c) names = Ok w -> exists c', w = Some c'.
Proof.
  induction names as [|n r IH]; intros named c w H; [inversion H; eauto|].
  apply walk_cons_inv in H as [[_ ->]|(b & _ & _ & H)]; eauto.
Qed.
(* so a walk that starts with a key of a command does not end nowhere *)
Lemma respelled_walks_on l names names' extra : respells l names names' -> tree_distinct l ->
  walk (named_of l) None (names ++ extra) = Ok None -> names = names'.
Proof.
  intros Hr Ht Hw. destruct Hr as [|l b k k' r r' Hb Hk Hk' Hr]; [reflexivity|exfalso].
  inversion Ht as [? Hd _]; subst. cbn [app] in Hw. rewrite (walk_key l b k None _ Hd Hb Hk) in Hw.
  apply walk_from_some in Hw as [c' Hc']. discriminate.
Qed.

Lemma respelled_formats : forall l names names', respells l names names' -> tree_distinct l ->
  forall cs, Forall (cn_tree cs) l -> forall extra cur b p, walk (named_of l) cur (names ++ extra) = Ok (Some (b, p)) ->
  names = names' \/
  exists ks ks' tail cs', names = ks ++ tail /\ names' = ks' ++ tail /\ length ks = length ks' /\ ks <> [] /\
                          matches cs' ks /\ matches cs' ks' /\ tree_ok (starts_with (cs ++ cs')) b.
Proof.
  induction 1 as [|l b0 k k' r r' Hb Hk Hk' Hr IH]; intros Ht cs Hcn extra cur b p Hw; [now left|]. right.
  inversion Ht as [? Hd Hsub]; subst.
  assert (In b0 l /\ b_anonymous b0 = false) as [Hbl Hanon].
  { apply filter_In in Hb as [H1 H2]. split; [exact H1|]. now apply negb_true_iff in H2. }
  pose proof (proj1 (Forall_forall _ _) Hcn b0 Hbl) as Hcn0. apply cn_tree_unfold in Hcn0 as (C1 & C2 & C3).
  cbn [app] in Hw. rewrite (walk_key l b0 k cur _ Hd Hb Hk) in Hw.
  pose proof (cn_tree_below cs b0 (proj1 (Forall_forall _ _) Hcn b0 Hbl)) as Hb0.
  pose proof (key_matches b0 k Hk Hanon) as M1. pose proof (key_matches b0 k' Hk' Hanon) as M2.
  destruct (IH (Hsub b0 Hbl) (cs ++ own_cname b0) C3 extra _ b p Hw) as [->|(ks & ks' & tail & cs' & -> & -> & Hl & Hne & N1 & N2 & Hb')].
  - exists [k], [k'], r', (own_cname b0). repeat split; try assumption; try discriminate.
    eapply (walk_tree_ok (starts_with (cs ++ own_cname b0)) (r' ++ extra) (b_subs b0)); [| |exact Hw]; [|intros b1 p1 E; inversion E; subst; exact Hb0].
    apply tree_ok_unfold in Hb0. apply Hb0.
  - exists (k :: ks), (k' :: ks'), tail, (own_cname b0 ++ cs'). repeat split; try discriminate.
    + cbn [length]. now rewrite Hl.
    + unfold own_cname in *. rewrite Hanon in *. inversion M1; subst. constructor; assumption.
    + unfold own_cname in *. rewrite Hanon in *. inversion M2; subst. constructor; assumption.
    + now rewrite app_assoc.
Qed.

Lemma pseudo_args_snd f : forall cns j i, map (fun p => snd p) (pseudo_args f cns j i) = cns.
Proof. induction cns as [|c r IH]; intros j i; cbn [pseudo_args map snd]; [reflexivity|]. now rewrite IH. Qed.
Lemma aug_cnames f g A cns : aug_format f = Ok (g, A, cns) -> map snd cns = get_command_names_all f.
Proof.
  unfold aug_format. cbv zeta.
  match goal with |- (do f' <- ?x; _) = _ -> _ => destruct x as [F'|k]; cbn [bind]; [|discriminate] end.
  intros H. inversion H; subst. rewrite map_map. cbn [snd]. apply pseudo_args_snd.
Qed.
Lemma lead_plain t : lead_ok t = true -> plain_tok t = true.
Proof. unfold lead_ok, plain_tok. destruct (nonempty t), (is_dd t), (starts_dash t); cbn; congruence. Qed.

Lemma matches_names_ok : forall (cns : list (str * cname)) cs more ks, map snd cns = cs ++ more -> matches cs ks ->
  forallb lead_ok ks = true -> names_ok cns ks = true.
Proof.
  intros cns cs more ks E M. revert cns E. induction M as [|c k cs' ks' Hm M IH]; intros cns E Hl; [destruct cns; reflexivity|].
  destruct cns as [|[n c0] cns']; [discriminate|]. cbn [map snd app] in E. inversion E; subst c0.
  cbn [forallb] in Hl. apply andb_prop in Hl as [Hk Hl]. cbn [names_ok snd]. rewrite (lead_plain k Hk), Hm. cbn [andb]. now apply IH.
Qed.
Lemma matches_length cs ks : matches cs ks -> length cs = length ks.
Proof. induction 1; cbn; congruence. Qed.

Lemma parse_starts_with cs f ks ks' len rest : starts_with cs f -> matches cs ks -> matches cs ks' ->
  forallb lead_ok ks = true -> forallb lead_ok ks' = true ->
  parse f len (ks ++ rest) = parse f len (ks' ++ rest).
Proof.
  intros [Hinv [more Hc]] M1 M2 L1 L2. pose proof (wf_implies_fmt_ok_lemma f Hinv) as Hok.
  apply fmt_ok_inv in Hok as (g & A & cns & FF). pose proof (aug_cnames _ _ _ _ (ff_aug _ _ _ _ FF)) as Hs. rewrite Hc in Hs.
  apply (parse_respelled f g A cns FF ks ks').
  - eapply matches_names_ok; eauto.
  - eapply matches_names_ok; eauto.
  - now rewrite <- (matches_length _ _ M1), <- (matches_length _ _ M2).
Qed.

Lemma respells_app l names names' s : respells l names names' -> respells l (names ++ s) (names' ++ s).
Proof. induction 1 as [|l b k k' r r' Hb Hk Hk' Hr IH]; [apply rs_same|]. cbn [app]. eapply rs_step; eauto. Qed.
Lemma pick_default_same_parse ds toks toks' : Forall (fun d => forall len, parse (b_fmt d) len toks = parse (b_fmt d) len toks') ds ->
  forall first, pick_default ds toks first = pick_default ds toks' first.
Proof.
  intros H first. rewrite !pick_default_gpick. apply gpick_ext. revert H. apply Forall_impl. auto.
Qed.
