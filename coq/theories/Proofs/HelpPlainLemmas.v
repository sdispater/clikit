(* C13, the width of a help page: whenever the page renders, no line is wider than W - 1.
   The PLAIN formatter only deletes (Proofs/MarkupShrinkLemmas.v), line by line; on the line of a label it deletes at
   least the markup the alignment has allowed for (the label measured on its own, as LabelAlignment does).
   The ANSI formatter, for its visible text (strip_sgr: SGR sequences removed, which acts line by line): on a layout
   without ESC and backslash (good_layout) it runs in lockstep with the plain formatter on the same style table
   (as_plain) and its visible text is the plain page; with backslashes allowed in the texts (clean_layout) the visible
   text is a deletion of the undecorated output before unescape, and still fits. *)
From Coq Require Import Lia.
From Clikit Require Import Base.Prelude Base.Res Model.Conv Model.Flags Model.Format Model.Markup Model.Wrap Model.Help.
From Clikit Require Import Proofs.ListLemmas Proofs.MarkupLemmas Proofs.LiteralLemmas Proofs.MarkupShrinkLemmas Proofs.WrapLemmas Proofs.HelpLemmas.
Local Open Scope Z_scope.

Lemma okr_deletes x y : deletes x y -> forall b1 b, okr b1 b x -> okr b1 b y.
Proof.
  induction 1 as [|c x y H IH|c x y Hc H IH]; intros b1 b Hx; [exact Hx| |].
  - cbn [okr] in *. destruct (N.eqb c 10); [split; [tauto|apply IH; tauto]|apply IH, Hx].
  - cbn [okr] in Hx. apply N.eqb_neq in Hc. change NL with 10%N in Hc. rewrite Hc in Hx.
    apply IH in Hx. eapply okr_mono; [|exact Hx]. lia.
Qed.
Lemma hd_split_no_nl p s : no_nl p -> hd [] (split_on 10%N (p ++ s)) = p ++ hd [] (split_on 10%N s).
Proof.
  induction 1 as [|c p Hc Hp IH]; [reflexivity|]. cbn [app]. apply N.eqb_neq in Hc.
  destruct (split_on_cons 10%N c (p ++ s) Hc) as (l & ls & E1 & ->). rewrite E1 in IH. cbn [hd] in *. now rewrite IH.
Qed.
Lemma hd_split_prefix : forall t, exists t2, t = hd [] (split_on 10%N t) ++ t2.
Proof.
  induction t as [|c t [t2 IH]]; [exists []; reflexivity|]. destruct (N.eqb c 10) eqn:E.
  - cbn [split_on]. rewrite E. exists (c :: t). reflexivity.
  - destruct (split_on_cons 10%N c t E) as (l & ls & E1 & ->). rewrite E1 in IH. cbn [hd] in *. exists t2. now rewrite IH at 1.
Qed.
(* the first line of a text with more text behind it: the first line, and a piece of what is behind *)
Lemma hd_split_app : forall a t, exists t1 t2, t = t1 ++ t2 /\ hd [] (split_on 10%N (a ++ t)) = hd [] (split_on 10%N a) ++ t1.
Proof.
  induction a as [|c a IH]; intros t.
  - destruct (hd_split_prefix t) as [t2 E]. exists (hd [] (split_on 10%N t)), t2. split; [exact E|reflexivity].
  - cbn [app]. destruct (N.eqb c 10) eqn:E.
    + cbn [split_on]. rewrite E. exists [], t. split; reflexivity.
    + destruct (IH t) as (t1 & t2 & Et & Eh). exists t1, t2. split; [exact Et|].
      destruct (split_on_cons 10%N c (a ++ t) E) as (l & ls & E1 & ->). destruct (split_on_cons 10%N c a E) as (l' & ls' & E2 & ->).
      rewrite E1, E2 in Eh. cbn [hd] in *. now rewrite Eh.
Qed.
Lemma inert_spaces n : Forall inert (spaces n).
Proof. now apply P_spaces, inert_space. Qed.
Lemma inert_blank t : Forall (fun c => is_space c = true) t -> Forall inert t.
Proof. intros H. eapply Forall_impl; [|exact H]. intros c. apply inert_space. Qed.

Lemma remove_format_plain_of f m x : f_kind f <> FNull -> remove_format f m = Ok x ->
  snd x = plain_of (f_styles f) (ends_with_bsl m) m /\ f_kind (fst x) = f_kind f /\ f_styles (fst x) = f_styles f.
Proof.
  intros Hk H. destruct x as [f' out]. apply remove_format_colorize in H; [|exact Hk]. destruct H as (H & H1 & H2).
  apply colorize_plain_of in H. cbn [fst snd]. auto.
Qed.
Lemma emit_plain_of f m x : f_kind f = FPlain -> emit f m = Ok x ->
  snd x = plain_of (f_styles f) (ends_with_bsl m) m /\ f_kind (fst x) = FPlain /\ f_styles (fst x) = f_styles f.
Proof.
  intros Hk H. unfold emit in H. rewrite Hk in H. apply remove_format_plain_of in H; [|congruence]. now rewrite Hk in H.
Qed.

(* the first line of the text of a labelled paragraph, blanks stripped from its end put back: indentation, label, blanks up
   to the text column, the first wrapped line *)
Lemma lab_first_line W off ind vis label text padding aligned raw :
  elem_raw W off ind vis (ELab label text padding aligned) = Ok raw -> 0 <= vis -> no_nl label ->
  let to := Z.max (if aligned then off - Z.of_nat ind else 0) (vis + Z.of_nat padding) in
  exists body t1 j1, raw = body ++ [10%N]
    /\ hd [] (split_on 10%N body) ++ t1 = spaces ind ++ label ++ spaces (Z.to_nat (to - vis)) ++ j1
    /\ Forall (fun c => is_space c = true) t1
    /\ Z.of_nat ind + to + zlen j1 <= W - 1.
Proof.
  intros H Hvis Hlab. cbv zeta.
  destruct (elem_raw_shape _ _ _ _ _ _ H) as [[E _]|(lines & body & t & Hw & -> & Hts & E)]; [discriminate|].
  cbn [lead text_col wrap_width elem_text] in *.
  set (to := Z.max (if aligned then off - Z.of_nat ind else 0) (vis + Z.of_nat padding)) in *.
  set (J := join_lines (spaces ind ++ spaces (Z.to_nat to)) lines) in *.
  destruct (hd_split_app body t) as (t1 & t2 & Et & Eh). rewrite E in Eh.
  exists body, t1, (hd [] (split_on 10%N J)). split; [reflexivity|]. split; [|split].
  - rewrite <- Eh, <- !app_assoc. rewrite hd_split_no_nl by apply no_nl_spaces. rewrite hd_split_no_nl by exact Hlab.
    now rewrite hd_split_no_nl by apply no_nl_spaces.
  - rewrite Et in Hts. apply Forall_app in Hts. tauto.
  - apply wrap_ok_facts in Hw. destruct Hw as (Hw & Hnl & Hfit).
    assert (Hj : okr (W - 1 - to - Z.of_nat ind) (W - 1) J).
    { apply (okr_join _ _ (W - 1 - to - Z.of_nat ind)); [apply no_nl_app; apply no_nl_spaces| |lia|exact Hnl|exact Hfit|lia].
      rewrite zlen_app, !zlen_spaces. lia. }
    apply okr_split in Hj. lia.
Qed.

(* one element, for the rendering (p = post_unescape) and for the rendering before unescape (p = post_id) *)
Section Element.
Variable p : post.
Variable sty : styles.

Lemma render_body body : render p sty false (body ++ [10%N]) = render p sty false body ++ [10%N].
Proof. apply render_snoc, inert_nl. Qed.

(* the lines of the text behind the first: within b before, within b after *)
Lemma okr_render b1 b body : 0 <= b ->
  zlen (render p sty false (hd [] (split_on 10%N body))) <= b1 -> Forall (fun l => zlen l <= b) (tl (split_on 10%N body)) ->
  okr b1 b (render p sty false body).
Proof.
  intros Hb H1 H2. apply okr_of_lines; change 10%N with NL; rewrite render_lines; change NL with 10%N.
  - destruct (split_on 10%N body) as [|l ls] eqn:E; [destruct (split_on_nonempty _ _ E)|]. exact H1.
  - destruct (split_on 10%N body) as [|l ls] eqn:E; [constructor|]. cbn [map tl] in *.
    apply Forall_forall. intros x Hx. apply in_map_iff in Hx. destruct Hx as (y & <- & Hy). rewrite Forall_forall in H2.
    specialize (H2 y Hy). pose proof (render_le p sty false y). unfold zlen in *. lia.
Qed.

(* the label line: the formatter deletes from the line at least what it deletes from the label alone *)
Lemma lab_first_fits a0 W off ind vis label text padding aligned raw :
  elem_raw W off ind vis (ELab label text padding aligned) = Ok raw -> zlen (render p sty a0 label) <= vis -> no_nl label ->
  exists body, raw = body ++ [10%N] /\ zlen (render p sty false (hd [] (split_on 10%N body))) <= W - 1.
Proof.
  intros H Hv Hlab. assert (0 <= vis) as Hvis by (pose proof (zlen_nonneg (render p sty a0 label)); lia).
  destruct (lab_first_line _ _ _ _ _ _ _ _ _ H Hvis Hlab) as (body & t1 & j1 & -> & EF & Ht1 & Hj). cbv zeta in *.
  set (to := Z.max (if aligned then off - Z.of_nat ind else 0) (vis + Z.of_nat padding)) in *.
  exists body. split; [reflexivity|]. set (F := hd [] (split_on 10%N body)) in *.
  pose proof (render_inert_suffix p sty false F t1 (inert_blank _ Ht1)) as E1. rewrite EF in E1.
  pose proof (render_context_le p sty a0 (spaces ind) label (spaces (Z.to_nat (to - vis)) ++ j1) (inert_spaces ind)) as E2.
  assert (Hsp : forall n, length (spaces n) = n) by (intros; apply repeat_length).
  rewrite E1 in E2. rewrite !app_length, !Hsp in E2.
  assert (vis + Z.of_nat padding <= to) by (subst to; lia). unfold zlen in *. lia.
Qed.

(* the text of an element, rendered: ended by a line break, every line within W - 1 - provided the label rendered on its
   own is at most as long as the alignment was told (vis) *)
Lemma elem_raw_render_fits a0 W off ind vis e raw :
  elem_raw W off ind vis e = Ok raw -> 1 <= W -> zlen (render p sty a0 (elem_label e)) <= vis -> no_nl (elem_label e) ->
  exists body, raw = body ++ [10%N] /\ render p sty false raw = render p sty false body ++ [10%N]
    /\ okr (W - 1) (W - 1) (render p sty false body).
Proof.
  intros H HW Hv Hlab. assert (0 <= vis) as Hvis by (pose proof (zlen_nonneg (render p sty a0 (elem_label e))); lia).
  destruct (elem_raw_fits _ _ _ _ _ _ H HW Hvis Hlab) as (body & -> & Hb). exists body. split; [reflexivity|]. split; [apply render_body|].
  apply okr_split in Hb. destruct Hb as [Hb1 Hb2]. apply okr_render; [lia| |exact Hb2].
  destruct e as [t|label text padding aligned|]; cbn [first_bound elem_label] in *.
  - pose proof (render_le p sty false (hd [] (split_on 10%N body))). unfold zlen in *. lia.
  - destruct (lab_first_fits _ _ _ _ _ _ _ _ _ _ H Hv Hlab) as (body' & Eb & HF).
    apply app_inj_tail in Eb. destruct Eb as [<- _]. exact HF.
  - pose proof (render_le p sty false (hd [] (split_on 10%N body))). unfold zlen in *. lia.
Qed.
End Element.

(* The formatter first measures the label on its own (remove_format leaves v of it), then emits the text elem_raw builds
   with that width.  Both are plain_of on the same style table, so v is the rendering of the label alone, and the label
   inside its line loses at least as much (lab_first_fits). *)
Lemma render_elem_plain_fits W off f ind e x : f_kind f = FPlain -> 1 <= W -> no_nl (elem_label e) ->
  render_elem W off f ind e = Ok x ->
  f_kind (fst x) = FPlain /\ f_styles (fst x) = f_styles f /\ exists p, snd x = p ++ [10%N] /\ okr (W - 1) (W - 1) p.
Proof.
  intros Hk HW Hlab H. destruct (render_elem_inv _ _ _ _ _ _ H) as (f1 & v & raw & Hrf & Er & He).
  assert (f_kind f1 = FPlain /\ f_styles f1 = f_styles f /\ exists a0, zlen (plain_of (f_styles f) a0 (elem_label e)) <= zlen v)
    as (Hk1 & Hs1 & a0 & Hv).
  { destruct e as [t|label text padding aligned|]; cbn [elem_label]; [destruct Hrf as [-> ->]; repeat split; auto; now exists false| |
      destruct Hrf as [-> ->]; repeat split; auto; now exists false].
    apply remove_format_plain_of in Hrf; [|congruence]. cbn [fst snd] in Hrf. destruct Hrf as (-> & Ek & Es).
    split; [congruence|]. split; [exact Es|]. exists (ends_with_bsl label). lia. }
  destruct (elem_raw_render_fits post_unescape (f_styles f) a0 _ _ _ _ _ _ Er HW Hv Hlab) as (body & -> & Eb & Hb).
  apply emit_plain_of in He; [|exact Hk1]. destruct He as (E & E1 & E2).
  split; [exact E1|]. split; [congruence|]. rewrite E, Hs1, ends_snoc. change (N.eqb 10 BSL) with false.
  rewrite plain_of_render, Eb. eexists. split; [reflexivity|exact Hb].
Qed.

Lemma align_plain : forall l f acc x, f_kind f = FPlain -> align f l acc = Ok x -> f_kind (fst x) = FPlain.
Proof.
  induction l as [|[ind e] r IH]; intros f acc x Hk H; cbn [align] in H; [injection H as <-; exact Hk|].
  destruct e as [t|label text padding aligned|]; [eapply IH; eassumption| |eapply IH; eassumption].
  destruct aligned; [|eapply IH; eassumption].
  bind_inv H x1 E1.
  apply remove_format_plain_of in E1; [|congruence]. eapply IH; [|exact H]. destruct E1 as (_ & -> & _). exact Hk.
Qed.

(* The ANSI formatter, its visible text (SGR sequences removed).  On texts without ESC and without backslash the
   decorated and the undecorated colorize run in lockstep (LiteralLemmas.colorize_strips), the outputs related by strips,
   which composes. *)
Lemma colorize_lockstep_strips sty sk m : Forall good m ->
  match colorize sty true sk m, colorize sty false sk m with
  | Ok (s1, o1), Ok (s2, o2) => s1 = s2 /\ strips o1 o2
  | Err e1, Err e2 => e1 = e2
  | _, _ => False
  end.
Proof.
  intros Hm. destruct (good_msg_fine m Hm) as [Hs Ht]. exact (colorize_strips sty sk m Hs Ht).
Qed.

(* the plain formatter with the same style table and stack *)
Definition as_plain (f : formatter) : formatter := {| f_kind := FPlain; f_styles := f_styles f; f_stack := f_stack f |}.

Lemma remove_format_as_plain f m f1 o : is_ansi f -> remove_format f m = Ok (f1, o) ->
  remove_format (as_plain f) m = Ok (as_plain f1, o) /\ is_ansi f1.
Proof.
  unfold is_ansi, remove_format, as_plain. cbn [f_kind f_styles f_stack]. destruct (f_kind f) eqn:Ek; try contradiction. intros _ H.
  destruct (colorize (f_styles f) false (f_stack f) m) as [[sk out]|k]; [|discriminate]. cbn [bind fst snd] in *.
  injection H as <- <-. cbn [f_kind f_styles f_stack]. split; [reflexivity|exact I].
Qed.
Lemma emit_lockstep f raw f1 o1 : is_ansi f -> Forall good raw -> emit f raw = Ok (f1, o1) ->
  exists o2, emit (as_plain f) raw = Ok (as_plain f1, o2) /\ is_ansi f1 /\ strips o1 o2.
Proof.
  unfold is_ansi, emit, format, remove_format, as_plain. cbn [f_kind f_styles f_stack].
  destruct (f_kind f) eqn:Ek; try contradiction. intros _ Hg H.
  pose proof (colorize_lockstep_strips (f_styles f) (f_stack f) raw Hg) as HL.
  destruct (colorize (f_styles f) true (f_stack f) raw) as [[s1 r1]|e1]; [|discriminate].
  destruct (colorize (f_styles f) false (f_stack f) raw) as [[s2 r2]|e2]; [|contradiction]. destruct HL as [-> HS].
  cbn [bind fst snd] in *. injection H as <- <-. cbn [f_kind f_styles f_stack].
  exists r2. split; [reflexivity|]. split; [exact I|exact HS].
Qed.
Lemma align_as_plain : forall l f acc f1 off, is_ansi f -> align f l acc = Ok (f1, off) ->
  align (as_plain f) l acc = Ok (as_plain f1, off) /\ is_ansi f1.
Proof.
  induction l as [|[ind e] r IH]; intros f acc f1 off Hk H; cbn [align] in *; [injection H as <- <-; auto|].
  destruct e as [t|label text padding aligned|]; [apply IH; assumption| |apply IH; assumption].
  destruct aligned; [|apply IH; assumption].
  destruct (remove_format f label) as [[f2 o]|k] eqn:E1; [|discriminate]. cbn [bind fst snd] in H.
  destruct (remove_format_as_plain _ _ _ _ Hk E1) as [-> Hk2]. cbn [bind fst snd]. apply IH; assumption.
Qed.

(* the text handed to the formatter is made of the characters of the label, of the text, blanks and line breaks *)
Lemma P_join (P : N -> Prop) prefix : P 10%N -> Forall P prefix -> forall lines, Forall (Forall P) lines -> Forall P (join_lines prefix lines).
Proof.
  intros Hn Hp. induction lines as [|l r IH]; intros H; [constructor|]. inversion H as [|? ? H1 H2]; subst.
  destruct r as [|l2 r]; [exact H1|].
  change (join_lines prefix (l :: l2 :: r)) with (l ++ 10%N :: prefix ++ join_lines prefix (l2 :: r)).
  apply Forall_app. split; [exact H1|]. constructor; [exact Hn|]. apply Forall_app. split; [exact Hp|apply IH, H2].
Qed.
Lemma P_wrap (P : N -> Prop) text w ls : P 32%N -> Forall P text -> wrap text w = Ok ls -> Forall (Forall P) ls.
Proof.
  intros Hs Ht H. eapply wrap_lines_chars_lemma; [exact H|]. now apply munge_P.
Qed.
Lemma elem_raw_P (P : N -> Prop) W off ind vis e raw : P 32%N -> P 10%N -> Forall P (elem_label e) -> Forall P (elem_text e) ->
  elem_raw W off ind vis e = Ok raw -> Forall P raw.
Proof.
  intros Hs Hn Hl Ht H. assert (Hnl : Forall P [10%N]) by (constructor; [exact Hn|constructor]).
  destruct (elem_raw_shape _ _ _ _ _ _ H) as [[_ ->]|(lines & body & t & Hw & -> & _ & E)]; [exact Hnl|].
  apply Forall_app. split; [|exact Hnl]. assert (Forall P (body ++ t)) as Hb; [rewrite E|apply Forall_app in Hb; tauto].
  apply Forall_app. split; [apply P_spaces, Hs|]. apply Forall_app. split.
  - destruct e; cbn [lead elem_label] in *; [constructor| |constructor]. apply Forall_app. split; [exact Hl|apply P_spaces, Hs].
  - apply P_join; [exact Hn|apply Forall_app; split; apply P_spaces, Hs|exact (P_wrap P _ _ _ Hs Ht Hw)].
Qed.

Definition good_elem (x : nat * elem) : Prop := Forall good (elem_label (snd x)) /\ Forall good (elem_text (snd x)).
(* no ESC and no backslash in any label or text of the layout *)
Definition good_layout (l : layout) : Prop := Forall good_elem l.

Lemma render_elem_lockstep W off f ind e f1 o1 : is_ansi f -> good_elem (ind, e) -> render_elem W off f ind e = Ok (f1, o1) ->
  exists o2, render_elem W off (as_plain f) ind e = Ok (as_plain f1, o2) /\ is_ansi f1 /\ strips o1 o2.
Proof.
  intros Hk [Hl Ht] H. cbn [snd] in Hl, Ht. destruct e as [t|label text padding aligned|]; unfold render_elem in *.
  - destruct (elem_raw W off ind 0 (EPara t)) as [raw|k] eqn:Er; [|discriminate]. cbn [bind] in *.
    apply emit_lockstep; [exact Hk|eapply (elem_raw_P good); [split; discriminate|split; discriminate|eassumption..]|exact H].
  - destruct (remove_format f label) as [[f2 o]|k] eqn:E1; [|discriminate]. cbn [bind fst snd] in H.
    destruct (remove_format_as_plain _ _ _ _ Hk E1) as [-> Hk2]. cbn [bind fst snd].
    destruct (elem_raw W off ind (zlen o) (ELab label text padding aligned)) as [raw|k] eqn:Er; [|discriminate]. cbn [bind] in *.
    apply emit_lockstep; [exact Hk2|eapply (elem_raw_P good); [split; discriminate|split; discriminate|eassumption..]|exact H].
  - cbn [elem_raw bind] in *. apply emit_lockstep; [exact Hk| |exact H]. constructor; [split; discriminate|constructor].
Qed.
Lemma render_all_lockstep W off : forall l f out1 out2 f1 s1, is_ansi f -> good_layout l -> strips out1 out2 ->
  render_all W off f l out1 = Ok (f1, s1) ->
  exists s2, render_all W off (as_plain f) l out2 = Ok (as_plain f1, s2) /\ strips s1 s2.
Proof.
  induction l as [|[ind e] r IH]; intros f out1 out2 f1 s1 Hk Hl Ho H; cbn [render_all] in *.
  - injection H as <- <-. exists out2. auto.
  - inversion Hl as [|? ? Hl1 Hl2]; subst.
    destruct (render_elem W off f ind e) as [[f2 o1]|k] eqn:Ee; [|discriminate]. cbn [bind fst snd] in H.
    destruct (render_elem_lockstep _ _ _ _ _ _ _ Hk Hl1 Ee) as (o2 & -> & Hk2 & Hs). cbn [bind fst snd].
    eapply IH; [exact Hk2|exact Hl2| |exact H]. apply strips_app; assumption.
Qed.
Theorem ansi_page_visible_lemma W f l s : is_ansi f -> good_layout l -> render_page W f l = Ok s ->
  render_page W (as_plain f) l = Ok (strip_sgr s).
Proof.
  intros Hk Hl H. unfold render_page in *. destruct (align f l 0) as [[f1 off]|k] eqn:Ea; [|discriminate]. cbn [bind fst snd] in H.
  destruct (align_as_plain _ _ _ _ _ Hk Ea) as [-> Hk1]. cbn [bind fst snd].
  destruct (render_all W off f1 l []) as [[f2 s1]|k] eqn:Er; [|discriminate]. cbn [bind fst snd] in H. injection H as <-.
  destruct (render_all_lockstep _ _ _ _ _ _ _ _ Hk1 Hl strips_nil Er) as (s2 & -> & Hs). cbn [bind snd].
  now rewrite (strips_sgr_strip _ _ Hs).
Qed.

Lemma strip_sgr_by_lines s : strip_sgr s = join_with NL (map strip_sgr (split_on NL s)).
Proof. rewrite <- (join_split s) at 1. apply strip_sgr_join. Qed.
Theorem strip_sgr_lines s : split_on 10%N (strip_sgr s) = map strip_sgr (split_on 10%N s).
Proof.
  change 10%N with NL. rewrite strip_sgr_by_lines. apply split_join.
  - destruct (split_on NL s) eqn:E; [destruct (split_on_nonempty _ _ E)|discriminate].
  - apply Forall_forall. intros x Hx. apply in_map_iff in Hx. destruct Hx as (l & <- & Hl).
    apply strip_sgr_P. pose proof (split_lines_no_nl s) as H. rewrite Forall_forall in H. apply H, Hl.
Qed.

Definition goodb (c : N) : bool := negb (N.eqb c ESC) && negb (N.eqb c BSL).
Definition good_layoutb (l : layout) : bool :=
  forallb (fun x => forallb goodb (elem_label (snd x)) && forallb goodb (elem_text (snd x))) l.
Lemma goodb_good s : forallb goodb s = true -> Forall good s.
Proof.
  intros H. apply Forall_forall. intros c Hc. rewrite forallb_forall in H. specialize (H c Hc). unfold goodb in H.
  apply andb_prop in H. destruct H as [H1 H2]. split; intros ->; discriminate.
Qed.
Lemma good_layoutb_ok l : good_layoutb l = true -> good_layout l.
Proof.
  intros H. apply Forall_forall. intros x Hx. unfold good_layoutb in H. rewrite forallb_forall in H. specialize (H x Hx).
  apply andb_prop in H. destruct H. split; apply goodb_good; assumption.
Qed.

(* The ANSI formatter, sharper: backslashes allowed in the texts, not in the labels.  The decorated colorize keeps the
   stack of the undecorated one and its visible text is a deletion of the undecorated output before unescape
   (MarkupShrinkLemmas.colorize_visible): what the SGR sequences can do is keep a backslash the plain formatter deletes.
   On the line of a label that matters only when the label holds a backslash (page_fits_ansi_refuted in Props/C13.v). *)
Lemma deletes_snoc_nl : forall x v, deletes (x ++ [NL]) v -> exists q, v = q ++ [NL] /\ deletes x q.
Proof.
  induction x as [|c x IH]; intros v H; cbn [app] in H.
  - inversion H as [|? ? y Hy|? ? ? Hc Hy]; subst; [|contradiction]. inversion Hy; subst. exists []. split; [reflexivity|constructor].
  - inversion H as [|? ? y Hy|? ? ? Hc Hy]; subst.
    + destruct (IH _ Hy) as (q & -> & Hq). exists (c :: q). split; [reflexivity|now constructor].
    + destruct (IH _ Hy) as (q & -> & Hq). exists q. split; [reflexivity|now constructor].
Qed.

Lemma emit_ansi_visible f raw x : is_ansi f -> no_esc raw -> emit f raw = Ok x ->
  is_ansi (fst x) /\ f_styles (fst x) = f_styles f
  /\ exists v, strips (snd x) v /\ deletes (wout_of (f_styles f) (ends_with_bsl raw) raw) v.
Proof.
  unfold is_ansi, emit, format. destruct (f_kind f) eqn:Ek; try contradiction. intros _ Hr H.
  destruct (colorize (f_styles f) true (f_stack f) raw) as [[sk o1]|k] eqn:Ec; [|discriminate]. cbn [bind fst snd] in H.
  injection H as <-. cbn [fst snd f_kind f_styles]. split; [exact I|]. split; [reflexivity|].
  apply colorize_visible in Ec; [|exact Hr]. tauto.
Qed.

Definition clean_elem (x : nat * elem) : Prop :=
  no_esc (elem_label (snd x)) /\ no_bsl (elem_label (snd x)) /\ no_esc (elem_text (snd x)).
(* no ESC in any label or text of the layout, no backslash in any label *)
Definition clean_layout (l : layout) : Prop := Forall clean_elem l.

Lemma render_elem_ansi_fits W off f ind e x : is_ansi f -> 1 <= W -> no_nl (elem_label e) -> clean_elem (ind, e) ->
  render_elem W off f ind e = Ok x ->
  is_ansi (fst x) /\ exists v q, strips (snd x) v /\ v = q ++ [10%N] /\ okr (W - 1) (W - 1) q.
Proof.
  intros Hk HW Hlab (Hle & Hlb & Hte) H. cbn [snd] in Hle, Hlb, Hte.
  destruct (render_elem_inv _ _ _ _ _ _ H) as (f1 & v & raw & Hrf & Er & He).
  assert (is_ansi f1 /\ exists a0, zlen (render post_id (f_styles f1) a0 (elem_label e)) <= zlen v) as (Hk1 & a0 & Hv).
  { destruct e as [t|label text padding aligned|]; cbn [elem_label] in *; [destruct Hrf as [-> ->]; split; [exact Hk|now exists false]| |
      destruct Hrf as [-> ->]; split; [exact Hk|now exists false]].
    assert (Hn : f_kind f <> FNull) by (unfold is_ansi in Hk; destruct (f_kind f); [discriminate|contradiction|contradiction]).
    apply remove_format_plain_of in Hrf; [|exact Hn]. cbn [fst snd] in Hrf. destruct Hrf as (-> & Ek & Es).
    split; [unfold is_ansi in *; now rewrite Ek|]. exists (ends_with_bsl label). rewrite Es.
    (* the label holds no backslash: nothing to unescape *)
    assert (E : plain_of (f_styles f) (ends_with_bsl label) label = render post_id (f_styles f) (ends_with_bsl label) label); [|rewrite E; lia].
    rewrite plain_of_render. unfold render at 1. cbn [pu post_unescape]. apply unescape_id.
    eapply deletes_P; [apply (render_deletes post_id)|exact Hlb]. }
  assert (Hr : no_esc raw).
  { apply (elem_raw_P (fun c => c <> ESC) W off ind (zlen v) e raw); [discriminate|discriminate|exact Hle|exact Hte|exact Er]. }
  destruct (elem_raw_render_fits post_id (f_styles f1) a0 _ _ _ _ _ _ Er HW Hv Hlab) as (body & -> & Eb & Hb).
  destruct (emit_ansi_visible _ _ _ Hk1 Hr He) as (Hk2 & _ & v' & Sv & Dv). split; [exact Hk2|].
  rewrite ends_snoc in Dv. change (N.eqb 10 BSL) with false in Dv.
  change (wout_of (f_styles f1) false (body ++ [10%N])) with (render post_id (f_styles f1) false (body ++ [10%N])) in Dv.
  rewrite Eb in Dv. apply deletes_snoc_nl in Dv. destruct Dv as (q & -> & Dq).
  exists (q ++ [10%N]), q. split; [exact Sv|]. split; [reflexivity|]. eapply okr_deletes; [exact Dq|exact Hb].
Qed.

Lemma render_all_ansi_fits W off : 1 <= W -> forall l f out x, is_ansi f -> one_line_labels l -> clean_layout l ->
  render_all W off f l out = Ok x ->
  (exists V, strips out V /\ lines_within (W - 1) V) -> exists V, strips (snd x) V /\ lines_within (W - 1) V.
Proof.
  intros HW. induction l as [|[ind e] r IH]; intros f out x Hk Hl Hc H Hout; cbn [render_all] in H.
  - injection H as <-. exact Hout.
  - inversion Hl as [|? ? Hl1 Hl2]; subst. inversion Hc as [|? ? Hc1 Hc2]; subst. cbn [snd] in Hl1.
    bind_inv H y Ee.
    destruct (render_elem_ansi_fits _ _ _ _ _ _ Hk HW Hl1 Hc1 Ee) as (Hk' & v & q & Sv & -> & Hq).
    apply IH in H; [exact H|exact Hk'|exact Hl2|exact Hc2|].
    destruct Hout as (V & SV & HV). exists (V ++ q ++ [10%N]). split; [apply strips_app; assumption|].
    now apply lines_within_snoc.
Qed.

Theorem page_fits_ansi_clean_lemma W f l s : is_ansi f -> 1 <= W -> one_line_labels l -> clean_layout l ->
  render_page W f l = Ok s -> Forall (fun ln => zlen (strip_sgr ln) <= W - 1) (split_on 10%N s).
Proof.
  intros Hk HW Hl Hc H. unfold render_page in H.
  destruct (align f l 0) as [[f1 off]|k] eqn:Ea; [|discriminate]. cbn [bind fst snd] in H.
  destruct (align_as_plain _ _ _ _ _ Hk Ea) as [_ Hk1].
  bind_inv H x E. injection H as <-.
  destruct (render_all_ansi_fits W off HW l f1 [] x Hk1 Hl Hc E) as (V & SV & HV).
  { exists []. split; [apply strips_nil|left; reflexivity]. }
  apply strips_sgr_strip in SV. apply lines_within_split in HV; [|lia]. rewrite <- SV, strip_sgr_lines in HV.
  apply Forall_forall. intros ln Hln. rewrite Forall_forall in HV. apply HV, in_map, Hln.
Qed.

Lemma good_clean l : good_layout l -> clean_layout l.
Proof.
  intros H. eapply Forall_impl; [|exact H]. intros x [H1 H2]. split; [apply good_no_esc, H1|]. split; [apply good_no_bsl, H1|apply good_no_esc, H2].
Qed.

Theorem page_fits_ansi_visible_lemma W f l s : is_ansi f -> 1 <= W -> one_line_labels l -> good_layout l ->
  render_page W f l = Ok s -> Forall (fun ln => zlen (strip_sgr ln) <= W - 1) (split_on 10%N s).
Proof. intros Hk HW Hl Hg. apply page_fits_ansi_clean_lemma; [exact Hk|exact HW|exact Hl|apply good_clean, Hg]. Qed.

Definition clean_layoutb (l : layout) : bool :=
  forallb (fun x => forallb goodb (elem_label (snd x)) && forallb (fun c => negb (N.eqb c ESC)) (elem_text (snd x))) l.
Lemma clean_layoutb_ok l : clean_layoutb l = true -> clean_layout l.
Proof.
  intros H. apply Forall_forall. intros x Hx. unfold clean_layoutb in H. rewrite forallb_forall in H. specialize (H x Hx).
  apply andb_prop in H. destruct H as [H1 H2]. apply goodb_good in H1. split; [apply good_no_esc, H1|]. split; [apply good_no_bsl, H1|].
  apply Forall_forall. intros c Hc. rewrite forallb_forall in H2. specialize (H2 c Hc). intros ->. discriminate.
Qed.
