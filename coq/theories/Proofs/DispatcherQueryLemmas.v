(* C12, the query half: get_listeners() (all events), get_listener_priority and
   has_listeners() of Model/Dispatcher.v against the registration log.
   Extends the simulation of Proofs/DispatcherLemmas.v (same invariant Inv) so that EVERY op
   of [dop] is answered by a specification for every op sequence.  Then: the log of a reachable state is the Add ops,
   numbered (numbered, log_from_adds), and what the priority search does on groups built from ANY list of
   (priority, id) registrations (gbuild, bucket, registered_at). *)
From Coq Require Import Lia Permutation Sorted.
From Clikit Require Import Base.Prelude Model.Dispatcher Proofs.ListLemmas Proofs.DispatcherLemmas.

(* The specification.  State: the registration log (exactly the state of [sstep]) plus the
   key order of the dict that get_listeners() hands out.  That order is not a function of
   the log: the class returns its sort cache, whose keys are in the order in which the
   events were last sorted (cache fill order), and add_listener removes the event's key.  *)

Definition mem (e : N) (l : list N) : bool := existsb (N.eqb e) l.
Definition add_key (e : N) (l : list N) : list N := if mem e l then l else l ++ [e].
Definition del_key (e : N) (l : list N) : list N := filter (fun k => negb (N.eqb e k)) l.
Definition add_keys (l acc : list N) : list N := fold_left (fun acc e => add_key e acc) l acc.

(* the events that have ever had a listener registered, in order of first registration
   (the key order of self._listeners) *)
Definition evs_of (regs : list reg) : list N := fold_left (fun acc r => add_key (r_ev r) acc) regs [].
Definition has_reg (regs : list reg) (ev : N) : bool := existsb (fun r => N.eqb (r_ev r) ev) regs.

(* get_listeners(ev) / dispatch(ev) : ev enters the cache (at the end) unless already there *)
Definition touch (regs : list reg) (ev : N) (keys : list N) : list N :=
  if has_reg regs ev then add_key ev keys else keys.
(* get_listeners() : every registered event not yet cached enters, in first-registration order *)
Definition touch_all (regs : list reg) (keys : list N) : list N :=
  fold_left (fun acc e => add_key e acc) (evs_of regs) keys.
(* the dict handed out: each key with the spec order of that event's listeners *)
Definition all_of (regs : list reg) (keys : list N) : list (N * list N) :=
  map (fun e => (e, spec_order regs e)) keys.
Lemma touch_all_add_keys regs keys : touch_all regs keys = add_keys (evs_of regs) keys.
Proof. reflexivity. Qed.

Definition qstate := (list reg * list N)%type.
Definition qinit : qstate := ([], []).

Definition qstep (q : qstate) (o : dop) : qstate * dout :=
  let '(regs, keys) := q in
  match o with
  | Add ev _ _ => ((fst (sstep regs o), del_key ev keys), ONone)
  | Dispatch ev => ((regs, touch regs ev keys), snd (sstep regs o))
  | Get ev => ((regs, touch regs ev keys), snd (sstep regs o))
  | GetAll => let ks := touch_all regs keys in ((regs, ks), OAll (all_of regs ks))
  | Has _ => ((regs, keys), snd (sstep regs o))
  | Prio _ _ => ((regs, keys), snd (sstep regs o))
  end.
Fixpoint qrun (q : qstate) (ops : list dop) : list dout :=
  match ops with
  | [] => []
  | o :: r => let '(q', out) := qstep q o in out :: qrun q' r
  end.

Definition dafter (st : dstate) (ops : list dop) : dstate := fold_left (fun st o => fst (dstep st o)) ops st.
Definition qafter (q : qstate) (ops : list dop) : qstate := fold_left (fun q o => fst (qstep q o)) ops q.
Definition log_of (ops : list dop) : list reg := fold_left (fun regs o => fst (sstep regs o)) ops [].

Lemma mem_keys {V} k (d : list (N * V)) : mem k (map fst d) = ahas N.eqb k d.
Proof.
  unfold mem, ahas. induction d as [|[k' v] r IH]; cbn; auto.
  destruct (N.eqb k k'); cbn; auto.
Qed.
Lemma keys_adel {V} k (d : list (N * V)) : map fst (adel N.eqb k d) = del_key k (map fst d).
Proof.
  unfold del_key. induction d as [|[k' v'] r IH]; cbn; auto.
  destruct (N.eqb k k'); cbn; [|f_equal]; auto.
Qed.

Lemma mem_In e l : mem e l = true <-> In e l.
Proof.
  unfold mem. rewrite existsb_exists. split.
  - intros [x [Hx E]]. apply N.eqb_eq in E. now subst.
  - intros H. exists e. split; [assumption | apply N.eqb_refl].
Qed.
Lemma mem_nIn e l : mem e l = false -> ~ In e l.
Proof. intros H Hi. apply mem_In in Hi. congruence. Qed.

Lemma add_key_NoDup e l : NoDup l -> NoDup (add_key e l).
Proof.
  intros H. unfold add_key. destruct (mem e l) eqn:E; [assumption|].
  apply NoDup_snoc; [assumption | apply mem_nIn, E].
Qed.
Lemma add_key_In e l x : In x (add_key e l) <-> x = e \/ In x l.
Proof.
  unfold add_key. destruct (mem e l) eqn:E.
  - apply mem_In in E. split; [auto|]. intros [->|H]; assumption.
  - rewrite in_app_iff. cbn. intuition.
Qed.

Lemma add_keys_NoDup l : forall acc, NoDup acc -> NoDup (add_keys l acc).
Proof. induction l as [|a r IH]; intros acc H; cbn; [assumption|]. apply IH, add_key_NoDup, H. Qed.
Lemma add_keys_In l x : forall acc, In x (add_keys l acc) <-> In x acc \/ In x l.
Proof.
  induction l as [|a r IH]; intros acc; cbn; [tauto|].
  rewrite IH, add_key_In. intuition.
Qed.

Lemma evs_of_snoc regs r : evs_of (regs ++ [r]) = add_key (r_ev r) (evs_of regs).
Proof. unfold evs_of. rewrite fold_left_app. reflexivity. Qed.
Lemma evs_of_NoDup regs : NoDup (evs_of regs).
Proof.
  induction regs as [|r l IH] using rev_ind; [constructor|].
  rewrite evs_of_snoc. apply add_key_NoDup, IH.
Qed.
Lemma evs_of_In regs e : In e (evs_of regs) <-> has_reg regs e = true.
Proof.
  unfold has_reg. induction regs as [|r l IH] using rev_ind; [cbn; split; [tauto|discriminate]|].
  rewrite evs_of_snoc, add_key_In, existsb_app, orb_true_iff, IH. cbn. rewrite orb_false_r, N.eqb_eq.
  intuition.
Qed.


(* the cache is, entry by entry, the spec order of its key *)
Lemma cache_exact st regs :
  Inv st regs -> NoDup (map fst (d_sorted st)) -> d_sorted st = all_of regs (map fst (d_sorted st)).
Proof.
  intros HI Hnd. unfold all_of. apply map_exact. intros e l Hin.
  apply (aget_of_in _ N.eqb_spec _ _ _ Hnd) in Hin.
  destruct (proj1 (proj2 (proj2 (proj2 HI))) _ _ Hin) as (g & Eg & ->).
  exact (Inv_sorted_spec _ _ _ _ HI Eg).
Qed.

Lemma cache_keys_registered st regs e :
  Inv st regs -> In e (map fst (d_sorted st)) -> In e (map fst (d_listeners st)).
Proof.
  intros (_ & _ & _ & Hc & _) Hin. apply (ahas_in _ N.eqb_spec) in Hin. apply (ahas_in _ N.eqb_spec). unfold ahas in *.
  destruct (aget N.eqb e (d_sorted st)) as [l|] eqn:El; [|discriminate]. destruct (Hc _ _ El) as (g & -> & _). reflexivity.
Qed.

(* get_listeners() : the keys after sorting everything *)
Lemma sort_all_keys lst ks : forall s,
  (forall e, In e ks -> ahas N.eqb e lst = true) ->
  map fst (sort_all lst ks s) = add_keys ks (map fst s).
Proof.
  induction ks as [|k r IH]; intros s H; cbn; [reflexivity|].
  assert (ahas N.eqb k lst = true) as Hk by (apply H; now left).
  unfold ahas in Hk. destruct (aget N.eqb k lst) as [g|]; [|discriminate].
  rewrite IH by (intros; apply H; now right). f_equal.
  unfold add_key. rewrite mem_keys. destruct (ahas N.eqb k s) eqn:E; [reflexivity|].
  rewrite keys_aset. fold (mem k (map fst s)). now rewrite mem_keys, E.
Qed.

(* get_listener_priority: the bucket found holds the id; none found, none holds it *)
Lemma find_prio_some g lid p : find_prio g lid = Some p -> In (p, lid) (flatg g).
Proof.
  unfold flatg. induction g as [|[q ls] r IH]; cbn; [discriminate|].
  fold (mem lid ls). destruct (mem lid ls) eqn:E; intros H; apply in_app_iff.
  - inversion H; subst. left. apply in_map, mem_In, E.
  - right. auto.
Qed.
Lemma find_prio_none g lid p : find_prio g lid = None -> ~ In (p, lid) (flatg g).
Proof.
  unfold flatg. induction g as [|[q ls] r IH]; cbn; [tauto|].
  fold (mem lid ls). destruct (mem lid ls) eqn:E; [discriminate|]. intros H Hin.
  apply in_app_iff in Hin. destruct Hin as [Hin|Hin]; [|exact (IH H Hin)].
  apply in_map_iff in Hin. destruct Hin as [x [Hx Hi]]. inversion Hx; subst.
  exact (mem_nIn _ _ E Hi).
Qed.



Lemma find_prio_spec n g rs lid :
  GI n g rs -> StronglySorted lid_lt rs ->
  find_prio g lid = option_map r_prio (find (fun r => N.eqb (r_lid r) lid) rs).
Proof.
  intros (Hperm & _ & _) Hrs.
  assert (forall p, In (p, lid) (flatg g) <-> exists r, In r rs /\ r_prio r = p /\ r_lid r = lid) as Hiff.
  { intros p. split.
    - intros H. eapply Permutation_in in H; [|exact Hperm].
      apply in_map_iff in H. destruct H as [r [Hr Hi]]. inversion Hr. eauto.
    - intros (r & Hi & <- & <-). eapply Permutation_in; [apply Permutation_sym, Hperm|].
      apply in_map_iff. exists r. auto. }
  destruct (find_prio g lid) as [p|] eqn:Ep; destruct (find _ rs) as [r|] eqn:Ef; cbn.
  - apply find_prio_some, Hiff in Ep. destruct Ep as (r' & Hi' & <- & Hl').
    apply find_some in Ef. destruct Ef as [Hi El]. apply N.eqb_eq in El.
    f_equal. f_equal. apply (NoDup_map_inj r_lid rs); [apply lid_lt_NoDup, Hrs| | |]; congruence.
  - exfalso. apply find_prio_some, Hiff in Ep. destruct Ep as (r' & Hi' & _ & Hl').
    eapply find_none in Ef; [|exact Hi']. cbn in Ef. apply N.eqb_neq in Ef. contradiction.
  - exfalso. apply find_some in Ef. destruct Ef as [Hi El]. apply N.eqb_eq in El.
    eapply find_prio_none; [exact Ep|]. apply Hiff. eauto.
  - reflexivity.
Qed.

(* the extended simulation: Inv, and the key orders of the two dicts are those the spec keeps *)
Definition Inv_keys (st : dstate) (q : qstate) : Prop :=
  Inv st (fst q) /\ map fst (d_listeners st) = evs_of (fst q) /\
  map fst (d_sorted st) = snd q /\ NoDup (snd q).

Lemma Inv_keys_init : Inv_keys dinit qinit.
Proof. split; [apply Inv_init|]. cbn. repeat split. constructor. Qed.

Lemma touch_NoDup regs ev keys : NoDup keys -> NoDup (touch regs ev keys).
Proof. intros H. unfold touch. destruct (has_reg regs ev); [apply add_key_NoDup|]; assumption. Qed.

(* get_listeners(ev), as Get and as Dispatch make it: the groups stay, ev enters the cache *)
Lemma get_listeners_sim st regs keys ev : Inv_keys st (regs, keys) -> Inv_keys (fst (get_listeners st ev)) (regs, touch regs ev keys).
Proof.
  intros (HI & Hlk & Hck & Hnd). cbn [fst snd] in *. subst keys.
  split; [apply get_listeners_spec, HI|]. cbn [fst snd]. split; [|split; [|apply touch_NoDup, Hnd]].
  - rewrite <- Hlk. unfold get_listeners.
    destruct (aget N.eqb ev (d_listeners st)); [destruct (aget N.eqb ev (d_sorted st))|]; reflexivity.
  - unfold touch, has_reg. rewrite <- (Inv_has _ _ ev HI). unfold get_listeners, ahas.
    destruct (aget N.eqb ev (d_listeners st)) as [g|]; [|reflexivity].
    unfold add_key. rewrite mem_keys. unfold ahas.
    destruct (aget N.eqb ev (d_sorted st)) as [l|] eqn:Ec; cbn; [reflexivity|].
    rewrite keys_aset. fold (mem ev (map fst (d_sorted st))). rewrite mem_keys. unfold ahas. now rewrite Ec.
Qed.

Lemma qstep_sim st q o :
  Inv_keys st q -> Inv_keys (fst (dstep st o)) (fst (qstep q o)) /\ snd (dstep st o) = snd (qstep q o).
Proof.
  destruct q as [regs keys]. intros H2. pose proof H2 as (HI & Hlk & Hck & Hnd). cbn [fst snd] in *.
  destruct (step_sim st regs o HI) as [HI' Hout].
  destruct o as [ev prio stops|ev|oev|ev| |ev lid]; cbn [covered] in Hout.
  - (* Add *)
    split; [|reflexivity]. cbn [qstep fst snd]. split; [exact HI'|]. cbn [fst snd].
    cbn [dstep fst add_listener d_listeners d_sorted sstep].
    unfold add_listener; cbn [d_listeners d_sorted].
    rewrite keys_aset, keys_adel, Hlk, Hck, evs_of_snoc. cbn [r_ev].
    repeat split. apply NoDup_filter, Hnd.
  - (* Dispatch *)
    pose proof (get_listeners_sim st regs keys ev H2) as H2'. cbn [qstep dstep fst snd] in *.
    destruct (get_listeners st ev) as [st' l]. split; [exact H2' | apply Hout; reflexivity].
  - (* Has *)
    cbn [qstep fst snd]. split; [|apply Hout; reflexivity].
    destruct oev; (split; [exact HI'|]); cbn [dstep fst snd]; auto.
  - (* Get *)
    pose proof (get_listeners_sim st regs keys ev H2) as H2'. cbn [qstep dstep fst snd] in *.
    destruct (get_listeners st ev) as [st' l]. split; [exact H2' | apply Hout; reflexivity].
  - (* GetAll *)
    cbn [qstep fst snd]. cbn [dstep fst snd sstep] in *.
    set (s := sort_all (d_listeners st) (map fst (d_listeners st)) (d_sorted st)) in *.
    assert (map fst s = touch_all regs keys) as Hks.
    { unfold s, touch_all. rewrite sort_all_keys, Hlk, Hck; [reflexivity|].
      intros e He. rewrite <- mem_keys. apply mem_In, He. }
    assert (NoDup (touch_all regs keys)) as Hnd' by (apply add_keys_NoDup, Hnd).
    split.
    + split; [exact HI'|]. cbn [fst snd d_listeners d_sorted]. auto.
    + f_equal. rewrite <- Hks.
      apply (cache_exact _ regs HI'). cbn [d_sorted]. rewrite Hks. exact Hnd'.
  - (* Prio *)
    cbn [qstep fst snd]. cbn [dstep fst snd sstep] in *.
    split; [split; [exact HI'|]; cbn [fst snd]; auto|]. f_equal.
    rewrite find_filter. fold (regs_of regs ev).
    destruct HI as (_ & _ & Hl & _ & Hsr & _). specialize (Hl ev).
    destruct (aget N.eqb ev (d_listeners st)) as [g|].
    + destruct Hl as (_ & _ & HGI).
      rewrite (find_prio_spec _ _ _ lid HGI) by apply StronglySorted_filter, Hsr.
      destruct (find _ (regs_of regs ev)); reflexivity.
    + rewrite Hl. reflexivity.
Qed.

Lemma qrun_sim ops : forall st q, Inv_keys st q -> drun st ops = qrun q ops.
Proof.
  induction ops as [|o r IH]; intros st q HI; cbn; [reflexivity|].
  destruct (qstep_sim st q o HI) as [HI' Ho].
  destruct (dstep st o) as [st' x]. destruct (qstep q o) as [q' y]. cbn in *.
  f_equal; [exact Ho | apply IH, HI'].
Qed.

(* the spec against the log-only spec of Model/Dispatcher.v: qstep keeps exactly the log of sstep, and answers every op
   but GetAll with sstep's answer *)
Lemma qstep_log q o : fst (fst (qstep q o)) = fst (sstep (fst q) o).
Proof. destruct q as [regs keys]. destruct o as [? ? ?|?|[?|]|?| |? ?]; reflexivity. Qed.
Lemma qstep_out q o : o <> GetAll -> snd (qstep q o) = snd (sstep (fst q) o).
Proof. destruct q as [regs keys]. destruct o as [? ? ?|?|[?|]|?| |? ?]; try reflexivity. congruence. Qed.

Lemma qrun_srun ops : forall q, outs_agree ops (qrun q ops) (srun (fst q) ops).
Proof.
  induction ops as [|o r IH]; intros q; cbn; [exact I|].
  pose proof (qstep_log q o) as Hl. pose proof (qstep_out q o) as Ho.
  destruct (qstep q o) as [q' x]. destruct (sstep (fst q) o) as [regs' y]. cbn [fst snd] in *. subst regs'.
  split; [|apply IH]. intros Hc. apply Ho. intros ->. discriminate.
Qed.

Lemma qafter_log ops : forall q,
  fst (qafter q ops) = fold_left (fun regs o => fst (sstep regs o)) ops (fst q).
Proof.
  unfold qafter. induction ops as [|o r IH]; intros q; cbn; [reflexivity|].
  rewrite IH, qstep_log. reflexivity.
Qed.
Lemma qafter_init_log ops : fst (qafter qinit ops) = log_of ops.
Proof. apply qafter_log. Qed.

Lemma reach_sim ops : forall st q, Inv_keys st q -> Inv_keys (dafter st ops) (qafter q ops).
Proof.
  unfold dafter, qafter. induction ops as [|o r IH]; intros st q HI; cbn; [exact HI|].
  apply IH. apply qstep_sim, HI.
Qed.
Lemma reach_init ops : Inv_keys (dafter dinit ops) (qafter qinit ops).
Proof. apply reach_sim, Inv_keys_init. Qed.

(* after any op sequence the model answers as qstep does on the state reached, hence (GetAll apart) as sstep on the log *)
Lemma query_after ops o :
  snd (dstep (dafter dinit ops) o) = snd (qstep (qafter qinit ops) o).
Proof. apply qstep_sim, reach_init. Qed.
Lemma answer_after ops o : o <> GetAll -> snd (dstep (dafter dinit ops) o) = snd (sstep (log_of ops) o).
Proof. intros H. rewrite query_after, qstep_out by exact H. now rewrite qafter_init_log. Qed.

(* the log: the Add ops in order, the i-th one carrying listener id i *)
Definition numbered (regs : list reg) : Prop :=
  forall i r, nth_error regs i = Some r -> r_lid r = N.of_nat i.
Fixpoint adds_of (ops : list dop) : list (N * Z * bool) :=
  match ops with
  | [] => []
  | Add ev p s :: r => (ev, p, s) :: adds_of r
  | _ :: r => adds_of r
  end.
Definition reg_data (r : reg) : N * Z * bool := (r_ev r, r_prio r, r_stops r).

Lemma numbered_snoc regs r : numbered regs -> r_lid r = N.of_nat (length regs) -> numbered (regs ++ [r]).
Proof.
  intros Hn Hr i x Hx.
  destruct (Nat.lt_ge_cases i (length regs)) as [Hlt|Hge].
  - rewrite nth_error_app1 in Hx by assumption. auto.
  - rewrite nth_error_app2 in Hx by assumption.
    destruct (i - length regs)%nat as [|k] eqn:E; cbn in Hx.
    + inversion Hx; subst. rewrite Hr. f_equal. lia.
    + destruct k; discriminate.
Qed.
Lemma sstep_numbered regs o : numbered regs -> numbered (fst (sstep regs o)).
Proof.
  intros H. destruct o as [? ? ?|?|[?|]|?| |? ?]; cbn; try assumption.
  apply numbered_snoc; [assumption|reflexivity].
Qed.
Lemma log_from_numbered ops : forall regs,
  numbered regs -> numbered (fold_left (fun regs o => fst (sstep regs o)) ops regs).
Proof. induction ops as [|o r IH]; intros regs H; cbn; [assumption|]. apply IH, sstep_numbered, H. Qed.
Lemma log_numbered ops : numbered (log_of ops).
Proof. apply log_from_numbered. intros [|i] r H; discriminate. Qed.

Lemma log_from_adds ops : forall regs,
  map reg_data (fold_left (fun regs o => fst (sstep regs o)) ops regs) = map reg_data regs ++ adds_of ops.
Proof.
  induction ops as [|o r IH]; intros regs; cbn; [now rewrite app_nil_r|].
  rewrite IH. destruct o as [? ? ?|?|[?|]|?| |? ?]; cbn; try reflexivity.
  rewrite map_app, <- app_assoc. reflexivity.
Qed.

Lemma numbered_unique regs a b : numbered regs -> In a regs -> In b regs -> r_lid a = r_lid b -> a = b.
Proof.
  intros Hn Ha Hb E.
  apply In_nth_error in Ha. destruct Ha as [i Hi]. apply In_nth_error in Hb. destruct Hb as [j Hj].
  pose proof (Hn _ _ Hi) as Ei. pose proof (Hn _ _ Hj) as Ej.
  assert (i = j) by lia. subst j. congruence.
Qed.

Lemma find_numbered regs ev lid :
  numbered regs ->
  find (fun r => N.eqb (r_ev r) ev && N.eqb (r_lid r) lid) regs =
  match nth_error regs (N.to_nat lid) with
  | Some r => if N.eqb (r_ev r) ev then Some r else None
  | None => None
  end.
Proof.
  intros Hn.
  destruct (nth_error regs (N.to_nat lid)) as [r|] eqn:En.
  - pose proof (Hn _ _ En) as Hl. rewrite N2Nat.id in Hl. pose proof (nth_error_In _ _ En) as Hi.
    destruct (find _ regs) as [r'|] eqn:Ef.
    + apply find_some in Ef. destruct Ef as [Hi' Hp]. apply andb_true_iff in Hp. destruct Hp as [He Hl'].
      apply N.eqb_eq in Hl'. assert (r' = r) as -> by (eapply numbered_unique; eauto; congruence).
      now rewrite He.
    + eapply find_none in Ef; [|exact Hi]. cbn in Ef. rewrite Hl, N.eqb_refl, andb_true_r in Ef. now rewrite Ef.
  - destruct (find _ regs) as [r'|] eqn:Ef; [|reflexivity]. exfalso.
    apply find_some in Ef. destruct Ef as [Hi' Hp]. apply andb_true_iff in Hp. destruct Hp as [_ Hl'].
    apply N.eqb_eq in Hl'. apply In_nth_error in Hi'. destruct Hi' as [i Hi'].
    pose proof (Hn _ _ Hi') as E. assert (i = N.to_nat lid) by lia. subst i. congruence.
Qed.

Lemma aget_all_of regs ks e :
  aget N.eqb e (all_of regs ks) = if mem e ks then Some (spec_order regs e) else None.
Proof.
  unfold all_of, mem. induction ks as [|k r IH]; cbn; [reflexivity|].
  destruct (N.eqb_spec e k) as [->|_]; cbn; auto.
Qed.

(* The bucket update of add_listener with an arbitrary listener id (add_listener uses
   the fresh id d_next), and the groups built from a list of (priority, id) registrations
   of one event. *)
Definition gadd (g : groups) (prio : Z) (lid : N) : groups :=
  aset Z.eqb prio ((match aget Z.eqb prio g with Some ls => ls | None => [] end) ++ [lid]) g.
Definition gbuild (l : list (Z * N)) : groups := fold_left (fun g pl => gadd g (fst pl) (snd pl)) l [].

(* log-level description: buckets are in order of FIRST USE of their priority *)
Definition memZ (p : Z) (l : list Z) : bool := existsb (Z.eqb p) l.
Definition add_keyZ (p : Z) (l : list Z) : list Z := if memZ p l then l else l ++ [p].
Definition prios_of (l : list (Z * N)) : list Z := fold_left (fun acc pl => add_keyZ (fst pl) acc) l [].
Definition bucket (l : list (Z * N)) (p : Z) : list N := map snd (filter (fun pl => Z.eqb (fst pl) p) l).
Definition registered_at (l : list (Z * N)) (lid : N) (p : Z) : bool :=
  existsb (fun pl => Z.eqb (fst pl) p && N.eqb (snd pl) lid) l.

Lemma bucket_snoc l x p : bucket (l ++ [x]) p = bucket l p ++ (if Z.eqb (fst x) p then [snd x] else []).
Proof. unfold bucket. rewrite filter_app, map_app. cbn. destruct (Z.eqb (fst x) p); reflexivity. Qed.
Lemma bucket_unused l p : existsb (fun pl => Z.eqb (fst pl) p) l = false -> bucket l p = [].
Proof.
  unfold bucket. induction l as [|x l IH]; cbn; [reflexivity|].
  destruct (Z.eqb (fst x) p); cbn; [discriminate|exact IH].
Qed.
Lemma gbuild_snoc l x : gbuild (l ++ [x]) = gadd (gbuild l) (fst x) (snd x).
Proof. unfold gbuild. rewrite fold_left_app. reflexivity. Qed.

(* the groups: one bucket per priority, in order of first use, holding the ids registered under it in order *)
Lemma gbuild_keys l : map fst (gbuild l) = prios_of l.
Proof.
  induction l as [|x l IH] using rev_ind; [reflexivity|].
  unfold prios_of. rewrite gbuild_snoc, fold_left_app. unfold gadd. rewrite keys_aset, IH. reflexivity.
Qed.
Lemma gbuild_nodup l : NoDup (map fst (gbuild l)).
Proof.
  induction l as [|x l IH] using rev_ind; [constructor|]. rewrite gbuild_snoc. apply (aset_nodup _ Z.eqb_spec), IH.
Qed.
Lemma gbuild_bucket l p :
  aget Z.eqb p (gbuild l) = if existsb (fun pl => Z.eqb (fst pl) p) l then Some (bucket l p) else None.
Proof.
  induction l as [|[q n] l IH] using rev_ind; [reflexivity|].
  rewrite gbuild_snoc, existsb_app, bucket_snoc. cbn [fst snd existsb]. unfold gadd.
  rewrite (aget_aset _ Z.eqb_spec), orb_false_r, (Z.eqb_sym q p).
  destruct (Z.eqb_spec p q) as [->|_]; [|now rewrite orb_false_r, app_nil_r].
  rewrite orb_true_r, IH. destruct (existsb _ l) eqn:E; [reflexivity|]. now rewrite (bucket_unused _ _ E).
Qed.

Lemma gbuild_lookup l p : In p (prios_of l) -> aget Z.eqb p (gbuild l) = Some (bucket l p).
Proof.
  rewrite <- gbuild_keys. intros H. apply (ahas_in _ Z.eqb_spec) in H. unfold ahas in H.
  rewrite gbuild_bucket in *. now destruct (existsb _ l).
Qed.


Lemma find_prio_keys g lid :
  NoDup (map fst g) ->
  find_prio g lid =
  find (fun p => match aget Z.eqb p g with Some ls => mem lid ls | None => false end) (map fst g).
Proof.
  induction g as [|[p ls] r IH]; cbn; intros Hnd; [reflexivity|].
  inversion Hnd as [|? ? Hp Hr]; subst.
  rewrite Z.eqb_refl. fold (mem lid ls). destruct (mem lid ls); [reflexivity|].
  rewrite (IH Hr). apply find_ext_in. intros q Hq.
  destruct (Z.eqb_spec q p) as [->|_]; [contradiction|reflexivity].
Qed.

Lemma mem_bucket l lid p : mem lid (bucket l p) = registered_at l lid p.
Proof.
  unfold bucket, registered_at, mem. induction l as [|[q n] l IH]; cbn; [reflexivity|].
  destruct (Z.eqb q p); cbn; [rewrite IH, N.eqb_sym; reflexivity | exact IH].
Qed.
