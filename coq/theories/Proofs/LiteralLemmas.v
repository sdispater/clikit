(* Trace._literal against the markup model: a text put into markup through `literal` comes out of the formatter as it
   is (with a blank after a trailing backslash), whatever characters it contains - undecorated (line_plain) and, under
   the SGR sequences, decorated (line_decorated).  The latter rests on colorize_strips: the two renderings of ANY message
   show the same text when no text before a tag ends with a backslash.  Module Examples runs the theorems' hypotheses
   and conclusions on six texts that look like markup. *)
From Coq Require Import Lia.
From Clikit Require Import Base.Prelude Base.Res Model.Conv Model.Markup Model.Trace Proofs.ListLemmas Proofs.MarkupLemmas.

(* the text as shown: a blank after a trailing backslash *)
Definition shown (s : str) : str := if ends_with_bsl s then s ++ [32%N] else s.

Lemma double_bsl_cons2 c d r :
  double_bsl (c :: d :: r) = if N.eqb c BSL && N.eqb d LT then BSL :: BSL :: double_bsl (d :: r) else c :: double_bsl (d :: r).
Proof. reflexivity. Qed.
Lemma double_bsl_head c r : c <> BSL -> double_bsl (c :: r) = c :: double_bsl r.
Proof.
  intros Hc. destruct r as [|d r]; [reflexivity|]. rewrite double_bsl_cons2.
  destruct (N.eqb_spec c BSL); [contradiction|reflexivity].
Qed.
(* double_bsl keeps the first character *)
Lemma double_bsl_hd d r : exists tl, double_bsl (d :: r) = d :: tl.
Proof.
  destruct r as [|e r]; [eexists; reflexivity|]. rewrite double_bsl_cons2.
  destruct (N.eqb_spec d BSL) as [->|]; cbn [andb]; [|eexists; reflexivity].
  destruct (N.eqb BSL e && N.eqb e LT); destruct (N.eqb e LT); eexists; reflexivity.
Qed.
Lemma LT_not_BSL : LT <> BSL. Proof. discriminate. Qed.

Lemma unescape_double_bsl : forall s, unescape (double_bsl s) = s.
Proof.
  induction s as [|c|c d r IHr IHd] using list_ind2; [reflexivity|reflexivity|].
  rewrite double_bsl_cons2.
  destruct (N.eqb_spec c BSL) as [->|Hc]; cbn [andb].
  - destruct (N.eqb_spec d LT) as [->|Hd].
    + rewrite (double_bsl_head LT r LT_not_BSL) in *. rewrite (unescape_head LT _ LT_not_BSL) in IHd.
      rewrite unescape_cons2. change (N.eqb BSL BSL && N.eqb BSL LT) with false. cbv iota.
      rewrite unescape_cons2. change (N.eqb BSL BSL && N.eqb LT LT) with true. cbv iota.
      injection IHd as ->. reflexivity.
    + destruct (double_bsl_hd d r) as [tl E]. rewrite E in *. rewrite unescape_cons2.
      destruct (N.eqb_spec d LT); [contradiction|]. rewrite Bool.andb_false_r. now rewrite IHd.
  - rewrite (unescape_head c _ Hc). now rewrite IHd.
Qed.

(* the last character survives double_bsl *)
Lemma double_bsl_nonempty d r : double_bsl (d :: r) <> [].
Proof. destruct (double_bsl_hd d r) as [tl ->]. discriminate. Qed.
Lemma ends_double_bsl : forall s, ends_with_bsl (double_bsl s) = ends_with_bsl s.
Proof.
  induction s as [|c|c d r IHr IHd] using list_ind2; [reflexivity|reflexivity|].
  rewrite double_bsl_cons2, (ends_cons c (d :: r)) by discriminate. pose proof (double_bsl_nonempty d r) as Hne.
  destruct (N.eqb c BSL && N.eqb d LT).
  - rewrite (ends_cons BSL), (ends_cons BSL); auto. discriminate.
  - rewrite ends_cons; auto.
Qed.

(* the body of a literal: what the formatter is to show, before the '<' are cut off *)
Definition lit_body (s : str) : str := if ends_with_bsl s then double_bsl s ++ [32%N] else double_bsl s.
Lemma unescape_lit_body s : unescape (lit_body s) = shown s.
Proof.
  unfold lit_body, shown. destruct (ends_with_bsl s); [|apply unescape_double_bsl].
  rewrite unescape_app_r; [|cbn; discriminate]. now rewrite unescape_double_bsl.
Qed.
Lemma ends_lit_body s : ends_with_bsl (lit_body s) = false.
Proof.
  unfold lit_body. destruct (ends_with_bsl s) eqn:E; [rewrite ends_app; reflexivity|]. now rewrite ends_double_bsl.
Qed.

Definition close_any_tag : tag := Tag close_any true [].
Definition otag (nm : str) : tag := Tag (open_tag nm) false nm.
Definition ctag (nm : str) : tag := Tag (close_tag nm) true nm.

Lemma tagged_eq style text : tagged style text = open_tag style ++ text ++ close_any.
Proof. unfold tagged, open_tag. cbn [app]. rewrite <- app_assoc. reflexivity. Qed.
Lemma cut_lt_app tag a b : cut_lt tag (a ++ b) = cut_lt tag a ++ cut_lt tag b.
Proof. unfold cut_lt. apply flat_map_app. Qed.
Lemma literal_eq s tag : literal s tag = cut_lt tag (lit_body s).
Proof. unfold literal, lit_body. destruct (ends_with_bsl s); [|reflexivity]. rewrite cut_lt_app. reflexivity. Qed.

(* the segments the scanner finds inside the (cut) body x of a literal, and the text pending after it; cur: the text
   pending before it.  After every '<' of the body comes "</>", then the tag again: these are the only tags found *)
Fixpoint inner_segs (ot : tag) (x cur : str) : list (str * tag) :=
  match x with
  | [] => []
  | c :: r => if N.eqb c LT then (cur ++ [LT], close_any_tag) :: ([], ot) :: inner_segs ot r [] else inner_segs ot r (cur ++ [c])
  end.
Fixpoint inner_cur (x cur : str) : str :=
  match x with
  | [] => cur
  | c :: r => if N.eqb c LT then inner_cur r [] else inner_cur r (cur ++ [c])
  end.

Lemma lex_close_any done cur :
  fold_left lex_step close_any {| l_done := done; l_cur := cur; l_cand := CText |}
  = {| l_done := done ++ [(cur, close_any_tag)]; l_cur := []; l_cand := CText |}.
Proof. unfold close_any. cbn [fold_left]. rewrite step_text_lt, step_open_slash. reflexivity. Qed.
Lemma lex_lt_close_any done cur :
  fold_left lex_step (LT :: close_any) {| l_done := done; l_cur := cur; l_cand := CText |}
  = {| l_done := done ++ [(cur ++ [LT], close_any_tag)]; l_cur := []; l_cand := CText |}.
Proof.
  unfold close_any. cbn [fold_left]. rewrite step_text_lt.
  assert (lex_step {| l_done := done; l_cur := cur; l_cand := COpen |} LT = {| l_done := done; l_cur := cur ++ [LT]; l_cand := COpen |}) as ->.
  { unfold lex_step. cbn. reflexivity. }
  rewrite step_open_slash. reflexivity.
Qed.
Lemma lex_open nm : tag_name nm -> forall done cur,
  fold_left lex_step (open_tag nm) {| l_done := done; l_cur := cur; l_cand := CText |}
  = {| l_done := done ++ [(cur, otag nm)]; l_cur := []; l_cand := CText |}.
Proof. intros Hn done cur. exact (lex_tag false nm Hn done cur). Qed.
Lemma lex_close nm : tag_name nm -> forall done cur,
  fold_left lex_step (close_tag nm) {| l_done := done; l_cur := cur; l_cand := CText |}
  = {| l_done := done ++ [(cur, ctag nm)]; l_cur := []; l_cand := CText |}.
Proof. intros Hn done cur. exact (lex_tag true nm Hn done cur). Qed.

Lemma lex_cut tag : tag_name tag -> forall x done cur,
  fold_left lex_step (cut_lt tag x) {| l_done := done; l_cur := cur; l_cand := CText |}
  = {| l_done := done ++ inner_segs (otag tag) x cur; l_cur := inner_cur x cur; l_cand := CText |}.
Proof.
  intros Hn. induction x as [|c r IH]; intros done cur; [cbn; now rewrite app_nil_r|].
  change (cut_lt tag (c :: r)) with ((if N.eqb c LT then LT :: close_any ++ LT :: tag ++ [GT] else [c]) ++ cut_lt tag r).
  rewrite fold_left_app. cbn [inner_segs inner_cur]. destruct (N.eqb_spec c LT) as [->|Hc].
  - change (LT :: close_any ++ LT :: tag ++ [GT]) with ((LT :: close_any) ++ open_tag tag).
    rewrite fold_left_app, lex_lt_close_any, (lex_open tag Hn), IH, <- !app_assoc. reflexivity.
  - rewrite (lex_text [c]); [|constructor; [exact Hc|constructor]]. apply IH.
Qed.

(* a line: literals and plain separators *)
Inductive piece := PRaw (t : str) | PLit (tag s : str) | PNamed (nm s : str).
Definition piece_str (p : piece) : str :=
  match p with
  | PRaw t => t
  | PLit tag s => tagged tag (literal s tag)
  | PNamed nm s => open_tag nm ++ literal s nm ++ close_tag nm
  end.
Definition piece_shown (p : piece) : str := match p with PRaw t => t | PLit _ s => shown s | PNamed _ s => shown s end.
Definition line_str (ps : list piece) : str := flat_map piece_str ps.
Definition safe (t : str) : Prop := Forall (fun c => c <> LT /\ c <> BSL) t.
Definition resolvable (sty : styles) (tag : str) : Prop := exists p, resolve sty (py_lower tag) = Ok (Some p).
Definition piece_ok (sty : styles) (p : piece) : Prop :=
  match p with
  | PRaw t => safe t
  | PLit tag _ => tag_name tag /\ resolvable sty tag
  | PNamed nm _ => tag_name nm /\ resolvable sty nm
  end.
Definition pieces_ok (sty : styles) (ps : list piece) : Prop := Forall (piece_ok sty) ps.

Lemma safe_no_lt t : safe t -> no_lt t. Proof. intros H. eapply Forall_impl; [|exact H]. intros c [? ?]; auto. Qed.
Lemma safe_no_bsl t : safe t -> no_bsl t. Proof. intros H. eapply Forall_impl; [|exact H]. intros c [? ?]; auto. Qed.

(* what the scanner makes of a piece *)
Definition piece_segs (p : piece) (cur : str) : list (str * tag) :=
  match p with
  | PRaw _ => []
  | PLit tag s => (cur, otag tag) :: inner_segs (otag tag) (lit_body s) [] ++ [(inner_cur (lit_body s) [], close_any_tag)]
  | PNamed nm s => (cur, otag nm) :: inner_segs (otag nm) (lit_body s) [] ++ [(inner_cur (lit_body s) [], ctag nm)]
  end.
Definition piece_cur (p : piece) (cur : str) : str := match p with PRaw t => cur ++ t | _ => [] end.
Fixpoint line_segs (ps : list piece) (cur : str) : list (str * tag) :=
  match ps with [] => [] | p :: r => piece_segs p cur ++ line_segs r (piece_cur p cur) end.
Fixpoint line_cur (ps : list piece) (cur : str) : str :=
  match ps with [] => cur | p :: r => line_cur r (piece_cur p cur) end.

Lemma lex_piece sty p : piece_ok sty p -> forall done cur,
  fold_left lex_step (piece_str p) {| l_done := done; l_cur := cur; l_cand := CText |}
  = {| l_done := done ++ piece_segs p cur; l_cur := piece_cur p cur; l_cand := CText |}.
Proof.
  destruct p as [t|tag s|nm s]; cbn [piece_ok piece_str piece_segs piece_cur].
  - intros Ht done cur. rewrite (lex_text t (safe_no_lt t Ht)), app_nil_r. reflexivity.
  - intros [Hn _] done cur. rewrite tagged_eq, literal_eq, !fold_left_app, (lex_open tag Hn), (lex_cut tag Hn), lex_close_any.
    rewrite <- !app_assoc. reflexivity.
  - intros [Hn _] done cur. rewrite literal_eq, !fold_left_app, (lex_open nm Hn), (lex_cut nm Hn), (lex_close nm Hn).
    rewrite <- !app_assoc. reflexivity.
Qed.
Lemma lex_line_fold sty : forall ps, pieces_ok sty ps -> forall done cur,
  fold_left lex_step (line_str ps) {| l_done := done; l_cur := cur; l_cand := CText |}
  = {| l_done := done ++ line_segs ps cur; l_cur := line_cur ps cur; l_cand := CText |}.
Proof.
  induction 1 as [|p r Hp Hr IH]; intros done cur; [cbn; now rewrite app_nil_r|].
  change (line_str (p :: r)) with (piece_str p ++ line_str r).
  rewrite fold_left_app, (lex_piece sty p Hp), IH. cbn [line_segs line_cur]. now rewrite app_assoc.
Qed.
Lemma lex_line sty ps : pieces_ok sty ps -> lex (line_str ps) = (line_segs ps [], line_cur ps []).
Proof. intros H. unfold lex, lex_init. rewrite (lex_line_fold sty ps H). unfold lex_end. cbn. now rewrite app_nil_r. Qed.

(* when the message does not end with a backslash, a tag is escaped exactly when the text before it ends with one *)
Lemma esc_flag (first : bool) (pre : str) :
  (match pre with [] => first && false | _ :: _ => ends_with_bsl pre end) = ends_with_bsl pre.
Proof. destruct pre; [apply Bool.andb_false_r|reflexivity]. Qed.
Lemma run_segs_first sty col f segs sk out le :
  run_segs sty col false f segs sk out le = run_segs sty col false false segs sk out le.
Proof. destruct segs as [|[pre t] r]; [reflexivity|]. cbn [run_segs]. now rewrite !esc_flag. Qed.
Lemma run_segs_app sty col : forall a b sk out le f,
  run_segs sty col false f (a ++ b) sk out le
  = match run_segs sty col false f a sk out le with
    | Ok (sk', out', le') => run_segs sty col false false b sk' out' le'
    | Err e => Err e
    end.
Proof.
  induction a as [|[pre t] r IH]; intros b sk out le f; [cbn [app run_segs]; apply run_segs_first|].
  cbn [app run_segs]. destruct (do_tag sty col _ t sk) as [x|e]; cbn [bind]; [apply IH|reflexivity].
Qed.

Lemma do_open sty col nm p sk : resolve sty (py_lower nm) = Ok (Some p) -> do_tag sty col false (otag nm) sk = Ok (sk ++ [p], []).
Proof. intros Hr. unfold do_tag, otag. cbn [andb]. rewrite Hr. reflexivity. Qed.
Lemma do_close_any sty col sk p : do_tag sty col false close_any_tag (sk ++ [p]) = Ok (sk, []).
Proof. unfold do_tag, close_any_tag, pop_any. cbn [andb]. now rewrite removelast_last. Qed.
Lemma pop_style_top p sk : pop_style p (sk ++ [p]) = Ok sk.
Proof.
  unfold pop_style. destruct (sk ++ [p]) as [|x l] eqn:E; [destruct sk; discriminate|]. rewrite <- E.
  rewrite rev_app_distr. cbn [rev app cut_rev]. now rewrite pstyle_eqb_refl, rev_involutive.
Qed.
Lemma do_close sty col nm p sk : tag_name nm -> resolve sty (py_lower nm) = Ok (Some p) ->
  do_tag sty col false (ctag nm) (sk ++ [p]) = Ok (sk, []).
Proof.
  intros Hn Hr. unfold do_tag, ctag. destruct nm as [|c r]; [contradiction|]. cbn [andb]. rewrite Hr. cbn [bind].
  now rewrite pop_style_top.
Qed.

Lemma ends_lt cur : ends_with_bsl (cur ++ [LT]) = false. Proof. now rewrite ends_app. Qed.

Lemma run_inner sty tag p : resolve sty (py_lower tag) = Ok (Some p) -> forall x cur sk out,
  run_segs sty false false false (inner_segs (otag tag) x cur) (sk ++ [p]) out false
  = Ok (sk ++ [p], out ++ flat_map fst (inner_segs (otag tag) x cur), false).
Proof.
  intros Hr. induction x as [|c r IH]; intros cur sk out; cbn [inner_segs]; [cbn; now rewrite app_nil_r|].
  destruct (N.eqb c LT); [|apply IH].
  cbn [run_segs]. rewrite !esc_flag, ends_lt, do_close_any. cbn [bind fst snd andb].
  rewrite (do_open sty false tag p sk Hr). cbn [bind fst snd]. rewrite IH, !apply_cur_false. cbn [flat_map fst app].
  rewrite <- !app_assoc, ?app_nil_r. reflexivity.
Qed.

Lemma inner_cur_ends : forall x cur, ends_with_bsl (inner_cur x cur) = ends_with_bsl (cur ++ x).
Proof.
  induction x as [|c r IH]; intros cur; cbn [inner_cur]; [now rewrite app_nil_r|].
  destruct (N.eqb_spec c LT) as [->|Hc].
  - rewrite IH. cbn [app]. change (cur ++ LT :: r) with (cur ++ [LT] ++ r). rewrite app_assoc, (ends_app (cur ++ [LT]) r).
    destruct r; [now rewrite ends_lt|reflexivity].
  - rewrite IH, <- app_assoc. reflexivity.
Qed.
Lemma inner_text ot : forall x cur, flat_map fst (inner_segs ot x cur) ++ inner_cur x cur = cur ++ x.
Proof.
  induction x as [|c r IH]; intros cur; cbn [inner_segs inner_cur]; [cbn; now rewrite app_nil_r|].
  destruct (N.eqb_spec c LT) as [->|Hc].
  - cbn [flat_map fst app]. rewrite <- app_assoc, IH. cbn [app]. rewrite <- app_assoc. reflexivity.
  - rewrite IH, <- app_assoc. reflexivity.
Qed.

Definition piece_plain (p : piece) : str := match p with PRaw t => t | PLit _ s => lit_body s | PNamed _ s => lit_body s end.
Lemma piece_text p cur : flat_map fst (piece_segs p cur) ++ piece_cur p cur = cur ++ piece_plain p.
Proof.
  destruct p as [t|tag s|nm s]; cbn [piece_segs piece_cur piece_plain flat_map fst]; [reflexivity| |];
    rewrite flat_map_app; cbn [flat_map fst]; rewrite !app_nil_r; f_equal; apply (inner_text _ (lit_body s) []).
Qed.
Lemma line_text : forall ps cur, flat_map fst (line_segs ps cur) ++ line_cur ps cur = cur ++ flat_map piece_plain ps.
Proof.
  induction ps as [|p r IH]; intros cur; cbn [line_segs line_cur flat_map]; [now rewrite app_nil_r|].
  rewrite flat_map_app, <- app_assoc, IH, app_assoc, piece_text, <- app_assoc. reflexivity.
Qed.

Lemma run_piece sty p : piece_ok sty p -> forall cur sk out, ends_with_bsl cur = false ->
  run_segs sty false false false (piece_segs p cur) sk out false = Ok (sk, out ++ flat_map fst (piece_segs p cur), false).
Proof.
  destruct p as [t|tag s|nm s]; cbn [piece_ok piece_segs].
  - intros _ cur sk out _. cbn. now rewrite app_nil_r.
  - intros [Hn [p Hr]] cur sk out Hcur. cbn [run_segs]. rewrite esc_flag, Hcur, (do_open sty false tag p sk Hr). cbn [bind fst snd].
    rewrite run_segs_app, (run_inner sty tag p Hr). cbn [run_segs].
    rewrite esc_flag, inner_cur_ends. cbn [app]. rewrite ends_lit_body, do_close_any. cbn [bind fst snd].
    rewrite !apply_cur_false. cbn [flat_map fst]. rewrite flat_map_app. cbn [flat_map fst]. rewrite <- !app_assoc, ?app_nil_r. reflexivity.
  - intros [Hn [p Hr]] cur sk out Hcur. cbn [run_segs]. rewrite esc_flag, Hcur, (do_open sty false nm p sk Hr). cbn [bind fst snd].
    rewrite run_segs_app, (run_inner sty nm p Hr). cbn [run_segs].
    rewrite esc_flag, inner_cur_ends. cbn [app]. rewrite ends_lit_body, (do_close sty false nm p sk Hn Hr). cbn [bind fst snd].
    rewrite !apply_cur_false. cbn [flat_map fst]. rewrite flat_map_app. cbn [flat_map fst]. rewrite <- !app_assoc, ?app_nil_r. reflexivity.
Qed.
Lemma piece_cur_ends sty p cur : piece_ok sty p -> ends_with_bsl cur = false -> ends_with_bsl (piece_cur p cur) = false.
Proof.
  destruct p as [t|tag s|nm s]; cbn [piece_ok piece_cur]; try reflexivity.
  intros Ht Hcur. rewrite ends_app. destruct t as [|c t]; [exact Hcur|]. apply no_bsl_ends, safe_no_bsl, Ht.
Qed.
Lemma run_line sty : forall ps, pieces_ok sty ps -> forall cur sk out, ends_with_bsl cur = false ->
  run_segs sty false false false (line_segs ps cur) sk out false = Ok (sk, out ++ flat_map fst (line_segs ps cur), false).
Proof.
  induction 1 as [|p r Hp Hr IH]; intros cur sk out Hcur; cbn [line_segs]; [cbn; now rewrite app_nil_r|].
  rewrite run_segs_app, (run_piece sty p Hp cur sk out Hcur), IH; [|apply (piece_cur_ends sty), Hcur; exact Hp].
  rewrite flat_map_app, app_assoc. reflexivity.
Qed.

(* no piece ends with a backslash *)
Lemma piece_str_ends sty p : piece_ok sty p -> ends_with_bsl (piece_str p) = false.
Proof.
  destruct p as [t|tag s|nm s]; cbn [piece_ok piece_str].
  - intros Ht. apply no_bsl_ends, safe_no_bsl, Ht.
  - intros _. rewrite tagged_eq, app_assoc, ends_app. reflexivity.
  - intros _. unfold close_tag. change (LT :: SLASH :: nm ++ [GT]) with ((LT :: SLASH :: nm) ++ [GT]). rewrite !app_assoc, ends_app. reflexivity.
Qed.
Lemma line_str_ends sty ps : pieces_ok sty ps -> ends_with_bsl (line_str ps) = false.
Proof.
  induction 1 as [|p r Hp Hr IH]; [reflexivity|]. change (line_str (p :: r)) with (piece_str p ++ line_str r).
  rewrite ends_app. destruct (line_str r); [apply (piece_str_ends sty), Hp|exact IH].
Qed.
Lemma piece_plain_ends sty p : piece_ok sty p -> ends_with_bsl (piece_plain p) = false.
Proof.
  destruct p as [t|tag s|nm s]; cbn [piece_ok piece_plain]; intros H; try apply ends_lit_body. apply no_bsl_ends, safe_no_bsl, H.
Qed.
Lemma unescape_piece sty p : piece_ok sty p -> unescape (piece_plain p) = piece_shown p.
Proof.
  destruct p as [t|tag s|nm s]; cbn [piece_ok piece_plain piece_shown]; intros H; try apply unescape_lit_body.
  apply unescape_id, safe_no_bsl, H.
Qed.
Lemma unescape_pieces sty ps : pieces_ok sty ps -> unescape (flat_map piece_plain ps) = flat_map piece_shown ps.
Proof.
  induction 1 as [|p r Hp Hr IH]; [reflexivity|]. cbn [flat_map].
  rewrite unescape_app_l, IH, (unescape_piece sty p Hp); [reflexivity|apply (piece_plain_ends sty), Hp].
Qed.

(* a whole line, undecorated *)
Theorem line_plain sty sk ps : pieces_ok sty ps ->
  colorize sty false sk (line_str ps) = Ok (sk, flat_map piece_shown ps).
Proof.
  intros Hok. unfold colorize. rewrite (lex_line sty ps Hok).
  pose proof (line_text ps []) as HT. cbn [app] in HT.
  destruct (line_segs ps []) as [|sg segs] eqn:E.
  - pose proof (lex_lossless (line_str ps)) as HL. rewrite (lex_line sty ps Hok), E in HL. cbn [fst snd flat_map app] in HL.
    cbn [flat_map app] in HT. rewrite <- HL, HT, (unescape_pieces sty ps Hok). reflexivity.
  - rewrite <- E in *. rewrite (line_str_ends sty ps Hok), run_segs_first, (run_line sty ps Hok [] sk [] eq_refl).
    cbn [bind app]. rewrite !apply_cur_false, removelast_lastchar, HT, (unescape_pieces sty ps Hok). reflexivity.
Qed.

Theorem literal_plain sty sk tag p s : tag_name tag -> resolve sty (py_lower tag) = Ok (Some p) ->
  colorize sty false sk (tagged tag (literal s tag)) = Ok (sk, shown s).
Proof.
  intros Hn Hr. pose proof (line_plain sty sk [PLit tag s]) as H. cbn [line_str flat_map piece_str piece_shown] in H.
  rewrite !app_nil_r in H. apply H. constructor; [|constructor]. split; [exact Hn|]. exists p. exact Hr.
Qed.
Theorem literal_named_plain sty sk nm p s : tag_name nm -> resolve sty (py_lower nm) = Ok (Some p) ->
  colorize sty false sk (open_tag nm ++ literal s nm ++ close_tag nm) = Ok (sk, shown s).
Proof.
  intros Hn Hr. pose proof (line_plain sty sk [PNamed nm s]) as H. cbn [line_str flat_map piece_str piece_shown] in H.
  rewrite !app_nil_r in H. apply H. constructor; [|constructor]. split; [exact Hn|]. exists p. exact Hr.
Qed.

Lemma double_bsl_P (P : N -> Prop) : forall s, Forall P s -> Forall P (double_bsl s).
Proof.
  induction s as [|c|c d r IHr IHd] using list_ind2; intros H; [constructor|exact H|].
  rewrite double_bsl_cons2. inversion H as [|? ? Hc Hdr]; subst.
  destruct (N.eqb_spec c BSL) as [->|]; cbn [andb]; [|constructor; auto].
  destruct (N.eqb d LT); repeat constructor; auto.
Qed.

(* what is needed for the two renderings to show the same text is less than a message without backslash: no text
   before a tag ends with one (so no tag is escaped) *)
Definition seg_fine (sg : str * tag) : Prop :=
  no_esc (fst sg) /\ ends_with_bsl (fst sg) = false /\ Forall good (raw_text (snd sg)).
Lemma segs_spans_fine sty a0 segs first sk le y :
  Forall seg_fine segs -> segs_spans sty a0 first segs sk le = Ok y -> Forall (fun s : span => fine (snd s)) (snd (fst y)).
Proof.
  intros Hs H. apply (segs_spans_Q fine sty a0 (conj (Forall_nil _) eq_refl) _ _ _ _ _) with (2 := H).
  eapply Forall_impl; [|exact Hs]. intros sg (A & B & C). split; [split; assumption|apply good_fine, C].
Qed.
Lemma msg_spans_fine sty sk m x : Forall seg_fine (fst (lex m)) -> Forall good (snd (lex m)) ->
  msg_spans sty sk m = Ok x -> Forall (fun s : span => fine (snd s)) (snd x).
Proof.
  intros Hs Ht H. unfold msg_spans in H. pose proof (lex_lossless m) as HL. destruct (fst (lex m)) as [|sg segs'] eqn:E.
  - injection H as <-. cbn [flat_map app] in HL. rewrite HL in Ht. constructor; [apply good_fine, Ht|constructor].
  - rewrite <- E in *. bind_inv H y Hy. injection H as <-. cbn [snd]. apply Forall_app; split; [exact (segs_spans_fine _ _ _ _ _ _ _ Hs Hy)|].
    unfold tail_spans. destruct (snd y); repeat apply Forall_cons; try apply Forall_nil; apply good_fine;
      [exact Ht|apply removelast_P, Ht|apply lastchar_P, Ht].
Qed.
(* the two renderings fail alike or leave the same stack and, under the SGR sequences, the same text *)
Theorem colorize_strips sty sk m : Forall seg_fine (fst (lex m)) -> Forall good (snd (lex m)) ->
  match colorize sty true sk m, colorize sty false sk m with
  | Ok (s1, o1), Ok (s2, o2) => s1 = s2 /\ strips o1 o2
  | Err e1, Err e2 => e1 = e2
  | _, _ => False
  end.
Proof.
  intros Hs Ht. rewrite !colorize_spans. destruct (msg_spans sty sk m) as [x|k] eqn:E; cbn [bind]; [|reflexivity].
  split; [reflexivity|]. apply lock_dec, (msg_spans_fine _ _ _ _ Hs Ht E).
Qed.
(* (a message that meets the other two hypotheses does not end with a backslash) *)
Theorem colorize_lockstep_gen sty sk m :
  ends_with_bsl m = false -> Forall seg_fine (fst (lex m)) -> Forall good (snd (lex m)) ->
  match colorize sty true sk m, colorize sty false sk m with
  | Ok (s1, o1), Ok (s2, o2) => s1 = s2 /\ strip_sgr o1 = o2
  | Err e1, Err e2 => e1 = e2
  | _, _ => False
  end.
Proof.
  intros _ Hs Ht. pose proof (colorize_strips sty sk m Hs Ht) as H.
  destruct (colorize sty true sk m) as [[s1 o1]|e1], (colorize sty false sk m) as [[s2 o2]|e2]; try exact H.
  destruct H as [H1 H2]. split; [exact H1|apply strips_sgr_strip, H2].
Qed.
(* a message without ESC and backslash is such a message *)
Lemma good_msg_fine m : Forall good m -> Forall seg_fine (fst (lex m)) /\ Forall good (snd (lex m)).
Proof.
  intros Hm. destruct (lex_P good m Hm) as [Hs Ht]. split; [|exact Ht]. eapply Forall_impl; [|exact Hs].
  intros [pre [raw cl nm]] [A B]. destruct (good_fine pre A) as [A1 A2]. repeat split; assumption.
Qed.

(* without ESC and backslash: the text both renderings show is the message with exactly its recognised tags removed *)
Lemma colorize_lockstep sty sk m : Forall good m ->
  match colorize sty true sk m, colorize sty false sk m with
  | Ok (s1, o1), Ok (s2, o2) => s1 = s2 /\ strip_sgr o1 = o2 /\ o2 = strip_tags sty m
  | Err e1, Err e2 => e1 = e2
  | _, _ => False
  end.
Proof.
  intros Hm. destruct (good_msg_fine m Hm) as [Hs Ht].
  pose proof (colorize_lockstep_gen sty sk m (no_bsl_ends m (good_no_bsl m Hm)) Hs Ht) as H.
  pose proof (colorize_plain_strip_tags sty sk m) as HP.
  destruct (colorize sty true sk m) as [[s1 o1]|e1], (colorize sty false sk m) as [[s2 o2]|e2]; try exact H.
  destruct H as [H1 H2]. split; [exact H1|]. split; [exact H2|]. exact (HP s2 o2 (good_no_bsl m Hm) eq_refl).
Qed.

(* the segments of a line are fine *)
Lemma tag_char_good c : tag_char c = true -> good c.
Proof. intros H. split; intros ->; vm_compute in H; discriminate. Qed.
Lemma tag_start_char c : tag_start c = true -> tag_char c = true.
Proof. intros H. unfold tag_char. now rewrite H. Qed.
Lemma tag_name_good nm : tag_name nm -> Forall good nm.
Proof.
  destruct nm as [|c r]; [contradiction|]. intros [Hc Hr]. constructor; [apply tag_char_good, tag_start_char, Hc|].
  eapply Forall_impl; [|exact Hr]. exact tag_char_good.
Qed.
Lemma good_char c : c <> ESC -> c <> BSL -> good c. Proof. split; assumption. Qed.
Lemma open_tag_good nm : tag_name nm -> Forall good (open_tag nm).
Proof.
  intros Hn. unfold open_tag. constructor; [split; discriminate|]. apply Forall_app; split; [apply tag_name_good, Hn|].
  constructor; [split; discriminate|constructor].
Qed.
Lemma close_tag_good nm : tag_name nm -> Forall good (close_tag nm).
Proof.
  intros Hn. unfold close_tag. constructor; [split; discriminate|]. constructor; [split; discriminate|].
  apply Forall_app; split; [apply tag_name_good, Hn|]. constructor; [split; discriminate|constructor].
Qed.
Lemma close_any_good : Forall good close_any.
Proof. unfold close_any. repeat constructor; discriminate. Qed.

Lemma inner_fine nm : tag_name nm -> forall x cur, no_esc x -> no_esc cur ->
  Forall seg_fine (inner_segs (otag nm) x cur) /\ no_esc (inner_cur x cur).
Proof.
  intros Hn. induction x as [|c r IH]; intros cur Hx Hcur; cbn [inner_segs inner_cur]; [split; [constructor|exact Hcur]|].
  inversion Hx as [|? ? Hc Hr]; subst.
  assert (no_esc (cur ++ [c])) as Hcc by (apply Forall_app; split; [exact Hcur|constructor; [exact Hc|constructor]]).
  destruct (N.eqb_spec c LT) as [->|Hlt]; [|apply IH; assumption].
  destruct (IH [] Hr (Forall_nil _)) as [H1 H2]. split; [|exact H2].
  constructor; [|constructor; [|exact H1]].
  - split; [exact Hcc|]. split; [apply ends_lt|apply close_any_good].
  - split; [constructor|]. split; [reflexivity|apply open_tag_good, Hn].
Qed.

(* no ESC in the texts *)
Definition piece_noesc (p : piece) : Prop := match p with PRaw t => no_esc t | PLit _ s => no_esc s | PNamed _ s => no_esc s end.
Definition pieces_noesc (ps : list piece) : Prop := Forall piece_noesc ps.
Lemma lit_body_noesc s : no_esc s -> no_esc (lit_body s).
Proof.
  intros Hs. unfold lit_body. pose proof (double_bsl_P _ s Hs) as Hd. destruct (ends_with_bsl s); [|exact Hd].
  apply Forall_app; split; [exact Hd|]. constructor; [discriminate|constructor].
Qed.
Lemma piece_fine sty p cur : piece_ok sty p -> piece_noesc p -> Forall good cur ->
  Forall seg_fine (piece_segs p cur) /\ Forall good (piece_cur p cur).
Proof.
  destruct p as [t|tag s|nm s]; cbn [piece_ok piece_noesc piece_segs piece_cur].
  - intros Ht Ht' Hcur. split; [constructor|]. apply Forall_app; split; [exact Hcur|].
    unfold safe, no_esc in *. rewrite Forall_forall in *. intros c Hin. split; [apply Ht', Hin|apply (Ht c Hin)].
  - intros [Hn _] Hs Hcur. split; [|constructor].
    destruct (inner_fine tag Hn (lit_body s) [] (lit_body_noesc s Hs) (Forall_nil _)) as [H1 H2].
    constructor; [|apply Forall_app; split; [exact H1|constructor; [|constructor]]].
    + split; [apply good_no_esc, Hcur|]. split; [apply no_bsl_ends, good_no_bsl, Hcur|apply open_tag_good, Hn].
    + split; [exact H2|]. split; [|apply close_any_good]. cbn [fst]. rewrite inner_cur_ends. cbn [app]. apply ends_lit_body.
  - intros [Hn _] Hs Hcur. split; [|constructor].
    destruct (inner_fine nm Hn (lit_body s) [] (lit_body_noesc s Hs) (Forall_nil _)) as [H1 H2].
    constructor; [|apply Forall_app; split; [exact H1|constructor; [|constructor]]].
    + split; [apply good_no_esc, Hcur|]. split; [apply no_bsl_ends, good_no_bsl, Hcur|apply open_tag_good, Hn].
    + split; [exact H2|]. split; [|apply close_tag_good, Hn]. cbn [fst]. rewrite inner_cur_ends. cbn [app]. apply ends_lit_body.
Qed.
Lemma line_fine sty : forall ps, pieces_ok sty ps -> pieces_noesc ps -> forall cur, Forall good cur ->
  Forall seg_fine (line_segs ps cur) /\ Forall good (line_cur ps cur).
Proof.
  induction 1 as [|p r Hp Hr IH]; intros Hne cur Hcur; cbn [line_segs line_cur]; [split; [constructor|exact Hcur]|].
  inversion Hne as [|? ? Hp' Hr']; subst.
  destruct (piece_fine sty p cur Hp Hp' Hcur) as [H1 H2]. destruct (IH Hr' _ H2) as [H3 H4].
  split; [apply Forall_app; split; assumption|exact H4].
Qed.

(* a whole line, decorated: the rendering never fails, leaves the style stack as it was, and shows the same text *)
Theorem line_decorated sty sk ps : pieces_ok sty ps -> pieces_noesc ps ->
  exists out, colorize sty true sk (line_str ps) = Ok (sk, out) /\ strip_sgr out = flat_map piece_shown ps.
Proof.
  intros Hok Hne. pose proof (colorize_lockstep_gen sty sk (line_str ps) (line_str_ends sty ps Hok)) as HL.
  rewrite (lex_line sty ps Hok) in HL. cbn [fst snd] in HL.
  destruct (line_fine sty ps Hok Hne [] (Forall_nil _)) as [H1 H2]. specialize (HL H1 H2).
  rewrite (line_plain sty sk ps Hok) in HL.
  destruct (colorize sty true sk (line_str ps)) as [[s1 o1]|e]; [|contradiction].
  destruct HL as [-> HS]. exists o1. split; [reflexivity|exact HS].
Qed.
Corollary line_never_raises sty sk col ps : pieces_ok sty ps -> pieces_noesc ps ->
  exists out, colorize sty col sk (line_str ps) = Ok (sk, out).
Proof.
  intros Hok Hne. destruct col; [|eexists; apply (line_plain sty sk ps Hok)].
  destruct (line_decorated sty sk ps Hok Hne) as (out & H & _). exists out. exact H.
Qed.
Theorem literal_decorated sty sk tag p s : tag_name tag -> resolve sty (py_lower tag) = Ok (Some p) -> no_esc s ->
  exists out, colorize sty true sk (tagged tag (literal s tag)) = Ok (sk, out) /\ strip_sgr out = shown s.
Proof.
  intros Hn Hr Hs. pose proof (line_decorated sty sk [PLit tag s]) as H. cbn [line_str flat_map piece_str piece_shown] in H.
  rewrite !app_nil_r in H. apply H; (constructor; [|constructor]); [|exact Hs]. split; [exact Hn|]. exists p. exact Hr.
Qed.
Theorem literal_named_decorated sty sk nm p s : tag_name nm -> resolve sty (py_lower nm) = Ok (Some p) -> no_esc s ->
  exists out, colorize sty true sk (open_tag nm ++ literal s nm ++ close_tag nm) = Ok (sk, out) /\ strip_sgr out = shown s.
Proof.
  intros Hn Hr Hs. pose proof (line_decorated sty sk [PNamed nm s]) as H. cbn [line_str flat_map piece_str piece_shown] in H.
  rewrite !app_nil_r in H. apply H; (constructor; [|constructor]); [|exact Hs]. split; [exact Hn|]. exists p. exact Hr.
Qed.

(* a text without '<' and backslash is its own literal (line numbers, counts) *)
Lemma double_bsl_id : forall s, no_bsl s -> double_bsl s = s.
Proof.
  induction s as [|c|c d r IHr IHd] using list_ind2; intros H; [reflexivity|reflexivity|].
  inversion H as [|? ? Hc Hdr]; subst. rewrite (double_bsl_head c _ Hc), (IHd Hdr). reflexivity.
Qed.
Lemma cut_lt_id tag s : no_lt s -> cut_lt tag s = s.
Proof.
  induction 1 as [|c s Hc Hs IH]; [reflexivity|]. unfold cut_lt in *. cbn [flat_map]. rewrite IH.
  destruct (N.eqb_spec c LT); [contradiction|reflexivity].
Qed.
Lemma literal_safe t tag : safe t -> literal t tag = t.
Proof.
  intros Ht. unfold literal. rewrite (no_bsl_ends t (safe_no_bsl t Ht)), (double_bsl_id t (safe_no_bsl t Ht)).
  apply cut_lt_id, safe_no_lt, Ht.
Qed.
Lemma shown_safe t : safe t -> shown t = t.
Proof. intros Ht. unfold shown. now rewrite (no_bsl_ends t (safe_no_bsl t Ht)). Qed.

(* the highlighter's theme styles are inline styles: they resolve in every style table *)
Lemma theme_tag_name h : tag_name (theme h).
Proof. destruct h; (split; [reflexivity|repeat constructor]). Qed.
Lemma theme_resolvable sty h : resolvable sty (theme h).
Proof.
  unfold resolvable, resolve. set (n := py_lower (theme h)). destruct (aget str_eqb n sty) as [st|]; [eexists; reflexivity|].
  subst n. destruct h; vm_compute; eexists; reflexivity.
Qed.
Theorem styled_plain sty sk h text : colorize sty false sk (styled h text) = Ok (sk, shown text).
Proof.
  destruct (theme_resolvable sty h) as [p Hp]. exact (literal_plain sty sk (theme h) p text (theme_tag_name h) Hp).
Qed.
(* a highlighted source line: the chunks, each with a blank after a trailing backslash *)
Definition chunk_piece (c : chunk) : piece := PLit (theme (fst c)) (snd c).
Lemma render_chunks_line cs : render_chunks cs = line_str (map chunk_piece cs).
Proof. unfold render_chunks, line_str. rewrite flat_map_concat_map, flat_map_concat_map, map_map. reflexivity. Qed.
Lemma chunks_ok sty cs : pieces_ok sty (map chunk_piece cs).
Proof. apply Forall_map, Forall_forall. intros c _. split; [apply theme_tag_name|apply theme_resolvable]. Qed.
Theorem render_chunks_plain sty sk cs :
  colorize sty false sk (render_chunks cs) = Ok (sk, flat_map (fun c => shown (snd c)) cs).
Proof.
  rewrite render_chunks_line, (line_plain sty sk _ (chunks_ok sty cs)). f_equal. f_equal.
  rewrite !flat_map_concat_map, map_map. reflexivity.
Qed.
Theorem render_chunks_decorated sty sk cs : Forall (fun c => no_esc (snd c)) cs ->
  exists out, colorize sty true sk (render_chunks cs) = Ok (sk, out) /\ strip_sgr out = flat_map (fun c => shown (snd c)) cs.
Proof.
  intros Hne. rewrite render_chunks_line.
  destruct (line_decorated sty sk _ (chunks_ok sty cs)) as (out & H1 & H2).
  { apply Forall_map. eapply Forall_impl; [|exact Hne]. intros c Hc. exact Hc. }
  exists out. split; [exact H1|]. rewrite H2, !flat_map_concat_map, map_map. reflexivity.
Qed.

Module Examples.
(* the style table of a formatter made with clikit's <b> (bold) on top of pastel's own four styles *)
Definition cs_b : cstyle :=
  {| c_tag := Some st_b; c_fg := None; c_bg := None; c_bold := true; c_italic := false; c_dark := false;
     c_underlined := false; c_blinking := false; c_inverse := false; c_hidden := false |}.
Definition demo_sty : styles := match new_formatter (FAnsi false) [cs_b] with Ok f => f_styles f | Err _ => [] end.

Definition t_bold : str := [60;98;62;98;111;108;100;60;47;98;62]%N.    (* <b>bold</b> *)
Definition t_esc_lt : str := [97;92;60;98]%N.                          (* a\<b *)
Definition t_bsl_end : str := [120;92]%N.                              (* x\ *)
Definition t_close : str := [60;47;62]%N.                              (* </> *)
Definition t_fg : str := [60;102;103;61;114;101;100;62]%N.             (* <fg=red> *)
Definition t_nl : str := [108;49;10;108;50;60]%N.                      (* l1 NL l2< *)
Definition nasty : list str := [t_bold; t_esc_lt; t_bsl_end; t_close; t_fg; t_nl].

(* the hypotheses of literal_plain hold for the tags the renderer uses *)
Example names_ok : Forall tag_name [th_comment; th_marker; st_green; st_cyan; st_error; st_b].
Proof. repeat constructor. Qed.
Example resolve_comment : exists p, resolve demo_sty (py_lower th_comment) = Ok (Some p). Proof. eexists. vm_compute. reflexivity. Qed.
Example resolve_error : exists p, resolve demo_sty (py_lower st_error) = Ok (Some p). Proof. eexists. vm_compute. reflexivity. Qed.
Example resolve_b : exists p, resolve demo_sty (py_lower st_b) = Ok (Some p). Proof. eexists. vm_compute. reflexivity. Qed.

(* literal_plain and literal_named_plain on the nasty texts: <fg=default;options=dark,italic>...</>, <error>...</error>, <b>...</b> *)
Example shown_nasty : map shown nasty = [t_bold; t_esc_lt; t_bsl_end ++ [32%N]; t_close; t_fg; t_nl].
Proof. vm_compute. reflexivity. Qed.
Example B_tagged : map (fun s => colorize demo_sty false [] (tagged th_comment (literal s th_comment))) nasty
                   = map (fun s => Ok ([], shown s)) nasty.
Proof. vm_compute. reflexivity. Qed.
Example B_error : map (fun s => colorize demo_sty false [] (open_tag st_error ++ literal s st_error ++ close_tag st_error)) nasty
                  = map (fun s => Ok ([], shown s)) nasty.
Proof. vm_compute. reflexivity. Qed.
Example B_b : map (fun s => colorize demo_sty false [] (open_tag st_b ++ literal s st_b ++ close_tag st_b)) nasty
              = map (fun s => Ok ([], shown s)) nasty.
Proof. vm_compute. reflexivity. Qed.
(* what the markup of one of them looks like:  <b><</><b>b>bold<</><b>/b></b>  *)
Example literal_bold : open_tag st_b ++ literal t_bold st_b ++ close_tag st_b
  = [60;98;62; 60;60;47;62;60;98;62; 98;62;98;111;108;100; 60;60;47;62;60;98;62; 47;98;62; 60;47;98;62]%N.
Proof. vm_compute. reflexivity. Qed.
(* without _literal the text would be read as markup: the tags vanish *)
Example unprotected : colorize demo_sty false [] (open_tag st_b ++ t_bold ++ close_tag st_b) = Ok ([], [98;111;108;100]%N).
Proof. vm_compute. reflexivity. Qed.

(* line_plain and line_decorated on a line:  "  12: " <fg=magenta;options=bold>..</> " " <error>..</error> <fg=default>..</> <b>..</b> ... *)
Definition demo_line : list piece :=
  [PRaw [32;32;49;50;58;32]%N; PLit th_keyword t_bold; PRaw [32%N]; PNamed st_error t_esc_lt; PLit th_default t_bsl_end;
   PNamed st_b t_close; PLit th_comment t_fg; PRaw [58%N]; PNamed st_b t_nl; PRaw [32;32]%N].
Example demo_line_ok : pieces_ok demo_sty demo_line.
Proof.
  unfold demo_line. repeat (apply Forall_cons; [|]); try apply Forall_nil;
    try (split; [split; [reflexivity|repeat constructor]|eexists; vm_compute; reflexivity]);
    repeat constructor; discriminate.
Qed.
Example demo_line_noesc : pieces_noesc demo_line.
Proof. unfold demo_line. repeat constructor; discriminate. Qed.
Example C_line : colorize demo_sty false [] (line_str demo_line) = Ok ([], flat_map piece_shown demo_line).
Proof. vm_compute. reflexivity. Qed.
Example C_line_text : flat_map piece_shown demo_line
  = ([32;32;49;50;58;32] ++ t_bold ++ [32] ++ t_esc_lt ++ t_bsl_end ++ [32] ++ t_close ++ t_fg ++ [58] ++ t_nl ++ [32;32])%N.
Proof. vm_compute. reflexivity. Qed.
Example D_line : match colorize demo_sty true [] (line_str demo_line) with
                 | Ok (sk, out) => sk = [] /\ strip_sgr out = flat_map piece_shown demo_line /\ out <> flat_map piece_shown demo_line
                 | Err _ => False
                 end.
Proof. vm_compute. repeat split. discriminate. Qed.
(* the same through the theorems *)
Example C_line_thm : colorize demo_sty false [] (line_str demo_line) = Ok ([], flat_map piece_shown demo_line).
Proof. apply line_plain, demo_line_ok. Qed.
End Examples.

Print Assumptions unescape_double_bsl.
Print Assumptions literal_plain.
Print Assumptions literal_named_plain.
Print Assumptions line_plain.
Print Assumptions colorize_lockstep_gen.
Print Assumptions line_decorated.
Print Assumptions render_chunks_decorated.
