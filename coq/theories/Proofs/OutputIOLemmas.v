(* Model/OutputIO.v, the writing methods of IO over the output model of C11: the notions the IO-level theorems of
   Props/C11.v are stated with. *)
From Coq Require Import Lia.
From Clikit Require Import Base.Prelude Base.Res Model.Conv Model.Markup Model.Gate Model.GateIO Model.OutputM Model.OutputIO
  Proofs.OutputLemmas.

Definition push_out (st : iost) (b : str) : iost :=
  {| io_out := buf_push (io_out st) (o_fmt (io_out st)) b; io_err := io_err st |}.
Definition push_err (st : iost) (b : str) : iost :=
  {| io_out := io_out st; io_err := buf_push (io_err st) (o_fmt (io_err st)) b |}.
(* the output a method belongs to, and the other one *)
Definition out_of (t : which) (st : iost) : outp := match t with WOut => io_out st | WErr => io_err st end.
Definition other_of (t : which) (st : iost) : outp := match t with WOut => io_err st | WErr => io_out st end.

(* write_raw / error_raw append the text as it is: no line feed of their own *)
Lemma io_raw_exact st s :
  io_write st IoWriteRaw s = Ok {| io_out := with_buf (io_out st) (o_fmt (io_out st)) (o_buf (io_out st) ++ s); io_err := io_err st |} /\
  io_write st IoErrorRaw s = Ok {| io_out := io_out st; io_err := with_buf (io_err st) (o_fmt (io_err st)) (o_buf (io_err st) ++ s) |}.
Proof. split; reflexivity. Qed.
