(* Proofs about Model/Section.v (C15): the screen is the stack of the sections' VISIBLE contents - the texts are markup,
   the sections are indented.  The terminal ignores SGR sequences, so a decorated write shows the undecorated rendering
   of its text; good lines put together in one message are rendered one after the other and leave the formatter as it
   was; so one operation on sections whose row counts are right takes a screen that shows their stack to a screen that
   shows the new stack. *)
From Coq Require Import Lia Arith.
From Clikit Require Import Base.Prelude Base.Res Base.Term Model.Conv Model.Markup Model.Section
  Proofs.ListLemmas Proofs.TermLemmas Proofs.MarkupLemmas Proofs.LiteralLemmas Proofs.MarkupShrinkLemmas.
From Clikit Require Proofs.OutputLemmas.

Definition is_sgr (e : emit) : bool := match e with Sgr _ => true | _ => false end.
Definition drop_sgr (es : list emit) : list emit := filter (fun e => negb (is_sgr e)) es.
Lemma feed_drop_sgr w es : forall t, feed w t es = feed w t (drop_sgr es).
Proof.
  induction es as [|e r IH]; intros t; [reflexivity|]. unfold feed in *. cbn [fold_left drop_sgr filter].
  destruct e; cbn [is_sgr negb fold_left]; try apply IH.
Qed.
Lemma drop_sgr_app a b : drop_sgr (a ++ b) = drop_sgr a ++ drop_sgr b.
Proof. unfold drop_sgr. apply filter_app. Qed.
Lemma emits_of_text_app a b : emits_of_text (a ++ b) = emits_of_text a ++ emits_of_text b.
Proof. unfold emits_of_text. apply map_app. Qed.
Lemma drop_sgr_text s : drop_sgr (emits_of_text s) = emits_of_text s.
Proof.
  unfold drop_sgr, emits_of_text. induction s as [|c s IH]; [reflexivity|]. cbn [map filter].
  destruct (N.eqb c LF); cbn [is_sgr negb]; now rewrite IH.
Qed.

Lemma ansi_step_strip e o g c : drop_sgr e = emits_of_text o ->
  snd (ansi_step (e, g) c) = snd (strip_step (o, g) c) /\
  drop_sgr (fst (ansi_step (e, g) c)) = emits_of_text (fst (strip_step (o, g) c)).
Proof.
  intros H. unfold ansi_step, strip_step.
  destruct g as [| |p]; cbn [pending_of].
  - destruct (N.eqb c ESC); cbn [fst snd]; split; try reflexivity; now rewrite drop_sgr_app, drop_sgr_text, H, !emits_of_text_app.
  - destruct (N.eqb c 91); [cbn; auto|].
    destruct (N.eqb c ESC); cbn [fst snd]; split; try reflexivity; now rewrite drop_sgr_app, drop_sgr_text, H, !emits_of_text_app.
  - destruct (is_digit c || N.eqb c SEMI); [cbn; auto|].
    destruct (N.eqb c 109).
    + cbn [fst snd]. split; [reflexivity|]. rewrite drop_sgr_app. cbn. now rewrite app_nil_r.
    + destruct (N.eqb c ESC); cbn [fst snd]; split; try reflexivity; now rewrite drop_sgr_app, drop_sgr_text, H, !emits_of_text_app.
Qed.
Lemma ansi_fold_strip s : forall e o g, drop_sgr e = emits_of_text o ->
  snd (fold_left ansi_step s (e, g)) = snd (fold_left strip_step s (o, g)) /\
  drop_sgr (fst (fold_left ansi_step s (e, g))) = emits_of_text (fst (fold_left strip_step s (o, g))).
Proof.
  induction s as [|c s IH]; intros e o g H; cbn [fold_left]; [auto|].
  destruct (ansi_step_strip e o g c H) as [H1 H2].
  destruct (ansi_step (e, g) c) as [e' g1], (strip_step (o, g) c) as [o' g2]. cbn [fst snd] in *. subst g2. apply IH, H2.
Qed.
Lemma drop_sgr_ansi s : drop_sgr (emits_of_ansi s) = emits_of_text (strip_sgr s).
Proof.
  unfold emits_of_ansi, ansi_end, strip_sgr, strip_end.
  destruct (ansi_fold_strip s [] [] GNone eq_refl) as [H1 H2].
  rewrite drop_sgr_app, drop_sgr_text, emits_of_text_app, H1, H2. reflexivity.
Qed.
Lemma feed_ansi w t s : feed w t (emits_of_ansi s) = feed w t (emits_of_text (strip_sgr s)).
Proof. now rewrite feed_drop_sgr, drop_sgr_ansi. Qed.

(* a message after which the scanner has no tag candidate pending *)
Definition closed (a : str) : Prop := l_cand (fold_left lex_step a lex_init) = CText.
Lemma lex_nl a : closed (a ++ [NL]) /\ lex (a ++ [NL]) = (fst (lex a), snd (lex a) ++ [NL]).
Proof.
  split; [|apply lex_app_inert; constructor; [exact inert_nl|constructor]].
  unfold closed. rewrite fold_left_app. cbn [fold_left]. now rewrite (inert_step _ NL inert_nl).
Qed.
Lemma blanks_P (P : N -> Prop) n : P BLANK -> Forall P (blanks n).
Proof. intros H. unfold blanks. induction n; cbn; constructor; assumption. Qed.
Lemma blanks_no_lt n : no_lt (blanks n).
Proof. apply blanks_P. discriminate. Qed.
Lemma lex_blanks n : closed (blanks n) /\ lex (blanks n) = ([], blanks n).
Proof.
  split; [|apply lex_no_tag, blanks_no_lt]. unfold closed, lex_init. now rewrite (lex_text _ (blanks_no_lt n)).
Qed.
Lemma closed_nil : closed []. Proof. reflexivity. Qed.

(* a message both renderings show alike: no ESC, and no backslash at its end or at the end of a text before a tag, so
   that no tag is escaped *)
Definition mfine (m : str) : Prop :=
  no_esc m /\ ends_with_bsl m = false /\ Forall (fun sg : str * tag => ends_with_bsl (fst sg) = false) (fst (lex m)).
Lemma fineb_mfine m : fineb m = true -> mfine m.
Proof.
  unfold fineb. intros H. apply Bool.andb_true_iff in H as [H H3]. apply Bool.andb_true_iff in H as [H1 H2].
  repeat split.
  - revert H1. apply forallb_Forall. intros c Hc ->. discriminate.
  - now destruct (ends_with_bsl m).
  - revert H3. apply forallb_Forall. intros sg Hsg. now destruct (ends_with_bsl (fst sg)).
Qed.
Lemma mfine_segs m : mfine m -> Forall seg_fine (fst (lex m)) /\ no_esc (snd (lex m)).
Proof.
  intros (H1 & H2 & H3). destruct (lex_P (fun c => c <> ESC) m H1) as [HP HT]. split; [|exact HT].
  pose proof (lex_raws_good m) as HR.
  rewrite Forall_forall in *. intros sg Hsg. destruct (HP sg Hsg) as [Hpre _]. repeat split; auto.
Qed.
Lemma mfine_tail m : mfine m -> ends_with_bsl (snd (lex m)) = false.
Proof. intros (_ & H & _). apply lex_tail_ends, H. Qed.
Lemma mfine_nil : mfine []. Proof. repeat split; constructor. Qed.
Lemma mfine_app a b : closed a -> mfine a -> mfine b -> mfine (a ++ b).
Proof.
  intros Hc Ha Hb. pose proof (mfine_tail a Ha) as Ht. destruct Ha as (A1 & A2 & A3), Hb as (B1 & B2 & B3). repeat split.
  - apply Forall_app. split; assumption.
  - rewrite ends_app. destruct b; assumption.
  - rewrite (lex_app a b Hc). unfold lex_cat. destruct (fst (lex b)) as [|[p t] r]; cbn [fst]; [exact A3|].
    apply Forall_app. split; [exact A3|]. inversion B3 as [|? ? Hp Hr]; subst. constructor; [|exact Hr].
    cbn [fst] in *. rewrite ends_app. destruct p; assumption.
Qed.
Lemma mfine_nl a : mfine a -> mfine (a ++ [NL]).
Proof.
  intros (A1 & A2 & A3). destruct (lex_nl a) as [_ E]. repeat split.
  - apply Forall_app. split; [exact A1|]. constructor; [discriminate|constructor].
  - now rewrite ends_app.
  - rewrite E. exact A3.
Qed.
Lemma mfine_blanks n : mfine (blanks n).
Proof.
  destruct (lex_blanks n) as [_ E]. repeat split.
  - apply blanks_P. discriminate.
  - apply no_bsl_ends, blanks_P. discriminate.
  - rewrite E. constructor.
Qed.

Lemma colorize_plain_nl sty sk a sk1 o1 : mfine a ->
  colorize sty false sk a = Ok (sk1, o1) -> colorize sty false sk (a ++ [NL]) = Ok (sk1, o1 ++ [NL]).
Proof.
  intros (_ & Ha & _) C. rewrite colorize_plain_inert, C; [reflexivity|exact Ha|]. constructor; [exact inert_nl|constructor].
Qed.
Lemma colorize_plain_blanks sty sk n : colorize sty false sk (blanks n) = Ok (sk, blanks n).
Proof. apply colorize_no_lt, blanks_no_lt. Qed.
Lemma colorize_nil sty col sk : colorize sty col sk [] = Ok (sk, []).
Proof. reflexivity. Qed.

(* decorated against undecorated, when the style stack is empty at the end: the same text under the SGR sequences *)
Lemma colorize_deco sty sk m o2 : mfine m -> colorize sty false sk m = Ok ([], o2) ->
  exists o1, colorize sty true sk m = Ok ([], o1) /\ strip_sgr o1 = o2.
Proof.
  intros Hm. destruct (mfine_segs m Hm) as [Hs Ht]. pose proof (mfine_tail m Hm) as Et. destruct Hm as (M1 & _).
  rewrite !colorize_spans. unfold msg_spans. set (tl := snd (lex m)) in *. destruct (fst (lex m)) as [|sg segs'] eqn:E.
  - cbn [bind fst snd]. rewrite !spans_out_nocode. intros H. injection H as -> <-. eexists. split; [reflexivity|].
    apply strips_sgr_strip, strips_text, unescape_P, M1.
  - rewrite <- E in *. destruct (segs_spans sty _ true (fst (lex m)) sk false) as [[[sk' ps] le]|k] eqn:EY; cbn [bind fst snd]; [|discriminate].
    intros H. injection H as -> <-. eexists. split; [reflexivity|].
    rewrite spans_out_app, und_app, spans_out_tail_empty, (spans_out_tail_empty false le tl : und _ = _).
    (* the spans before the tail are in lockstep; the tail does not end with a backslash *)
    apply strips_sgr_strip.
    exact (proj2 (proj2 (lock_app (dec ps) (und ps) tl tl (lock_dec ps (segs_spans_fine _ _ _ _ _ _ _ Hs EY))
                           (conj Et (conj Et (strips_text _ (unescape_P _ _ Ht))))))).
Qed.

Lemma join_cons2 (x y : str) r : join_with NL (x :: y :: r) = (x ++ [NL]) ++ join_with NL (y :: r).
Proof. cbn [join_with]. now rewrite <- app_assoc. Qed.
(* the lines of a text are its pieces between line feeds: what OutputLemmas says of split_on NL holds of lines_of *)
Lemma lines_of_split s : lines_of s = split_on NL s.
Proof. induction s as [|c r IH]; [reflexivity|]. cbn [lines_of split_on]. now rewrite IH. Qed.
Lemma lines_of_ne s : lines_of s <> [].
Proof. rewrite lines_of_split. apply split_on_nonempty. Qed.
Lemma join_lines s : join_with NL (lines_of s) = s.
Proof. rewrite lines_of_split. apply OutputLemmas.join_split. Qed.
Definition no_lf (l : str) : Prop := Forall (fun c => N.eqb c LF = false) l.
Lemma no_lf_no_nl l : no_lf l -> OutputLemmas.no_nl l.
Proof. apply Forall_impl. intros c. apply N.eqb_neq. Qed.
Lemma lines_of_single l : no_lf l -> lines_of l = [l].
Proof. intros H. rewrite lines_of_split. apply OutputLemmas.split_no_nl, no_lf_no_nl, H. Qed.
Lemma lines_of_join ls : ls <> [] -> Forall no_lf ls -> lines_of (join_with NL ls) = ls.
Proof.
  intros Hne H. rewrite lines_of_split. apply OutputLemmas.split_join; [exact Hne|]. eapply Forall_impl; [|exact H]. exact no_lf_no_nl.
Qed.
Lemma lines_of_P (P : N -> Prop) s : Forall P s -> Forall (fun l => Forall P l /\ no_lf l) (lines_of s).
Proof.
  induction 1 as [|c r Hc Hr IH]; cbn [lines_of]; [repeat constructor|]. destruct (N.eqb c LF) eqn:E.
  - constructor; [split; constructor|exact IH].
  - destruct (lines_of r) as [|l ls]; [repeat constructor; assumption|]. inversion IH as [|? ? [Hl Hn] Hls]; subst.
    constructor; [split; constructor; assumption|exact Hls].
Qed.

Definition nl_lines (vs : list str) : str := flat_map (fun v => v ++ [NL]) vs.
Lemma emits_no_lf l : no_lf l -> emits_of_text l = map Ch l.
Proof. unfold emits_of_text. induction 1 as [|c r Hc Hr IH]; cbn; [reflexivity|]. now rewrite Hc, IH. Qed.
Lemma emits_nl_lines vs : Forall no_lf vs -> emits_of_text (nl_lines vs) = flat_map (fun v => map Ch v ++ [Nl]) vs.
Proof.
  induction 1 as [|v r Hv Hr IH]; [reflexivity|]. unfold nl_lines in *. cbn [flat_map].
  rewrite !emits_of_text_app, IH, (emits_no_lf v Hv). reflexivity.
Qed.
Lemma emits_join vs : vs <> [] -> Forall no_lf vs ->
  emits_of_text (join_with NL vs) ++ [Nl] = flat_map (fun v => map Ch v ++ [Nl]) vs.
Proof.
  induction vs as [|v r IH]; intros Hne H; [congruence|]. inversion H as [|? ? Hv Hr]; subst.
  destruct r as [|v2 r].
  - cbn [join_with flat_map]. now rewrite (emits_no_lf v Hv), app_nil_r.
  - rewrite join_cons2. cbn [flat_map]. rewrite !emits_of_text_app, (emits_no_lf v Hv), <- !app_assoc.
    rewrite (IH ltac:(discriminate) Hr). change (emits_of_text [NL]) with [Nl]. cbn [flat_map]. now rewrite <- !app_assoc.
Qed.

Lemma lastn_droplast {X} n (l : list X) : l = droplast n l ++ lastn n l.
Proof. unfold droplast, lastn. symmetry. apply firstn_skipn. Qed.

Lemma set_sec_same st i s : nth_error st i = Some s -> set_sec st i s = st.
Proof.
  unfold set_sec. revert i. induction st as [|x r IH]; intros [|i] H; cbn in *; try discriminate; [now inversion H|].
  now rewrite (IH i H).
Qed.
Lemma Forall_set_sec (Q : sec -> Prop) st i s' : Forall Q st -> Q s' -> Forall Q (set_sec st i s').
Proof.
  intros H Hs. unfold set_sec. apply Forall_app. split; [|constructor; [exact Hs|]].
  - rewrite <- (firstn_skipn i st) in H. apply Forall_app in H. tauto.
  - rewrite <- (firstn_skipn (S i) st) in H. apply Forall_app in H. tauto.
Qed.

(* a formatter that formats (it decorates or strips tags), with the style table sty and an empty style stack *)
Definition pfmt_ok (sty : styles) (f : formatter) : Prop := f_kind f <> FNull /\ f_styles f = sty /\ f_stack f = [].
(* such a formatter comes back as it was from a message that leaves the style stack empty: this is why the formatter
   the sections share can be left out of everything below *)
Lemma remove_format_pok sty f m o : pfmt_ok sty f -> colorize sty false [] m = Ok ([], o) -> remove_format f m = Ok (f, o).
Proof.
  destruct f as [k s st]. unfold pfmt_ok, remove_format. cbn [f_kind f_styles f_stack]. intros (Hk & -> & ->) ->.
  destruct k; [reflexivity..|contradiction].
Qed.

Section W.
Variable w : nat.
Hypothesis w_pos : 1 <= w.
Variable sty : styles.                      (* the style table of the formatter the sections share *)

Definition fmt_ok (f : formatter) : Prop := is_ansi f /\ f_styles f = sty /\ f_stack f = [].
Lemma fmt_pfmt f : fmt_ok f -> pfmt_ok sty f.
Proof. unfold fmt_ok, is_ansi. intros (Hk & Hs & Hst). repeat split; [|exact Hs|exact Hst]. intros E. now rewrite E in Hk. Qed.
Lemma remove_format_ok f m o : fmt_ok f -> colorize sty false [] m = Ok ([], o) -> remove_format f m = Ok (f, o).
Proof. intros Hf. apply remove_format_pok, fmt_pfmt, Hf. Qed.
Lemma format_ok f m o : fmt_ok f -> colorize sty true [] m = Ok ([], o) -> format f m None = Ok (f, o).
Proof.
  destruct f as [k s st]. unfold fmt_ok, is_ansi, format. cbn [f_kind f_styles f_stack]. intros (Hk & -> & ->) ->.
  destruct k; [reflexivity|contradiction..].
Qed.

(* a message the formatter takes from an empty style stack to an empty style stack, and its visible text *)
Definition okmsg (m v : str) : Prop := mfine m /\ colorize sty false [] m = Ok ([], v).
Lemma okmsg_nil : okmsg [] [].
Proof. split; [apply mfine_nil|reflexivity]. Qed.
Lemma okmsg_blanks n : okmsg (blanks n) (blanks n).
Proof. split; [apply mfine_blanks|apply colorize_plain_blanks]. Qed.
Lemma okmsg_app a b va vb : closed a -> okmsg a va -> okmsg b vb -> okmsg (a ++ b) (va ++ vb).
Proof.
  intros Hc [A1 A2] [B1 B2]. split; [apply mfine_app; assumption|].
  exact (colorize_plain_app sty [] a b [] va [] vb Hc (proj2 A1) (proj1 (proj2 B1)) A2 B2).
Qed.
Lemma okmsg_nl a v : okmsg a v -> okmsg (a ++ [NL]) (v ++ [NL]).
Proof. intros [A1 A2]. split; [apply mfine_nl, A1|apply colorize_plain_nl; assumption]. Qed.
Lemma deco_of_plain m v f : okmsg m v -> fmt_ok f -> exists a, format f m None = Ok (f, a) /\ strip_sgr a = v.
Proof.
  intros [Hm Hp] Hf. destruct (colorize_deco sty [] m v Hm Hp) as (a & Ha & Hs). exists a. split; [|exact Hs].
  apply format_ok; assumption.
Qed.

(* the visible text of a line of markup *)
Definition vis (l : str) : str := match colorize sty false [] l with Ok (_, v) => v | Err _ => [] end.
Definition okline (l : str) : Prop := no_lf l /\ mfine l /\ colorize sty false [] l = Ok ([], vis l).
Lemma good_line_ok l : good_lineb sty l = true -> okline l.
Proof.
  unfold good_lineb. intros H. apply Bool.andb_true_iff in H as [H H3]. apply Bool.andb_true_iff in H as [H1 H2].
  split; [|split; [apply fineb_mfine, H2|]].
  - revert H1. apply forallb_Forall. intros c Hc. apply Bool.andb_true_iff in Hc as [Hc _]. now destruct (N.eqb c LF).
  - unfold vis. destruct (colorize sty false [] l) as [[sk v]|e]; [|discriminate]. destruct sk; [reflexivity|discriminate].
Qed.
Lemma good_text_spec text : good_textb sty text = true -> Forall okline (lines_of text).
Proof. apply forallb_Forall, good_line_ok. Qed.
Lemma vis_eq l v : colorize sty false [] l = Ok ([], v) -> vis l = v.
Proof. unfold vis. now intros ->. Qed.
Lemma vis_no_lf l : okline l -> no_lf (vis l).
Proof. intros (H1 & _ & H3). exact (colorize_plain_P _ sty [] l [] (vis l) H1 H3). Qed.
Lemma okline_nil : okline [] /\ vis [] = [].
Proof. repeat split; try constructor. Qed.
Lemma okline_app a b : closed a -> okline a -> okline b -> okline (a ++ b) /\ vis (a ++ b) = vis a ++ vis b.
Proof.
  intros Hc [A1 A2] [B1 B2]. destruct (okmsg_app a b _ _ Hc A2 B2) as [H1 H2]. pose proof (vis_eq _ _ H2) as HV.
  split; [|exact HV]. split; [apply Forall_app; split; assumption|]. split; [exact H1|]. now rewrite HV.
Qed.
Lemma okline_blanks n : closed (blanks n) /\ okline (blanks n) /\ vis (blanks n) = blanks n.
Proof.
  destruct (okmsg_blanks n) as [H1 H2]. pose proof (vis_eq _ _ H2) as HV. split; [apply lex_blanks|]. split; [|exact HV].
  split; [apply blanks_P; reflexivity|]. split; [exact H1|]. now rewrite HV.
Qed.
Lemma okline_indent n l : okline l -> okline (blanks n ++ l) /\ vis (blanks n ++ l) = blanks n ++ vis l.
Proof.
  intros Hl. destruct (okline_blanks n) as (Hc & Hb & HV). rewrite <- HV at 3. apply okline_app; assumption.
Qed.

Lemma okmsg_line l m v : okline l -> okmsg m v -> okmsg ((l ++ [NL]) ++ m) ((vis l ++ [NL]) ++ v).
Proof. intros (_ & L) Hm. apply okmsg_app; [apply lex_nl|apply okmsg_nl, L|exact Hm]. Qed.
Lemma nl_lines_plain ls : Forall okline ls -> okmsg (nl_lines ls) (nl_lines (map vis ls)).
Proof. induction 1 as [|l r Hl Hr IH]; [apply okmsg_nil|]. apply okmsg_line; assumption. Qed.
Lemma join_plain es : es <> [] -> Forall okline es -> okmsg (join_with NL es) (join_with NL (map vis es)).
Proof.
  induction es as [|x r IH]; intros Hne H; [congruence|]. inversion H as [|? ? Hx Hr]; subst.
  destruct r as [|y r]; [apply Hx|]. cbn [map]. rewrite !join_cons2. apply okmsg_line; [exact Hx|].
  apply IH; [discriminate|exact Hr].
Qed.

Definition line_rows (v : str) : list row := fill w [] v.
Definition vrows (ls : list str) : list row := flat_map (fun c => line_rows (vis c)) ls.     (* content lines -> rows *)
Definition sec_rows (s : sec) : list row := vrows (sc_content s).
Definition stacked (st : secs) : list row := flat_map sec_rows st.
Definition scr (R : list row) : term := {| rows := R ++ [[]]; cr := length R; cc := 0 |}.
Definition screen (st : secs) : term := scr (stacked st).
Definition sec_ok (s : sec) : Prop := sc_lines s = length (sec_rows s) /\ Forall okline (sc_content s).

Lemma count_rows_fill l : count_rows w l = length (line_rows l).
Proof.
  unfold count_rows, line_rows. rewrite (fill_length w w_pos l []) by (cbn; lia). cbn [length].
  destruct (length l) as [|n] eqn:E; [reflexivity|].
  replace (0 + S n - 1) with n by lia. replace (S n + w - 1) with (1 * w + n) by lia.
  rewrite Nat.div_add_l by lia. lia.
Qed.
Lemma feed_lines : forall vs R,
  feed w (scr R) (flat_map (fun l => map Ch l ++ [Nl]) vs) = scr (R ++ flat_map line_rows vs).
Proof.
  unfold scr. induction vs as [|l r IH]; intros R; cbn [flat_map].
  - now rewrite app_nil_r.
  - rewrite feed_app, (feed_line w w_pos l R).
    replace (length R + length (fill w [] l)) with (length (R ++ fill w [] l)) by (rewrite app_length; reflexivity).
    rewrite app_assoc, (IH (R ++ fill w [] l)).
    unfold line_rows. now rewrite <- !app_assoc.
Qed.
Lemma stacked_app A B : stacked (A ++ B) = stacked A ++ stacked B.
Proof. unfold stacked. apply flat_map_app. Qed.
Lemma stacked_set_sec st i s' : stacked (set_sec st i s') = stacked (firstn i st) ++ sec_rows s' ++ stacked (newer st i).
Proof. unfold set_sec. now rewrite stacked_app. Qed.
Lemma stacked_split st i s : nth_error st i = Some s -> stacked st = stacked (firstn i st) ++ sec_rows s ++ stacked (newer st i).
Proof. intros H. now rewrite <- stacked_set_sec, (set_sec_same st i s H). Qed.
Lemma vrows_app a b : vrows (a ++ b) = vrows a ++ vrows b.
Proof. unfold vrows. apply flat_map_app. Qed.
Lemma vrows_vis ls : vrows ls = flat_map line_rows (map vis ls).
Proof. unfold vrows. now rewrite flat_map_map. Qed.
Lemma feed_vis ls R : feed w (scr R) (flat_map (fun v => map Ch v ++ [Nl]) (map vis ls)) = scr (R ++ vrows ls).
Proof. rewrite vrows_vis. apply feed_lines. Qed.

Lemma measure_ok : forall ls f acc, fmt_ok f -> Forall okline ls -> measure w f ls acc = Ok (f, acc + length (vrows ls)).
Proof.
  induction ls as [|l r IH]; intros f acc Hf H; cbn [measure].
  - cbn. now rewrite Nat.add_0_r.
  - inversion H as [|? ? (_ & _ & L3) Hr]; subst. rewrite (remove_format_ok f l (vis l) Hf L3). cbn [bind fst snd].
    rewrite (IH f _ Hf Hr), count_rows_fill. unfold vrows. cbn [flat_map]. now rewrite app_length, Nat.add_assoc.
Qed.

(* the newer sections printed again, in one format call *)
Lemma content_str_all B : flat_map content_str B = nl_lines (flat_map sc_content B).
Proof. unfold content_str, nl_lines. now rewrite flat_map_flat_map. Qed.
Lemma stacked_all B : stacked B = vrows (flat_map sc_content B).
Proof. unfold stacked, sec_rows, vrows. now rewrite flat_map_flat_map. Qed.
Lemma reprint_ok B f : fmt_ok f -> Forall sec_ok B ->
  exists a, format f (flat_map content_str B) None = Ok (f, a) /\
            forall R, feed w (scr R) (emits_of_ansi a) = scr (R ++ stacked B).
Proof.
  intros Hf Hok. rewrite content_str_all, stacked_all. set (ls := flat_map sc_content B).
  assert (Forall okline ls) as Hls.
  { apply Forall_flat_map. eapply Forall_impl; [|exact Hok]. intros s [_ H]. exact H. }
  destruct (deco_of_plain _ _ f (nl_lines_plain ls Hls) Hf) as (a & E & Hs). exists a. split; [exact E|]. intros R.
  rewrite feed_ansi, Hs, emits_nl_lines; [apply feed_vis|].
  apply Forall_map. eapply Forall_impl; [|exact Hls]. exact vis_no_lf.
Qed.

(* the written text: its lines as the stream gets them and as add_content keeps them *)
Lemma indent_text_join n text : indent_text n text = join_with NL (content_lines n text).
Proof. unfold indent_text, content_lines. destruct (Nat.eqb n 0); [now rewrite join_lines|reflexivity]. Qed.
Lemma content_lines_ok n text : Forall okline (lines_of text) -> Forall okline (content_lines n text) /\ content_lines n text <> [].
Proof.
  intros H. pose proof (lines_of_ne text) as Hne. unfold content_lines. destruct (Nat.eqb n 0); [split; assumption|]. split.
  - apply Forall_map. eapply Forall_impl; [|exact H]. intros l Hl. unfold indent_line. destruct l; [exact Hl|].
    apply okline_indent, Hl.
  - destruct (lines_of text); [contradiction|discriminate].
Qed.
Lemma write_ok f n text : fmt_ok f -> Forall okline (lines_of text) ->
  exists a, format f (indent_text n text) None = Ok (f, a) /\
            forall R, feed w (scr R) (emits_of_ansi a ++ [Nl]) = scr (R ++ vrows (content_lines n text)).
Proof.
  intros Hf H. destruct (content_lines_ok n text H) as [Hes Hne]. rewrite indent_text_join.
  destruct (deco_of_plain _ _ f (join_plain _ Hne Hes) Hf) as (a & E & Hs). exists a. split; [exact E|]. intros R.
  assert (map vis (content_lines n text) <> []) as Hne' by (destruct (content_lines n text); [contradiction|discriminate]).
  rewrite feed_drop_sgr, drop_sgr_app, drop_sgr_ansi, Hs. change (drop_sgr [Nl]) with [Nl].
  rewrite emits_join; [apply feed_vis|exact Hne'|].
  apply Forall_map. eapply Forall_impl; [|exact Hes]. exact vis_no_lf.
Qed.

(* _pop_stream_content_until_current_section: the cursor goes up over the rows to clear and the rows of the newer
   sections (their row counts are right), and everything from there on is erased *)
Lemma pop_ctl_feed st i R gone : Forall sec_ok (newer st i) ->
  feed w (scr (R ++ gone ++ stacked (newer st i))) (pop_ctl st i (length gone)) = scr R.
Proof.
  intros Hok. unfold pop_ctl.
  assert (forall B x, Forall sec_ok B -> fold_left (fun a s => a + sc_lines s) B x = x + length (stacked B)) as H.
  { induction B as [|s r IH]; intros x HB; cbn; [lia|]. inversion HB as [|? ? [Hl _] Hr]; subst.
    rewrite IH by assumption. unfold stacked. cbn [flat_map]. rewrite app_length, Hl. fold (stacked r). lia. }
  rewrite (H _ 0 Hok). cbn [Nat.add]. rewrite <- app_length. set (G := gone ++ stacked (newer st i)). unfold scr.
  destruct (Nat.eqb (length G) 0) eqn:E.
  - apply Nat.eqb_eq in E. destruct G; [|cbn in E; lia]. cbn. now rewrite !app_nil_r.
  - rewrite <- app_assoc, app_length. apply (up_erase w R G).
Qed.

(* the screen is the stack, every row count is right, the style stack is empty: the premise of the section statements of
   Props/C16.v (through ProgressFrameLemmas.sec_out) *)
Definition Inv (st : secs) (f : formatter) (t : term) : Prop := t = screen st /\ Forall sec_ok st /\ fmt_ok f.

Lemma sec_ok_at st i s : Forall sec_ok st -> nth_error st i = Some s -> sec_ok s /\ Forall sec_ok (newer st i).
Proof.
  intros Hok Hn. split; [exact (Forall_nth_error _ _ _ _ Hok Hn)|].
  unfold newer. rewrite <- (firstn_skipn (S i) st) in Hok. apply Forall_app in Hok. tauto.
Qed.
(* The statements speak of a terminal that shows complete rows P above the sections (P = [] is the empty terminal of Inv):
   the cursor never goes above the first section's first row, so P stays.  The formatter comes back as it was. *)
Lemma write_step st f i text nl s : Forall sec_ok st -> fmt_ok f -> nth_error st i = Some s -> Forall okline (lines_of text) ->
  let ls := content_lines (sc_indent s) text in
  let s' := {| sc_content := sc_content s ++ ls; sc_lines := sc_lines s + length (vrows ls); sc_indent := sc_indent s |} in
  exists es, sstep_ansi w st f (SWrite i text nl) = Ok (set_sec st i s', f, es) /\ sec_ok s' /\
    forall P, feed w (scr (P ++ stacked st)) es = scr (P ++ stacked (set_sec st i s')).
Proof.
  intros Hok Hf Hn Hlines ls s'. destruct (content_lines_ok (sc_indent s) text Hlines) as [Hcl _]. fold ls in Hcl.
  destruct (sec_ok_at st i s Hok Hn) as [[Hl Hc] HB].
  cbn [sstep_ansi]. rewrite Hn. fold ls. rewrite (measure_ok ls f (sc_lines s) Hf Hcl). cbn [bind fst snd]. fold s'.
  destruct (write_ok f (sc_indent s) text Hf Hlines) as (a & E2 & F2). rewrite E2. cbn [bind fst snd].
  destruct (reprint_ok (newer st i) f Hf HB) as (a2 & E3 & F3). unfold erased. rewrite E3. cbn [bind fst snd].
  assert (sec_rows s' = sec_rows s ++ vrows ls) as Hrows by apply vrows_app.
  eexists. split; [reflexivity|]. split.
  - split; [rewrite Hrows, app_length, <- Hl; reflexivity|]. apply Forall_app. split; assumption.
  - intros P. rewrite (stacked_split st i s Hn), stacked_set_sec, Hrows, !feed_app.
    rewrite (app_assoc P), (app_assoc (P ++ _)). rewrite (pop_ctl_feed st i _ [] HB).
    rewrite <- (feed_app w _ (emits_of_ansi a) [Nl]), F2, F3. now rewrite <- !app_assoc.
Qed.
Lemma clear_step st f i n s : Forall sec_ok st -> fmt_ok f -> nth_error st i = Some s ->
  exists s' es, sstep_ansi w st f (SClear i n) = Ok (set_sec st i s', f, es) /\ sec_ok s' /\
    forall P, feed w (scr (P ++ stacked st)) es = scr (P ++ stacked (set_sec st i s')).
Proof.
  intros Hok Hf Hn. destruct (sec_ok_at st i s Hok Hn) as [[Hl Hc] HB].
  cbn [sstep_ansi]. rewrite Hn. destruct (sc_content s) as [|c0 cs] eqn:Ec.
  { exists s, []. rewrite (set_sec_same st i s Hn). split; [reflexivity|]. split; [|reflexivity]. split; [exact Hl|now rewrite Ec]. }
  rewrite <- Ec in *.
  (* the lines kept and the lines that go *)
  assert (exists keep gone, sc_content s = keep ++ gone /\
            match n with
            | Some (S k) => do m <- measure w f (lastn (S k) (sc_content s)) 0; Ok (droplast (S k) (sc_content s), snd m, fst m)
            | _ => Ok ([], sc_lines s, f)
            end = Ok (keep, length (vrows gone), f)) as (keep & gone & Hsplit & Hkr).
  { destruct n as [[|k]|].
    1, 3: exists [], (sc_content s); split; [reflexivity|now rewrite Hl].
    exists (droplast (S k) (sc_content s)), (lastn (S k) (sc_content s)). split; [apply lastn_droplast|].
    rewrite measure_ok; [reflexivity|exact Hf|]. rewrite (lastn_droplast (S k) (sc_content s)) in Hc. apply Forall_app in Hc. tauto. }
  rewrite Hkr. cbn [bind]. destruct (reprint_ok (newer st i) f Hf HB) as (a & E & F). unfold erased. rewrite E. cbn [bind fst snd].
  set (s' := {| sc_content := keep; sc_lines := sc_lines s - length (vrows gone); sc_indent := sc_indent s |}).
  assert (sec_rows s = sec_rows s' ++ vrows gone) as Hrows by (unfold sec_rows; rewrite Hsplit; apply vrows_app).
  exists s'. eexists. split; [reflexivity|]. split.
  - split; [unfold s' at 1; cbn [sc_lines]; rewrite Hl, Hrows, app_length; lia|]. rewrite Hsplit in Hc. apply Forall_app in Hc. apply Hc.
  - intros P. rewrite (stacked_split st i s Hn), stacked_set_sec, Hrows, feed_app.
    rewrite <- (app_assoc (sec_rows s')), (app_assoc P), (app_assoc (P ++ _)), (pop_ctl_feed st i _ _ HB), F.
    now rewrite <- !app_assoc.
Qed.

(* r is a step on good sections st: it raises nothing, hands the formatter back, leaves good sections, and takes a screen
   that shows st under any rows P to the screen that shows the new sections under P *)
Definition stack_step (st : secs) (f : formatter) (r : res (secs * formatter * list emit)) : Prop :=
  exists st' es, r = Ok (st', f, es) /\ Forall sec_ok st' /\
    forall P, feed w (scr (P ++ stacked st)) es = scr (P ++ stacked st').
Lemma stack_step_none st f : Forall sec_ok st -> stack_step st f (Ok (st, f, [])).
Proof. intros H. exists st, []. auto. Qed.
Lemma stack_step_set st f i r : Forall sec_ok st ->
  (exists s' es, r = Ok (set_sec st i s', f, es) /\ sec_ok s' /\
     forall P, feed w (scr (P ++ stacked st)) es = scr (P ++ stacked (set_sec st i s'))) -> stack_step st f r.
Proof. intros Hok (s' & es & E & Hs & HP). exists (set_sec st i s'), es. split; [exact E|]. split; [apply Forall_set_sec; assumption|exact HP]. Qed.
(* two steps in a row, as sstep composes overwrite and srun composes a run *)
Lemma stack_step_seq st f a (k : secs -> formatter -> res (secs * formatter * list emit)) :
  stack_step st f a -> (forall st1, Forall sec_ok st1 -> stack_step st1 f (k st1 f)) ->
  stack_step st f (do x <- a; do y <- k (fst (fst x)) (snd (fst x)); Ok (fst (fst y), snd (fst y), snd x ++ snd y)).
Proof.
  intros (st1 & e1 & -> & H1 & P1) Hk. destruct (Hk st1 H1) as (st2 & e2 & E2 & H2 & P2). cbn [bind fst snd]. rewrite E2.
  exists st2, (e1 ++ e2). split; [reflexivity|]. split; [exact H2|]. intros P. now rewrite feed_app, P1, P2.
Qed.

Lemma write_stack st f i text nl : Forall sec_ok st -> fmt_ok f -> good_textb sty text = true ->
  stack_step st f (sstep_ansi w st f (SWrite i text nl)).
Proof.
  intros Hok Hf Hg. destruct (nth_error st i) as [s|] eqn:Hn.
  - apply (stack_step_set st f i _ Hok). eexists. apply (write_step st f i text nl s Hok Hf Hn (good_text_spec _ Hg)).
  - cbn [sstep_ansi]. rewrite Hn. apply stack_step_none, Hok.
Qed.
Lemma clear_stack st f i n : Forall sec_ok st -> fmt_ok f -> stack_step st f (sstep_ansi w st f (SClear i n)).
Proof.
  intros Hok Hf. destruct (nth_error st i) as [s|] eqn:Hn.
  - apply (stack_step_set st f i _ Hok), (clear_step st f i n s Hok Hf Hn).
  - cbn [sstep_ansi]. rewrite Hn. apply stack_step_none, Hok.
Qed.
Lemma step_stack st f o : Forall sec_ok st -> fmt_ok f -> good_opb sty o = true -> stack_step st f (sstep w st f o).
Proof.
  intros Hok Hf Hg. destruct o as [ind|i0 text0|i text nl|i text|i n|i n]; cbn [sstep good_opb] in *.
  - (* a new section has no rows *)
    exists (st ++ [new_sec ind]), []. split; [reflexivity|]. split.
    + apply Forall_app. split; [exact Hok|]. repeat constructor.
    + intros P. rewrite stacked_app. cbn. now rewrite app_nil_r.
  - discriminate.      (* add_content alone is outside the class *)
  - apply write_stack; assumption.
  - (* overwrite = clear, then write_line *)
    apply (stack_step_seq st f _ (fun st1 f1 => sstep_ansi w st1 f1 (SWrite i text true))); [apply clear_stack; assumption|].
    intros st1 H1. apply write_stack; assumption.
  - apply clear_stack; assumption.
  - (* indent: nothing on the screen changes *)
    cbn [sstep_ansi]. destruct (nth_error st i) as [s|] eqn:Hn; [|apply stack_step_none, Hok].
    destruct (Forall_nth_error _ _ _ _ Hok Hn) as [Hl Hc]. apply (stack_step_set st f i _ Hok). exists (with_indent s n), [].
    split; [reflexivity|]. split; [split; assumption|]. intros P. now rewrite stacked_set_sec, (stacked_split st i s Hn).
Qed.
Lemma run_stack ops : forall st f, Forall sec_ok st -> fmt_ok f -> good_opsb sty ops = true -> stack_step st f (srun true w st f ops).
Proof.
  induction ops as [|o r IH]; intros st f Hok Hf Hg; cbn [srun]; [apply stack_step_none, Hok|].
  cbn [good_opsb forallb] in Hg. apply Bool.andb_true_iff in Hg as [Hg1 Hg2].
  apply (stack_step_seq st f _ (fun st1 f1 => srun true w st1 f1 r)); [apply step_stack; assumption|].
  intros st1 H1. apply IH; assumption.
Qed.
End W.

(* a run from no sections at all: P = [] is the empty terminal of screen_is_stack, any P is rows_above_are_kept (Props/C15.v) *)
Lemma run_from_empty w : 1 <= w -> forall f0 ops, is_ansi f0 -> f_stack f0 = [] -> good_opsb (f_styles f0) ops = true ->
  exists st es, srun true w [] f0 ops = Ok (st, f0, es) /\ Forall (sec_ok w (f_styles f0)) st /\
    forall P, feed w (scr P) es = scr (P ++ stacked w (f_styles f0) st).
Proof.
  intros w_pos f0 ops Hk Hs Hg.
  destruct (run_stack w w_pos (f_styles f0) ops [] f0 (Forall_nil _) (conj Hk (conj eq_refl Hs)) Hg) as (st & es & E & Hok & HP).
  exists st, es. split; [exact E|]. split; [exact Hok|]. intros P. rewrite <- HP. cbn [stacked flat_map]. now rewrite app_nil_r.
Qed.
Lemma screen_is_stack_lemma w : 1 <= w -> forall f0 ops, is_ansi f0 -> f_stack f0 = [] ->
  good_opsb (f_styles f0) ops = true ->
  exists st f es, srun true w [] f0 ops = Ok (st, f, es) /\
    feed w term_init es = screen w (f_styles f0) st /\ Forall (sec_ok w (f_styles f0)) st /\ fmt_ok (f_styles f0) f.
Proof.
  intros w_pos f0 ops Hk Hs Hg. destruct (run_from_empty w w_pos f0 ops Hk Hs Hg) as (st & es & E & Hok & HP).
  exists st, f0, es. split; [exact E|]. split; [exact (HP [])|]. split; [exact Hok|]. repeat split; assumption.
Qed.

Definition plain_char (c : N) : Prop := c <> LT /\ c <> BSL /\ c <> ESC /\ c <> TAB.
Definition plain_text (t : str) : Prop := Forall plain_char t.
Definition plain_op (o : sop) : Prop :=
  match o with SWrite _ t _ | SOverwrite _ t => plain_text t | SIndent _ n => n = 0 | SCreate ind => ind = 0
             | SAddContent _ _ => False | _ => True end.

Lemma plain_safe l : Forall plain_char l -> safe l.
Proof. apply Forall_impl. intros c (H1 & H2 & _). auto. Qed.
Lemma plain_colorize sty sk l : Forall plain_char l -> colorize sty false sk l = Ok (sk, l).
Proof. intros H. apply colorize_no_lt, safe_no_lt, plain_safe, H. Qed.
Lemma plain_vis sty l : Forall plain_char l -> vis sty l = l.
Proof. intros H. unfold vis. now rewrite plain_colorize. Qed.
Lemma plain_line_good sty l : Forall plain_char l -> no_lf l -> good_lineb sty l = true.
Proof.
  intros H Hn. pose proof (plain_safe l H) as Hs. unfold good_lineb, fineb.
  rewrite (plain_colorize sty [] l H), (lex_no_tag l (safe_no_lt l Hs)), (no_bsl_ends l (safe_no_bsl l Hs)).
  cbn [fst forallb negb andb]. rewrite !Bool.andb_true_r. unfold no_lf in Hn. rewrite Forall_forall in H, Hn.
  apply Bool.andb_true_iff. split; apply forallb_forall; intros c Hc; destruct (H c Hc) as (_ & _ & He & Ht).
  - rewrite (Hn c Hc). destruct (N.eqb_spec c TAB); [contradiction|reflexivity].
  - destruct (N.eqb_spec c ESC); [contradiction|reflexivity].
Qed.
Lemma plain_text_good sty text : plain_text text -> good_textb sty text = true.
Proof.
  intros H. apply forallb_forall. intros l Hl. pose proof (lines_of_P _ text H) as HP. rewrite Forall_forall in HP.
  apply plain_line_good; apply (HP l Hl).
Qed.
Lemma plain_ops_good sty ops : Forall plain_op ops -> good_opsb sty ops = true.
Proof.
  intros H. apply forallb_forall. intros o Ho. rewrite Forall_forall in H. specialize (H o Ho).
  destruct o; cbn [good_opb plain_op] in *; try reflexivity; try contradiction; apply plain_text_good, H.
Qed.

(* the content lines of a run of plain operations are the lines written: plain, not indented *)
Definition all_plain (st : secs) : Prop := Forall (fun s => Forall (Forall plain_char) (sc_content s) /\ sc_indent s = 0) st.
Lemma step_ansi_plain w st f o st' f' es : plain_op o -> all_plain st -> sstep_ansi w st f o = Ok (st', f', es) -> all_plain st'.
Proof.
  intros Ho Ha H. destruct o as [ind|i0 text0|i text nl|i text|i n|i n]; cbn [sstep_ansi plain_op] in *; try contradiction.
  - inversion H; subst. apply Forall_app. split; [exact Ha|]. repeat constructor.
  - destruct (nth_error st i) as [s|] eqn:Hn; [|inversion H; subst; exact Ha].
    destruct (Forall_nth_error _ _ _ _ Ha Hn) as [Hc Hi]. bind_inv H m Hm. bind_inv H x Hx. bind_inv H y Hy. inversion H; subst.
    apply Forall_set_sec; [exact Ha|]. split; [|exact Hi]. cbn [sc_content]. apply Forall_app. split; [exact Hc|].
    rewrite Hi. eapply Forall_impl; [|exact (lines_of_P _ text Ho)]. intros l [Hl _]. exact Hl.
  - inversion H; subst. exact Ha.
  - destruct (nth_error st i) as [s|] eqn:Hn; [|inversion H; subst; exact Ha].
    destruct (Forall_nth_error _ _ _ _ Ha Hn) as [Hc Hi].
    destruct (sc_content s) as [|c0 cs] eqn:Ec; [inversion H; subst; exact Ha|]. rewrite <- Ec in *.
    bind_inv H kr Hkr. destruct kr as [[keep rc] f1]. bind_inv H y Hy. inversion H; subst.
    apply Forall_set_sec; [exact Ha|]. split; [|exact Hi]. cbn [sc_content].
    (* the lines kept are none or the first ones *)
    destruct n as [[|k]|]; [inversion Hkr; constructor| |inversion Hkr; constructor].
    bind_inv Hkr m Hm. inversion Hkr; subst. rewrite (lastn_droplast (S k) (sc_content s)) in Hc. apply Forall_app in Hc. apply Hc.
  - subst n. destruct (nth_error st i) as [s|] eqn:Hn; inversion H; subst; [|exact Ha].
    apply Forall_set_sec; [exact Ha|]. destruct (Forall_nth_error _ _ _ _ Ha Hn) as [Hc _]. split; [exact Hc|reflexivity].
Qed.
Lemma run_plain w ops : forall st f st' f' es, Forall plain_op ops -> all_plain st ->
  srun true w st f ops = Ok (st', f', es) -> all_plain st'.
Proof.
  induction ops as [|o r IH]; intros st f st' f' es Ho Ha H; cbn [srun] in H; [inversion H; subst; exact Ha|].
  inversion Ho as [|? ? Ho1 Hor]; subst. bind_inv H a Ea. bind_inv H b Eb. inversion H; subst.
  destruct a as [[st1 f1] e1], b as [[st2 f2] e2]. cbn [fst snd] in *. eapply (IH st1 f1); [exact Hor| |exact Eb]. clear Eb.
  destruct o as [ind|i0 text0|i text nl|i text|i n|i n]; try exact (step_ansi_plain w st f _ _ _ _ Ho1 Ha Ea).
  (* overwrite = clear, then write_line *)
  cbn [sstep] in Ea. bind_inv Ea x Ex. bind_inv Ea y Ey. inversion Ea; subst. destruct x as [[sx fx] ex], y as [[sy fy] ey].
  exact (step_ansi_plain w _ _ (SWrite i text true) _ _ _ Ho1 (step_ansi_plain w st f (SClear i None) _ _ _ I Ha Ex) Ey).
Qed.

(* the rows of the raw content lines *)
Definition plain_rows (w : nat) (st : secs) : list (list N) := flat_map (fun s => flat_map (fill w []) (sc_content s)) st.
Definition plain_screen (w : nat) (st : secs) : term := scr (plain_rows w st).
Lemma plain_sec_rows w sty s : Forall (Forall plain_char) (sc_content s) -> sec_rows w sty s = flat_map (fill w []) (sc_content s).
Proof.
  unfold sec_rows, vrows, line_rows. induction 1 as [|l ls Hl Hls IH]; cbn [flat_map]; [reflexivity|]. now rewrite IH, (plain_vis sty l Hl).
Qed.
Lemma plain_stacked w sty st : all_plain st -> stacked w sty st = plain_rows w st.
Proof.
  unfold stacked, plain_rows. induction 1 as [|s r [Hs _] Hr IH]; cbn [flat_map]; [reflexivity|]. now rewrite IH, (plain_sec_rows w sty s Hs).
Qed.

Definition plain_emit (e : emit) : bool := match e with Ch _ | Nl => true | _ => false end.
Lemma emits_of_text_plain s : forallb plain_emit (emits_of_text s) = true.
Proof. unfold emits_of_text. induction s as [|c r IH]; cbn; [reflexivity|]. destruct (N.eqb c LF); cbn; exact IH. Qed.
Lemma sstep_plain_emits w st f o r : sstep_plain w st f o = Ok r -> forallb plain_emit (snd r) = true.
Proof.
  assert (forall i text nl, sstep_plain w st f (SWrite i text nl) = Ok r -> forallb plain_emit (snd r) = true) as HW.
  { intros i text nl H. cbn [sstep_plain] in H. destruct (nth_error st i); [|inversion H; reflexivity].
    unfold write_plain in H. bind_inv H y Hy. bind_inv Hy x Hx. inversion Hy; subst. inversion H; subst. cbn [snd].
    rewrite forallb_app, emits_of_text_plain. destruct nl; reflexivity. }
  destruct o as [ind|i0 text0|i text nl|i text|i n|i n]; [|..|]; try exact (HW i text _); cbn [sstep_plain]; intros H.
  - inversion H; reflexivity.
  - unfold add_content_step in H. destruct (nth_error st i0); [|inversion H; reflexivity]. bind_inv H m Hm. inversion H; reflexivity.
  - inversion H; reflexivity.
  - destruct (nth_error st i); inversion H; reflexivity.
Qed.


(* what an undecorated run puts on the stream, said without the formatter: for every write / write_line / overwrite on a
   section that exists, the VISIBLE text of the indented lines of the text, joined by line feeds, and one more line feed
   after write_line / overwrite; nothing for section(), indent, clear.  inds: the indentation of every section. *)
Definition set_ind (inds : list nat) (i n : nat) : list nat :=
  match nth_error inds i with Some _ => firstn i inds ++ n :: skipn (S i) inds | None => inds end.
Definition vis_text (sty : styles) (n : nat) (text : str) : str := join_with NL (map (vis sty) (content_lines n text)).
Fixpoint plain_out (sty : styles) (inds : list nat) (ops : list sop) : list emit :=
  match ops with
  | [] => []
  | SCreate k :: r => plain_out sty (inds ++ [k]) r
  | SIndent i n :: r => plain_out sty (set_ind inds i n) r
  | SWrite i text nl :: r =>
    (match nth_error inds i with Some n => emits_of_text (vis_text sty n text) ++ (if nl then [Nl] else []) | None => [] end)
    ++ plain_out sty inds r
  | SOverwrite i text :: r =>
    (match nth_error inds i with Some n => emits_of_text (vis_text sty n text) ++ [Nl] | None => [] end) ++ plain_out sty inds r
  | _ :: r => plain_out sty inds r
  end.

Lemma write_plain_ok sty f n text nl : pfmt_ok sty f -> good_textb sty text = true ->
  write_plain f n text nl = Ok (f, emits_of_text (vis_text sty n text) ++ (if nl then [Nl] else [])).
Proof.
  intros Hf Hg. destruct (content_lines_ok sty n text (good_text_spec sty text Hg)) as [Hes Hne].
  unfold write_plain. rewrite indent_text_join, (remove_format_pok sty f _ _ Hf (proj2 (join_plain sty _ Hne Hes))). reflexivity.
Qed.
Lemma map_indent_set st i s n : nth_error st i = Some s ->
  map sc_indent (set_sec st i (with_indent s n)) = set_ind (map sc_indent st) i n.
Proof.
  intros H. unfold set_sec, set_ind. rewrite (map_nth_error sc_indent _ _ H), map_app. cbn [map with_indent sc_indent].
  now rewrite firstn_map, skipn_map.
Qed.
Lemma nth_indent st i : nth_error (map sc_indent st) i = option_map sc_indent (nth_error st i).
Proof.
  destruct (nth_error st i) as [s|] eqn:E; [exact (map_nth_error sc_indent _ _ E)|].
  apply nth_error_None. rewrite map_length. now apply nth_error_None.
Qed.
Lemma sstep_plain_appends w sty st f o : pfmt_ok sty f -> good_opb sty o = true ->
  exists st' es, sstep_plain w st f o = Ok (st', f, es) /\
    forall r, plain_out sty (map sc_indent st) (o :: r) = es ++ plain_out sty (map sc_indent st') r.
Proof.
  intros Hf Hg.
  assert (forall i text nl, good_textb sty text = true -> exists es, sstep_plain w st f (SWrite i text nl) = Ok (st, f, es) /\
            forall r, plain_out sty (map sc_indent st) (SWrite i text nl :: r) = es ++ plain_out sty (map sc_indent st) r) as HW.
  { intros i text nl Ht. cbn [sstep_plain plain_out]. rewrite nth_indent. destruct (nth_error st i) as [s|]; cbn [option_map].
    - rewrite (write_plain_ok sty f (sc_indent s) text nl Hf Ht). cbn [bind fst snd]. eauto.
    - exists []. auto. }
  destruct o as [ind|i0 text0|i text nl|i text|i n|i n]; cbn [sstep_plain plain_out good_opb] in *.
  - exists (st ++ [new_sec ind]), []. split; [reflexivity|]. intros r. now rewrite map_app.
  - discriminate.
  - exists st. apply HW, Hg.
  - exists st. apply (HW i text true), Hg.
  - exists st, []. auto.
  - destruct (nth_error st i) as [s|] eqn:En.
    + exists (set_sec st i (with_indent s n)), []. split; [reflexivity|]. intros r. now rewrite (map_indent_set st i s n En).
    + exists st, []. split; [reflexivity|]. intros r. unfold set_ind. now rewrite nth_indent, En.
Qed.
Lemma vis_no_esc sty l : okline sty l -> no_esc (vis sty l).
Proof. intros (_ & (H1 & _) & H3). exact (colorize_plain_P _ sty [] l [] (vis sty l) H1 H3). Qed.
Lemma join_no_esc (ls : list str) : Forall no_esc ls -> no_esc (join_with NL ls).
Proof.
  induction 1 as [|l r Hl Hr IH]; [constructor|]. destruct r as [|y r]; cbn [join_with]; [exact Hl|].
  apply Forall_app. split; [exact Hl|]. constructor; [discriminate|exact IH].
Qed.
Lemma emits_no_esc s : no_esc s -> Forall (fun e => e <> Ch ESC) (emits_of_text s).
Proof.
  unfold emits_of_text. induction 1 as [|c r Hc Hr IH]; cbn [map]; constructor; [|exact IH].
  destruct (N.eqb c LF); [discriminate|]. intros E. inversion E. contradiction.
Qed.
Lemma vis_text_no_esc sty n text : good_textb sty text = true -> no_esc (vis_text sty n text).
Proof.
  intros Hg. destruct (content_lines_ok sty n text (good_text_spec sty text Hg)) as [Hes _].
  apply join_no_esc, Forall_map. eapply Forall_impl; [|exact Hes]. apply vis_no_esc.
Qed.
