(* C02: instances of conversion_is_all_that_is_left and lenient_extends_strict, the clauses over a format WITH a base,
   and a divergence of the model from the code that the hypothesis opts_ok_w hides: a value-optional option whose
   default is a float (or, typed INTEGER, a float; or a list) - see OutsideDomain below. *)
From Coq Require Import Lia String Ascii.
From Clikit Require Import Base.Prelude Base.Res Model.Conv Model.Flags Model.Format Model.Parser Model.Spell
     Proofs.ParserLemmas Proofs.SpellDenote Proofs.SpellLemmas Proofs.FmtOkLemmas Proofs.SpellArgs Proofs.SpellOpts
     Proofs.ClassifyLemmas Proofs.ClassifyLineLemmas.

Module MoreExamples.
  Import SpellExamples FmtOkExamples LineExamples ValueExamples.

  (* conversion_is_all_that_is_left (parse_form_line):
     U1 = srv add h1 --num=5 http   over F1 = server add <host> [<port:int>] [<files>...]: the written forms are
     fine, the values fit in number and reach the required argument; the parse IS the conversion of what the line
     stores, and that fails on "http".  W2 = the same with 8080: the conversion succeeds. *)
  Example conversion_instance :
    forms_ok F1 U1 = true /\ shape (get_arguments_all F1) (values U1) = true /\ req_ok (get_arguments_all F1) (values U1) = true /\
    (forall len, parse F1 len (render U1) =
       do a1 <- set_arguments F1 {| ar_opts := []; ar_args := [] |} (place (get_arguments_all F1) (values U1));
       set_options F1 a1 (fold_left raw_event (events U1) [])) /\
    place (get_arguments_all F1) (values U1) = [(s "host", RStr (s "h1")); (s "port", RStr (s "http"))] /\
    set_arguments F1 {| ar_opts := []; ar_args := [] |} (place (get_arguments_all F1) (values U1)) = Err ValueError /\
    (forall len, parse F1 len (render W2) =
       do a1 <- set_arguments F1 {| ar_opts := []; ar_args := [] |} (place (get_arguments_all F1) (values W2));
       set_options F1 a1 (fold_left raw_event (events W2) [])) /\
    (do a1 <- set_arguments F1 {| ar_opts := []; ar_args := [] |} (place (get_arguments_all F1) (values W2));
     set_options F1 a1 (fold_left raw_event (events W2) [])) =
      Ok {| ar_opts := [(s "num", VInt 5)]; ar_args := [(s "host", VStr (s "h1")); (s "port", VInt 8080)] |}.
  Proof.
    split; [vm_compute; reflexivity|]. split; [vm_compute; reflexivity|]. split; [vm_compute; reflexivity|].
    split; [intros len; apply parse_form_line; vm_compute; reflexivity|].
    split; [vm_compute; reflexivity|]. split; [vm_compute; reflexivity|].
    split; [intros len; apply parse_form_line; vm_compute; reflexivity|]. vm_compute. reflexivity.
  Qed.

  (* lenient_extends_strict: the strict result, carried over by the theorem; and the converse is false *)
  Definition Tk (l : list string) : list str := map s l.
  Definition ok_line := Tk ["srv"; "add"; "h1"; "--num=5"; "-vq"; "8080"; "--"; "-x"]%string.
  Example lenient_extends_strict_instance :
    parse F1 false ok_line =
      Ok {| ar_opts := [(s "num", VInt 5); (s "verbose", VBool true); (s "quiet", VBool true)];
            ar_args := [(s "host", VStr (s "h1")); (s "port", VInt 8080); (s "files", VList [VStr (s "-x")])] |} /\
    parse F1 true ok_line = parse F1 false ok_line /\
    (* not conversely: lenient parsing accepts lines strict parsing rejects *)
    parse F1 false (Tk ["h1"; "--nope"; "--verbose=1"]%string) = Err NoSuchOption /\
    parse F1 true (Tk ["h1"; "--nope"; "--verbose=1"]%string) = Ok {| ar_opts := []; ar_args := [(s "host", VStr (s "h1"))] |}.
  Proof.
    assert (parse F1 false ok_line =
      Ok {| ar_opts := [(s "num", VInt 5); (s "verbose", VBool true); (s "quiet", VBool true)];
            ar_args := [(s "host", VStr (s "h1")); (s "port", VInt 8080); (s "files", VList [VStr (s "-x")])] |}) as H
      by (vm_compute; reflexivity).
    split; [exact H|]. split; [rewrite H; exact (lenient_extends_strict_lemma F1 ok_line _ H)|].
    split; vm_compute; reflexivity.
  Qed.

  (* a format WITH a base:
     G (FmtOkExamples; api_format): own command name add, arguments [<port:int>] [<files>...], options --num/-n (value
     required, int), --tag/-t (multi), --level; INHERITED command name server/srv, argument <host>, options
     --verbose/-v, --quiet/-q (flags), --color/-c (value optional).  One fault each, around the well-formed line D1 / on
     mutated lines; the error kinds theorem through the augmented format of G. *)
  Definition G' := fst (fst (aug_of G)).  Definition Gar := snd (fst (aug_of G)).  Definition Gcn := snd (aug_of G).
  Lemma G_aug : aug_format G = Ok (G', Gar, Gcn).  Proof. vm_compute. reflexivity. Qed.
  Lemma G_listed_ok : opts_listed_ok G = true.  Proof. vm_compute. reflexivity. Qed.
  Lemma G_opts_ok_w : opts_ok_w G'.  Proof. exact (opts_listed_ok_w G G' Gar Gcn G_aug G_listed_ok). Qed.
  Definition M1b := L [s "srv"; s "add"] [IFlag o_verbose false; IVal o_num LongSep (s "5")] None.
  Example over_a_base :
    f_base G <> None /\ api_format G /\ fmt_ok G = true /\ wf_line G D1 = true /\
    map fst (get_options_all G) = [s "num"; s "tag"; s "level"; s "verbose"; s "quiet"; s "color"] /\
    map fst (f_opts G) = [s "num"; s "tag"; s "level"] /\
    (* clause 1, unknown option, between the items of D1 *)
    parse G false (insert_tok D1 3 (s "--nope")) = Err NoSuchOption /\
    parse G false (insert_tok D1 4 (s "-vz")) = Err NoSuchOption /\
    (* clause 2, a value for the INHERITED flag --quiet *)
    parse G false (insert_tok D1 0 (s "--quiet=1")) = Err CannotParse /\
    (* clause 3, the value of the OWN option --num left out (an option follows) *)
    parse G false (insert_tok D1 2 (s "--num")) = Err CannotParse /\
    (* clause 4, the INHERITED required argument host gets no value: srv add -v --num 5 *)
    parse G false (render M1b) = Err CannotParse /\
    (* clause 6, the OWN typed argument port: srv add h1 --num=5 http; the own option --num: ... --num=five ... *)
    (forall len, parse G len (render U1) = Err ValueError) /\
    (forall len, parse G len (render U3) = Err ValueError) /\
    (* every error of every line, both modes *)
    (forall len toks k, parse G len toks = Err k -> allowed k /\ (len = true -> k = ValueError)) /\
    (forall toks, parse G true toks <> Err CannotParse /\ parse G true toks <> Err NoSuchOption).
  Proof.
    split; [vm_compute; discriminate|]. split; [exact G_api|]. split; [exact G_fmt_ok_computed|]. split; [exact G_line_ok|].
    split; [vm_compute; reflexivity|]. split; [vm_compute; reflexivity|].
    split; [refine (malformed_in_line_rejected G D1 3 _ _ G_fmt_ok_computed G_line_ok (mf_unknown_long G (s "nope") _ _ _ _));
            [discriminate|vm_compute; reflexivity|vm_compute; reflexivity]|].
    split; [refine (malformed_in_line_rejected G D1 4 _ _ G_fmt_ok_computed G_line_ok (mf_unknown_short G [118%N] 122%N [] _ _ _ _));
            vm_compute; reflexivity|].
    split; [refine (malformed_in_line_rejected G D1 0 _ _ G_fmt_ok_computed G_line_ok (mf_flag_value G o_quiet (s "quiet") (s "1") _ _ _ _ _));
            [vm_compute; tauto|vm_compute; reflexivity|vm_compute; reflexivity|vm_compute; reflexivity]|].
    split; [refine (malformed_in_line_rejected G D1 2 _ _ G_fmt_ok_computed G_line_ok (mf_value_missing G o_num (s "num") _ _ _ _ _ _ _));
            [vm_compute; tauto|vm_compute; reflexivity|discriminate|vm_compute; reflexivity|vm_compute; reflexivity|vm_compute; reflexivity]|].
    split; [apply line_missing_required; vm_compute; reflexivity|].
    split; [apply line_unconvertible_positional; vm_compute; reflexivity|].
    split; [apply (line_unconvertible_item G U3 [IPos (s "h1")] (IVal o_num LongEq (s "five")) [IPos (s "8080")] o_num (s "five"));
            try (vm_compute; reflexivity); right; vm_compute; reflexivity|].
    split; [intros len toks k; exact (parse_error_kinds_w G len toks G' Gar Gcn G_aug G_opts_ok_w k)|].
    exact (line_lenient_no_parse_error G G_fmt_ok_computed G_listed_ok).
  Qed.
End MoreExamples.

(* Outside the domain of opts_ok_w: a MODEL / CODE DIVERGENCE hidden by the hypothesis.
   opts_ok_w asks conv_input (o_default o) - the default is None, a bool, an int or a str - of every option whose value
   is not required.  Three valid API objects that are outside (all three: opt_ok_wb = false), and the bare option:
     Option("lvl", "l", OPTIONAL_VALUE | INTEGER, default=0.5), "x --lvl":
        model : Err (Other 9) in BOTH modes - not one of the three documented kinds, so the conclusion of
                strict_error_kinds_w FAILS for this format: the hypothesis is necessary IN THE MODEL;
        Python: DefaultArgsParser().parse succeeds with {'lvl': 0}   (parse_int(0.5) = int(0.5)).
     Option("lst", None, OPTIONAL_VALUE, default=['a']), "x --lst":
        model : Err (Other 9);  Python: succeeds with {'lst': "['a']"}   (str(list)).
     Option("ratio", "r", OPTIONAL_VALUE | FLOAT, default=0.5), "x --ratio":
        model : Ok {'ratio': 0.5} = Python.  Here the hypothesis is merely stronger than needed (no divergence).
   The model's typed conversion (Conv.parse_typed) converts None/bool/int/str inputs (and a float to FLOAT) and answers
   Other 9 for a float to INTEGER and for a list.  The C02 generator never uses such defaults, so the tie does not see it. *)
Module OutsideDomain.
  Open Scope string_scope.
  Definition o_lvl := mkopt "lvl" (Some "l") (16 + 512) (VFloat (S_ "0.5")).          (* OPTIONAL_VALUE | INTEGER, default 0.5 *)
  Definition o_lst := mkopt "lst" None 16 (VList [VStr (S_ "a")]).                     (* OPTIONAL_VALUE | STRING, default ['a'] *)
  Definition o_ratio := mkopt "ratio" (Some "r") (16 + 1024) (VFloat (S_ "0.5")).     (* OPTIONAL_VALUE | FLOAT, default 0.5 *)
  Definition fA := fmt_of (ex_args ++ [EOpt o_ratio]).
  Definition fB := fmt_of (ex_args ++ [EOpt o_lvl]).
  Definition fC := fmt_of (ex_args ++ [EOpt o_lst]).
  Definition fB' := fst (fst (aug_of fB)).
  Lemma fB_aug : aug_format fB = Ok (fB', snd (fst (aug_of fB)), snd (aug_of fB)).  Proof. vm_compute. reflexivity. Qed.
  Example outside_domain :
    opt_ok_wb o_lvl = false /\ opt_ok_wb o_lst = false /\ opt_ok_wb o_ratio = false /\
    opts_listed_ok fB = false /\ ~ opts_ok_w fB' /\ Spell.fmt_ok fB = true /\
    parse fB false (T ["x"; "--lvl"]) = Err (Other 9) /\ parse fB true (T ["x"; "--lvl"]) = Err (Other 9) /\
    ~ allowed (Other 9) /\
    parse fC false (T ["x"; "--lst"]) = Err (Other 9) /\ parse fC true (T ["x"; "--lst"]) = Err (Other 9) /\
    (* the FLOAT option with a float default is excluded by the hypothesis although the model handles it *)
    parse fA false (T ["x"; "--ratio"]) =
      Ok {| ar_opts := [(S_ "ratio", VFloat (S_ "0.5"))]; ar_args := [(S_ "src", VStr (S_ "x"))] |} /\
    (* with the value written out the INTEGER option is inside the model *)
    parse fB false (T ["x"; "--lvl=7"]) =
      Ok {| ar_opts := [(S_ "lvl", VInt 7)]; ar_args := [(S_ "src", VStr (S_ "x"))] |}.
  Proof.
    split; [vm_compute; reflexivity|]. split; [vm_compute; reflexivity|]. split; [vm_compute; reflexivity|].
    split; [vm_compute; reflexivity|]. split.
    { intros H. destruct (H (S_ "lvl") o_lvl) as [_ Hc]; [vm_compute; reflexivity|].
      specialize (Hc eq_refl). vm_compute in Hc. discriminate. }
    split; [vm_compute; reflexivity|]. split; [vm_compute; reflexivity|]. split; [vm_compute; reflexivity|].
    split; [intros [H|[H|H]]; discriminate|].
    split; [vm_compute; reflexivity|]. split; [vm_compute; reflexivity|]. split; vm_compute; reflexivity.
  Qed.
  Close Scope string_scope.
End OutsideDomain.
