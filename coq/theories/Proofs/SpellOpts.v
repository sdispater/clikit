(* C01 (parse_spells), part 1: how the token loop of the parser model reads the option items of a
   line description (Model/Spell.v). *)
From Coq Require Import Lia.
From Clikit Require Import Base.Prelude Base.Res Model.Conv Model.Flags Model.Format Model.Parser Model.Spell
     Proofs.StrLemmas Proofs.DictLemmas Proofs.FormatLemmas Proofs.ParserLemmas.

Lemma pyval_eqb_eq : forall a b, pyval_eqb a b = true -> a = b.
Proof.
  fix IH 1. intros [| x | x | x | x | l] [| y | y | y | y | m]; cbn; try discriminate; intros H.
  - reflexivity.
  - apply eqb_prop in H. congruence.
  - apply Z.eqb_eq in H. congruence.
  - destruct (str_eqb_spec x y); [congruence|discriminate].
  - destruct (str_eqb_spec x y); [congruence|discriminate].
  - f_equal. revert m H. induction l as [|x l IHl]; intros [|y m] H; try discriminate; [reflexivity|].
    apply andb_prop in H as [H1 H2]. f_equal; [apply IH; exact H1|apply IHl; exact H2].
Qed.
Lemma ostr_eqb_eq a b : ostr_eqb a b = true -> a = b.
Proof. destruct a as [x|], b as [y|]; cbn; try discriminate; [|reflexivity]. destruct (str_eqb_spec x y); [congruence|discriminate]. Qed.
Lemma opt_eqb_eq a b : opt_eqb a b = true -> a = b.
Proof.
  unfold opt_eqb. intros H. apply andb_prop in H as [H H4]. apply andb_prop in H as [H H3]. apply andb_prop in H as [H1 H2].
  destruct a, b; cbn in *. destruct (str_eqb_spec o_long o_long0); [|discriminate].
  apply ostr_eqb_eq in H2. apply Z.eqb_eq in H3. apply pyval_eqb_eq in H4. congruence.
Qed.
Lemma arg_eqb_eq a b : arg_eqb a b = true -> a = b.
Proof.
  unfold arg_eqb. intros H. apply andb_prop in H as [H H3]. apply andb_prop in H as [H1 H2].
  destruct a, b; cbn in *. destruct (str_eqb_spec a_name a_name0); [|discriminate].
  apply Z.eqb_eq in H2. apply pyval_eqb_eq in H3. congruence.
Qed.
Lemma list_eqb_eq {X} (eqb : X -> X -> bool) : (forall x y, eqb x y = true -> x = y) ->
  forall l m, list_eqb eqb l m = true -> l = m.
Proof.
  intros He. induction l as [|x l IH]; intros [|y m]; cbn; try discriminate; [reflexivity|].
  intros H. apply andb_prop in H as [H1 H2]. f_equal; [apply He; exact H1|apply IH; exact H2].
Qed.
Lemma narg_eqb_eq p q : narg_eqb p q = true -> p = q.
Proof.
  unfold narg_eqb. intros H. apply andb_prop in H as [H1 H2]. destruct p, q; cbn in *.
  apply str_eqb_eq in H1. apply arg_eqb_eq in H2. congruence.
Qed.
Lemma nodupb_NoDup l : nodupb l = true -> NoDup l.
Proof.
  induction l as [|x l IH]; cbn; [constructor|]. intros H. apply andb_prop in H as [H1 H2].
  constructor; [apply existsb_str_in; now destruct (existsb (str_eqb x) l)|auto].
Qed.

Lemma get_option_has f n o : get_option_all f n = Ok o -> has_option_all f n = true.
Proof.
  induction f as [cn co cs ar os oss hm ho|bf cn co cs ar os oss hm ho IH] using fmt_ind';
    cbn [has_option_all get_option_all]; rewrite !shas_sget;
    destruct (sget n os); [reflexivity| |reflexivity|]; (destruct (sget n oss); [reflexivity|]); cbn.
  - discriminate.
  - exact IH.
Qed.
Lemma names_opt_get g n o : names_opt g n o = true -> get_option g n true = Ok o /\ has_option g n true = true.
Proof.
  unfold names_opt. destruct (get_option g n true) as [o'|] eqn:E; [|discriminate].
  intros H. apply opt_eqb_eq in H. subst o'. split; [reflexivity|]. eapply get_option_has. exact E.
Qed.

Definition raw_event (po : list (str * rawopt)) (e : opt * given) : list (str * rawopt) :=
  let o := fst e in
  match snd e with
  | GTrue => sset (o_long o) OTrue po
  | GDefault => sset (o_long o) (ODefault (o_default o)) po
  | GText s =>
      if o_multi o then
        sset (o_long o) (OList (match sget (o_long o) po with Some (OList l) => l | _ => [] end ++ [s])) po
      else sset (o_long o) (OStr s) po
  end.
Definition st_ev (st : pstate) (e : opt * given) : pstate :=
  {| ps_args := ps_args st; ps_opts := raw_event (ps_opts st) e |}.
Definition st_evs (st : pstate) (es : list (opt * given)) : pstate := fold_left st_ev es st.
Lemma st_evs_app st a b : st_evs st (a ++ b) = st_evs (st_evs st a) b.
Proof. apply fold_left_app. Qed.
Lemma st_evs_args st es : ps_args (st_evs st es) = ps_args st.
Proof. revert st. induction es as [|e r IH]; intros st; cbn; [reflexivity|]. unfold st_evs in IH. rewrite IH. reflexivity. Qed.
Lemma st_evs_opts st es : ps_opts (st_evs st es) = fold_left raw_event es (ps_opts st).
Proof. revert st. induction es as [|e r IH]; intros st; cbn; [reflexivity|]. unfold st_evs in IH. rewrite IH. reflexivity. Qed.

(* the next token cannot be taken for a value *)
Definition next_dash (toks : list str) : bool :=
  match toks with [] => true | t :: _ => nonempty t && starts_dash t end.

Definition known (g : fmt) (o : opt) : Prop :=
  get_option g (o_long o) true = Ok o /\ has_option g (o_long o) true = true.

Lemma is_flag_inv o : is_flag o = true ->
  o_accepts o = false /\ o_required o = false /\ o_optional o = false /\ o_multi o = false.
Proof.
  unfold is_flag. intros H. apply andb_prop in H as [H Hm]. apply andb_prop in H as [H Hop]. apply andb_prop in H as [Ha Hr].
  now apply negb_true_iff in Ha, Hr, Hop, Hm.
Qed.
Lemma is_bare_inv o : is_bare o = true ->
  o_accepts o = true /\ o_required o = false /\ o_optional o = true /\ o_multi o = false /\
  res_ok (parse_typed (o_type o) (o_nullable o) (o_default o)) = true.
Proof.
  unfold is_bare. intros H. apply andb_prop in H as [H Hc]. apply andb_prop in H as [H Hm]. apply andb_prop in H as [H Hop].
  apply andb_prop in H as [Ha Hr]. now apply negb_true_iff in Hr, Hm.
Qed.
Lemma is_flag_acc o : is_flag o = true -> o_accepts o = false.
Proof. intros H. apply (is_flag_inv o H). Qed.
Lemma is_bare_acc o : is_bare o = true -> o_accepts o = true.
Proof. intros H. apply (is_bare_inv o H). Qed.

Section AddLong.
  Variable g : fmt.
  Variable o : opt.
  Hypothesis Hk : known g o.

  Lemma add_long_flag st toks : is_flag o = true ->
    add_long_option g st (o_long o) None toks = Ok (st_ev st (o, GTrue), toks).
  Proof.
    destruct Hk as [Hg Hh]. intros H. apply is_flag_inv in H as (Ha & Hr & Hop & Hm).
    unfold add_long_option. rewrite Hh, Hg. cbn [negb bind]. rewrite Ha, Hr, Hm, Hop. reflexivity.
  Qed.

  Lemma add_long_text st s toks : o_accepts o = true -> nonempty s = true ->
    add_long_option g st (o_long o) (Some s) toks = Ok (st_ev st (o, GText s), toks).
  Proof.
    destruct Hk as [Hg Hh]. intros Ha Hs.
    unfold add_long_option. rewrite Hh, Hg. cbn [negb bind]. rewrite Ha. cbn [negb].
    destruct s as [|c s]; [discriminate|]. unfold st_ev, raw_event. cbn [fst snd ps_args ps_opts].
    destruct (o_multi o); reflexivity.
  Qed.

  Lemma add_long_sep st s toks : o_accepts o = true -> plain_tok s = true ->
    add_long_option g st (o_long o) None (s :: toks) = Ok (st_ev st (o, GText s), toks).
  Proof.
    destruct Hk as [Hg Hh]. intros Ha Hs. unfold plain_tok in Hs.
    unfold add_long_option. rewrite Hh, Hg. cbn [negb bind]. rewrite Ha, Hs.
    destruct s as [|c s]; [discriminate|]. unfold st_ev, raw_event. cbn [fst snd ps_args ps_opts].
    destruct (o_multi o); reflexivity.
  Qed.

  Lemma add_long_bare st toks : is_bare o = true -> next_dash toks = true ->
    add_long_option g st (o_long o) None toks = Ok (st_ev st (o, GDefault), toks).
  Proof.
    destruct Hk as [Hg Hh]. intros H Hn. apply is_bare_inv in H as (Ha & Hr & Hop & Hm & _).
    unfold add_long_option. rewrite Hh, Hg. cbn [negb bind]. rewrite Ha.
    destruct toks as [|nxt rest].
    - rewrite Hr, Hm, Hop. reflexivity.
    - cbn [next_dash] in Hn. apply andb_prop in Hn as [H1 H2]. rewrite H1, H2. cbn [negb andb].
      rewrite Hr, Hm, Hop. reflexivity.
  Qed.
End AddLong.

Lemma loop_arg g len fuel p st tok rest :
  (p = true -> pos_tok tok = true) ->
  loop (S fuel) g len p st (tok :: rest) =
  match parse_argument g len st tok with
  | Ok st' => loop fuel g len p st' rest
  | Err k => (st, Some k)
  end.
Proof.
  intros H. cbn [loop]. destruct p; [|reflexivity]. specialize (H eq_refl). cbn [andb].
  destruct (nonempty tok) eqn:H1; [|reflexivity]. cbn [negb].
  unfold pos_tok in H. destruct (str_eqb_spec tok [DASH]) as [->|Hne]; [reflexivity|].
  rewrite orb_false_r in H. apply negb_true_iff in H.
  assert (is_dd tok = false) as H3.
  { unfold is_dd. destruct (str_eqb_spec tok [DASH; DASH]) as [->|]; [discriminate H|reflexivity]. }
  assert (starts_dd tok = false) as H4.
  { destruct tok as [|a [|b r]]; try reflexivity. cbn in H |- *. rewrite H. reflexivity. }
  rewrite H3, H4, H. reflexivity.
Qed.
Lemma loop_dd g len fuel st rest :
  loop (S fuel) g len true st ([DASH; DASH] :: rest) = loop fuel g len false st rest.
Proof. reflexivity. Qed.

Lemma long_tok_class o x : nonempty (o_long o) = true ->
  nonempty (long_tok o ++ x) = true /\ is_dd (long_tok o ++ x) = false /\ starts_dd (long_tok o ++ x) = true.
Proof.
  intros H. unfold long_tok. destruct (o_long o) as [|c r]; [discriminate|]. cbn. repeat split; reflexivity.
Qed.
Lemma short_tok_class c x : N.eqb c DASH = false ->
  let tok := DASH :: c :: x in
  nonempty tok = true /\ starts_dd tok = false /\ starts_dash tok = true /\ str_eqb tok [DASH] = false.
Proof. intros H. cbn. rewrite H. repeat split; reflexivity. Qed.

Lemma split_eq_none n : no_eq n = true -> forall acc, split_eq n acc = None.
Proof.
  induction n as [|c r IH]; cbn; [reflexivity|]. intros H acc. apply andb_prop in H as [H1 H2].
  apply negb_true_iff in H1. rewrite H1. apply IH. exact H2.
Qed.
Lemma split_eq_some n v : no_eq n = true -> forall acc, split_eq (n ++ EQ :: v) acc = Some (rev acc ++ n, v).
Proof.
  induction n as [|c r IH]; cbn; intros H acc.
  - now rewrite app_nil_r.
  - apply andb_prop in H as [H1 H2]. apply negb_true_iff in H1. rewrite H1, IH by exact H2. cbn.
    now rewrite <- app_assoc.
Qed.

Lemma take_value_plain s rest : plain_tok s = true -> take_value (s :: rest) = (Some s, rest).
Proof.
  unfold plain_tok. intros H. apply andb_prop in H as [H1 H2]. apply negb_true_iff in H2.
  cbn [take_value]. rewrite H1, H2. reflexivity.
Qed.
Lemma take_value_dash toks : next_dash toks = true -> take_value toks = (None, toks).
Proof. destruct toks as [|t r]; cbn; [reflexivity|]. intros H. rewrite H. reflexivity. Qed.

Lemma accepts_known g o n : get_option g n true = Ok o -> has_option g n true = true -> accepts g n = o_accepts o.
Proof. intros H1 H2. unfold accepts. rewrite H2, H1. reflexivity. Qed.

Lemma plain_nonempty s : plain_tok s = true -> nonempty s = true.
Proof. unfold plain_tok. intros H. now apply andb_prop in H as [H _]. Qed.

(* "--name" and "-c" are read alike: the option looks ahead for its value if it takes one *)
Definition by_name (g : fmt) (st : pstate) (o : opt) (toks : list str) : res (pstate * list str) :=
  if o_accepts o then let '(v, toks') := take_value toks in add_long_option g st (o_long o) v toks'
  else add_long_option g st (o_long o) None toks.

Section ByName.
  Variables (g : fmt) (o : opt).
  Hypothesis Hk : known g o.

  Lemma by_name_flag st rest : is_flag o = true -> by_name g st o rest = Ok (st_ev st (o, GTrue), rest).
  Proof. intros Hf. unfold by_name. rewrite (is_flag_acc o Hf). now apply add_long_flag. Qed.
  Lemma by_name_sep st s rest : o_accepts o = true -> plain_tok s = true ->
    by_name g st o (s :: rest) = Ok (st_ev st (o, GText s), rest).
  Proof.
    intros Ha Hs. unfold by_name. rewrite Ha, take_value_plain by exact Hs.
    apply add_long_text; [exact Hk|exact Ha|exact (plain_nonempty s Hs)].
  Qed.
  Lemma by_name_bare st rest : is_bare o = true -> next_dash rest = true ->
    by_name g st o rest = Ok (st_ev st (o, GDefault), rest).
  Proof. intros Hb Hn. unfold by_name. rewrite (is_bare_acc o Hb), take_value_dash by exact Hn. now apply add_long_bare. Qed.
End ByName.

Section LongForms.
  Variable g : fmt.
  Variable o : opt.
  Hypothesis Hk : known g o.
  Hypothesis Hne : no_eq (o_long o) = true.

  Lemma long_by_name st rest : parse_long_option g st (long_tok o) rest = by_name g st o rest.
  Proof.
    unfold parse_long_option, by_name. change (skipn 2 (long_tok o)) with (o_long o).
    rewrite split_eq_none by exact Hne. destruct Hk as [Hg Hh]. now rewrite (accepts_known g o _ Hg Hh).
  Qed.
  Lemma long_eq_text st s rest : o_accepts o = true -> nonempty s = true ->
    parse_long_option g st (long_tok o ++ EQ :: s) rest = Ok (st_ev st (o, GText s), rest).
  Proof.
    intros Ha Hs. unfold parse_long_option. change (skipn 2 (long_tok o ++ EQ :: s)) with (o_long o ++ EQ :: s).
    rewrite split_eq_some by exact Hne. cbn [rev app]. apply add_long_text; assumption.
  Qed.
End LongForms.

Definition short_known (g : fmt) (o : opt) (c : N) : Prop :=
  o_short o = Some [c] /\ N.eqb c DASH = false /\ get_option g [c] true = Ok o /\ has_option g [c] true = true.
Lemma short_ok_inv g o : short_ok g o = true -> exists c, short_known g o c.
Proof.
  unfold short_ok. destruct (o_short o) as [[|c [|c2 r]]|] eqn:E; try discriminate.
  intros H. apply andb_prop in H as [H1 H2]. apply negb_true_iff in H1. apply names_opt_get in H2 as [H2 H3].
  exists c. repeat split; assumption.
Qed.
Lemma short_char_known g o c : short_known g o c -> short_char o = [c].
Proof. intros [H _]. unfold short_char. rewrite H. reflexivity. Qed.

Lemma loop_short_ok g len fuel st tok rest st' rest' :
  nonempty tok = true -> starts_dd tok = false -> starts_dash tok = true -> str_eqb tok [DASH] = false ->
  fst (parse_short_option g st tok rest) = Ok (st', rest') ->
  loop (S fuel) g len true st (tok :: rest) = loop fuel g len true st' rest'.
Proof.
  intros H1 H2 H3 H4 H.
  assert (is_dd tok = false) as H5.
  { unfold is_dd. destruct (str_eqb_spec tok [DASH; DASH]) as [->|]; [discriminate H2|reflexivity]. }
  cbn [loop]. rewrite H1. cbn [andb negb]. rewrite H5, H2, H3, H4.
  destruct (parse_short_option g st tok rest) as [r s2]. cbn [fst] in H. rewrite H. reflexivity.
Qed.

Section ShortForms.
  Variable g : fmt.
  Variable o : opt.
  Variable c : N.
  Hypothesis Hk : known g o.
  Hypothesis Hs : short_known g o c.

  Lemma add_short_is_long st v toks : add_short_option g st [c] v toks = add_long_option g st (o_long o) v toks.
  Proof. destruct Hs as (_ & _ & Hg & Hh). unfold add_short_option. rewrite Hh, Hg. reflexivity. Qed.
  Lemma acc_short : accepts g [c] = o_accepts o.
  Proof. destruct Hs as (_ & _ & Hg & Hh). apply accepts_known; assumption. Qed.

  Lemma short_by_name st rest : fst (parse_short_option g st [DASH; c] rest) = by_name g st o rest.
  Proof.
    unfold parse_short_option, by_name. cbn [skipn]. rewrite acc_short.
    destruct (o_accepts o); [destruct (take_value rest) as [v t]|]; rewrite add_short_is_long; reflexivity.
  Qed.
  Lemma short_glued_text st s rest : o_accepts o = true -> nonempty s = true ->
    fst (parse_short_option g st (DASH :: c :: s) rest) = Ok (st_ev st (o, GText s), rest).
  Proof.
    intros Ha Hn. unfold parse_short_option. cbn [skipn]. destruct s as [|c2 s]; [discriminate|].
    rewrite acc_short, Ha, add_short_is_long, (add_long_text g o Hk) by assumption. reflexivity.
  Qed.
End ShortForms.

Definition gflag_ok (g : fmt) (o : opt) : Prop := known g o /\ is_flag o = true /\ exists c, short_known g o c.
Definition flag_events (fl : list opt) : list (opt * given) := map (fun o => (o, GTrue)) fl.

Lemma short_set_flags g : forall fl st chars toks, Forall (gflag_ok g) fl ->
  short_set g st (flat_map short_char fl ++ chars) toks = short_set g (st_evs st (flag_events fl)) chars toks.
Proof.
  induction fl as [|o fl IH]; intros st chars toks Hf; [reflexivity|].
  inversion Hf as [|? ? (Hk & Hfl & c & Hs) Hr]; subst.
  cbn [flat_map]. rewrite (short_char_known g o c Hs). cbn [app short_set].
  destruct Hs as (_ & _ & Hg & Hh). rewrite Hh, Hg. cbn [negb].
  rewrite (is_flag_acc o Hfl), (add_long_flag g o Hk) by exact Hfl. rewrite IH by exact Hr. reflexivity.
Qed.

Lemma short_set_last g o c st x toks v toks' :
  short_known g o c -> o_accepts o = true ->
  add_long_option g st (o_long o) (match x with [] => None | _ => Some x end) toks = Ok (st_ev st (o, v), toks') ->
  fst (short_set g st (c :: x) toks) = Ok (st_ev st (o, v), toks').
Proof.
  intros (_ & _ & Hg & Hh) Ha H. cbn [short_set]. rewrite Hh, Hg, Ha. cbn [negb]. rewrite H. reflexivity.
Qed.

(* a group token goes to short_set: at least two members and the first one is a flag *)
Lemma short_group_set g o c st x rest : gflag_ok g o -> short_known g o c -> x <> [] ->
  parse_short_option g st (DASH :: c :: x) rest = short_set g st (c :: x) rest.
Proof.
  intros (Hk & Hfl & _) Hs Hx. unfold parse_short_option. cbn [skipn]. destruct x as [|c2 x]; [contradiction|].
  rewrite (acc_short g o c Hs), (is_flag_acc o Hfl). reflexivity.
Qed.

Lemma opt_ok_inv f g o : opt_ok f g o = true ->
  known f o /\ known g o /\ nonempty (o_long o) = true /\ no_eq (o_long o) = true.
Proof.
  unfold opt_ok. intros H. apply andb_prop in H as [H H4]. apply andb_prop in H as [H H3]. apply andb_prop in H as [H1 H2].
  apply names_opt_get in H1, H2. repeat split; try assumption; tauto.
Qed.
Lemma text_ok_acc o s : text_ok o s = true -> o_accepts o = true.
Proof. unfold text_ok. intros H. now apply andb_prop in H as [H _]. Qed.

Definition is_pos (it : item) : bool := match it with IPos _ => true | _ => false end.

Lemma gflags_ok f g fl :
  forallb (fun o => opt_ok f g o && is_flag o && short_ok g o) fl = true -> Forall (gflag_ok g) fl.
Proof.
  induction fl as [|o fl IH]; cbn; [constructor|]. intros H. apply andb_prop in H as [H Hr].
  apply andb_prop in H as [H H3]. apply andb_prop in H as [H1 H2].
  constructor; [|exact (IH Hr)]. apply opt_ok_inv in H1 as (_ & Hk & _). split; [exact Hk|]. split; [exact H2|].
  now apply short_ok_inv.
Qed.

Lemma loop_short_tok g len fuel st o c x rest st' rest' : short_known g o c ->
  fst (parse_short_option g st (DASH :: c :: x) rest) = Ok (st', rest') ->
  loop (S fuel) g len true st ((DASH :: c :: x) :: rest) = loop fuel g len true st' rest'.
Proof.
  intros (_ & Hd & _) H. destruct (short_tok_class c x Hd) as (T1 & T2 & T3 & T4). now apply loop_short_ok.
Qed.
Lemma loop_long_ok g len fuel st tok rest st' rest' :
  nonempty tok = true -> is_dd tok = false -> starts_dd tok = true ->
  parse_long_option g st tok rest = Ok (st', rest') ->
  loop (S fuel) g len true st (tok :: rest) = loop fuel g len true st' rest'.
Proof. intros H1 H2 H3 H. cbn [loop]. rewrite H1, H2, H3, H. reflexivity. Qed.
Lemma loop_long_name g len fuel st o rest st' rest' :
  known g o -> nonempty (o_long o) = true -> no_eq (o_long o) = true -> by_name g st o rest = Ok (st', rest') ->
  loop (S fuel) g len true st (long_tok o :: rest) = loop fuel g len true st' rest'.
Proof.
  intros Hk Hne Hq H. destruct (long_tok_class o [] Hne) as (T1 & T2 & T3). rewrite app_nil_r in T1, T2, T3.
  apply loop_long_ok; try assumption. now rewrite long_by_name.
Qed.
Lemma loop_short_name g len fuel st o rest st' rest' :
  short_ok g o = true -> by_name g st o rest = Ok (st', rest') ->
  loop (S fuel) g len true st (short_tok o :: rest) = loop fuel g len true st' rest'.
Proof.
  intros Hso H. apply short_ok_inv in Hso as [c Hs]. unfold short_tok. rewrite (short_char_known g o c Hs).
  apply (loop_short_tok g len fuel st o c [] _ _ _ Hs). now rewrite (short_by_name g o c Hs).
Qed.

(* last_ok, item_ok, items_ok of Model/Spell.v with the condition on a given text left open: they are these at
   tx := text_ok.  The token loop needs no more of a text than that its option takes values (tx_acc); lines whose texts do
   not convert (ClassifyLineLemmas) are read at tx := fun o _ => o_accepts o. *)
Section Written.
  Variable tx : opt -> str -> bool.

  Definition last_ok_with (f f' : fmt) (l : opt * glast) : bool :=
    let o := fst l in
    opt_ok f f' o && short_ok f' o &&
    match snd l with
    | GGlued s => nonempty s && tx o s
    | GSep s => plain_tok s && tx o s
    | GBare => is_bare o
    end.
  Definition item_ok_with (f f' : fmt) (it : item) : bool :=
    match it with
    | IFlag o long => opt_ok f f' o && is_flag o && (long || short_ok f' o)
    | IBare o long => opt_ok f f' o && is_bare o && (long || short_ok f' o)
    | IVal o form s =>
        opt_ok f f' o && tx o s &&
        match form with
        | LongEq => nonempty s
        | LongSep => plain_tok s
        | ShortGlued => short_ok f' o && nonempty s
        | ShortSep => short_ok f' o && plain_tok s
        end
    | IGroup fl last =>
        forallb (fun o => opt_ok f f' o && is_flag o && short_ok f' o) fl &&
        match last with
        | None => match fl with _ :: _ :: _ => true | _ => false end
        | Some l => match fl with _ :: _ => true | [] => false end && last_ok_with f f' l
        end
    | IPos s => pos_tok s
    end.
  Fixpoint items_ok_with (f f' : fmt) (l : list item) : bool :=
    match l with
    | [] => true
    | it :: r =>
        item_ok_with f f' it &&
        (if looks_ahead it then match r with IPos s :: _ => str_eqb s [DASH] | _ => true end else true) &&
        items_ok_with f f' r
    end.
  (* what an event of such an item satisfies *)
  Definition ev_ok_with (f : fmt) (e : opt * given) : Prop :=
    known f (fst e) /\
    match snd e with
    | GTrue => is_flag (fst e) = true
    | GDefault => is_bare (fst e) = true
    | GText s => tx (fst e) s = true
    end.

  Hypothesis tx_acc : forall o s, tx o s = true -> o_accepts o = true.

  Lemma group_step f g len fl last : item_ok_with f g (IGroup fl last) = true ->
    forall fuel st rest, (looks_ahead (IGroup fl last) = true -> next_dash rest = true) ->
    loop (S fuel) g len true st (render_item (IGroup fl last) ++ rest) =
    loop fuel g len true (st_evs st (item_events (IGroup fl last))) rest.
  Proof.
    cbn [item_ok_with]. intros H fuel st rest Hla. apply andb_prop in H as [Hfl Hlast].
    pose proof (gflags_ok f g fl Hfl) as Hall.
    destruct fl as [|o1 fl']; [destruct last; discriminate|].
    inversion Hall as [|? ? Ho1 Hall']; subst. destruct Ho1 as (Hk1 & Hf1 & c1 & Hs1).
    (* the token is "-" c1 x with x the remaining characters *)
    assert (forall tailchars rest0 st' rest',
              flat_map short_char fl' ++ tailchars <> [] ->
              fst (short_set g (st_evs st (flag_events (o1 :: fl'))) tailchars rest0) = Ok (st', rest') ->
              loop (S fuel) g len true st ((group_tok (o1 :: fl') ++ tailchars) :: rest0) = loop fuel g len true st' rest') as Hgo.
    { intros tailchars rest0 st' rest' Hx Hss. unfold group_tok. cbn [flat_map]. rewrite (short_char_known g o1 c1 Hs1).
      cbn [app]. apply (loop_short_tok g len fuel st o1 c1 _ rest0 st' rest' Hs1).
      rewrite (short_group_set g o1 c1 st _ rest0 (conj Hk1 (conj Hf1 (ex_intro _ c1 Hs1))) Hs1 Hx).
      change (c1 :: flat_map short_char fl' ++ tailchars) with ([c1] ++ flat_map short_char fl' ++ tailchars).
      rewrite <- (short_char_known g o1 c1 Hs1). rewrite app_assoc.
      change (short_char o1 ++ flat_map short_char fl') with (flat_map short_char (o1 :: fl')).
      rewrite short_set_flags by exact Hall. exact Hss. }
    destruct last as [[o gl]|].
    - apply andb_prop in Hlast as [_ Hlast]. unfold last_ok_with in Hlast. cbn [fst snd] in Hlast.
      apply andb_prop in Hlast as [Hlast Hgl]. apply andb_prop in Hlast as [Hok Hsok].
      apply opt_ok_inv in Hok as (_ & Hk & _ & _). apply short_ok_inv in Hsok as [c Hs].
      cbn [item_events]. fold (flag_events (o1 :: fl')). rewrite st_evs_app. cbn [last_event fst snd].
      assert (forall s, flat_map short_char fl' ++ short_char o ++ s <> []) as Hne.
      { intros s. rewrite (short_char_known g o c Hs). destruct (flat_map short_char fl'); discriminate. }
      destruct gl as [s|s|]; cbn [render_item app st_evs fold_left].
      + apply andb_prop in Hgl as [Hn Ht]. apply tx_acc in Ht. apply Hgo; [apply Hne|].
        rewrite (short_char_known g o c Hs). cbn [app]. apply short_set_last; [exact Hs|exact Ht|].
        destruct s as [|c2 s]; [discriminate|]. apply add_long_text; [exact Hk|exact Ht|reflexivity].
      + apply andb_prop in Hgl as [Hn Ht]. apply tx_acc in Ht. rewrite <- (app_nil_r (short_char o)). apply Hgo; [apply Hne|].
        rewrite (short_char_known g o c Hs). cbn [app]. apply short_set_last; [exact Hs|exact Ht|].
        apply add_long_sep; [exact Hk|exact Ht|exact Hn].
      + rewrite <- (app_nil_r (short_char o)). apply Hgo; [apply Hne|].
        rewrite (short_char_known g o c Hs). cbn [app]. apply short_set_last; [exact Hs|exact (is_bare_acc o Hgl)|].
        apply add_long_bare; [exact Hk|exact Hgl|]. apply Hla. reflexivity.
    - destruct fl' as [|o2 fl'']; [discriminate|].
      cbn [item_events render_item app]. rewrite app_nil_r. fold (flag_events (o1 :: o2 :: fl'')).
      rewrite <- (app_nil_r (group_tok (o1 :: o2 :: fl''))). apply Hgo; [|reflexivity].
      inversion Hall' as [|? ? (_ & _ & c2 & Hs2) _]; subst. cbn [flat_map]. rewrite (short_char_known g o2 c2 Hs2). discriminate.
  Qed.

  (* one option item = one turn of the token loop *)
  Lemma item_step f g len it : item_ok_with f g it = true -> is_pos it = false ->
    forall fuel st rest, (looks_ahead it = true -> next_dash rest = true) ->
    loop (S fuel) g len true st (render_item it ++ rest) = loop fuel g len true (st_evs st (item_events it)) rest.
  Proof.
    intros Hok Hnp fuel st rest Hla. destruct it as [o long|o form s|o long|fl last|s]; [| | | |discriminate].
    - cbn [item_ok_with] in Hok. apply andb_prop in Hok as [Hok Hform]. apply andb_prop in Hok as [Hok Hfl].
      apply opt_ok_inv in Hok as (_ & Hk & Hne & Hneq). cbn [item_events st_evs fold_left].
      destruct long; cbn [render_item app orb] in *; [apply loop_long_name|apply loop_short_name]; try assumption;
        now apply by_name_flag.
    - cbn [item_ok_with] in Hok. apply andb_prop in Hok as [Hok Hform]. apply andb_prop in Hok as [Hok Ha].
      apply opt_ok_inv in Hok as (_ & Hk & Hne & Hneq). apply tx_acc in Ha.
      cbn [item_events st_evs fold_left].
      destruct form; cbn [render_item app].
      + destruct (long_tok_class o (EQ :: s) Hne) as (T1 & T2 & T3).
        apply loop_long_ok; try assumption. apply long_eq_text; assumption.
      + apply loop_long_name; try assumption. now apply by_name_sep.
      + apply andb_prop in Hform as [Hso Hn]. apply short_ok_inv in Hso as [c Hs]. unfold short_tok.
        rewrite (short_char_known g o c Hs). cbn [app].
        apply (loop_short_tok g len fuel st o c s _ _ _ Hs). apply short_glued_text; assumption.
      + apply andb_prop in Hform as [Hso Hn]. apply loop_short_name; [exact Hso|]. now apply by_name_sep.
    - cbn [item_ok_with] in Hok. apply andb_prop in Hok as [Hok Hform]. apply andb_prop in Hok as [Hok Hb].
      apply opt_ok_inv in Hok as (_ & Hk & Hne & Hneq). cbn [item_events st_evs fold_left].
      specialize (Hla eq_refl).
      destruct long; cbn [render_item app orb] in *; [apply loop_long_name|apply loop_short_name]; try assumption;
        now apply by_name_bare.
    - eapply group_step; eassumption.
  Qed.

  Lemma item_events_ok f g it : item_ok_with f g it = true -> Forall (ev_ok_with f) (item_events it).
  Proof.
    destruct it as [o long|o form s|o long|fl last|s]; cbn [item_ok_with item_events]; intros H.
    1-3: apply andb_prop in H as [H _]; apply andb_prop in H as [H1 H2]; apply opt_ok_inv in H1 as (Hk & _);
         constructor; [split; assumption|constructor].
    - apply andb_prop in H as [Hfl Hlast]. apply Forall_app. split.
      + clear Hlast. induction fl as [|o fl IH]; cbn in *; [constructor|].
        apply andb_prop in Hfl as [H Hr]. apply andb_prop in H as [H _]. apply andb_prop in H as [H1 H2].
        apply opt_ok_inv in H1 as (Hk & _). constructor; [split; assumption|exact (IH Hr)].
      + destruct last as [[o gl]|]; [|constructor]. apply andb_prop in Hlast as [_ Hlast]. unfold last_ok_with in Hlast.
        cbn [fst snd] in Hlast. apply andb_prop in Hlast as [Hlast Hgl]. apply andb_prop in Hlast as [Hok _].
        apply opt_ok_inv in Hok as (Hk & _). constructor; [|constructor]. unfold last_event. cbn [fst snd].
        destruct gl as [s|s|]; (split; [exact Hk|]); cbn [fst snd]; [| |exact Hgl]; now apply andb_prop in Hgl as [_ Hgl].
    - constructor.
  Qed.
  Lemma items_events_ok f g l : items_ok_with f g l = true -> Forall (ev_ok_with f) (flat_map item_events l).
  Proof.
    induction l as [|it r IH]; cbn [items_ok_with flat_map]; intros H; [constructor|].
    apply andb_prop in H as [H Hr]. apply andb_prop in H as [Hi _].
    apply Forall_app. split; [eapply item_events_ok; eauto|exact (IH Hr)].
  Qed.
End Written.

(* ev_ok_with text_ok, written out: what an event must satisfy for the conversion *)
Definition ev_ok (f : fmt) (e : opt * given) : Prop :=
  known f (fst e) /\
  match snd e with
  | GTrue => is_flag (fst e) = true
  | GDefault => is_bare (fst e) = true
  | GText s => text_ok (fst e) s = true
  end.

(* a rendered option item starts with a dash: it cannot be taken for the value of the option before it *)
Lemma item_first_dash it rest : is_pos it = false -> next_dash (render_item it ++ rest) = true.
Proof.
  intros Hnp. destruct it as [o long|o form s|o long|fl last|s]; [| | | |discriminate].
  - destruct long; reflexivity.
  - destruct form; reflexivity.
  - destruct long; reflexivity.
  - destruct last as [[o [s|s|]]|]; reflexivity.
Qed.
(* the value Args.set_option stores for the raw value v of option o *)
Definition conv_raw (o : opt) (v : rawopt) : res pyval :=
  if o_multi o then
    match v with
    | OList l => do vs <- parse_each (o_type o) (o_nullable o) l; Ok (VList vs)
    | _ => do x <- parse_raw_opt (o_type o) (o_nullable o) v; Ok (VList [x])
    end
  else if o_accepts o then parse_raw_opt (o_type o) (o_nullable o) v
  else Ok (VBool true).
Lemma set_option_conv f a n v o : get_option f n true = Ok o ->
  set_option f a n v = do pv <- conv_raw o v; Ok {| ar_opts := sset (o_long o) pv (ar_opts a); ar_args := ar_args a |}.
Proof. intros H. unfold set_option, conv_raw. rewrite H. reflexivity. Qed.

(* The option map R of the parser's scratch state against the typed map T of Args, entry by entry: the same key, which is
   the long name of a known option o, the typed value is what Args.set_option makes of the raw one, and the raw value of
   a multi-valued option is a list (so that the next text can be appended to it).  raw_event on the left and denote_event
   on the right keep the maps related (rel_event), and set_options turns a related R into T (set_options_rel). *)
Definition rel1 (f : fmt) (r : str * rawopt) (t : str * pyval) : Prop :=
  fst r = fst t /\ exists o, known f o /\ o_long o = fst r /\ conv_raw o (snd r) = Ok (snd t) /\
                             (o_multi o = true -> exists l, snd r = OList l).
Definition rel (f : fmt) := Forall2 (rel1 f).

Lemma set_options_rel f R T : rel f R T -> NoDup (map fst R) ->
  forall a, (forall k, In k (map fst R) -> ~ In k (map fst (ar_opts a))) ->
  set_options f a R = Ok {| ar_opts := ar_opts a ++ T; ar_args := ar_args a |}.
Proof.
  induction 1 as [|[k r] [k' t] R' T' H1 HF IH]; intros Hnd a Hfresh; cbn [set_options].
  - rewrite app_nil_r. destruct a; reflexivity.
  - destruct H1 as (Hkk & o & [Hg Hh] & Hl & Hc & _). cbn [fst snd] in *. subst k'. subst k.
    rewrite Hh, (set_option_conv f a _ r o Hg), Hc. cbn [bind].
    inversion Hnd as [|? ? Hk Hnd']; subst.
    rewrite sset_new by (apply sget_none_iff, Hfresh; now left).
    rewrite IH; [cbn [ar_opts ar_args]; now rewrite <- app_assoc|exact Hnd'|].
    cbn [ar_opts]. intros k Hin. rewrite map_app, in_app_iff. cbn. intros [Hi|[<-|[]]].
    + eapply Hfresh; [right; exact Hin|exact Hi].
    + contradiction.
Qed.


Lemma parse_each_app t nl l1 l2 v1 v2 :
  parse_each t nl l1 = Ok v1 -> parse_each t nl l2 = Ok v2 -> parse_each t nl (l1 ++ l2) = Ok (v1 ++ v2).
Proof.
  revert v1. induction l1 as [|s r IH]; intros v1; cbn [parse_each app].
  - intros H. inversion H; subst. auto.
  - destruct (parse_typed t nl (VStr s)) as [x|]; cbn [bind]; [|discriminate].
    destruct (parse_each t nl r) as [vs|]; cbn [bind]; [|discriminate].
    intros H H2. inversion H; subst. rewrite (IH vs eq_refl H2). reflexivity.
Qed.

Lemma res_ok_inv {X} (r : res X) : res_ok r = true -> exists x, r = Ok x.
Proof. destruct r; [eauto|discriminate]. Qed.

Lemma rel_sset f R T o rv tv : rel f R T -> known f o -> conv_raw o rv = Ok tv ->
  (o_multi o = true -> exists l, rv = OList l) -> rel f (sset (o_long o) rv R) (sset (o_long o) tv T).
Proof.
  intros HR Hk Hc Hm. apply Forall2_sset; [intros r t [E _]; exact E| |exact HR].
  split; [reflexivity|]. exists o. cbn [fst snd]. auto.
Qed.

Lemma rel_event f R T e : rel f R T -> ev_ok f e -> rel f (raw_event R e) (denote_event T e).
Proof.
  intros HR [Hk He]. destruct e as [o gv]. cbn [fst snd] in *. unfold raw_event, denote_event. cbn [fst snd].
  destruct gv as [| |s].
  - apply is_flag_inv in He as (Ha & _ & _ & Hm). apply rel_sset; [exact HR|exact Hk| |rewrite Hm; discriminate].
    unfold conv_raw. rewrite Hm, Ha. reflexivity.
  - apply is_bare_inv in He as (Ha & _ & _ & Hm & Hc). apply res_ok_inv in Hc as [v Hv].
    apply rel_sset; [exact HR|exact Hk| |rewrite Hm; discriminate].
    unfold conv_raw, conv_opt. rewrite Hm, Ha. cbn [parse_raw_opt]. rewrite Hv. reflexivity.
  - unfold text_ok in He. apply andb_prop in He as [Ha Hc]. apply res_ok_inv in Hc as [v Hv].
    destruct (o_multi o) eqn:Hm.
    + (* the values collected so far were related, and the new one converts *)
      apply rel_sset; [exact HR|exact Hk| |eauto].
      pose proof (Forall2_sget (rel1 f) (o_long o) (fun r t (H : rel1 f r t) => proj1 H) R T HR) as Hget.
      unfold conv_raw, conv_opt. rewrite Hm, Hv. cbn [or_none].
      destruct (sget (o_long o) R) as [rv|].
      * destruct Hget as (tv & -> & _ & o' & [Hg' _] & Hl' & Hc' & Hml). cbn [fst snd] in *.
        assert (o' = o) as -> by (destruct Hk as [Hg _]; rewrite Hl' in Hg'; congruence).
        destruct (Hml Hm) as [l ->]. unfold conv_raw in Hc'. rewrite Hm in Hc'.
        destruct (parse_each (o_type o) (o_nullable o) l) as [vs|] eqn:El; cbn [bind] in Hc'; [|discriminate].
        inversion Hc'; subst.
        rewrite (parse_each_app _ _ l [s] vs [v] El); [reflexivity|]. cbn [parse_each]. rewrite Hv. reflexivity.
      * rewrite Hget. cbn [app parse_each]. rewrite Hv. reflexivity.
    + apply rel_sset; [exact HR|exact Hk| |congruence].
      unfold conv_raw, conv_opt. rewrite Hm, Ha. cbn [parse_raw_opt]. rewrite Hv. reflexivity.
Qed.

Lemma raw_event_nodup R e : NoDup (map fst R) -> NoDup (map fst (raw_event R e)).
Proof.
  intros H. unfold raw_event. destruct (snd e); [| |destruct (o_multi (fst e))]; apply sset_nodup; exact H.
Qed.

Lemma rel_events f es : Forall (ev_ok f) es -> forall R T, rel f R T -> NoDup (map fst R) ->
  rel f (fold_left raw_event es R) (fold_left denote_event es T) /\ NoDup (map fst (fold_left raw_event es R)).
Proof.
  induction 1 as [|e es He Hes IH]; intros R T HR Hnd; cbn [fold_left]; [split; assumption|].
  apply IH; [apply rel_event; assumption|apply raw_event_nodup; exact Hnd].
Qed.

Lemma set_options_events f es a : Forall (ev_ok f) es -> ar_opts a = [] ->
  set_options f a (fold_left raw_event es []) = Ok {| ar_opts := fold_left denote_event es []; ar_args := ar_args a |}.
Proof.
  intros Hes Ha. destruct (rel_events f es Hes [] [] (Forall2_nil _) (NoDup_nil _)) as [HR Hnd].
  rewrite (set_options_rel f _ _ HR Hnd a); [rewrite Ha; reflexivity|]. rewrite Ha. intros k _ [].
Qed.

