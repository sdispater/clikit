(* C13: the flags the check asks the model for (Model/HelpRegion.v) are the hypotheses of the rendering theorems. *)
From Coq Require Import Lia.
From Clikit Require Import Base.Prelude Base.Res Model.Markup Model.Help Model.HelpRegion.
From Clikit Require Import Proofs.MarkupLemmas Proofs.HelpLemmas Proofs.HelpPlainLemmas Proofs.HelpCleanLemmas Proofs.HelpRenderLemmas.
Local Open Scope Z_scope.

(* the re-statements with the text column computed once are the definitions of HelpRenderLemmas *)
Lemma needed_width_for1_eq sty l : needed_width_for1 sty l = needed_width_for sty l.
Proof. reflexivity. Qed.
Lemma layout_okb1_eq sty W l : layout_okb1 sty W l = layout_okb sty W l.
Proof. reflexivity. Qed.
Lemma page_words_fitb1_eq sty W l : page_words_fitb1 sty W l = page_words_fitb sty W l.
Proof. reflexivity. Qed.

Lemma in_region_spec sty W l : in_region sty W l = true -> needed_width_for sty l <= W /\ layout_ok sty W l.
Proof.
  unfold in_region. rewrite needed_width_for1_eq, layout_okb1_eq. intros H. apply andb_prop in H as [H1 H2].
  split; [now apply Z.leb_le|now apply layout_okb_ok].
Qed.
Lemma words_fit_page_spec sty W l : words_fit_page sty W l = true -> needed_width_for sty l <= W /\ page_words_fit sty W l.
Proof.
  unfold words_fit_page. rewrite needed_width_for1_eq, page_words_fitb1_eq. intros H. apply andb_prop in H as [H1 H2].
  split; [now apply Z.leb_le|now apply page_words_fitb_ok].
Qed.

Theorem in_region_renders_lemma W f l : f_kind f <> FNull -> in_region (f_styles f) W l = true -> exists s, render_page W f l = Ok s.
Proof. intros Hk H. destruct (in_region_spec _ _ _ H) as [H1 H2]. now apply page_renders. Qed.
