(* C03 (alias clause), parser side: two spellings of the command path are parsed alike.

   A command's format lists the command names of its path (ArgsFormat.get_command_names: one CommandName per
   non-anonymous command from the top, each with its aliases).  The parser turns them into pseudo-arguments "cmd<j><i>"
   in front of the real arguments; the leading tokens of the line land there as raw strings;
   _insert_missing_command_names then skips, for as long as they MATCH (CommandName.match: the name or any alias), the
   values against the command names, and re-aligns what is left; Args.set_argument finally drops every scratch entry
   that is not an argument of the format - the pseudo-arguments among them.  So a token in one of the first positions
   influences the result only through "is a plain token" and "matches the command name of its position": replacing it by
   another plain token that matches the same command name changes nothing - same arguments, same options, or the same
   error.  This file proves that, for every format with the well-formedness facts of C01 (SpellArgs.fmt_facts, which
   fmt_inv gives), every leniency, and an ARBITRARY rest of the line. *)
From Coq Require Import Lia.
From Clikit Require Import Base.Prelude Base.Res Model.Conv Model.Flags Model.Format Model.Parser Model.Spell
     Proofs.StrLemmas Proofs.ListLemmas Proofs.DictLemmas Proofs.FormatLemmas Proofs.ParserLemmas Proofs.SpellOpts Proofs.SpellArgs.

(* the option branches do not look at the argument scratch map: they commute with replacing it *)
Definition with_args (pa : list (str * rawarg)) (s : pstate) : pstate := {| ps_args := pa; ps_opts := ps_opts s |}.
Definition lift_opt (pa : list (str * rawarg)) (r : res (pstate * list str)) : res (pstate * list str) :=
  match r with Ok (s, t) => Ok (with_args pa s, t) | Err k => Err k end.

Lemma add_long_ignores_args f st n v t :
  add_long_option f st n v t = lift_opt (ps_args st) (add_long_option f (with_args [] st) n v t).
Proof.
  unfold add_long_option. destruct (negb (has_option f n true)); [reflexivity|].
  destruct (get_option f n true) as [o|k]; cbn [bind]; [|reflexivity].
  destruct (match v with Some _ => negb (o_accepts o) | None => false end); [reflexivity|].
  match goal with |- (let '(value, tokens) := ?X in _) = _ => destruct X as [v1 t1] end.
  destruct (match v1 with Some [] => None | x => x end) as [s|].
  - destruct (o_multi o); reflexivity.
  - destruct (o_required o); [reflexivity|]. destruct (o_multi o); reflexivity.
Qed.
Lemma add_long_args0 f st n v t st' t' : add_long_option f st n v t = Ok (st', t') -> ps_args st' = ps_args st.
Proof.
  rewrite add_long_ignores_args. destruct (add_long_option f (with_args [] st) n v t) as [[s1 t1]|]; intros H; inversion H; reflexivity.
Qed.
Lemma add_short_ignores_args f st n v t :
  add_short_option f st n v t = lift_opt (ps_args st) (add_short_option f (with_args [] st) n v t).
Proof.
  unfold add_short_option. destruct (negb (has_option f n true)); [reflexivity|].
  destruct (get_option f n true) as [o|k]; cbn [bind]; [|reflexivity]. apply add_long_ignores_args.
Qed.
Lemma parse_long_ignores_args f st tok t :
  parse_long_option f st tok t = lift_opt (ps_args st) (parse_long_option f (with_args [] st) tok t).
Proof.
  unfold parse_long_option. destruct (split_eq (skipn 2 tok) []) as [[n v]|]; [apply add_long_ignores_args|].
  destruct (accepts f (skipn 2 tok)); [|apply add_long_ignores_args]. destruct (take_value t) as [v t1]. apply add_long_ignores_args.
Qed.
Lemma with_args_twice pa pb s : with_args pa (with_args pb s) = with_args pa s.
Proof. reflexivity. Qed.
Lemma short_set_ignores_args f : forall name st t,
  short_set f st name t =
  (lift_opt (ps_args st) (fst (short_set f (with_args [] st) name t)),
   with_args (ps_args st) (snd (short_set f (with_args [] st) name t))).
Proof.
  induction name as [|c rest IH]; intros st t; cbn [short_set].
  - destruct st; reflexivity.
  - destruct (negb (has_option f [c] true)); [destruct st; reflexivity|].
    destruct (get_option f [c] true) as [o|k]; [|destruct st; reflexivity].
    destruct (o_accepts o).
    + rewrite (add_long_ignores_args f st). destruct (add_long_option f (with_args [] st) (o_long o) _ t) as [[s1 t1]|k]; cbn [lift_opt fst snd];
        [reflexivity|destruct st; reflexivity].
    + rewrite (add_long_ignores_args f st). destruct (add_long_option f (with_args [] st) (o_long o) None t) as [[s1 t1]|k] eqn:E; cbn [lift_opt fst snd];
        [|destruct st; reflexivity].
      pose proof (add_long_args0 _ _ _ _ _ _ _ E) as Hs1. cbn [with_args ps_args] in Hs1.
      destruct s1 as [pa1 po1]. cbn [ps_args] in Hs1. subst pa1.
      rewrite (IH (with_args (ps_args st) {| ps_args := []; ps_opts := po1 |})). reflexivity.
Qed.
Lemma parse_short_ignores_args f st tok t :
  parse_short_option f st tok t =
  (lift_opt (ps_args st) (fst (parse_short_option f (with_args [] st) tok t)),
   with_args (ps_args st) (snd (parse_short_option f (with_args [] st) tok t))).
Proof.
  unfold parse_short_option. destruct (skipn 1 tok) as [|c [|c2 rest]].
  - destruct st; reflexivity.
  - destruct (accepts f [c]).
    + destruct (take_value t) as [v t1]. rewrite (add_short_ignores_args f st).
      destruct (add_short_option f (with_args [] st) [c] v t1) as [[s1 t2]|k]; cbn [lift_opt fst snd]; [reflexivity|destruct st; reflexivity].
    + rewrite (add_short_ignores_args f st).
      destruct (add_short_option f (with_args [] st) [c] None t) as [[s1 t2]|k]; cbn [lift_opt fst snd]; [reflexivity|destruct st; reflexivity].
  - destruct (accepts f [c]).
    + rewrite (add_short_ignores_args f st).
      destruct (add_short_option f (with_args [] st) [c] (Some (c2 :: rest)) t) as [[s1 t2]|k]; cbn [lift_opt fst snd];
        [reflexivity|destruct st; reflexivity].
    + apply short_set_ignores_args.
Qed.


Section Frame.
  Variables (g : fmt) (A : list (str * arg)).
  Hypothesis HA : get_arguments_all g = A.
  Hypothesis Hnm : Forall (fun na => fst na = a_name (snd na)) A.
  Hypothesis Hnd : NoDup (map fst A).
  (* the prefixes: the scratch entries of the first j arguments, none of them multi-valued *)
  Variable j : nat.
  Hypothesis Hsingle : Forall (fun na => a_multi (snd na) = false) (firstn j A).
  Hypothesis Hj : j <= length A.

  Definition is_prefix (pre : list (str * rawarg)) : Prop := map fst pre = firstn j (map fst A).

  Lemma prefix_len pre : is_prefix pre -> length pre = j.
  Proof. intros H. rewrite <- (map_length fst pre), H, firstn_length, map_length. lia. Qed.

  (* the argument at a position >= j has a name outside the prefix *)
  Lemma later_name pre c n a : is_prefix pre -> j <= c -> nth_error A c = Some (n, a) ->
    a_name a = n /\ ~ In n (map fst pre).
  Proof.
    intros Hp Hc Hn. split.
    - rewrite Forall_forall in Hnm. symmetry. apply (Hnm (n, a)). eapply nth_error_In; eauto.
    - rewrite Hp. intros Hi. rewrite <- (firstn_skipn j (map fst A)) in Hnd. apply (NoDup_app_disjoint _ _ n Hnd Hi).
      rewrite skipn_map. change n with (fst (n, a)). apply in_map.
      apply (nth_error_In _ (c - j)). rewrite nth_error_skipn'. replace (j + (c - j)) with c by lia. exact Hn.
  Qed.

  Definition lift_arg (pre : list (str * rawarg)) (po : list (str * rawopt)) (r : res (list (str * rawarg))) : res pstate :=
    match r with Ok X => Ok {| ps_args := pre ++ X; ps_opts := po |} | Err k => Err k end.

  Lemma parse_argument_frame len X po tok : exists R, forall pre, is_prefix pre ->
    parse_argument g len {| ps_args := pre ++ X; ps_opts := po |} tok = lift_arg pre po R.
  Proof.
    set (c := j + length X).
    assert (forall pre, is_prefix pre -> length (pre ++ X) = c) as Hlen.
    { intros pre Hp. rewrite app_length, (prefix_len pre Hp). reflexivity. }
    (* appending tok to the entry of a later argument (n, a) leaves the prefix alone *)
    assert (forall n a c0, j <= c0 -> nth_error A c0 = Some (n, a) -> forall pre, is_prefix pre ->
              append_arg {| ps_args := pre ++ X; ps_opts := po |} (a_name a) tok =
              {| ps_args := pre ++ sset n (RList ((match sget n X with Some (RList l) => l | _ => [] end) ++ [tok])) X;
                 ps_opts := po |}) as Happ.
    { intros n a c0 Hc0 E pre Hp. destruct (later_name pre c0 n a Hp Hc0 E) as [-> Hnot]. unfold append_arg. cbn [ps_args ps_opts].
      rewrite (sget_app_notin n pre X Hnot), (sset_app_notin _ _ pre X Hnot). reflexivity. }
    destruct (nth_error A c) as [[n a]|] eqn:E1.
    - (* the next argument: set it, or append to it *)
      exists (Ok (if a_multi a then sset n (RList ((match sget n X with Some (RList l) => l | _ => [] end) ++ [tok])) X
                  else sset n (RStr tok) X)).
      intros pre Hp. rewrite parse_argument_nth. cbn [ps_args ps_opts]. rewrite HA, (Hlen pre Hp), E1.
      destruct (a_multi a); [rewrite (Happ n a c ltac:(lia) E1 pre Hp); reflexivity|].
      destruct (later_name pre c n a Hp ltac:(lia) E1) as [-> Hnot]. rewrite (sset_app_notin _ _ pre X Hnot). reflexivity.
    - destruct c as [|c'] eqn:Ec.
      + (* no argument at all *)
        exists (if len then Ok X else Err CannotParse). intros pre Hp.
        rewrite parse_argument_nth. cbn [ps_args]. rewrite HA, (Hlen pre Hp), E1. destruct len; reflexivity.
      + destruct (nth_error A c') as [[n a]|] eqn:E2; [destruct (a_multi a) eqn:Hm|].
        * (* one past the last argument, which is multi-valued (so not in the prefix): append to it *)
          assert (j <= c') as Hjc.
          { destruct (le_lt_dec j c') as [|Hlt]; [assumption|exfalso].
            rewrite Forall_forall in Hsingle. specialize (Hsingle (n, a)). cbn [snd] in Hsingle.
            rewrite Hsingle in Hm; [discriminate|]. apply (nth_error_In _ c'). rewrite nth_error_firstn'; [exact E2|lia]. }
          exists (Ok (sset n (RList ((match sget n X with Some (RList l) => l | _ => [] end) ++ [tok])) X)).
          intros pre Hp. rewrite parse_argument_nth. cbn [ps_args]. rewrite HA, (Hlen pre Hp), E1, E2, Hm, (Happ n a c' Hjc E2 pre Hp).
          reflexivity.
        * exists (if len then Ok X else Err CannotParse). intros pre Hp.
          rewrite parse_argument_nth. cbn [ps_args]. rewrite HA, (Hlen pre Hp), E1, E2, Hm. destruct len; reflexivity.
        * (* further behind: refused *)
          exists (if len then Ok X else Err CannotParse). intros pre Hp.
          rewrite parse_argument_nth. cbn [ps_args]. rewrite HA, (Hlen pre Hp), E1, E2. destruct len; reflexivity.
  Qed.

  (* the token loop: the prefix stays, everything else evolves alike *)
  Lemma loop_frame len : forall fuel toks p X po, exists Xf pof e, forall pre, is_prefix pre ->
    loop fuel g len p {| ps_args := pre ++ X; ps_opts := po |} toks = ({| ps_args := pre ++ Xf; ps_opts := pof |}, e).
  Proof.
    induction fuel as [|fuel IH]; intros toks p X po; cbn [loop].
    - exists X, po, (Some (Other 98)). reflexivity.
    - destruct toks as [|tok rest]; [exists X, po, None; reflexivity|].
      assert (exists Xf pof e, forall pre, is_prefix pre ->
                match parse_argument g len {| ps_args := pre ++ X; ps_opts := po |} tok with
                | Ok st' => loop fuel g len p st' rest
                | Err k => ({| ps_args := pre ++ X; ps_opts := po |}, Some k) end
                = ({| ps_args := pre ++ Xf; ps_opts := pof |}, e)) as Harg.
      { destruct (parse_argument_frame len X po tok) as [[X2|k] HR].
        - destruct (IH rest p X2 po) as (Xf & pof & e & H). exists Xf, pof, e. intros pre Hp. rewrite (HR pre Hp). cbn [lift_arg]. now apply H.
        - exists X, po, (Some k). intros pre Hp. rewrite (HR pre Hp). reflexivity. }
      destruct (p && negb (nonempty tok)); [exact Harg|].
      destruct (p && is_dd tok); [apply IH|].
      destruct (p && starts_dd tok).
      { destruct (parse_long_option g {| ps_args := []; ps_opts := po |} tok rest) as [[s1 t1]|k] eqn:E.
        - destruct (IH t1 p X (ps_opts s1)) as (Xf & pof & e & H). exists Xf, pof, e. intros pre Hp.
          rewrite parse_long_ignores_args. unfold with_args. cbn [ps_args ps_opts]. rewrite E. cbn [lift_opt]. unfold with_args. now apply H.
        - exists X, po, (Some k). intros pre Hp. rewrite parse_long_ignores_args. unfold with_args. cbn [ps_args ps_opts]. rewrite E. reflexivity. }
      destruct (p && starts_dash tok && negb (str_eqb tok [DASH])); [|exact Harg].
      destruct (parse_short_option g {| ps_args := []; ps_opts := po |} tok rest) as [[[s1 t1]|k] s2] eqn:E.
      + destruct (IH t1 p X (ps_opts s1)) as (Xf & pof & e & H). exists Xf, pof, e. intros pre Hp.
        rewrite parse_short_ignores_args. unfold with_args. cbn [ps_args ps_opts]. rewrite E. cbn [lift_opt fst snd]. unfold with_args. now apply H.
      + exists X, (ps_opts s2), (Some k). intros pre Hp. rewrite parse_short_ignores_args. unfold with_args. cbn [ps_args ps_opts]. rewrite E. reflexivity.
  Qed.
End Frame.

(* scratch maps that differ only under the protected keys PS *)
Definition sim (PS : list str) (D D' : list (str * rawarg)) : Prop :=
  Forall2 (fun kv kv' => fst kv = fst kv' /\ (snd kv = snd kv' \/ In (fst kv) PS)) D D'.
Lemma sim_refl PS D : sim PS D D.
Proof. induction D as [|kv r IH]; constructor; auto. Qed.
Lemma sim_app PS D1 D1' D2 D2' : sim PS D1 D1' -> sim PS D2 D2' -> sim PS (D1 ++ D2) (D1' ++ D2').
Proof. apply Forall2_app. Qed.
Lemma sim_sset PS k v D D' : sim PS D D' -> sim PS (sset k v D) (sset k v D').
Proof.
  unfold sset. induction 1 as [|[k1 v1] [k2 v2] r r' [Hk Hv] Hr IH]; cbn [aset]; [constructor; [auto|constructor]|].
  cbn [fst snd] in Hk, Hv. subst k2. destruct (str_eqb k k1).
  - constructor; [cbn; auto|exact Hr].
  - constructor; [cbn; auto|exact IH].
Qed.
Lemma sim_fold PS fixed : forall D D', sim PS D D' ->
  sim PS (fold_left (fun d kv => sset (fst kv) (snd kv) d) fixed D) (fold_left (fun d kv => sset (fst kv) (snd kv) d) fixed D').
Proof. induction fixed as [|[k v] r IH]; intros D D' H; cbn [fold_left]; [exact H|]. apply IH, sim_sset, H. Qed.
Lemma sim_shas PS D D' n : sim PS D D' -> shas n D = shas n D'.
Proof.
  unfold shas, ahas. induction 1 as [|[k1 v1] [k2 v2] r r' [Hk Hv] Hr IH]; [reflexivity|]. cbn [aget fst] in *. subst k2.
  destruct (str_eqb n k1); [reflexivity|exact IH].
Qed.
Lemma sim_set_arguments PS f : (forall n, In n PS -> has_argument f (AName n) true = false) ->
  forall D D', sim PS D D' -> forall acc, set_arguments f acc D = set_arguments f acc D'.
Proof.
  intros Hps. induction 1 as [|[k1 v1] [k2 v2] r r' [Hk Hv] Hr IH]; intros acc; [reflexivity|].
  cbn [fst snd] in Hk, Hv. subst k2. cbn [set_arguments].
  destruct (has_argument f (AName k1) true) eqn:Eh; [|apply IH].
  destruct Hv as [->|Hin]; [|rewrite (Hps _ Hin) in Eh; discriminate].
  destruct (set_argument f acc k1 v2); cbn [bind]; [apply IH|reflexivity].
Qed.
Lemma sim_prefixes PS (pre pre' : list (str * rawarg)) : map fst pre = map fst pre' -> (forall n, In n (map fst pre) -> In n PS) ->
  sim PS pre pre'.
Proof.
  revert pre'. induction pre as [|[k v] r IH]; intros [|[k' v'] r'] Hk Hin; try discriminate; [constructor|].
  cbn [map fst] in Hk. inversion Hk; subst. constructor.
  - cbn. split; [reflexivity|right; apply Hin; now left].
  - apply IH; [assumption|]. intros n Hn. apply Hin. now right.
Qed.

Lemma skip_names_prefix V : forall names cns k, names_ok cns names = true ->
  skip_names (names ++ V) cns k = skip_names V (skipn (length names) cns) (k + length names).
Proof. intros names cns k Hn. exact (skip_names_match V names cns k (names_ok_match _ _ Hn)). Qed.

Section Respell.
  Variables (f g : fmt) (A : list (str * arg)) (cns : list (str * cname)).
  Hypothesis FF : fmt_facts f g A cns.
  Variables ks ks' : list str.
  Hypothesis Hks : names_ok cns ks = true.
  Hypothesis Hks' : names_ok cns ks' = true.
  Hypothesis Hlen : length ks = length ks'.

  Notation j := (length ks).

  Lemma plain_pos s : plain_tok s = true -> pos_tok s = true.
  Proof. unfold plain_tok, pos_tok. intros H. apply andb_prop in H as [_ H]. now rewrite H. Qed.
  Lemma names_ok_pos : forall c n, names_ok c n = true -> Forall (fun s => pos_tok s = true) n.
  Proof. intros c n H. eapply Forall_impl; [exact plain_pos|exact (names_ok_plain c n H)]. Qed.

  Lemma j_le : j <= length cns.
  Proof. apply names_match_length, names_ok_match, Hks. Qed.
  Lemma cns_le_A : length cns <= length A.
  Proof.
    pose proof (ff_pseudo _ _ _ _ FF) as H. apply (f_equal (@length str)) in H. rewrite !map_length, firstn_length in H. lia.
  Qed.
  Lemma single_j : Forall (fun na => a_multi (snd na) = false) (firstn j A).
  Proof.
    pose proof (ff_single _ _ _ _ FF) as H. rewrite Forall_forall in *. intros x Hx. apply H.
    eapply firstn_in_le; [apply j_le|exact Hx].
  Qed.

  (* the names alone fit the pseudo-arguments *)
  Lemma shape_names n : names_ok cns n = true -> shape A n = true.
  Proof.
    intros Hn. pose proof (shape_line f g A cns FF n [] Hn) as H. rewrite app_nil_r in H. apply H. destruct (get_arguments_all f); reflexivity.
  Qed.

  (* the token loop over the spelled names: one pseudo-argument each *)
  Lemma loop_names len : forall n Pdone st fuel rest, ps_args st = place A Pdone -> shape A (Pdone ++ n) = true ->
    Forall (fun s => pos_tok s = true) n ->
    loop (length n + fuel) g len true st (n ++ rest) =
    loop fuel g len true {| ps_args := place A (Pdone ++ n); ps_opts := ps_opts st |} rest.
  Proof.
    induction n as [|s r IH]; intros Pdone st fuel rest Hst Hsh Hpos.
    - cbn [length app Nat.add]. rewrite app_nil_r, <- Hst. destruct st; reflexivity.
    - inversion Hpos as [|? ? Hs Hr]; subst. cbn [length app Nat.add].
      change (s :: r) with ([s] ++ r) in Hsh. rewrite app_assoc in Hsh.
      rewrite (pos_step g A _ (ff_args _ _ _ _ FF) (ff_names _ _ _ _ FF) (ff_nodup _ _ _ _ FF) _ true st s (r ++ rest) Pdone Hst); [|eapply shape_app_l; exact Hsh|intros _; exact Hs].
      rewrite (IH (Pdone ++ [s])); [|reflexivity|exact Hsh|exact Hr]. cbn [ps_opts]. now rewrite <- app_assoc.
  Qed.

  Lemma place_is_prefix n : names_ok cns n = true -> length n = j -> is_prefix A j (place A n) /\ flatten (place A n) = n.
  Proof.
    intros Hn Hl. split; [|apply flatten_place, shape_names, Hn].
    unfold is_prefix. rewrite <- (firstn_skipn j A) at 1.
    assert (length (firstn j A) = j) as Hfl by (rewrite firstn_length; pose proof j_le; pose proof cns_le_A; lia).
    rewrite (place_app _ _ _ single_j), Hfl.
    rewrite <- Hl at 2 4. rewrite firstn_all, skipn_all.
    rewrite place_nil, app_nil_r, (place_single_keys _ _ single_j), Hl, firstn_map.
    rewrite firstn_firstn, Nat.min_id. symmetry. apply firstn_map.
  Qed.

  Theorem parse_respelled len rest : parse f len (ks ++ rest) = parse f len (ks' ++ rest).
  Proof.
    unfold parse, parse_on. rewrite (ff_aug _ _ _ _ FF).
    destruct (place_is_prefix ks Hks eq_refl) as [P1 F1].
    destruct (place_is_prefix ks' Hks' (eq_sym Hlen)) as [P2 F2].
    rewrite !app_length, <- Hlen.
    replace (S (j + length rest)) with (j + S (length rest)) by lia.
    rewrite (loop_names len ks [] ps_empty (S (length rest)) rest (eq_sym (place_nil A)) (shape_names ks Hks) (names_ok_pos _ _ Hks)).
    rewrite Hlen at 1.
    rewrite (loop_names len ks' [] ps_empty (S (length rest)) rest (eq_sym (place_nil A)) (shape_names ks' Hks') (names_ok_pos _ _ Hks')).
    cbn [app ps_opts ps_empty].
    pose proof j_le as Hj1. pose proof cns_le_A as Hj2.
    destruct (loop_frame g A (ff_args _ _ _ _ FF) (ff_names _ _ _ _ FF) (ff_nodup _ _ _ _ FF) j single_j ltac:(lia) len (S (length rest)) rest true [] []) as (Xf & pof & e & HL).
    pose proof (HL _ P1) as L1. pose proof (HL _ P2) as L2. rewrite app_nil_r in L1, L2. rewrite L1, L2. clear L1 L2 HL.
    destruct (match e with Some CannotParse | Some NoSuchOption => if len then None else e | _ => e end) as [k|]; [reflexivity|].
    (* the re-alignment sees the same values behind the spelled names *)
    unfold insert_missing. cbn [ps_args ps_opts]. unfold flatten. rewrite !flat_map_app. fold (flatten (place A ks)) (flatten (place A ks')) (flatten Xf). rewrite F1, F2.
    rewrite (skip_names_prefix (flatten Xf) ks cns 0 Hks), (skip_names_prefix (flatten Xf) ks' cns 0 Hks'), <- Hlen.
    destruct (skip_names (flatten Xf) (skipn (length ks) cns) (0 + length ks)) as [[vals' cns'] k].
    destruct (copy_values vals' (skipn (k + length cns') A) len (map (fun c => (fst c, RCmd (snd c))) cns')) as [fixed|k2]; cbn [bind snd]; [|reflexivity].
    set (PS := firstn j (map fst A)).
    assert (sim PS (fold_left (fun d kv => sset (fst kv) (snd kv) d) fixed (place A ks ++ Xf))
                   (fold_left (fun d kv => sset (fst kv) (snd kv) d) fixed (place A ks' ++ Xf))) as Hsim.
    { apply sim_fold, sim_app; [|apply sim_refl]. apply sim_prefixes; [now rewrite P1, P2|]. intros n Hn. unfold PS. now rewrite <- P1. }
    assert (forall n, In n PS -> has_argument f (AName n) true = false) as Hps.
    { intros n Hn. unfold has_argument. cbn [get_arguments]. rewrite shas_sget, (ff_fresh _ _ _ _ FF n); [reflexivity|].
      rewrite <- (ff_pseudo _ _ _ _ FF), <- firstn_map. unfold PS in Hn. eapply firstn_in_le; [exact Hj1|exact Hn]. }
    unfold missing_required. cbn [ps_args ps_opts].
    assert (existsb (fun na => a_required (snd na) && negb (shas (fst na) (fold_left (fun d kv => sset (fst kv) (snd kv) d) fixed (place A ks ++ Xf)))) A =
            existsb (fun na => a_required (snd na) && negb (shas (fst na) (fold_left (fun d kv => sset (fst kv) (snd kv) d) fixed (place A ks' ++ Xf)))) A) as ->.
    { apply existsb_ext_in'. intros na _. now rewrite (sim_shas _ _ _ (fst na) Hsim). }
    destruct (existsb _ A && negb len); [reflexivity|]. cbn [snd].
    now rewrite (sim_set_arguments PS f Hps _ _ Hsim).
  Qed.
End Respell.
