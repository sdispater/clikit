(* C05: re-using a parser object gives what a fresh one gives EXACTLY WHEN parse() resets both scratch maps first. *)
From Coq Require Import Ascii String.
From Clikit Require Import Base.Prelude Base.Res Model.Conv Model.Flags Model.Format Model.Parser Proofs.ParserLemmas.

(* the translated parse is the state-taking body started from empty maps *)
Lemma parse_on_is_parse_from_empty st0 f len toks : parse_on st0 f len toks = parse_from ps_empty f len toks.
Proof. reflexivity. Qed.
Lemma parse_on_is_parse_obj st0 f len toks : parse_on st0 f len toks = parse_obj RESET_BOTH st0 f len toks.
Proof. reflexivity. Qed.
Lemma parse_is_parse_from_empty f len toks : parse f len toks = snd (parse_from ps_empty f len toks).
Proof. reflexivity. Qed.

Lemma run_history_obj_both reqs : forall st, run_history_obj RESET_BOTH st reqs = run_history st reqs.
Proof.
  induction reqs as [|[[f len] toks] r IH]; intros st; cbn [run_history_obj run_history]; [reflexivity|].
  rewrite <- parse_on_is_parse_obj. destruct (parse_on st f len toks) as [st' res]. rewrite IH. reflexivity.
Qed.
Lemma reuse_eq_fresh_obj reqs st : run_history_obj RESET_BOTH st reqs = fresh_results reqs.
Proof. rewrite run_history_obj_both. apply run_history_fresh. Qed.

(* witnesses: a format with one value-requiring option and one optional argument *)
Module ReuseWitness.
  Definition s (x : string) : str := map N_of_ascii (list_ascii_of_string x).
  (* REQUIRED_VALUE | INTEGER | PREFER_SHORT ; OPTIONAL | INTEGER *)
  Definition o_num := {| o_long := s "num"; o_short := Some (s "n"); o_flags := 522; o_default := VNone |}.
  Definition a_port := {| a_name := s "port"; a_flags := 66; a_default := VInt 80 |}.
  Definition F : fmt :=
    match format_of_elements [EOpt o_num; EArg a_port] None with Ok f => f | Err _ => empty_builder None end.
  (* "--num 5" then the empty line; "8080" then the empty line *)
  Definition H_opts : list (fmt * bool * list str) := [(F, false, [s "--num"; s "5"]); (F, false, [])].
  Definition H_args : list (fmt * bool * list str) := [(F, false, [s "8080"]); (F, false, [])].
  Definition nothing : res args := Ok {| ar_opts := []; ar_args := [] |}.
  (* object states that still hold an argument, resp. an option *)
  Definition holds_arg : pstate := {| ps_args := [(s "port", RStr (s "8080"))]; ps_opts := [] |}.
  Definition holds_opt : pstate := {| ps_args := []; ps_opts := [(s "num", OStr (s "5"))] |}.

  Example fresh_opts : fresh_results H_opts = [Ok {| ar_opts := [(s "num", VInt 5)]; ar_args := [] |}; nothing].
  Proof. vm_compute. reflexivity. Qed.
  Example fresh_args : fresh_results H_args = [Ok {| ar_opts := []; ar_args := [(s "port", VInt 8080)] |}; nothing].
  Proof. vm_compute. reflexivity. Qed.
  (* the code before the repair: the option of the first line is still there when the empty line is parsed *)
  Example args_only_leaks : run_history_obj RESET_ARGS_ONLY ps_empty H_opts =
    [Ok {| ar_opts := [(s "num", VInt 5)]; ar_args := [] |}; Ok {| ar_opts := [(s "num", VInt 5)]; ar_args := [] |}].
  Proof. vm_compute. reflexivity. Qed.
  Example opts_only_leaks : run_history_obj RESET_OPTS_ONLY ps_empty H_args =
    [Ok {| ar_opts := []; ar_args := [(s "port", VInt 8080)] |}; Ok {| ar_opts := []; ar_args := [(s "port", VInt 8080)] |}].
  Proof. vm_compute. reflexivity. Qed.
  (* and the repaired code on the same histories *)
  Example both_ok : run_history_obj RESET_BOTH ps_empty H_opts = fresh_results H_opts /\
                    run_history_obj RESET_BOTH ps_empty H_args = fresh_results H_args.
  Proof. split; vm_compute; reflexivity. Qed.
End ReuseWitness.

Lemma reuse_refuted_unless_opts_reset r : rs_opts r = false ->
  run_history_obj r ps_empty ReuseWitness.H_opts <> fresh_results ReuseWitness.H_opts.
Proof. destruct r as [[|] o]; cbn [rs_opts]; intros ->; vm_compute; discriminate. Qed.
Lemma reuse_refuted_unless_args_reset r : rs_args r = false ->
  run_history_obj r ps_empty ReuseWitness.H_args <> fresh_results ReuseWitness.H_args.
Proof. destruct r as [a [|]]; cbn [rs_args]; intros ->; vm_compute; discriminate. Qed.

(* the wire entry: with "both maps reset" it is the entry of the code as it is *)
Lemma run_requests_obj_both fs extra reqs : forall st,
  run_requests_obj RESET_BOTH fs extra st reqs = run_requests fs extra st reqs.
Proof.
  induction reqs as [|[[i len] toks] rest IH]; intros st; cbn [run_requests_obj run_requests]; [reflexivity|].
  destruct (nth_error fs i) as [f|]; [|reflexivity].
  rewrite <- parse_on_is_parse_obj. destruct (parse_on st f len toks) as [st' res]. rewrite IH. reflexivity.
Qed.
