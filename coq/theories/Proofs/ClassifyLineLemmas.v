(* C02, classification clauses at the level of LINE DESCRIPTIONS (Model/Spell.v): a line that is
   well-formed except for ONE fault is rejected with the documented error.
   The format hypothesis is fmt_ok f, as in parse_spells (true of every API-built format:
   FmtOkLemmas.api_format_fmt_ok_lemma).  The lenient counterparts ask, as the other lenient theorems of C02
   do, that the options are valid objects - here read off the option list of f itself (opts_listed_ok).

   Names: this file imports ClassifyLemmas BEFORE the Spell files, so long_tok, short_tok, no_eq, is_flag, names_ok,
   split_eq_none unqualified are those of Model/Spell.v and its lemma files; the ClassifyLemmas ones are qualified. *)
From Coq Require Import Lia String Ascii Btauto.
From Clikit Require Import Proofs.ListLemmas.
From Clikit Require Import Base.Prelude Base.Res Model.Conv Model.Flags Model.Format Model.Parser
     Proofs.StrLemmas Proofs.DictLemmas Proofs.FormatLemmas Proofs.ParserLemmas Proofs.ClassifyLemmas
     Model.Spell Proofs.SpellOpts Proofs.SpellArgs Proofs.SpellDenote Proofs.SpellLemmas.

(* last_ok / item_ok / items_ok of Model/Spell.v with text_ok o s (= o takes values AND s converts)
   replaced by o_accepts o *)
Definition last_form (f f' : fmt) (l : opt * glast) : bool :=
  let o := fst l in
  Spell.opt_ok f f' o && Spell.short_ok f' o &&
  match snd l with
  | GGlued s => nonempty s && o_accepts o
  | GSep s => plain_tok s && o_accepts o
  | GBare => is_bare o
  end.
Definition item_form (f f' : fmt) (it : item) : bool :=
  match it with
  | IFlag o long => Spell.opt_ok f f' o && Spell.is_flag o && (long || Spell.short_ok f' o)
  | IBare o long => Spell.opt_ok f f' o && is_bare o && (long || Spell.short_ok f' o)
  | IVal o form s =>
      Spell.opt_ok f f' o && o_accepts o &&
      match form with
      | LongEq => nonempty s
      | LongSep => plain_tok s
      | ShortGlued => Spell.short_ok f' o && nonempty s
      | ShortSep => Spell.short_ok f' o && plain_tok s
      end
  | IGroup fl last =>
      forallb (fun o => Spell.opt_ok f f' o && Spell.is_flag o && Spell.short_ok f' o) fl &&
      match last with
      | None => match fl with _ :: _ :: _ => true | _ => false end
      | Some l => match fl with _ :: _ => true | [] => false end && last_form f f' l
      end
  | IPos s => pos_tok s
  end.
Fixpoint items_form (f f' : fmt) (l : list item) : bool :=
  match l with
  | [] => true
  | it :: r =>
      item_form f f' it &&
      (if looks_ahead it then match r with IPos s :: _ => str_eqb s [DASH] | _ => true end else true) &&
      items_form f f' r
  end.
(* the conjuncts of wf_line that concern the written forms *)
Definition forms_ok (f : fmt) (d : ld) : bool :=
  match aug_format f with
  | Err _ => false
  | Ok (f', _, cns) =>
      Spell.names_ok cns (ld_names d) && items_form f f' (ld_items d) && no_clash cns (ld_names d) (values d)
  end.

(* the option texts of the line convert: what forms_ok leaves out of items_ok *)
Definition ev_conv (e : opt * given) : bool :=
  match snd e with
  | GText s => res_ok (parse_typed (o_type (fst e)) (o_nullable (fst e)) (VStr s))
  | _ => true
  end.
Definition texts_convert (d : ld) : bool := forallb ev_conv (events d).

Lemma flags_conv fl : forallb ev_conv (map (fun o => (o, GTrue)) fl) = true.
Proof. induction fl as [|o r IH]; [reflexivity|exact IH]. Qed.
Lemma item_ok_split f g it : item_ok f g it = item_form f g it && forallb ev_conv (item_events it).
Proof.
  destruct it as [o long|o form s|o long|fl [[o gl]|]|s]; cbn [item_ok item_form item_events].
  - cbn. btauto.
  - unfold text_ok. cbn [forallb ev_conv fst snd]. destruct form; btauto.
  - cbn. btauto.
  - rewrite forallb_app, flags_conv. unfold last_ok, last_form, last_event, text_ok. cbn [fst snd].
    destruct gl; cbn [forallb ev_conv fst snd]; btauto.
  - rewrite app_nil_r, flags_conv. btauto.
  - cbn. btauto.
Qed.
Lemma items_ok_split f g : forall l, items_ok f g l = items_form f g l && forallb ev_conv (flat_map item_events l).
Proof.
  induction l as [|it r IH]; [reflexivity|]. cbn [items_ok items_form flat_map]. rewrite forallb_app, IH, item_ok_split. btauto.
Qed.
(* clause 5 breaks shape (fits in number), clause 4 req_ok, clause 6 the conversions in fits or texts_convert; forms_ok
   is kept throughout *)
Theorem wf_line_conjuncts f d :
  wf_line f d = forms_ok f d && texts_convert d &&
                fits (get_arguments_all f) (values d) && req_ok (get_arguments_all f) (values d).
Proof.
  unfold wf_line, forms_ok, texts_convert, events. destruct (aug_format f) as [[[g A] cns]|]; [|reflexivity].
  rewrite items_ok_split. btauto.
Qed.

Lemma wf_line_forms f d : wf_line f d = true ->
  forms_ok f d = true /\ fits (get_arguments_all f) (values d) = true /\ req_ok (get_arguments_all f) (values d) = true.
Proof.
  rewrite wf_line_conjuncts. intros H. apply andb_prop in H as [H Hr]. apply andb_prop in H as [H Hf].
  apply andb_prop in H as [H _]. auto.
Qed.

Lemma forms_ok_inv f g A cns d : aug_format f = Ok (g, A, cns) -> forms_ok f d = true ->
  Spell.names_ok cns (ld_names d) = true /\ items_form f g (ld_items d) = true /\ no_clash cns (ld_names d) (values d) = true.
Proof.
  unfold forms_ok. intros -> H. apply andb_prop in H as [H Hc]. apply andb_prop in H as [Hn Hit]. auto.
Qed.

(* item_form is item_ok_with at this condition on the texts: the lemmas of SpellOpts / SpellArgs / SpellLemmas about
   the token loop apply to lines whose texts need not convert *)
Definition takes (o : opt) (_ : str) : bool := o_accepts o.
Lemma takes_acc o s : takes o s = true -> o_accepts o = true.
Proof. exact (fun H => H). Qed.

Lemma shape_single : forall A0 P, no_multi A0 = true -> length P <= length A0 -> shape A0 P = true.
Proof.
  induction A0 as [|[n a] A0' IH]; intros [|p P'] Hm Hl; cbn [shape]; try reflexivity; [cbn in Hl; lia|].
  cbn [no_multi forallb snd] in Hm. apply andb_prop in Hm as [Ha Hm]. apply negb_true_iff in Ha. rewrite Ha.
  apply IH; [exact Hm|cbn in Hl; lia].
Qed.
Lemma place_single_length : forall A0 P, no_multi A0 = true -> length P <= length A0 -> length (place A0 P) = length P.
Proof.
  induction A0 as [|[n a] A0' IH]; intros [|p P'] Hm Hl; cbn [place length]; try reflexivity; [cbn in Hl; lia|].
  cbn [no_multi forallb snd] in Hm. apply andb_prop in Hm as [Ha Hm]. apply negb_true_iff in Ha. rewrite Ha.
  cbn [length]. f_equal. apply IH; [exact Hm|cbn in Hl; lia].
Qed.

(* the positional number n of a list of items *)
Lemma split_at_pos f g : forall items n, items_form f g items = true -> n < length (flat_map item_pos items) ->
  exists i1 s i2, items = i1 ++ IPos s :: i2 /\ length (flat_map item_pos i1) = n /\ pos_tok s = true.
Proof.
  induction items as [|it r IH]; intros n Hok H; [cbn in H; lia|].
  cbn [items_form] in Hok. apply andb_prop in Hok as [Hok Hr]. apply andb_prop in Hok as [Hit _].
  cbn [flat_map] in H. rewrite app_length in H.
  destruct it as [o l|o fm v|o l|fl la|s]; cbn [item_pos length] in H.
  1-4: destruct (IH n Hr H) as (i1 & s' & i2 & -> & Hl); eexists (_ :: i1), s', i2; split; [reflexivity|exact Hl].
  destruct n as [|n]; [exists [], s, r; repeat split; exact Hit|].
  destruct (IH n Hr ltac:(lia)) as (i1 & s' & i2 & -> & Hl & Hs). exists (IPos s :: i1), s', i2. split; [reflexivity|].
  cbn [flat_map item_pos app length]. rewrite Hl. split; [reflexivity|exact Hs].
Qed.

Section LoopForm.
  Variables (f g : fmt) (A : list (str * arg)).
  Hypothesis HA : get_arguments_all g = A.
  Hypothesis Hnm : Forall (fun na => fst na = a_name (snd na)) A.
  Hypothesis Hnd : NoDup (map fst A).
  Hypothesis Hsingle : no_multi A = true.

  (* strict mode, every slot taken, one more positional: the loop stops with CannotParse *)
  Lemma pos_full fuel p st tok rest Pdone :
    ps_args st = place A Pdone -> length Pdone = length A -> (p = true -> pos_tok tok = true) ->
    loop (S fuel) g false p st (tok :: rest) = (st, Some CannotParse).
  Proof.
    intros Hst Hl Hp. rewrite loop_arg by exact Hp. rewrite parse_argument_full; [reflexivity| |rewrite HA; exact Hsingle].
    rewrite HA, Hst, place_single_length; [lia|exact Hsingle|lia].
  Qed.

  (* the items in front of the positional that is one too many fill the slots of A; that positional is items' (length A
     - length Pdone)-th *)
  Lemma loop_items_surplus items Pdone st fuel tl :
    ps_args st = place A Pdone -> length Pdone <= length A -> length A < length (Pdone ++ flat_map item_pos items) ->
    items_form f g items = true -> next_dash tl = true ->
    length (flat_map render_item items ++ tl) < fuel ->
    snd (loop fuel g false true st (flat_map render_item items ++ tl)) = Some CannotParse.
  Proof.
    intros Hst Hle Hgt Hok Htl Hf. rewrite app_length in Hgt.
    destruct (split_at_pos f g items (length A - length Pdone) Hok ltac:(lia)) as (i1 & s & i2 & -> & Hl & Hs).
    pose proof (render_items_length i1) as Hlen.
    rewrite (loop_items_pre f g A false HA Hnm Hnd takes takes_acc i1 (IPos s :: i2) Pdone st fuel tl Hst);
      [|apply shape_single; [exact Hsingle|rewrite app_length; lia]|exact Hok|exact Htl|exact Hf].
    rewrite flat_map_app, !app_length in Hf.
    destruct (fuel - length i1) as [|fuel'] eqn:E; [lia|]. cbn [flat_map render_item app].
    rewrite (pos_full fuel' true _ s _ (Pdone ++ flat_map item_pos i1));
      [reflexivity|reflexivity|rewrite app_length; lia|intros _; exact Hs].
  Qed.

  Lemma loop_tail_surplus tl Pdone st fuel :
    ps_args st = place A Pdone -> length Pdone <= length A -> length A < length (Pdone ++ tl) -> length tl < fuel ->
    snd (loop fuel g false false st tl) = Some CannotParse.
  Proof.
    intros Hst Hle Hgt Hf. rewrite app_length in Hgt. remember (length A - length Pdone) as k eqn:Ek.
    assert (length (firstn k tl) = k) as Hk by (apply firstn_length_le; lia).
    destruct (skipn k tl) as [|t rest] eqn:Es.
    { apply (f_equal (@length _)) in Es. rewrite skipn_length in Es. cbn in Es. lia. }
    rewrite <- (firstn_skipn k tl), Es in Hf |- *.
    rewrite (loop_tail_pre g A false HA Hnm Hnd (firstn k tl) (t :: rest) Pdone st fuel Hst);
      [|apply shape_single; [exact Hsingle|rewrite app_length; lia]|exact Hf].
    rewrite app_length in Hf. cbn [length] in Hf. destruct (fuel - length (firstn k tl)) as [|fuel'] eqn:E; [lia|].
    rewrite (pos_full fuel' false _ t rest (Pdone ++ firstn k tl)); [reflexivity|reflexivity|rewrite app_length; lia|discriminate].
  Qed.
End LoopForm.

(* the state the token loop ends in on a line whose positionals fit in number *)
Definition line_state (A : list (str * arg)) (d : ld) : pstate :=
  {| ps_args := place A (ld_names d ++ values d); ps_opts := fold_left raw_event (events d) [] |}.

(* the strict loop goes through a line whose forms are right and whose positionals
   fit in number *)
Lemma scans_rendered_line f g A cns d :
  fmt_facts f g A cns -> Spell.names_ok cns (ld_names d) = true -> items_form f g (ld_items d) = true ->
  shape A (ld_names d ++ values d) = true -> scans g (render d) (line_state A d).
Proof. intros FF Hn Hit Hsh. exact (loop_line_with takes f g A cns false d takes_acc FF Hn Hit Hsh). Qed.

Lemma loop_line_surplus f g A cns d :
  fmt_facts f g A cns -> Spell.names_ok cns (ld_names d) = true -> items_form f g (ld_items d) = true ->
  no_multi A = true -> length A < length (ld_names d ++ values d) ->
  snd (loop (S (length (render d))) g false true ps_empty (render d)) = Some CannotParse.
Proof.
  intros FF Hn Hit Hm. destruct (line_as_items takes f g cns d Hn Hit) as (Hit' & -> & -> & _).
  set (items' := map IPos (ld_names d) ++ ld_items d) in *. intros Hgt.
  pose proof (render_items_length items') as Hlen.
  assert (next_dash (render_tail (ld_tail d)) = true) as Hnd by (destruct (ld_tail d); reflexivity).
  pose proof (ff_args _ _ _ _ FF) as HA. pose proof (ff_names _ _ _ _ FF) as Hnm. pose proof (ff_nodup _ _ _ _ FF) as Hndp.
  destruct (Nat.lt_ge_cases (length A) (length (flat_map item_pos items'))) as [Hin|Hout].
  - (* the surplus positional comes before "--" *)
    apply (loop_items_surplus f g A HA Hnm Hndp Hm items' [] ps_empty);
      [symmetry; apply place_nil|cbn; lia|exact Hin|exact Hit'|exact Hnd|rewrite !app_length; lia].
  - (* it comes after "--" *)
    rewrite (loop_items_with f g A false HA Hnm Hndp takes takes_acc items' [] ps_empty);
      [|symmetry; apply place_nil|cbn [app]; apply shape_single; assumption|exact Hit'|exact Hnd|rewrite !app_length; lia].
    cbn [app ps_opts ps_empty]. rewrite app_length.
    destruct (ld_tail d) as [tl|]; cbn [render_tail] in *; [|rewrite app_nil_r in Hgt; lia].
    cbn [length].
    replace (S (length (flat_map render_item items') + S (length tl)) - length items')
      with (S (S (length (flat_map render_item items') + length tl - length items'))) by lia.
    rewrite loop_dd.
    apply (loop_tail_surplus g A HA Hnm Hndp Hm tl (flat_map item_pos items')); [reflexivity|exact Hout|exact Hgt|lia].
Qed.

Section Facts.
  Variables (f g : fmt) (A : list (str * arg)) (cns : list (str * cname)).
  Hypothesis FF : fmt_facts f g A cns.
  Let real := get_arguments_all f.

  Lemma A_len : length A = length cns + length real.
  Proof. rewrite (A_split f g A cns FF) at 1. rewrite app_length, (pseudo_len f g A cns FF). reflexivity. Qed.
  Lemma A_single : no_multi real = true -> no_multi A = true.
  Proof.
    intros H. rewrite (A_split f g A cns FF). unfold no_multi. rewrite forallb_app. apply andb_true_intro. split; [|exact H].
    apply forallb_forall. intros na Hin. pose proof (ff_single _ _ _ _ FF) as Hs. rewrite Forall_forall in Hs.
    rewrite (Hs na Hin). reflexivity.
  Qed.
  Lemma real_named : args_named real.
  Proof.
    intros k a Hin. pose proof (real_names f g A cns FF) as H. rewrite Forall_forall in H. exact (H (k, a) Hin).
  Qed.
  Lemma A_nth_real i : nth_error A (length cns + i) = nth_error real i.
  Proof.
    rewrite (A_split f g A cns FF) at 1. rewrite nth_error_app2 by (rewrite (pseudo_len f g A cns FF); lia).
    rewrite (pseudo_len f g A cns FF). f_equal. lia.
  Qed.
  Lemma shape_line_sh names V : Spell.names_ok cns names = true -> shape real V = true -> shape A (names ++ V) = true.
  Proof. intros Hn. exact (shape_names_values f g A cns FF names V (names_ok_match _ _ Hn)). Qed.
End Facts.

(* more positional values than declared arguments *)
Theorem line_surplus_positional f d :
  fmt_ok f = true -> forms_ok f d = true ->
  no_multi (get_arguments_all f) = true -> length (get_arguments_all f) < length (values d) ->
  parse f false (render d) = Err CannotParse.
Proof.
  intros Hf Hwf Hm Hgt. destruct (fmt_ok_inv f Hf) as (g & A & cns & FF).
  destruct (forms_ok_inv f g A cns d (ff_aug _ _ _ _ FF) Hwf) as (Hn & Hit & Hclash).
  pose proof (A_single f g A cns FF Hm) as HmA. pose proof (A_len f g A cns FF) as HlA.
  destruct (Nat.lt_ge_cases (length A) (length (ld_names d ++ values d))) as [Hover|Hin].
  - (* found by the token loop *)
    pose proof (loop_line_surplus f g A cns d FF Hn Hit HmA Hover) as Hl.
    unfold parse, parse_on. rewrite (ff_aug _ _ _ _ FF).
    destruct (loop (S (length (render d))) g false true ps_empty (render d)) as [st1 e]. cbn [snd] in Hl. subst e. reflexivity.
  - (* found when the values are re-aligned against the omitted command names *)
    assert (shape A (ld_names d ++ values d) = true) as Hsh by (apply shape_single; assumption).
    eapply (too_many_after_realign f g A cns (render d) (line_state A d) (values d));
      [exact (ff_aug _ _ _ _ FF)|exact (scans_rendered_line f g A cns d FF Hn Hit Hsh)| |exact HmA|lia].
    unfold line_state. cbn [ps_args]. rewrite (flatten_place _ _ Hsh).
    apply (skip_names_spec (values d) (ld_names d) cns 0 (names_ok_match _ _ Hn) Hclash).
Qed.

(* the options of f are valid objects: multi-valued => value required; the default of an option whose value may
   be omitted is None / a bool / an int / a string (ClassifyLemmas.opt_ok_wb, on the option list of f) *)
Definition opts_listed_ok (f : fmt) : bool := forallb (fun no => opt_ok_wb (snd no)) (get_options_all f).
Lemma opts_listed_ok_w f g A cns : aug_format f = Ok (g, A, cns) -> opts_listed_ok f = true -> opts_ok_w g.
Proof.
  intros Ha Hl n o Hg. destruct (ao_get _ _ (aug_format_opts _ _ _ _ Ha) n o Hg) as [Hin _].
  apply in_map_iff in Hin as (no & <- & Hin). unfold opts_listed_ok in Hl. rewrite forallb_forall in Hl.
  exact (opt_ok_wb_inv _ (Hl no Hin)).
Qed.
Theorem line_lenient_no_parse_error f : fmt_ok f = true -> opts_listed_ok f = true ->
  forall toks, parse f true toks <> Err CannotParse /\ parse f true toks <> Err NoSuchOption.
Proof.
  intros Hf Ho toks. destruct (fmt_ok_inv f Hf) as (g & A & cns & FF).
  destruct (lenient_no_parse_error_w f g A cns toks (ff_aug _ _ _ _ FF) (opts_listed_ok_w f g A cns (ff_aug _ _ _ _ FF) Ho)); auto.
Qed.

(* a required argument gets no value *)
Lemma req_ok_false : forall R V, req_ok R V = false ->
  exists i n a, nth_error R i = Some (n, a) /\ a_required a = true /\ length V <= i.
Proof.
  induction R as [|[n a] R' IH]; intros V H; [discriminate|]. cbn [req_ok] in H. destruct V as [|v V'].
  - destruct (a_required a) eqn:Hr.
    + exists 0, n, a. split; [reflexivity|]. split; [exact Hr|cbn; lia].
    + cbn [negb andb] in H. destruct (IH [] H) as (i & n' & a' & Hn & Hr' & Hl). exists (S i), n', a'.
      split; [exact Hn|]. split; [exact Hr'|cbn; lia].
  - destruct (IH V' H) as (i & n' & a' & Hn & Hr' & Hl). exists (S i), n', a'.
    split; [exact Hn|]. split; [exact Hr'|cbn [length]; lia].
Qed.

Theorem line_missing_required f d :
  fmt_ok f = true -> forms_ok f d = true ->
  shape (get_arguments_all f) (values d) = true -> req_ok (get_arguments_all f) (values d) = false ->
  parse f false (render d) = Err CannotParse.
Proof.
  intros Hf Hwf Hsh Hreq. destruct (fmt_ok_inv f Hf) as (g & A & cns & FF).
  destruct (forms_ok_inv f g A cns d (ff_aug _ _ _ _ FF) Hwf) as (Hn & Hit & Hclash).
  pose proof (shape_line_sh f g A cns FF _ _ Hn Hsh) as HshA.
  destruct (req_ok_false _ _ Hreq) as (i & n & a & Hnth & Hr & Hl).
  eapply (missing_argument f g A cns (render d) (line_state A d) (values d) _ _ i n a);
    [exact (ff_aug _ _ _ _ FF)|exact (real_named f g A cns FF)|exact (scans_rendered_line f g A cns d FF Hn Hit HshA)| |
     rewrite (A_nth_real f g A cns FF); exact Hnth|exact Hr|exact Hl].
  unfold line_state. cbn [ps_args]. rewrite (flatten_place _ _ HshA).
  apply (skip_names_spec (values d) (ld_names d) cns 0 (names_ok_match _ _ Hn) Hclash).
Qed.

(* the hypotheses of these two clauses on concrete formats and lines *)
Module LineExamples.
  Import SpellExamples.
  Definition L names items tail := {| ld_names := names; ld_items := items; ld_tail := tail |}.
  (* F1 of SpellExamples without the multi-valued argument: server [add] <host> [<port:int>], six options *)
  Definition F4 := mk [ECName c_server; ECName c_add; EArg a_host; EArg a_port;
                       EOpt o_verbose; EOpt o_quiet; EOpt o_num; EOpt o_tag; EOpt o_color; EOpt o_level] None.
  Example F4_ok : fmt_ok F4 = true /\ opts_listed_ok F4 = true /\ opts_listed_ok F1 = true.
  Proof. repeat split; vm_compute; reflexivity. Qed.

  (* the well-formed line  srv h1 --verbose -n 5 8080  and three ways of putting one value too many *)
  Definition W1 := L [s "srv"] [IPos (s "h1"); IFlag o_verbose true; IVal o_num ShortSep (s "5"); IPos (s "8080")] None.
  Example W1_wf : wf_line F4 W1 = true. Proof. vm_compute. reflexivity. Qed.
  (* ... before "--": found by the re-alignment (the command name "add" is omitted, so the loop has a slot left) *)
  Definition S1 := L [s "srv"] [IPos (s "h1"); IFlag o_verbose true; IVal o_num ShortSep (s "5"); IPos (s "8080"); IPos (s "x")] None.
  Example S1_rejected : render S1 = [s "srv"; s "h1"; s "--verbose"; s "-n"; s "5"; s "8080"; s "x"] /\
                        parse F4 false (render S1) = Err CannotParse /\ parse F4 true (render S1) <> Err CannotParse.
  Proof.
    split; [vm_compute; reflexivity|]. split.
    - apply line_surplus_positional; vm_compute; first [reflexivity|lia].
    - apply (line_lenient_no_parse_error F4); vm_compute; reflexivity.
  Qed.
  (* ... all command names spelled: found by the token loop; the surplus value after "--", dash-leading *)
  Definition S2 := L [s "srv"; s "add"] [IPos (s "h1"); IFlag o_verbose true; IVal o_num ShortSep (s "5"); IPos (s "8080")] (Some [s "-x"]).
  Example S2_rejected : parse F4 false (render S2) = Err CannotParse.
  Proof. apply line_surplus_positional; vm_compute; first [reflexivity|lia]. Qed.
  (* ... no command name spelled, "-" and the empty token as values, two too many, an unconvertible option text on the way *)
  Definition S3 := L [] [IVal o_num LongEq (s "abc"); IPos (s "-"); IPos (s ""); IGroup [o_verbose; o_quiet] None; IPos (s "-")] (Some [s "--"]).
  Example S3_rejected : parse F4 false (render S3) = Err CannotParse.
  Proof. apply line_surplus_positional; vm_compute; first [reflexivity|lia]. Qed.
  (* what no_clash (a conjunct of wf_line and of forms_ok) excludes: the first value spells the omitted command name -
     these tokens ARE the well-formed line  server h1 8080 *)
  Definition S4 := L [] [IPos (s "server"); IPos (s "h1"); IPos (s "8080")] None.
  Example S4_is_another_line : forms_ok F4 S4 = false /\ render S4 = render (L [s "server"] [IPos (s "h1"); IPos (s "8080")] None) /\
                               wf_line F4 (L [s "server"] [IPos (s "h1"); IPos (s "8080")] None) = true.
  Proof. repeat split; vm_compute; reflexivity. Qed.

  (* a required argument without value: the line  srv add -v --num 5  for  server add <host> [<port>] [<files>...] *)
  Definition M1 := L [s "srv"; s "add"] [IFlag o_verbose false; IVal o_num LongSep (s "5")] None.
  Example M1_rejected : render M1 = [s "srv"; s "add"; s "-v"; s "--num"; s "5"] /\
                        parse F1 false (render M1) = Err CannotParse /\ parse F1 true (render M1) <> Err CannotParse.
  Proof.
    split; [vm_compute; reflexivity|]. split.
    - apply line_missing_required; vm_compute; reflexivity.
    - apply (line_lenient_no_parse_error F1); vm_compute; reflexivity.
  Qed.
  (* the second of two required arguments, command names omitted, an empty "--" tail *)
  Definition a_port_req := {| a_name := s "port"; a_flags := 65; a_default := VNone |}.      (* REQUIRED | INTEGER *)
  Definition F6 := mk [ECName c_server; EArg a_host; EArg a_port_req; EOpt o_verbose; EOpt o_num; EOpt o_color; EOpt o_tag] None.
  Definition M2 := L [] [IGroup [o_verbose] (Some (o_color, GBare)); IPos (s "-")] (Some []).
  Example M2_rejected : fmt_ok F6 = true /\ render M2 = [s "-vc"; s "-"; s "--"] /\ parse F6 false (render M2) = Err CannotParse.
  Proof.
    split; [vm_compute; reflexivity|]. split; [vm_compute; reflexivity|].
    apply line_missing_required; vm_compute; reflexivity.
  Qed.
End LineExamples.

(* a positional value that does not convert *)
Lemma arg_by_name f n a : sget n (get_arguments_all f) = Some a ->
  has_argument f (AName n) true = true /\ get_argument f (AName n) true = Ok a.
Proof. intros H. unfold has_argument, get_argument. cbn [get_arguments]. rewrite shas_sget, H. split; reflexivity. Qed.
Lemma res_ok_false {X} (r : res X) : res_ok r = false -> exists k, r = Err k.
Proof. destruct r; [discriminate|eauto]. Qed.

Lemma unfit_bad_arg f : NoDup (map fst (get_arguments_all f)) ->
  forall R1 V, incl R1 (get_arguments_all f) -> shape R1 V = true -> fits R1 V = false ->
  exists n v, In (n, v) (place R1 V) /\ bad_arg f n v.
Proof.
  intros Hnd. induction R1 as [|[n a] R1' IH]; intros V Hincl Hsh Hfit.
  - destruct V; discriminate.
  - destruct V as [|v V']; [discriminate|].
    assert (In (n, a) (get_arguments_all f)) as Hin by (apply Hincl; now left).
    pose proof (sget_of_in n a _ Hnd Hin) as Hget. destruct (arg_by_name f n a Hget) as [Hh Hg].
    cbn [place shape fits] in *. destruct (a_multi a) eqn:Hm.
    + rewrite Hsh in Hfit. cbn [andb] in Hfit. apply forallb_false_ex in Hfit as (x & Hx & Hp).
      apply res_ok_false in Hp as [k Hk].
      exists n, (RList (v :: V')). split; [now left|]. split; [exact Hh|]. exists a. split; [exact Hg|].
      split; [exact Hm|]. exists x, k. split; assumption.
    + destruct (parse_typed (a_type a) (a_nullable a) (VStr v)) as [pv|k] eqn:Ek.
      * cbn [res_ok andb] in Hfit. destruct (IH V' (fun x Hx => Hincl x (or_intror Hx)) Hsh Hfit) as (n' & v' & Hin' & Hb).
        exists n', v'. split; [now right|exact Hb].
      * exists n, (RStr v). split; [now left|]. split; [exact Hh|]. exists a. split; [exact Hg|].
        split; [exact Hm|]. exists k. exact Ek.
Qed.

Lemma known_same f o o' : known f o -> known f o' -> o_long o = o_long o' -> o = o'.
Proof. intros [H1 _] [H2 _] E. rewrite E in H1. congruence. Qed.

(* every default stored for an omitted optional value converts *)
Definition defaults_ok (f : fmt) (R : list (str * rawopt)) : Prop :=
  forall n d, In (n, ODefault d) R -> forall o, get_option f n true = Ok o ->
    res_ok (parse_typed (o_type o) (o_nullable o) d) = true.
Lemma raw_event_defaults f R e : ev_ok_with takes f e -> defaults_ok f R -> defaults_ok f (raw_event R e).
Proof.
  intros [[Hg Hh] He] HR. destruct e as [o gv]. cbn [fst snd] in *. unfold raw_event. cbn [fst snd].
  destruct gv as [| |s].
  - intros n d Hin. apply in_sset in Hin as [[_ Hv]|Hin]; [discriminate|exact (HR n d Hin)].
  - intros n d Hin. apply in_sset in Hin as [[Hn Hv]|Hin]; [|exact (HR n d Hin)].
    inversion Hv; subst. intros o' Ho'. rewrite Hg in Ho'. inversion Ho'; subst o'.
    apply (is_bare_inv o He).
  - destruct (o_multi o); intros n d Hin; apply in_sset in Hin as [[_ Hv]|Hin]; try discriminate; exact (HR n d Hin).
Qed.
Lemma raw_events_defaults f es : Forall (ev_ok_with takes f) es -> forall R, defaults_ok f R -> defaults_ok f (fold_left raw_event es R).
Proof.
  induction 1 as [|e es He Hes IH]; intros R HR; cbn [fold_left]; [exact HR|]. apply IH. now apply raw_event_defaults.
Qed.

(* Args.set_option over such a map fails with ValueError only (ParserLemmas.set_options_err, with the hypothesis
   on the stored defaults that the line conditions give) *)
Lemma set_options_err_def f : forall l a k, defaults_ok f l -> set_options f a l = Err k -> k = ValueError.
Proof.
  intros l a k Hd. apply set_options_err_gen. intros n d o k' Hin Ho Hk'.
  pose proof (Hd n d Hin o Ho) as Hv. rewrite Hk' in Hv. discriminate.
Qed.

(* where the text of an occurrence ends up *)
Lemma raw_event_other k R e : str_eqb k (ev_key e) = false -> sget k (raw_event R e) = sget k R.
Proof.
  unfold raw_event, ev_key. intros H. destruct (snd e); [| |destruct (o_multi (fst e))]; now rewrite sget_set, H.
Qed.
Lemma raw_others k : forall es R, mentions k es = false -> sget k (fold_left raw_event es R) = sget k R.
Proof.
  unfold mentions. induction es as [|e r IH]; intros R H; cbn [fold_left]; [reflexivity|]. cbn [existsb] in H.
  apply orb_false_elim in H as [H1 H2]. rewrite IH by exact H2. apply raw_event_other, H1.
Qed.
(* a text once in the list of a multi-valued option stays there: a later event for the same key is, by known_same,
   an event of o itself, and o only takes texts, which are appended *)
Lemma raw_multi_keeps f o s : known f o -> o_multi o = true -> forall es R l,
  Forall (ev_ok_with takes f) es -> sget (o_long o) R = Some (OList l) -> In s l ->
  exists l', sget (o_long o) (fold_left raw_event es R) = Some (OList l') /\ In s l'.
Proof.
  intros Hk Hm. induction es as [|e r IH]; intros R l Hes Hg Hin; cbn [fold_left]; [eauto|].
  inversion Hes as [|? ? He Hr]; subst.
  destruct (str_eqb_spec (o_long o) (ev_key e)) as [E|Hne].
  - destruct e as [o' gv]. unfold ev_key in E. cbn [fst] in E. destruct He as [Hk' Hgv]. cbn [fst snd] in *.
    assert (o' = o) as -> by (symmetry; eapply known_same; eauto).
    destruct gv as [| |s'].
    + apply is_flag_inv in Hgv as (_ & _ & _ & Hgv). congruence.
    + apply is_bare_inv in Hgv as (_ & _ & _ & Hgv & _). congruence.
    + apply (IH _ (l ++ [s'])); [exact Hr| |apply in_or_app; now left].
      unfold raw_event. cbn [fst snd]. rewrite Hm, Hg. apply sget_set_same.
  - apply (IH _ l); [exact Hr| |exact Hin]. rewrite raw_event_other; [exact Hg|].
    destruct (str_eqb_spec (o_long o) (ev_key e)); [contradiction|reflexivity].
Qed.
Lemma raw_bad_entry f es1 o s es2 R0 :
  Forall (ev_ok_with takes f) (es1 ++ (o, GText s) :: es2) ->
  (o_multi o = true \/ mentions (o_long o) es2 = false) ->
  exists v, In (o_long o, v) (fold_left raw_event (es1 ++ (o, GText s) :: es2) R0) /\
            if o_multi o then exists l, v = OList l /\ In s l else v = OStr s.
Proof.
  intros Hall Hlast. apply Forall_app in Hall as [_ Hall]. inversion Hall as [|? ? [Hk Ha] Hes2]; subst. cbn [fst snd] in *.
  rewrite fold_left_app. cbn [fold_left]. set (R1 := fold_left raw_event es1 R0).
  destruct (o_multi o) eqn:Hm.
  - assert (exists l, sget (o_long o) (raw_event R1 (o, GText s)) = Some (OList l) /\ In s l) as (l & Hg & Hin).
    { unfold raw_event. cbn [fst snd]. rewrite Hm. eexists. split; [apply sget_set_same|].
      apply in_or_app. right. now left. }
    destruct (raw_multi_keeps f o s Hk Hm es2 _ l Hes2 Hg Hin) as (l' & Hg' & Hin').
    exists (OList l'). split; [exact (sget_some_in _ _ _ Hg')|eauto].
  - destruct Hlast as [Hc|Hlast]; [discriminate|].
    exists (OStr s). split; [|reflexivity].
    assert (sget (o_long o) (fold_left raw_event es2 (raw_event R1 (o, GText s))) = Some (OStr s)) as Hg.
    { rewrite raw_others by exact Hlast. unfold raw_event. cbn [fst snd]. rewrite Hm. apply sget_set_same. }
    exact (sget_some_in _ _ _ Hg).
Qed.

(* a line whose forms are right, whose values fit in number and reach every required argument:
   all that is left to the parser, in both modes, is the conversion of the stored texts *)
Lemma parse_form_line f d : fmt_ok f = true -> forms_ok f d = true ->
  shape (get_arguments_all f) (values d) = true -> req_ok (get_arguments_all f) (values d) = true ->
  forall len, parse f len (render d) =
    do a1 <- set_arguments f {| ar_opts := []; ar_args := [] |} (place (get_arguments_all f) (values d));
    set_options f a1 (fold_left raw_event (events d) []).
Proof.
  intros Hf Hwf Hsh Hreq len. destruct (fmt_ok_inv f Hf) as (g & A & cns & FF).
  destruct (forms_ok_inv f g A cns d (ff_aug _ _ _ _ FF) Hwf) as (Hn & Hit & Hclash).
  pose proof (shape_line_sh f g A cns FF _ _ Hn Hsh) as HshA.
  pose proof (scans_rendered_line f g A cns d FF Hn Hit HshA) as Hscan.
  destruct (realign f g A cns FF (ld_names d) (values d) (names_ok_match _ _ Hn) Hsh Hclash Hreq false (fold_left raw_event (events d) []))
    as (st2 & Hins & Hopts & Hmiss & Hfil).
  fold (line_state A d) in Hins.
  assert (parse f len (render d) = parse f false (render d)) as ->.
  { destruct len; [|reflexivity]. exact (modes_agree_after_scan f g A cns _ _ _ (ff_aug _ _ _ _ FF) Hscan Hins Hmiss). }
  rewrite (parse_after_scan f g A cns _ _ (ff_aug _ _ _ _ FF) Hscan), Hins, Hmiss, set_arguments_filter, Hfil, Hopts.
  reflexivity.
Qed.

(* some positional text does not convert, or the option scratch map holds a text that does not *)
Theorem line_unconvertible_value f d : fmt_ok f = true -> forms_ok f d = true ->
  shape (get_arguments_all f) (values d) = true -> req_ok (get_arguments_all f) (values d) = true ->
  (fits (get_arguments_all f) (values d) = false \/
   exists n v, In (n, v) (fold_left raw_event (events d) []) /\ bad_opt f n v) ->
  forall len, parse f len (render d) = Err ValueError.
Proof.
  intros Hf Hwf Hsh Hreq Hbad len. rewrite (parse_form_line f d Hf Hwf Hsh Hreq).
  destruct (fmt_ok_inv f Hf) as (g & A & cns & FF).
  destruct (set_arguments f _ (place (get_arguments_all f) (values d))) as [a1|k] eqn:Ea; cbn [bind].
  - destruct Hbad as [Hfit|(n & v & Hin & Hb)].
    + destruct (unfit_bad_arg f (real_nodup f g A cns FF) _ _ (incl_refl _) Hsh Hfit) as (n & v & Hin & Hb).
      destruct (set_arguments_bad f n v Hb _ {| ar_opts := []; ar_args := [] |} Hin) as [k Hk]. congruence.
    + destruct (set_options_bad f n v Hb _ a1 Hin) as [k Hk]. rewrite Hk. f_equal.
      eapply set_options_err_def; [|exact Hk].
      destruct (forms_ok_inv f g A cns d (ff_aug _ _ _ _ FF) Hwf) as (_ & Hit & _).
      apply (raw_events_defaults f (events d)); [exact (items_events_ok takes f g _ Hit)|]. intros ? ? [].
  - f_equal. eapply set_arguments_err; eauto.
Qed.

(* ONE positional text does not convert (any number of them, in fact) *)
Theorem line_unconvertible_positional f d : fmt_ok f = true -> forms_ok f d = true ->
  shape (get_arguments_all f) (values d) = true -> req_ok (get_arguments_all f) (values d) = true ->
  fits (get_arguments_all f) (values d) = false ->
  forall len, parse f len (render d) = Err ValueError.
Proof. intros Hf Hwf Hsh Hreq Hfit. apply line_unconvertible_value; auto. Qed.

(* ONE occurrence of an option carries a text that does not convert; the option is multi-valued, or the line
   does not mention it again (a single-valued option keeps what its last mention gives) *)
Theorem line_unconvertible_event f d o s es1 es2 : fmt_ok f = true -> forms_ok f d = true ->
  shape (get_arguments_all f) (values d) = true -> req_ok (get_arguments_all f) (values d) = true ->
  events d = es1 ++ (o, GText s) :: es2 ->
  res_ok (parse_typed (o_type o) (o_nullable o) (VStr s)) = false ->
  (o_multi o = true \/ mentions (o_long o) es2 = false) ->
  forall len, parse f len (render d) = Err ValueError.
Proof.
  intros Hf Hwf Hsh Hreq Hev Hconv Hlast. apply line_unconvertible_value; auto. right.
  destruct (fmt_ok_inv f Hf) as (g & A & cns & FF).
  destruct (forms_ok_inv f g A cns d (ff_aug _ _ _ _ FF) Hwf) as (_ & Hit & _).
  pose proof (items_events_ok takes f g _ Hit) as Hall. fold (events d) in Hall. rewrite Hev in Hall |- *.
  destruct (raw_bad_entry f es1 o s es2 [] Hall Hlast) as (v & Hin & Hv).
  apply Forall_app in Hall as [_ Hall]. inversion Hall as [|? ? [[Hg Hh] Ha] _]; subst. cbn [fst snd] in *.
  apply res_ok_false in Hconv as [k Hk].
  exists (o_long o), v. split; [exact Hin|]. split; [exact Hh|]. exists o. split; [exact Hg|].
  destruct (o_multi o) eqn:Hm.
  - destruct Hv as (l & -> & Hl). split; [reflexivity|]. exists s, k. split; assumption.
  - subst v. split; [reflexivity|]. split; [exact Ha|]. exists k. exact Hk.
Qed.

(* the same, pointing at the ITEM that carries the text *)
Definition item_text (it : item) : option (opt * str) :=
  match it with
  | IVal o _ s => Some (o, s)
  | IGroup _ (Some (o, GGlued s)) | IGroup _ (Some (o, GSep s)) => Some (o, s)
  | _ => None
  end.
Lemma item_text_events it o s : item_text it = Some (o, s) -> exists pre, item_events it = pre ++ [(o, GText s)].
Proof.
  destruct it as [o' long|o' form s'|o' long|fl [[o' [s'|s'|]]|]|s']; cbn [item_text]; intros H; inversion H; subst.
  - exists []. reflexivity.
  - eexists. reflexivity.
  - eexists. reflexivity.
Qed.
Theorem line_unconvertible_item f d its1 it its2 o s : fmt_ok f = true -> forms_ok f d = true ->
  shape (get_arguments_all f) (values d) = true -> req_ok (get_arguments_all f) (values d) = true ->
  ld_items d = its1 ++ it :: its2 -> item_text it = Some (o, s) ->
  res_ok (parse_typed (o_type o) (o_nullable o) (VStr s)) = false ->
  (o_multi o = true \/ mentions (o_long o) (flat_map item_events its2) = false) ->
  forall len, parse f len (render d) = Err ValueError.
Proof.
  intros Hf Hwf Hsh Hreq Hits Htxt Hconv Hlast. destruct (item_text_events it o s Htxt) as [pre Hpre].
  apply (line_unconvertible_event f d o s (flat_map item_events its1 ++ pre) (flat_map item_events its2));
    auto.
  unfold events. rewrite Hits, flat_map_app. cbn [flat_map]. rewrite Hpre, <- !app_assoc. reflexivity.
Qed.

Module ValueExamples.
  Import SpellExamples LineExamples.
  (* the well-formed line  srv add h1 --num=5 8080  for  server add <host> [<port:int>] [<files>...], and its mutations *)
  Definition W2 := L [s "srv"; s "add"] [IPos (s "h1"); IVal o_num LongEq (s "5"); IPos (s "8080")] None.
  Example W2_wf : wf_line F1 W2 = true. Proof. vm_compute. reflexivity. Qed.
  (* the port is not a number *)
  Definition U1 := L [s "srv"; s "add"] [IPos (s "h1"); IVal o_num LongEq (s "5"); IPos (s "http")] None.
  Example U1_rejected : render U1 = [s "srv"; s "add"; s "h1"; s "--num=5"; s "http"] /\
                        forall len, parse F1 len (render U1) = Err ValueError.
  Proof. split; [vm_compute; reflexivity|]. apply line_unconvertible_positional; vm_compute; reflexivity. Qed.
  (* ... after "--", command names omitted; "-" is not a number either *)
  Definition U2 := L [] [IPos (s "h1")] (Some [s "-"; s "f"]).
  Example U2_rejected : forall len, parse F1 len (render U2) = Err ValueError.
  Proof. apply line_unconvertible_positional; vm_compute; reflexivity. Qed.
  (* the text of --num is not a number: the only mention of the option *)
  Definition U3 := L [s "srv"; s "add"] [IPos (s "h1"); IVal o_num LongEq (s "five"); IPos (s "8080")] None.
  Example U3_rejected : forall len, parse F1 len (render U3) = Err ValueError.
  Proof.
    apply (line_unconvertible_item F1 U3 [IPos (s "h1")] (IVal o_num LongEq (s "five")) [IPos (s "8080")] o_num (s "five"));
      try (vm_compute; reflexivity). right. vm_compute. reflexivity.
  Qed.
  (* ... the LAST of two mentions, written in a group of short options with a separate value *)
  Definition U4 := L [s "srv"] [IVal o_num ShortGlued (s "5"); IPos (s "h1"); IGroup [o_verbose; o_quiet] (Some (o_num, GSep (s "1.5")))] (Some []).
  Example U4_rejected : render U4 = [s "srv"; s "-n5"; s "h1"; s "-vqn"; s "1.5"; s "--"] /\
                        forall len, parse F1 len (render U4) = Err ValueError.
  Proof.
    split; [vm_compute; reflexivity|].
    apply (line_unconvertible_item F1 U4 [IVal o_num ShortGlued (s "5"); IPos (s "h1")]
             (IGroup [o_verbose; o_quiet] (Some (o_num, GSep (s "1.5")))) [] o_num (s "1.5"));
      try (vm_compute; reflexivity). right. vm_compute. reflexivity.
  Qed.
  (* why "last": a single-valued option keeps what its last mention gives; an earlier text is never converted *)
  Definition U5 := L [s "srv"] [IVal o_num LongEq (s "five"); IPos (s "h1"); IVal o_num ShortSep (s "5")] None.
  Example overwritten_bad_text_accepted : forms_ok F1 U5 = true /\ wf_line F1 U5 = false /\
    render U5 = [s "srv"; s "--num=five"; s "h1"; s "-n"; s "5"] /\
    forall len, parse F1 len (render U5) = Ok {| ar_opts := [(s "num", VInt 5)]; ar_args := [(s "host", VStr (s "h1"))] |}.
  Proof. split; [|split; [|split; [|intros []]]]; vm_compute; reflexivity. Qed.
  (* ... an omitted optional value as the last mention hides an earlier bad text as well *)
  Definition U6 := L [] [IVal o_level LongEq (s "x"); IPos (s "h1"); IBare o_level true] None.
  Example overwritten_by_default_accepted : forms_ok F1 U6 = true /\
    forall len, parse F1 len (render U6) = Ok {| ar_opts := [(s "level", VInt 3)]; ar_args := [(s "host", VStr (s "h1"))] |}.
  Proof. split; [|intros []]; vm_compute; reflexivity. Qed.
  (* a multi-valued option converts every text it collected: the bad one need not be the last *)
  Definition o_ids := {| o_long := s "ids"; o_short := Some (s "i"); o_flags := 554; o_default := VList [] |}.  (* REQUIRED_VALUE | MULTI_VALUED | INTEGER *)
  Definition F7 := mk [EArg a_host; EOpt o_verbose; EOpt o_ids; EOpt o_num] None.
  Definition U7 := L [] [IVal o_ids LongEq (s "1"); IPos (s "h"); IVal o_ids ShortSep (s "x"); IVal o_ids ShortGlued (s "3")] None.
  Example U7_rejected : fmt_ok F7 = true /\ o_multi o_ids = true /\ forall len, parse F7 len (render U7) = Err ValueError.
  Proof.
    split; [vm_compute; reflexivity|]. split; [vm_compute; reflexivity|].
    apply (line_unconvertible_item F7 U7 [IVal o_ids LongEq (s "1"); IPos (s "h")] (IVal o_ids ShortSep (s "x"))
             [IVal o_ids ShortGlued (s "3")] o_ids (s "x")); try (vm_compute; reflexivity). left. vm_compute. reflexivity.
  Qed.
  (* the events form of the statement on the same line *)
  Example U7_rejected_events : forall len, parse F7 len (render U7) = Err ValueError.
  Proof.
    apply (line_unconvertible_event F7 U7 o_ids (s "x") [(o_ids, GText (s "1"))] [(o_ids, GText (s "3"))]);
      try (vm_compute; reflexivity). left. vm_compute. reflexivity.
  Qed.
End ValueExamples.

(* the line cut after its first k items *)
Definition prefix_line (d : ld) (k : nat) : ld :=
  {| ld_names := ld_names d; ld_items := firstn k (ld_items d); ld_tail := None |}.
(* the tokens of the command names and of the first k items / of the remaining items and the "--" tail *)
Definition prefix_toks (d : ld) (k : nat) : list str := render (prefix_line d k).
Definition suffix_toks (d : ld) (k : nat) : list str :=
  flat_map render_item (skipn k (ld_items d)) ++ render_tail (ld_tail d).
(* the line with one more token at the k-th item boundary *)
Definition insert_tok (d : ld) (k : nat) (tok : str) : list str := prefix_toks d k ++ tok :: suffix_toks d k.

Lemma items_form_firstn f g : forall l k, items_form f g l = true -> items_form f g (firstn k l) = true.
Proof.
  induction l as [|it r IH]; intros k H; [destruct k; reflexivity|]. destruct k as [|k]; [reflexivity|].
  cbn [firstn items_form] in *. apply andb_prop in H as [H Hr]. apply andb_prop in H as [Hi Hla].
  rewrite Hi, (IH k Hr). cbn [andb]. rewrite andb_true_r.
  destruct (looks_ahead it); [|reflexivity]. destruct r as [|it2 r']; [destruct k; reflexivity|].
  destruct k; [reflexivity|]. exact Hla.
Qed.

(* the strict loop processes such a prefix: scans, the hypothesis of the prefix theorems of ClassifyLemmas *)
Lemma scans_rendered_prefix_gen f g A cns d k :
  fmt_facts f g A cns -> Spell.names_ok cns (ld_names d) = true -> items_form f g (ld_items d) = true ->
  shape A (ld_names d ++ values d) = true ->
  scans g (prefix_toks d k) (line_state A (prefix_line d k)).
Proof.
  intros FF Hn Hit Hsh. apply (scans_rendered_line f g A cns (prefix_line d k) FF); cbn [prefix_line ld_names ld_items];
    [exact Hn|apply items_form_firstn; exact Hit|].
  unfold values in *. cbn [ld_items ld_tail]. rewrite app_nil_r.
  rewrite <- (firstn_skipn k (ld_items d)), flat_map_app, <- app_assoc, app_assoc in Hsh.
  eapply shape_app_l. exact Hsh.
Qed.

(* none of those tokens is the "--" separator *)
Lemma starts_dd_is_dd tok : starts_dd tok = false -> is_dd tok = false.
Proof. unfold is_dd. destruct (str_eqb_spec tok [DASH; DASH]) as [->|]; [discriminate|reflexivity]. Qed.
Lemma plain_no_dd s : plain_tok s = true -> is_dd s = false.
Proof.
  unfold plain_tok. intros H. apply andb_prop in H as [_ H]. apply negb_true_iff in H.
  unfold is_dd. destruct (str_eqb_spec s [DASH; DASH]) as [->|]; [discriminate|reflexivity].
Qed.
Lemma pos_no_dd s : pos_tok s = true -> is_dd s = false.
Proof.
  unfold pos_tok, is_dd. destruct (str_eqb_spec s [DASH; DASH]) as [->|]; [discriminate|reflexivity].
Qed.
Lemma long_no_dd o x : nonempty (o_long o) = true -> is_dd (long_tok o ++ x) = false.
Proof. intros H. now destruct (long_tok_class o x H) as (_ & H2 & _). Qed.
Lemma short_no_dd g o x : Spell.short_ok g o = true -> is_dd (short_tok o ++ x) = false.
Proof.
  intros H. apply short_ok_inv in H as [c Hs]. unfold short_tok. rewrite (short_char_known g o c Hs). cbn [app].
  pose proof Hs as (_ & Hd & _ & _). destruct (short_tok_class c x Hd) as (_ & T2 & _). apply starts_dd_is_dd, T2.
Qed.
Lemma render_item_no_dd f g it : item_form f g it = true -> existsb is_dd (render_item it) = false.
Proof.
  destruct it as [o long|o form s|o long|fl last|s]; cbn [item_form]; intros H.
  - apply andb_prop in H as [H Hform]. apply andb_prop in H as [Hok _]. apply opt_ok_inv in Hok as (_ & _ & Hne & _).
    destruct long; cbn [render_item existsb]; rewrite orb_false_r.
    + rewrite <- (app_nil_r (long_tok o)). now apply long_no_dd.
    + cbn [orb] in Hform. rewrite <- (app_nil_r (short_tok o)). eapply short_no_dd; eauto.
  - apply andb_prop in H as [H Hform]. apply andb_prop in H as [Hok _]. apply opt_ok_inv in Hok as (_ & _ & Hne & _).
    destruct form; cbn [render_item existsb]; rewrite ?orb_false_r.
    + now apply long_no_dd.
    + rewrite <- (app_nil_r (long_tok o)), (long_no_dd o [] Hne), (plain_no_dd s Hform). reflexivity.
    + apply andb_prop in Hform as [Hso _]. eapply short_no_dd; eauto.
    + apply andb_prop in Hform as [Hso Hp]. rewrite <- (app_nil_r (short_tok o)), (short_no_dd g o [] Hso), (plain_no_dd s Hp). reflexivity.
  - apply andb_prop in H as [H Hform]. apply andb_prop in H as [Hok _]. apply opt_ok_inv in Hok as (_ & _ & Hne & _).
    destruct long; cbn [render_item existsb]; rewrite orb_false_r.
    + rewrite <- (app_nil_r (long_tok o)). now apply long_no_dd.
    + cbn [orb] in Hform. rewrite <- (app_nil_r (short_tok o)). eapply short_no_dd; eauto.
  - apply andb_prop in H as [Hfl Hlast].
    assert (forall x, is_dd (group_tok fl ++ x) = false) as Hg.
    { intros x. destruct fl as [|o1 fl']; [destruct last; discriminate|]. cbn [forallb] in Hfl.
      apply andb_prop in Hfl as [H1 _]. apply andb_prop in H1 as [_ Hso].
      unfold group_tok. cbn [flat_map]. change (DASH :: short_char o1 ++ flat_map short_char fl') with (short_tok o1 ++ flat_map short_char fl').
      rewrite <- app_assoc. eapply short_no_dd; eauto. }
    destruct last as [[o [s|s|]]|]; cbn [render_item existsb]; rewrite ?orb_false_r.
    + apply Hg.
    + rewrite Hg. apply andb_prop in Hlast as [_ Hlast]. unfold last_form in Hlast. cbn [fst snd] in Hlast.
      apply andb_prop in Hlast as [_ Hgl]. apply andb_prop in Hgl as [Hp _]. rewrite (plain_no_dd s Hp). reflexivity.
    + apply Hg.
    + rewrite <- (app_nil_r (group_tok fl)). apply Hg.
  - cbn [render_item existsb]. rewrite orb_false_r. now apply pos_no_dd.
Qed.
Lemma render_items_no_dd f g : forall l, items_form f g l = true -> existsb is_dd (flat_map render_item l) = false.
Proof.
  induction l as [|it r IH]; cbn [items_form flat_map]; intros H; [reflexivity|].
  apply andb_prop in H as [H Hr]. apply andb_prop in H as [Hi _].
  rewrite existsb_app, (render_item_no_dd f g it Hi), (IH Hr). reflexivity.
Qed.
Lemma prefix_no_dd f g cns d k : Spell.names_ok cns (ld_names d) = true -> items_form f g (ld_items d) = true ->
  existsb is_dd (prefix_toks d k) = false.
Proof.
  intros Hn Hit. unfold prefix_toks, render, prefix_line. cbn [ld_names ld_items ld_tail render_tail].
  rewrite app_nil_r, existsb_app, (render_items_no_dd f g _ (items_form_firstn f g _ k Hit)), orb_false_r.
  apply names_ok_plain in Hn. induction Hn as [|s r Hs Hr IH]; [reflexivity|]. cbn [existsb]. rewrite (plain_no_dd s Hs). exact IH.
Qed.

(* for a WELL-FORMED line, as a statement about the parser's own format *)
Theorem prefix_scans f d k : fmt_ok f = true -> wf_line f d = true ->
  exists g A cns st, aug_format f = Ok (g, A, cns) /\ scans g (prefix_toks d k) st /\ existsb is_dd (prefix_toks d k) = false /\
                     st = line_state A (prefix_line d k).
Proof.
  intros Hf Hwf. destruct (fmt_ok_inv f Hf) as (g & A & cns & FF).
  destruct (wf_line_forms f d Hwf) as (Hfo & Hfit & _). destruct (forms_ok_inv f g A cns d (ff_aug _ _ _ _ FF) Hfo) as (Hn & Hit & _).
  exists g, A, cns, (line_state A (prefix_line d k)). split; [exact (ff_aug _ _ _ _ FF)|]. split; [|split; [|reflexivity]].
  - apply (scans_rendered_prefix_gen f g A cns d k FF Hn Hit). apply (shape_line_sh f g A cns FF _ _ Hn), fits_shape, Hfit.
  - exact (prefix_no_dd f g cns d k Hn Hit).
Qed.

(* ONE extra token at an item boundary of a well-formed line (before the "--" tail): an unknown "--name" / "--name=value" /
   "-x" behind known flags; "--flag=value" for an option that takes no value; "--opt" / "--opt=" / "-o" behind known flags for
   an option whose value is required, where no value follows - the end of the line, the "--" separator, another option, an
   empty token or "-" *)
Theorem malformed_in_line_rejected f d k tok e :
  fmt_ok f = true -> wf_line f d = true -> malformed f tok (suffix_toks d k) e ->
  parse f false (insert_tok d k tok) = Err e.
Proof.
  intros Hf Hwf Hm. destruct (prefix_scans f d k Hf Hwf) as (g & A & cns & st & Ha & Hs & Hdd & _).
  exact (malformed_rejected f g A cns _ st tok _ e Ha Hs Hdd Hm).
Qed.

(* on the well-formed line D1 of SpellExamples,
   srv add --verbose h1 --num=-5 -tx -vqt y 8080 -c --tag z --level -- -a "" b   (items 0..8, then the tail) *)
Module InsertExamples.
  Import SpellExamples LineExamples.
  Example D1_prefix_scans : exists g A cns st, aug_format F1 = Ok (g, A, cns) /\ scans g (prefix_toks D1 7) st /\
    existsb is_dd (prefix_toks D1 7) = false /\ st = line_state A (prefix_line D1 7).
  Proof. exact (prefix_scans F1 D1 7 F1_ok D1_wf). Qed.
  Example D1_prefix_tokens : prefix_toks D1 7 = [s "srv"; s "add"; s "--verbose"; s "h1"; s "--num=-5"; s "-tx"; s "-vqt"; s "y"; s "8080"; s "-c"] /\
                             suffix_toks D1 7 = [s "--tag"; s "z"; s "--level"; s "--"; s "-a"; s ""; s "b"].
  Proof. split; vm_compute; reflexivity. Qed.

  (* an unknown option right behind "-c", whose optional value is omitted *)
  Example unknown_long_inserted :
    insert_tok D1 7 (s "--nope") = [s "srv"; s "add"; s "--verbose"; s "h1"; s "--num=-5"; s "-tx"; s "-vqt"; s "y"; s "8080"; s "-c";
                                    s "--nope"; s "--tag"; s "z"; s "--level"; s "--"; s "-a"; s ""; s "b"] /\
    parse F1 false (insert_tok D1 7 (s "--nope")) = Err NoSuchOption.
  Proof.
    split; [vm_compute; reflexivity|].
    refine (malformed_in_line_rejected F1 D1 7 _ _ F1_ok D1_wf (mf_unknown_long F1 (s "nope") _ _ _ _));
      [discriminate|vm_compute; reflexivity..].
  Qed.
  Example unknown_long_with_value_inserted : parse F1 false (insert_tok D1 0 (s "--nope=1")) = Err NoSuchOption.
  Proof. refine (malformed_in_line_rejected F1 D1 0 _ _ F1_ok D1_wf (mf_unknown_long_eq F1 (s "nope") (s "1") _ _ _)); vm_compute; reflexivity. Qed.
  (* "-vz": z behind the known flag v, in front of the group -vqt *)
  Example unknown_short_inserted : parse F1 false (insert_tok D1 4 (s "-vz")) = Err NoSuchOption.
  Proof. refine (malformed_in_line_rejected F1 D1 4 _ _ F1_ok D1_wf (mf_unknown_short F1 (s "v") 122%N [] _ _ _ _)); vm_compute; reflexivity. Qed.
  (* a value for the flag --quiet, at the very beginning of the items *)
  Example flag_with_value_inserted : parse F1 false (insert_tok D1 0 (s "--quiet=1")) = Err CannotParse.
  Proof.
    refine (malformed_in_line_rejected F1 D1 0 _ _ F1_ok D1_wf (mf_flag_value F1 o_quiet (s "quiet") (s "1") _ _ _ _ _));
      [vm_compute; tauto|vm_compute; reflexivity..].
  Qed.
  (* "--num" without value: at the end of the items (the "--" separator follows), and in front of another option *)
  Example value_missing_inserted_at_end : suffix_toks D1 9 = [s "--"; s "-a"; s ""; s "b"] /\
    parse F1 false (insert_tok D1 9 (s "--num")) = Err CannotParse.
  Proof.
    split; [vm_compute; reflexivity|].
    refine (malformed_in_line_rejected F1 D1 9 _ _ F1_ok D1_wf (mf_value_missing F1 o_num (s "num") _ _ _ _ _ _ _));
      [vm_compute; tauto|vm_compute; reflexivity|discriminate|vm_compute; reflexivity..].
  Qed.
  Example value_missing_inserted_before_option : parse F1 false (insert_tok D1 2 (s "--num")) = Err CannotParse.
  Proof.
    refine (malformed_in_line_rejected F1 D1 2 _ _ F1_ok D1_wf (mf_value_missing F1 o_num (s "num") _ _ _ _ _ _ _));
      [vm_compute; tauto|vm_compute; reflexivity|discriminate|vm_compute; reflexivity..].
  Qed.
  (* ... at the very end of a line without "--" tail *)
  Example value_missing_inserted_last : insert_tok D2 5 (s "--tag") = render D2 ++ [s "--tag"] /\
    parse F1 false (insert_tok D2 5 (s "--tag")) = Err CannotParse.
  Proof.
    split; [vm_compute; reflexivity|].
    refine (malformed_in_line_rejected F1 D2 5 _ _ F1_ok (proj1 D2_parses) (mf_value_missing F1 o_tag (s "tag") _ _ _ _ _ _ _));
      [vm_compute; tauto|vm_compute; reflexivity|discriminate|vm_compute; reflexivity..].
  Qed.
  Example value_empty_inserted : parse F1 false (insert_tok D1 5 (s "--num=")) = Err CannotParse.
  Proof.
    refine (malformed_in_line_rejected F1 D1 5 _ _ F1_ok D1_wf (mf_value_empty F1 o_num (s "num") _ _ _ _ _));
      [vm_compute; tauto|vm_compute; reflexivity..].
  Qed.
  Example short_value_missing_inserted : parse F1 false (insert_tok D1 9 (s "-vqn")) = Err CannotParse.
  Proof.
    refine (malformed_in_line_rejected F1 D1 9 _ _ F1_ok D1_wf (mf_short_value_missing F1 o_num (s "vq") 110%N _ _ _ _ _ _ _));
      [vm_compute; tauto|vm_compute; reflexivity..].
  Qed.
  (* what no_value_next excludes: "--num" in front of the positional 8080 takes it as its value; what remains is another
     line, judged on its own - here "-a" moves to the port: ValueError, not the CannotParse of this clause *)
  Example value_found_instead : no_value_next (suffix_toks D1 5) = false /\
    parse F1 false (insert_tok D1 5 (s "--num")) = Err ValueError.
  Proof. split; vm_compute; reflexivity. Qed.
End InsertExamples.
