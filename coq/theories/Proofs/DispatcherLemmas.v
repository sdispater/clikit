(* Model/Dispatcher.v (C12): the dispatcher record against the log of registrations.  sort_desc is a stable sort
   (sort_stable), the sort of the buckets is the sort of the log (sort_listeners_spec), and the invariant Inv is kept by
   every op (step_sim), with the answers equal on the ops that `covered` names. *)
From Coq Require Import Lia Permutation Sorted.
From Clikit Require Import Base.Prelude Model.Dispatcher Proofs.ListLemmas.

Section Sort.
  Context {X : Type} (key : X -> Z).

  Lemma insert_perm a l : Permutation (insert_desc key a l) (a :: l).
  Proof.
    induction l as [|x r IH]; cbn; auto.
    destruct (key x <=? key a)%Z; auto.
    eapply perm_trans; [apply perm_skip, IH | apply perm_swap].
  Qed.
  Lemma sort_perm l : Permutation (sort_desc key l) l.
  Proof.
    induction l as [|a r IH]; cbn; auto.
    eapply perm_trans; [apply insert_perm | apply perm_skip, IH].
  Qed.

  Variable R : X -> X -> Prop.
  Definition key_desc_then (a b : X) : Prop := (key a > key b)%Z \/ (key a = key b /\ R a b).

  Lemma insert_sorted a s :
    StronglySorted key_desc_then s -> Forall (R a) s -> StronglySorted key_desc_then (insert_desc key a s).
  Proof.
    induction s as [|x r IH]; intros Hs Ha; cbn.
    - constructor; constructor.
    - apply StronglySorted_inv in Hs. destruct Hs as [Hr Hx].
      destruct (Z.leb_spec (key x) (key a)) as [Hle|Hgt].
      + constructor; [constructor; assumption|].
        rewrite Forall_forall in *. intros y Hy. specialize (Ha y Hy).
        assert (key y <= key a)%Z as Hya.
        { destruct Hy as [<-|Hy]; [assumption|]. specialize (Hx y Hy). destruct Hx as [?|[? ?]]; lia. }
        unfold key_desc_then. destruct (Z.eq_dec (key a) (key y)); [right; auto | left; lia].
      + inversion Ha as [|? ? Hax Har]; subst.
        constructor; [apply IH; assumption|].
        eapply Permutation_Forall; [apply Permutation_sym, insert_perm|].
        constructor; [left; lia | assumption].
  Qed.

  Lemma sort_stable l : StronglySorted R l -> StronglySorted key_desc_then (sort_desc key l).
  Proof.
    induction l as [|a r IH]; intros Hs; cbn; [constructor|].
    apply StronglySorted_inv in Hs. destruct Hs as [Hr Ha].
    apply insert_sorted; [auto|].
    eapply Permutation_Forall; [apply Permutation_sym, sort_perm | assumption].
  Qed.
End Sort.

Lemma sorted_perm_unique {X} (R : X -> X -> Prop) :
  (forall a b, R a b -> R b a -> False) ->
  forall l1 l2, StronglySorted R l1 -> StronglySorted R l2 -> Permutation l1 l2 -> l1 = l2.
Proof.
  intros Hasym. induction l1 as [|a l1 IH]; intros l2 H1 H2 Hp.
  - apply Permutation_nil in Hp. now subst.
  - destruct l2 as [|b l2]; [apply Permutation_sym, Permutation_nil in Hp; discriminate|].
    apply StronglySorted_inv in H1. destruct H1 as [H1 Ha].
    apply StronglySorted_inv in H2. destruct H2 as [H2 Hb].
    assert (a = b) as ->.
    { assert (In a (b :: l2)) as Ia by (eapply Permutation_in; [exact Hp | now left]).
      assert (In b (a :: l1)) as Ib by (eapply Permutation_in; [apply Permutation_sym; exact Hp | now left]).
      destruct Ia as [->|Ia]; [reflexivity|]. destruct Ib as [->|Ib]; [reflexivity|].
      rewrite Forall_forall in Ha, Hb. exfalso. eapply Hasym; [apply Ha, Ib | apply Hb, Ia]. }
    f_equal. apply IH; auto. eapply Permutation_cons_inv; exact Hp.
Qed.

(* the order of the calls, on (priority, listener id): priority down, then id up *)
Definition kl_before (a b : Z * N) : Prop := (fst a > fst b)%Z \/ (fst a = fst b /\ (snd a < snd b)%N).
Lemma kl_before_asym a b : kl_before a b -> kl_before b a -> False.
Proof. unfold kl_before. lia. Qed.

Definition flatg (g : groups) : list (Z * N) := flat_map (fun pl => map (pair (fst pl)) (snd pl)) g.
Definition kl_of (r : reg) : Z * N := (r_prio r, r_lid r).

Lemma map_snd_flatg g : map snd (flatg g) = flat_map snd g.
Proof.
  unfold flatg. induction g as [|[p ls] r IH]; cbn; auto.
  rewrite map_app, IH. f_equal. rewrite map_map. cbn. apply map_id.
Qed.

Definition group_ok (next : N) (pl : Z * list N) : Prop :=
  StronglySorted N.lt (snd pl) /\ Forall (fun l => (l < next)%N) (snd pl).


(* buckets by falling priority, ids rising within each: the pairs are in the order kl_before *)
Lemma flatg_sorted g :
  StronglySorted (fun a b : Z * list N => (fst a > fst b)%Z) g ->
  Forall (fun pl => StronglySorted N.lt (snd pl)) g ->
  StronglySorted kl_before (flatg g).
Proof.
  induction g as [|[p ls] r IH]; intros Hs Hg; cbn; [constructor|].
  apply StronglySorted_inv in Hs. destruct Hs as [Hr Hp]. inversion Hg as [|? ? Hls Hgr]; subst. cbn in Hls.
  apply StronglySorted_app; [|apply IH; assumption|].
  - apply StronglySorted_map. eapply StronglySorted_mono; [|exact Hls]. intros a b H. right. cbn. auto.
  - intros x y Hx Hy. apply in_map_iff in Hx. destruct Hx as [l [<- _]].
    apply in_flat_map in Hy. destruct Hy as [[q ms] [Hq Hy]]. apply in_map_iff in Hy. destruct Hy as [m [<- _]].
    left. exact (proj1 (Forall_forall _ _) Hp _ Hq).
Qed.

(* one event's groups against the registrations of that event *)
Definition GI (next : N) (g : groups) (rs : list reg) : Prop :=
  Permutation (flatg g) (map kl_of rs) /\ NoDup (map fst g) /\ Forall (group_ok next) g.

(* add_listener's bucket update puts the new pair somewhere among the old ones *)
Lemma flatg_add p n g :
  Permutation (flatg (aset Z.eqb p ((match aget Z.eqb p g with Some ls => ls | None => [] end) ++ [n]) g)) ((p, n) :: flatg g).
Proof.
  induction g as [|[q w] r IH]; cbn; [auto|].
  destruct (Z.eqb_spec p q) as [->|Hn]; cbn.
  - rewrite map_app, <- app_assoc. apply Permutation_sym, Permutation_middle.
  - eapply perm_trans; [apply Permutation_app_head, IH|]. apply Permutation_sym, Permutation_middle.
Qed.

Lemma group_ok_mono n pl : group_ok n pl -> group_ok (N.succ n) pl.
Proof. intros [H1 H2]. split; auto. eapply Forall_impl; [|exact H2]. cbn. intros. lia. Qed.

(* the fresh id goes behind the ids of its bucket *)
Lemma group_ok_snoc n p ls : group_ok n (p, ls) -> group_ok (N.succ n) (p, ls ++ [n]).
Proof.
  intros [Hs Hb]. cbn in *. split; cbn.
  - apply StronglySorted_snoc; assumption.
  - apply Forall_app. split; [eapply Forall_impl; [|exact Hb]; cbn; intros; lia|]. repeat constructor. lia.
Qed.


Lemma GI_add n g rs p r :
  GI n g rs -> kl_of r = (p, n) ->
  GI (N.succ n)
     (aset Z.eqb p ((match aget Z.eqb p g with Some ls => ls | None => [] end) ++ [n]) g) (rs ++ [r]).
Proof.
  intros (Hperm & Hnd & Hok) Hr. split; [|split].
  - rewrite map_app. cbn. rewrite Hr. eapply perm_trans; [apply flatg_add|].
    eapply perm_trans; [apply perm_skip, Hperm|]. apply Permutation_cons_append.
  - apply (aset_nodup _ Z.eqb_spec), Hnd.
  - apply (Forall_aset _ Z.eqb_spec); [eapply Forall_impl; [apply group_ok_mono | exact Hok]|]. apply group_ok_snoc.
    destruct (aget Z.eqb p g) as [ls|] eqn:Eg; [|split; constructor].
    apply (aget_in _ Z.eqb_spec) in Eg. exact (proj1 (Forall_forall _ _) Hok _ Eg).
Qed.

Definition lid_lt (a b : reg) : Prop := (r_lid a < r_lid b)%N.
(* a log sorted by listener id repeats none *)
Lemma lid_lt_NoDup rs : StronglySorted lid_lt rs -> NoDup (map r_lid rs).
Proof.
  induction 1 as [|a l HS IH HF]; [constructor|]. cbn [map]. constructor; [|exact IH].
  intros Hin. apply in_map_iff in Hin as (b & E & Hb). rewrite Forall_forall in HF. specialize (HF b Hb). unfold lid_lt in HF. lia.
Qed.

Lemma NoDup_keys_sorted (g : groups) :
  NoDup (map fst g) -> StronglySorted (fun a b : Z * list N => fst a <> fst b) g.
Proof.
  induction g as [|[p ls] r IH]; cbn; intros H; [constructor|].
  inversion H as [|? ? Hni Hnd]; subst. constructor; [auto|].
  apply Forall_forall. intros [q ms] Hy. cbn. intros ->. apply Hni. apply in_map_iff. exists (q, ms). auto.
Qed.

(* both sides are kl_before-sorted arrangements of the same pairs (the buckets hold the log's pairs: GI), and a sorted
   arrangement under an asymmetric order is unique *)
Lemma sort_listeners_spec n g rs :
  GI n g rs -> StronglySorted lid_lt rs -> sort_listeners g = map r_lid (sort_desc r_prio rs).
Proof.
  intros (Hperm & Hnd & Hok) Hrs. unfold sort_listeners.
  rewrite <- map_snd_flatg.
  assert (flatg (sort_desc fst g) = map kl_of (sort_desc r_prio rs)) as ->.
  { apply (sorted_perm_unique kl_before kl_before_asym).
    - apply flatg_sorted.
      + eapply StronglySorted_mono; [|apply (sort_stable fst (fun a b => fst a <> fst b)), NoDup_keys_sorted, Hnd].
        unfold key_desc_then. intros a b [H|[H1 H2]]; [assumption|contradiction].
      + eapply Permutation_Forall; [apply Permutation_sym, sort_perm|].
        eapply Forall_impl; [|exact Hok]. intros pl [H _]. exact H.
    - apply StronglySorted_map.
      eapply StronglySorted_mono; [|apply (sort_stable r_prio lid_lt), Hrs].
      unfold key_desc_then, kl_before, kl_of, lid_lt. cbn. intros a b H. exact H.
    - eapply perm_trans; [apply Permutation_flat_map, sort_perm|].
      eapply perm_trans; [exact Hperm|]. apply Permutation_map, Permutation_sym, sort_perm. }
  rewrite map_map. reflexivity.
Qed.

(* The simulation invariant, clause by clause: the next id is the length of the log; the stop table is the log's;
   an event has groups iff the log has a registration for it, they are never empty, and they hold the pairs of those
   registrations (GI); every cache entry is the sort of the groups of its event (cache_ok below); ids grow along the
   log and stay below the next id. *)
Definition Inv (st : dstate) (regs : list reg) : Prop :=
  d_next st = N.of_nat (length regs) /\
  d_stops st = spec_stops regs /\
  (forall e, match aget N.eqb e (d_listeners st) with
             | None => regs_of regs e = []
             | Some g => g <> [] /\ regs_of regs e <> [] /\ GI (d_next st) g (regs_of regs e) end) /\
  (forall e l, aget N.eqb e (d_sorted st) = Some l ->
               exists g, aget N.eqb e (d_listeners st) = Some g /\ l = sort_listeners g) /\
  StronglySorted lid_lt regs /\ Forall (fun r => (r_lid r < d_next st)%N) regs.

Lemma Inv_init : Inv dinit [].
Proof. unfold Inv, dinit; cbn. repeat split; auto; try constructor. intros e l H. discriminate. Qed.

(* the fourth clause of Inv *)
Definition cache_ok (lst : list (N * groups)) (s : list (N * list N)) : Prop :=
  forall e l, aget N.eqb e s = Some l -> exists g, aget N.eqb e lst = Some g /\ l = sort_listeners g.

Lemma cache_ok_fill lst s e g : cache_ok lst s -> aget N.eqb e lst = Some g -> cache_ok lst (aset N.eqb e (sort_listeners g) s).
Proof.
  intros H Eg e' l. rewrite (aget_aset _ N.eqb_spec). destruct (N.eqb_spec e' e) as [->|_]; [|apply H].
  intros [= <-]. eauto.
Qed.
(* add_listener drops the entry of the event whose groups it changes *)
Lemma cache_ok_drop lst s e g : cache_ok lst s -> cache_ok (aset N.eqb e g lst) (adel N.eqb e s).
Proof.
  intros H e' l. rewrite (aget_adel _ N.eqb_spec), (aget_aset _ N.eqb_spec). destruct (N.eqb e' e); [discriminate|apply H].
Qed.

Lemma GI_mono n g rs : GI n g rs -> GI (N.succ n) g rs.
Proof.
  intros (H1 & H2 & H3). repeat split; auto. eapply Forall_impl; [apply group_ok_mono|exact H3].
Qed.
Lemma GI_nil n : GI n [] [].
Proof. unfold GI; cbn. repeat split; constructor. Qed.


Lemma regs_of_app regs r e :
  regs_of (regs ++ [r]) e = regs_of regs e ++ (if N.eqb (r_ev r) e then [r] else []).
Proof. unfold regs_of. rewrite filter_app. cbn. destruct (N.eqb (r_ev r) e); reflexivity. Qed.

Lemma Inv_sorted_spec st regs e g :
  Inv st regs -> aget N.eqb e (d_listeners st) = Some g -> sort_listeners g = spec_order regs e.
Proof.
  intros (_ & _ & Hl & _ & Hsr & _) Eg. specialize (Hl e). rewrite Eg in Hl.
  destruct Hl as (_ & _ & HGI). unfold spec_order.
  eapply sort_listeners_spec; [exact HGI|]. apply StronglySorted_filter, Hsr.
Qed.

Lemma get_listeners_spec st regs ev :
  Inv st regs ->
  Inv (fst (get_listeners st ev)) regs /\ snd (get_listeners st ev) = spec_order regs ev.
Proof.
  intros HI. pose proof HI as (Hn & Hs & Hl & Hc & Hsr & Hb). unfold get_listeners.
  destruct (aget N.eqb ev (d_listeners st)) as [g|] eqn:Eg.
  - pose proof (Inv_sorted_spec _ _ _ _ HI Eg) as Hspec.
    destruct (aget N.eqb ev (d_sorted st)) as [l|] eqn:Ec; cbn.
    + split; [exact HI|]. destruct (Hc _ _ Ec) as (g' & Eg' & ->). congruence.
    + split; [|exact Hspec]. repeat split; auto. cbn. now apply cache_ok_fill.
  - cbn. split; [exact HI|]. unfold spec_order. specialize (Hl ev). rewrite Eg in Hl. now rewrite Hl.
Qed.

Lemma sort_all_inv lst keys : forall s, cache_ok lst s -> cache_ok lst (sort_all lst keys s).
Proof.
  induction keys as [|k r IH]; intros s Hs; cbn; [exact Hs|].
  apply IH. destruct (aget N.eqb k lst) as [g|] eqn:Eg; [|exact Hs].
  destruct (ahas N.eqb k s); [exact Hs|]. now apply cache_ok_fill.
Qed.

Lemma existsb_filter_nil {X} (f : X -> bool) l : existsb f l = negb (match filter f l with [] => true | _ => false end).
Proof. induction l as [|a r IH]; cbn; auto. destruct (f a); cbn; auto. Qed.

(* an event has groups exactly when the log has a registration for it *)
Lemma Inv_has st regs ev : Inv st regs -> ahas N.eqb ev (d_listeners st) = existsb (fun r => N.eqb (r_ev r) ev) regs.
Proof.
  intros (_ & _ & Hl & _). specialize (Hl ev). unfold ahas.
  rewrite existsb_filter_nil. fold (regs_of regs ev).
  destruct (aget N.eqb ev (d_listeners st)) as [g|].
  - destruct Hl as (_ & Hr & _). destruct (regs_of regs ev); [contradiction|reflexivity].
  - rewrite Hl. reflexivity.
Qed.

(* listeners that do not stop are all called, and the walk goes on behind them *)
Lemma run_until_stop_app stops l1 l2 :
  (forall y, In y l1 -> aget N.eqb y stops <> Some true) ->
  run_until_stop stops (l1 ++ l2) = l1 ++ run_until_stop stops l2.
Proof.
  induction l1 as [|a r IH]; intros H; cbn; [reflexivity|].
  assert (aget N.eqb a stops <> Some true) as Ha by (apply H; now left).
  rewrite IH by (intros; apply H; now right). destruct (aget N.eqb a stops) as [[|]|]; congruence.
Qed.

Definition covered (o : dop) : bool := match o with GetAll | Prio _ _ => false | _ => true end.

Lemma Inv_add st regs ev prio stops :
  Inv st regs -> Inv (add_listener st ev prio stops) (fst (sstep regs (Add ev prio stops))).
Proof.
  intros (Hn & Hs & Hl & Hc & Hsr & Hb). cbn [sstep fst].
  unfold Inv, add_listener; cbn [d_next d_stops d_listeners d_sorted].
  set (r := {| r_ev := ev; r_prio := prio; r_lid := N.of_nat (length regs); r_stops := stops |}).
  split; [rewrite app_length; cbn; lia|].
  split; [unfold spec_stops; rewrite map_app; cbn; rewrite Hs, Hn; reflexivity|].
  split; [|split; [|split]].
  - intros e. rewrite regs_of_app, (aget_aset _ N.eqb_spec). cbn [r_ev r].
    destruct (N.eqb_spec e ev) as [->|Hne].
    + rewrite N.eqb_refl.
      split; [apply aset_nonempty|]. split; [destruct (regs_of regs ev); discriminate|].
      specialize (Hl ev).
      destruct (aget N.eqb ev (d_listeners st)) as [g|].
      * destruct Hl as (_ & _ & HGI). apply GI_add; [exact HGI|]. unfold kl_of, r; cbn. now rewrite Hn.
      * rewrite Hl. apply (GI_add (d_next st) [] [] prio r (GI_nil _)). unfold kl_of, r; cbn. now rewrite Hn.
    + destruct (N.eqb_spec ev e) as [->|_]; [contradiction|]. rewrite app_nil_r.
      specialize (Hl e). destruct (aget N.eqb e (d_listeners st)); [|assumption].
      destruct Hl as (? & ? & ?). split; [|split]; auto. now apply GI_mono.
  - now apply cache_ok_drop.
  - apply StronglySorted_snoc; [assumption|]. unfold lid_lt. cbn. rewrite <- Hn. exact Hb.
  - apply Forall_app. split.
    + eapply Forall_impl; [|exact Hb]. cbn. intros. lia.
    + repeat constructor. cbn. lia.
Qed.

Lemma step_sim st regs o :
  Inv st regs ->
  Inv (fst (dstep st o)) (fst (sstep regs o)) /\
  (covered o = true -> snd (dstep st o) = snd (sstep regs o)).
Proof.
  intros HI. destruct o as [ev prio stops|ev|[ev|]|ev| |ev lid]; cbn [covered].
  - split; [apply Inv_add, HI|reflexivity].
  - (* Dispatch *)
    cbn [dstep sstep fst snd]. destruct (get_listeners_spec st regs ev HI) as [HI' Hout].
    destruct (get_listeners st ev) as [st' l]. cbn in *.
    split; [exact HI'|]. intros _. subst l.
    destruct HI as (_ & Hs & _). rewrite Hs. reflexivity.
  - (* Has (Some ev): groups are never empty *)
    cbn [dstep sstep fst snd]. split; [exact HI|]. intros _. f_equal.
    rewrite <- (Inv_has _ _ ev HI). unfold ahas. destruct HI as (_ & _ & Hl & _). specialize (Hl ev).
    destruct (aget N.eqb ev (d_listeners st)) as [[|]|]; [destruct Hl as [Hg _]; contradiction|reflexivity|reflexivity].
  - (* Has None *)
    cbn [dstep sstep fst snd]. split; [exact HI|]. intros _. f_equal.
    destruct HI as (_ & _ & Hl & _).
    destruct regs as [|r regs]; cbn [negb].
    + destruct (d_listeners st) as [|[e g] lst] eqn:El; [reflexivity|]. exfalso.
      specialize (Hl e). cbn in Hl. rewrite N.eqb_refl in Hl. destruct Hl as (_ & Hr & _). now apply Hr.
    + apply existsb_exists. specialize (Hl (r_ev r)).
      destruct (aget N.eqb (r_ev r) (d_listeners st)) as [g|] eqn:Eg.
      * destruct Hl as (Hg & _). exists (r_ev r, g). split; [apply (aget_in _ N.eqb_spec), Eg|].
        cbn. destruct g; [contradiction|reflexivity].
      * exfalso. unfold regs_of in Hl. cbn in Hl. rewrite N.eqb_refl in Hl. discriminate.
  - (* Get *)
    cbn [dstep sstep fst snd]. destruct (get_listeners_spec st regs ev HI) as [HI' Hout].
    destruct (get_listeners st ev) as [st' l]. cbn in *.
    split; [exact HI'|]. intros _. now subst l.
  - (* GetAll *)
    cbn [dstep sstep fst snd]. split; [|discriminate].
    destruct HI as (Hn & Hs & Hl & Hc & Hsr & Hb). unfold Inv; cbn [d_next d_stops d_listeners d_sorted].
    repeat (split; [assumption|]). split; [|split; assumption].
    exact (sort_all_inv _ _ _ Hc).
  - (* Prio *)
    cbn [dstep sstep fst snd]. split; [exact HI|discriminate].
Qed.

Fixpoint outs_agree (ops : list dop) (a b : list dout) : Prop :=
  match ops, a, b with
  | [], [], [] => True
  | o :: ops', x :: a', y :: b' => (covered o = true -> x = y) /\ outs_agree ops' a' b'
  | _, _, _ => False
  end.
