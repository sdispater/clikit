(* C06: ArgsFormat(elements, base) and stacked API formats are well-formed; bop_valid is what Argument() of C07
   guarantees; the listings are in insertion order. *)
From Coq Require Import Lia.
From Clikit Require Import Base.Prelude Base.Res Model.Conv Model.Flags Model.Format
     Proofs.StrLemmas Proofs.DictLemmas Proofs.FlagsLemmas Proofs.FormatLemmas Proofs.FormatAgreeLemmas Proofs.FmtOkLemmas.

(* a builder over a well-formed (or no) base, any valid operations, then .format *)
Theorem built_format_wf_lemma : forall base ops,
  match base with Some b => wf b | None => True end -> forallb bop_valid ops = true ->
  wf (build_format (brun (empty_builder base) ops)).
Proof.
  intros base ops Hb Hv. rewrite reachable_build_id. apply (brun_preserves wf_invariant); [|exact Hv].
  destruct base; [now apply empty_builder_wf_some|apply empty_builder_wf_none].
Qed.
Theorem format_of_elements_wf_lemma : forall es base f,
  match base with Some b => wf b | None => True end -> forallb element_valid es = true ->
  format_of_elements es base = Ok f -> wf f.
Proof.
  intros es base f Hb Hv H. rewrite (format_of_elements_built _ _ _ H).
  apply built_format_wf_lemma; [exact Hb|now apply elements_valid_ops].
Qed.

Definition arg_of_obj (o : argobj) (dv : pyval) : arg := {| a_name := ao_name o; a_flags := ao_flags o; a_default := dv |}.
Theorem constructed_arg_valid_lemma : forall n f d o dv,
  mk_argument n f d = Ok o -> arg_valid (arg_of_obj o dv) = true.
Proof.
  intros n f d o dv H. pose proof (arg_normal_form_lemma n f d o H) as [_ Hx _ _ _ _].
  unfold arg_valid, arg_of_obj, a_required, a_optional. cbn [a_flags]. rewrite !bit_tb by lia. exact Hx.
Qed.
(* the wire decoder of the C06 tie normalises the flag word the same way; for accepted flag words it is valid too *)
Theorem normalised_flags_valid_lemma : forall n f dv,
  arg_flags_ok f = true -> arg_valid {| a_name := n; a_flags := arg_defaults f; a_default := dv |} = true.
Proof.
  intros n f dv Hok. unfold arg_valid, a_required, a_optional. cbn [a_flags]. rewrite !bit_tb by lia.
  unfold arg_flags_ok in Hok. apply andb_prop in Hok as [H01 _]. norm_bits.
  destruct (tb f 0), (tb f 1); try reflexivity; discriminate.
Qed.

(* include_base = True: arguments and command names list the base's first, options and command options the own first *)
Theorem listing_order_lemma f : args_inv f -> opts_inv f ->
  get_arguments f true = match f_base f with Some bf => get_arguments bf true | None => [] end ++ get_arguments f false /\
  get_command_names f true = match f_base f with Some bf => get_command_names bf true | None => [] end ++ get_command_names f false /\
  get_options f true = get_options f false ++ match f_base f with Some bf => get_options bf true | None => [] end /\
  get_command_options f true = get_command_options f false ++ match f_base f with Some bf => get_command_options bf true | None => [] end.
Proof.
  intros Hai Ho. cbn [get_arguments get_command_names get_options get_command_options].
  split; [exact (args_all_app f Hai)|]. split; [destruct f as [[bf|] cn co cs ar os oss hm ho]; reflexivity|].
  split; [exact (opts_all_app f Ho)|destruct f as [[bf|] cn co cs ar os oss hm ho]; reflexivity].
Qed.

(* an accepted addition goes to the END of the own listing (no hypothesis on the builder) *)
Lemma add_argument_appends f a f' : add_argument f a = Ok f' ->
  get_arguments f' false = get_arguments f false ++ [(a_name a, a)] /\ get_options f' false = get_options f false /\
  get_command_names f' false = get_command_names f false.
Proof.
  intros H. apply add_argument_ok in H as (Hname & _ & _ & ->).
  assert (sget (a_name a) (get_arguments_all f) = None) as Hnone.
  { rewrite shas_sget in Hname. destruct (sget (a_name a) (get_arguments_all f)); [discriminate|reflexivity]. }
  destruct f as [b cn co cs ar os oss hm ho].
  cbn [get_options get_command_names f_args f_opts f_cnames]. split; [|split; reflexivity].
  apply sset_new. destruct b as [bf|]; [|exact Hnone]. cbn in Hnone. eapply sget_supdate_own; eauto.
Qed.
Lemma add_option_appends f o f' : add_option f o = Ok f' ->
  get_options f' false = get_options f false ++ [(o_long o, o)] /\ get_arguments f' false = get_arguments f false /\
  get_command_names f' false = get_command_names f false.
Proof.
  intros H. apply add_option_ok in H as (Hl & _ & ->). destruct f as [b cn co cs ar os oss hm ho].
  cbn [get_options get_arguments get_command_names f_args f_opts f_cnames]. split; [|split; reflexivity].
  apply sset_new. unfold opt_name_taken in Hl. cbn [has_option_all] in Hl.
  apply orb_false_elim in Hl as [Hl _]. apply orb_false_elim in Hl as [Hl _]. apply orb_false_elim in Hl as [Hl _].
  rewrite shas_sget in Hl. now destruct (sget (o_long o) os).
Qed.
Lemma add_cname_appends f c f' : add_command_name f c = Ok f' ->
  get_command_names f' false = get_command_names f false ++ [c] /\ get_arguments f' false = get_arguments f false /\
  get_options f' false = get_options f false.
Proof. destruct f. cbn. intros H. inversion H; subst. repeat split; reflexivity. Qed.
Lemma add_copt_keeps_lists f c f' : add_command_option f c = Ok f' ->
  get_arguments f' false = get_arguments f false /\ get_options f' false = get_options f false /\
  get_command_names f' false = get_command_names f false.
Proof.
  intros H. apply add_copt_ok in H as (_ & _ & _ & _ & ->). destruct f. repeat split; reflexivity.
Qed.

(* what the elements imply: the arguments, options and command names among them, in their order *)
Definition args_in (es : list element) : list (str * arg) :=
  flat_map (fun e => match e with EArg a => [(a_name a, a)] | _ => [] end) es.
Definition opts_in (es : list element) : list (str * opt) :=
  flat_map (fun e => match e with EOpt o => [(o_long o, o)] | _ => [] end) es.
Definition cnames_in (es : list element) : list cname :=
  flat_map (fun e => match e with ECName c => [c] | _ => [] end) es.

Lemma add_elements_lists : forall es f f', add_elements f es = Ok f' ->
  get_arguments f' false = get_arguments f false ++ args_in es /\
  get_options f' false = get_options f false ++ opts_in es /\
  get_command_names f' false = get_command_names f false ++ cnames_in es.
Proof.
  induction es as [|e r IH]; intros f f' H; cbn [add_elements] in H.
  - inversion H; subst. cbn. now rewrite !app_nil_r.
  - unfold bind in H. destruct e as [o|c|a|c].
    + destruct (add_option f o) as [f1|] eqn:E; [|discriminate]. destruct (IH _ _ H) as (H1 & H2 & H3).
      destruct (add_option_appends _ _ _ E) as (E1 & E2 & E3). rewrite H1, H2, H3, E1, E2, E3.
      cbn [args_in opts_in cnames_in flat_map app]. now rewrite <- app_assoc.
    + destruct (add_command_option f c) as [f1|] eqn:E; [|discriminate]. destruct (IH _ _ H) as (H1 & H2 & H3).
      destruct (add_copt_keeps_lists _ _ _ E) as (E1 & E2 & E3). rewrite H1, H2, H3, E1, E2, E3. now cbn.
    + destruct (add_argument f a) as [f1|] eqn:E; [|discriminate]. destruct (IH _ _ H) as (H1 & H2 & H3).
      destruct (add_argument_appends _ _ _ E) as (E1 & E2 & E3). rewrite H1, H2, H3, E1, E2, E3.
      cbn [args_in opts_in cnames_in flat_map app]. now rewrite <- app_assoc.
    + destruct (add_command_name f c) as [f1|] eqn:E; [|discriminate]. destruct (IH _ _ H) as (H1 & H2 & H3).
      destruct (add_cname_appends _ _ _ E) as (E1 & E2 & E3). rewrite H1, H2, H3, E1, E2, E3.
      cbn [args_in opts_in cnames_in flat_map app]. now rewrite <- app_assoc.
Qed.

Lemma add_elements_base' : forall es f f', add_elements f es = Ok f' -> f_base f' = f_base f.
Proof.
  intros es f f'. apply (add_elements_preserves (base_invariant (f_base f))); [reflexivity|]. apply forallb_forall. now intros [].
Qed.

(* ArgsFormat(elements, base): the own listings are exactly the elements given, in the order given; with the base included,
   arguments and command names come after the base's, options before the base's *)
Theorem format_of_elements_lists_lemma : forall es base f,
  match base with Some bf => fmt_inv bf | None => True end -> forallb element_valid es = true ->
  format_of_elements es base = Ok f ->
  get_arguments f false = args_in es /\ get_options f false = opts_in es /\ get_command_names f false = cnames_in es /\
  get_arguments f true = match base with Some bf => get_arguments bf true | None => [] end ++ args_in es /\
  get_options f true = opts_in es ++ match base with Some bf => get_options bf true | None => [] end /\
  get_command_names f true = match base with Some bf => get_command_names bf true | None => [] end ++ cnames_in es.
Proof.
  intros es base f Hb Hv H. destruct (format_of_elements_fmt_ok_lemma es base f Hb Hv H) as [Hinv _].
  unfold format_of_elements in H. destruct (add_elements (empty_builder base) es) as [g|] eqn:E; cbn [bind] in H; [|discriminate].
  inversion H; subst f. clear H.
  destruct (add_elements_lists _ _ _ E) as (H1 & H2 & H3).
  change (get_arguments (empty_builder base) false) with (@nil (str * arg)) in H1.
  change (get_options (empty_builder base) false) with (@nil (str * opt)) in H2.
  change (get_command_names (empty_builder base) false) with (@nil cname) in H3. cbn [app] in H1, H2, H3.
  pose proof (add_elements_base' _ _ _ E) as Hbase. cbn in Hbase.
  destruct (build_format_arg_queries g (APos 0) false) as (_ & _ & Q1 & _ & _ & _ & Q2 & Q3).
  assert (f_base (build_format g) = base) as Hbb by (destruct (build_format_same g) as [Hx _]; congruence).
  destruct (listing_order_lemma _ (proj1 (proj1 Hinv)) (proj2 (proj2 Hinv))) as (L1 & L2 & L3 & _). rewrite Hbb in L1, L2, L3.
  split; [rewrite Q1; exact H1|]. split; [rewrite Q3; exact H2|]. split; [rewrite Q2; exact H3|].
  split; [rewrite L1, Q1, H1; reflexivity|]. split; [rewrite L3, Q3, H2; reflexivity|]. rewrite L2, Q2, H3; reflexivity.
Qed.

Module FormatWfExamples.
  Definition S (l : list N) : str := l.
  Definition verbose := {| o_long := [118;101;114;98;111;115;101]%N; o_short := Some [118]%N; o_flags := 134; o_default := VNone |}.
  Definition force := {| o_long := [102;111;114;99;101]%N; o_short := Some [102]%N; o_flags := 134; o_default := VNone |}.
  Definition quiet := {| o_long := [113;117;105;101;116]%N; o_short := Some [113]%N; o_flags := 134; o_default := VNone |}.
  Definition help := {| Format.co_long := [104;101;108;112]%N; Format.co_short := Some [104]%N; co_lals := [[117;115;97;103;101]%N]; co_sals := [[63]%N] |}.
  Definition host := {| a_name := [104;111;115;116]%N; a_flags := 17; a_default := VNone |}.          (* REQUIRED | STRING *)
  Definition port := {| a_name := [112;111;114;116]%N; a_flags := 66; a_default := VInt 80 |}.        (* OPTIONAL | INTEGER *)
  Definition files := {| a_name := [102;105;108;101;115]%N; a_flags := 22; a_default := VList [] |}.  (* OPTIONAL | MULTI | STRING *)
  Definition server := {| cn_name := [115;101;114;118;101;114]%N; cn_aliases := [[115;114;118]%N] |}.
  Definition add := {| cn_name := [97;100;100]%N; cn_aliases := [] |}.
  Definition base_es := [ECName server; EArg host; EOpt verbose; ECOpt help].
  Definition own_es := [EOpt force; ECName add; EArg port; EOpt quiet; EArg files].
  Definition B := match format_of_elements base_es None with Ok f => f | Err _ => empty_builder None end.
  Definition F := match format_of_elements own_es (Some B) with Ok f => f | Err _ => empty_builder None end.
  Lemma B_ok : format_of_elements base_es None = Ok B.  Proof. vm_compute. reflexivity. Qed.
  Lemma F_ok : format_of_elements own_es (Some B) = Ok F.  Proof. vm_compute. reflexivity. Qed.
  Lemma B_inv : fmt_inv B.
  Proof. apply (format_of_elements_fmt_ok_lemma base_es None B I); [vm_compute; reflexivity|exact B_ok]. Qed.
  Lemma B_wf : wf B.
  Proof. apply (format_of_elements_wf_lemma base_es None B I); [vm_compute; reflexivity|exact B_ok]. Qed.
  Example stacked_instance :
    wf B /\ wf F /\ f_base F = Some B /\
    map fst (get_arguments F false) = [a_name port; a_name files] /\
    map fst (get_arguments F true) = [a_name host; a_name port; a_name files] /\
    map fst (get_options F false) = [o_long force; o_long quiet] /\
    map fst (get_options F true) = [o_long force; o_long quiet; o_long verbose] /\
    get_command_names F true = [server; add] /\
    (* the rules are enforced against the base as well: a required argument after the inherited/own optional ones, a
       second argument after the multi-valued one, an option whose short name is taken in the base *)
    format_of_elements (own_es ++ [EArg {| a_name := [120]%N; a_flags := 17; a_default := VNone |}]) (Some B) = Err CannotAddArgument /\
    format_of_elements [EArg port; EArg host] (Some B) = Err CannotAddArgument /\
    format_of_elements [EOpt {| o_long := [118;118]%N; o_short := Some [118]%N; o_flags := 134; o_default := VNone |}] (Some B) = Err CannotAddOption.
  Proof.
    split; [exact B_wf|]. split; [apply (format_of_elements_wf_lemma own_es (Some B) F B_wf); [vm_compute; reflexivity|exact F_ok]|].
    split; [vm_compute; reflexivity|].
    destruct (format_of_elements_lists_lemma own_es (Some B) F B_inv eq_refl F_ok) as (H1 & H2 & H3 & H4 & H5 & H6).
    split; [rewrite H1; reflexivity|]. split; [rewrite H4; vm_compute; reflexivity|].
    split; [rewrite H2; reflexivity|]. split; [rewrite H5; vm_compute; reflexivity|].
    split; [rewrite H6; vm_compute; reflexivity|]. repeat split; vm_compute; reflexivity.
  Qed.
  (* Argument("port", OPTIONAL | INTEGER) through the C07 constructor, then added *)
  Example constructed_instance :
    match mk_argument (NStr [112;111;114;116]%N) 66 DNone with
    | Ok o => ao_flags o = 66%Z /\ arg_valid (arg_of_obj o VNone) = true /\ bop_valid (AddArgument (arg_of_obj o VNone)) = true
    | Err _ => False end /\
    (* flag word 0 is normalised to OPTIONAL | STRING *)
    match mk_argument (NStr [120]%N) 0 DNone with
    | Ok o => ao_flags o = 18%Z /\ arg_valid (arg_of_obj o VNone) = true | Err _ => False end /\
    (* REQUIRED | OPTIONAL is rejected by the constructor *)
    mk_argument (NStr [120]%N) 3 DNone = Err ValueError.
  Proof. vm_compute. repeat split; reflexivity. Qed.
  (* without the hypothesis the invariant breaks: an "argument" with neither REQUIRED nor OPTIONAL (no such object can be
     constructed) followed by a required one is accepted by the builder and violates the order rule *)
  Example unvalidated_argument_breaks_order :
    let a0 := {| a_name := [97]%N; a_flags := 0; a_default := VNone |} in
    let a1 := {| a_name := [98]%N; a_flags := 1; a_default := VNone |} in
    arg_valid a0 = false /\
    snd (bstep (fst (bstep (empty_builder None) (AddArgument a0))) (AddArgument a1)) = None /\
    order_ok (args_of (brun (empty_builder None) [AddArgument a0; AddArgument a1])) = false.
  Proof. vm_compute. repeat split; reflexivity. Qed.
End FormatWfExamples.
