(* f & (1 << k) as a bit test; f | (1 << k) as setting a bit — for all integers f (negative ones included). *)
From Coq Require Import Lia.
From Clikit Require Import Base.Prelude.

Lemma land_pow2_testbit f k : (0 <= k)%Z -> (Z.land f (2 ^ k) =? 0)%Z = negb (Z.testbit f k).
Proof.
  intros Hk. destruct (Z.testbit f k) eqn:E; cbn.
  - apply Z.eqb_neq. intros H. assert (Z.testbit (Z.land f (2 ^ k)) k = false) by (rewrite H; apply Z.bits_0).
    rewrite Z.land_spec, E, Z.pow2_bits_true in H0 by assumption. discriminate.
  - apply Z.eqb_eq. apply Z.bits_inj'. intros n Hn. rewrite Z.land_spec, Z.bits_0.
    destruct (Z.eq_dec n k) as [->|Hne]; [now rewrite E|].
    rewrite Z.pow2_bits_false by lia. apply andb_false_r.
Qed.
Lemma testbit_lor_pow2 f j k : (0 <= j)%Z -> Z.testbit (Z.lor f (2 ^ j)) k = Z.testbit f k || (k =? j)%Z.
Proof. intros Hj. rewrite Z.lor_spec, Z.pow2_bits_eqb by assumption. f_equal. apply Z.eqb_sym. Qed.
