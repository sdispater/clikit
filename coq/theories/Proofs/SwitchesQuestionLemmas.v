(* C09 + C18: "the no-interaction switch makes questions return their defaults".
   Two models meet in one boolean: Model/Switches.v computes the IO settings of the run from the line
   (create_io: io.set_interactive(False) when "-n" / "--no-interaction" is among the option tokens), Model/Question.v and
   Model/QuestionText.v take `interactive` (what Question.ask reads from io.is_interactive()) as their first argument.
   The composition below feeds the one into the other.  Honest accounting: s_interactive (io_settings ..) is a
   definition (settings_table_interaction), and "a non-interactive question returns its default, reads and writes
   nothing" is the first branch of ask_choice / ask_confirm / ask_plain / choice_text / confirm_text by definition
   (non_interactive_default, non_interactive_writes_nothing); what the composed statement adds is the LINE: the switch
   anywhere among the tokens before the first "--" (whatever else stands there), the same token behind "--" not acting,
   and no other token having the effect.  That the IO the handler's questions see is the IO create_io made, and that
   IO.set_interactive / is_interactive store and return the flag, is the tie's (C09 oracle class
   no-interaction-question-default: the handler asks a question with a default on the run's own io). *)
From Clikit Require Import Base.Prelude Base.Res Model.Conv Model.Format Model.Parser Model.Resolver Model.Run
     Model.Tokenizer Model.Gate Model.Switches Model.Question Model.QuestionText
     Proofs.StrLemmas Proofs.SwitchesLemmas Proofs.SwitchesHelpLemmas.

(* the interaction flag of the run's IO, as a function of the line *)
Definition line_interactive (debug : bool) (a : application) (toks : list str) : bool :=
  s_interactive (sm_settings (run_summary debug a toks)).

Lemma line_interactive_iff debug a toks :
  line_interactive debug a toks = false <-> In T_no_interaction (option_tokens toks) \/ In T_n (option_tokens toks).
Proof.
  unfold line_interactive, run_summary. cbn [sm_settings]. rewrite interactive_table. split.
  - intros H. apply negb_false_iff in H. apply orb_prop in H as [H|H]; [left|right]; now apply has_token_In.
  - intros [H|H]; apply has_token_In in H; rewrite H; [reflexivity|now rewrite orb_true_r].
Qed.

(* every kind of question on an input whose interaction flag is i = false: the default, nothing read, nothing written *)
Definition all_questions_return_defaults (i : bool) : Prop :=
  (forall q script, ask_choice i q script =
      {| o_end := Answered (default_answer q); o_lines_read := 0; o_errors_printed := 0; o_prompts := 0 |}) /\
  (forall q prompt script, choice_text i q prompt script = ([], None)) /\
  (forall dflt prefix script, ask_confirm i dflt prefix script = (CBool dflt, 0)) /\
  (forall ci dflt prefix script, ask_confirm_g ci i dflt prefix script = (CBool dflt, 0)) /\
  (forall question dflt, confirm_text i question dflt = []) /\
  (forall question p script,
      ask_plain i question p script = {| pt_end := Answered (plain_answer (p_default p)); pt_msg := None; pt_read := 0; pt_text := [] |}).

Lemma non_interactive_all : all_questions_return_defaults false.
Proof. unfold all_questions_return_defaults. repeat split. Qed.
