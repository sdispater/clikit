(* Proofs about Model/RunLine.v (C04): the whole of ConsoleApplication.run. *)
From Coq Require Import Lia.
From Clikit Require Import Base.Prelude Base.Res Model.Conv Model.Flags Model.Format Model.Parser Model.Resolver Model.Run
  Model.Tokenizer Model.Gate Model.Switches Model.RunLine Proofs.RunLemmas Proofs.SwitchesLemmas.

Section Generic.
Context {A : Type}.
Implicit Types (a : A) (h : A -> outcome).

(* Run.handle on the outcome h a, from the logging do_handle_with: the same result, as many calls as logged *)
Lemma handle_convert debug ls h a :
  handle debug ls (h a) = (status_of debug (fst (do_handle_with ls h a)), length (snd (do_handle_with ls h a))).
Proof.
  unfold handle, do_handle, do_handle_with. destruct (dispatch_pre ls None) as [[st|]|e]; [reflexivity| |reflexivity].
  destruct (h a); reflexivity.
Qed.

(* io built, line resolved: end, report and report mode are those of Run.run on the outcome of the handler applied to
   the resolved arguments, and the number of logged invocations is its call counter *)
Lemma run_line_is_run catch ok quiet debug a ls h :
  let r := run_cmdline catch ok quiet debug None (inl a) ls h in
  let r0 := run catch debug ok ls (h a) in
  l_end r = r_end r0 /\ length (l_calls r) = r_handler_calls r0 /\ l_reported r = r_reported r0 /\ l_simple r = r_simple r0
  /\ l_printed r = r_reported r0 && negb quiet.
Proof.
  cbv zeta. unfold run_cmdline, run. rewrite handle_convert.
  destruct (do_handle_with ls h a) as [r calls]. cbn [fst snd].
  destruct (status_of debug r) as [s|e]; [cbn; repeat split; reflexivity|].
  unfold on_exception. destruct (e_keyboard e); [cbn; repeat split; reflexivity|].
  destruct catch; [|cbn; repeat split; reflexivity]. destruct ok; cbn; repeat split; reflexivity.
Qed.

Lemma on_exception_calls catch ok shown (calls : list A) e : l_calls (on_exception catch ok shown calls e) = calls.
Proof. unfold on_exception. destruct (e_keyboard e); [reflexivity|]. destruct catch; [|reflexivity]. destruct ok; reflexivity. Qed.
Lemma on_exception_caught shown (calls : list A) e : e_keyboard e = false ->
  on_exception true true shown calls e
  = {| l_end := Status 1; l_calls := calls; l_reported := true; l_simple := e_clikit e; l_printed := shown |}.
Proof. unfold on_exception. intros ->. reflexivity. Qed.
Lemma on_exception_keyboard catch ok shown (calls : list A) e : e_keyboard e = true ->
  on_exception catch ok shown calls e
  = {| l_end := Status 1; l_calls := calls; l_reported := false; l_simple := false; l_printed := false |}.
Proof. unfold on_exception. intros ->. reflexivity. Qed.
Lemma on_exception_end shown (calls : list A) e : l_end (on_exception true true shown calls e) = Status 1.
Proof. unfold on_exception. destruct (e_keyboard e); reflexivity. Qed.
(* a report is printed exactly when it was rendered and the io in force lets it through *)
Lemma on_exception_printed catch ok shown (calls : list A) e :
  l_printed (on_exception catch ok shown calls e) = l_reported (on_exception catch ok shown calls e) && shown.
Proof. unfold on_exception. destruct (e_keyboard e); [reflexivity|]. destruct catch; [|reflexivity]. destruct ok; reflexivity. Qed.

(* catching on, renderer returning: WHATEVER fails - the io factory, the resolution, a listener, the handler, int(status)
   - the run returns an integer status in 0..255 *)
Lemma run_cmdline_returns_status quiet debug io (rs : A + exn) ls h :
  exists s, l_end (run_cmdline true true quiet debug io rs ls h) = Status s /\ (0 <= s <= 255)%Z.
Proof.
  assert (Hx : forall shown calls e, exists s, l_end (on_exception (A:=A) true true shown calls e) = Status s /\ (0 <= s <= 255)%Z).
  { intros shown calls e. exists 1%Z. split; [apply on_exception_end|lia]. }
  destruct io as [e|]; [apply Hx|]. destruct rs as [a|e]; [|apply Hx].
  (* io built, line resolved: the end is that of Run.run on the handler's outcome *)
  destruct (run_line_is_run true true quiet debug a ls h) as [-> _]. apply run_returns_status.
Qed.

(* with catching off the failure of either step escapes as it is *)
Lemma early_failure_escapes ok quiet debug io (rs : A + exn) e ls h :
  (io = Some e \/ (io = None /\ rs = inr e)) -> e_keyboard e = false ->
  l_end (run_cmdline false ok quiet debug io rs ls h) = Escaped e.
Proof. intros [->|[-> ->]] He; unfold run_cmdline, on_exception; rewrite He; reflexivity. Qed.

End Generic.

(* what resolve returns for a line are the arguments one of the application's commands parses from exactly that line,
   with that command's own leniency, under that command's format *)
Lemma pick_default_parsed ds toks first d x :
  pick_default ds toks first = Ok (Some (d, Ok x)) -> parse (b_fmt d) (b_lenient d) toks = Ok x.
Proof.
  revert first. induction ds as [|c r IH]; intros first; cbn [pick_default].
  - destruct first as [[b k]|]; intros H; inversion H.
  - destruct (parse (b_fmt c) (b_lenient c) toks) as [a|k] eqn:E.
    + intros H. inversion H; subst. exact E.
    + destruct k; try discriminate. apply IH.
Qed.
Lemma resolve_args_parsed a toks path f x :
  resolve a toks = Ok (path, f, x) -> exists b, f = b_fmt b /\ parse (b_fmt b) (b_lenient b) toks = Ok x.
Proof.
  unfold resolve. destruct (walk (named_of (ap_cmds a)) None (leading toks)) as [[[b p]|]|k]; cbn [bind]; [| |discriminate].
  - destruct (pick_default (defaults_of (b_subs b)) toks None) as [[[dc r]|]|k] eqn:E; cbn [bind]; [| |discriminate].
    + destruct r as [y|k]; cbn [bind]; [|discriminate]. intros H. inversion H; subst. exists dc. split; [reflexivity|].
      eapply pick_default_parsed; eauto.
    + destruct (parse (b_fmt b) (b_lenient b) toks) as [y|k] eqn:Ep; cbn [bind]; [|discriminate].
      intros H. inversion H; subst. exists b. split; [reflexivity|exact Ep].
  - destruct (leading toks); [|discriminate].
    destruct (pick_default (defaults_of (ap_cmds a)) toks None) as [[[dc r]|]|k] eqn:E; cbn [bind]; [| |discriminate]; [|discriminate].
    destruct r as [y|k]; cbn [bind]; [|discriminate]. intros H. inversion H; subst. exists dc. split; [reflexivity|].
    eapply pick_default_parsed; eauto.
Qed.

(* the lines of this model are lines on which C09's summary of the run says "that command's handler runs" *)
Lemma in_domain_handler ap toks path f x :
  in_domain ap RDefault toks = true -> resolve ap toks = Ok (path, f, x) ->
  sm_action (run_summary false ap toks) = AHandler path.
Proof.
  unfold in_domain, resolution. intros Hd Hr. rewrite Hr in Hd. cbn [of_res] in Hd.
  apply andb_prop in Hd. destruct Hd as [Hsw Hp]. apply andb_prop in Hp. destruct Hp as [Hh Hv].
  apply negb_true_iff in Hsw. apply orb_false_iff in Hsw. destruct Hsw as [H1 H2].
  apply negb_true_iff in Hh. apply negb_true_iff in Hv.
  apply (handler_runs_lemma false ap toks path f x H1 H2 Hr Hv).
  intros p ->. exact Hh.
Qed.

Module RunLineExamples.
Definition s_go : str := [103;111]%N.  Definition s_tgt : str := [116;103;116]%N.
Definition s_target : str := [116;97;114;103;101;116]%N.
Definition s_nosuch : str := [110;111;115;117;99;104]%N.
Definition s_ddnosuch : str := [45;45;110;111;115;117;99;104]%N.
Definition T_q : str := [45;113]%N.
(* go [target] *)
Definition ex_cfg : appcfg :=
  {| ac_opts := []; ac_args := [];
     ac_cmds := [Cmd s_go [] false false true false [] [{| a_name := s_target; a_flags := 2; a_default := VNone |}] []] |}.
Definition ex_run (toks : list str) (h : outcome) :=
  match build_app ex_cfg with
  | Ok ap => Some (let r := run_app true true ap None RDefault toks [] (fun _ => h) in
                   (l_end r, map (fun c => (fst (fst c), args_arguments (snd (fst c)) (snd c) true)) (l_calls r), l_printed r, l_simple r))
  | Err _ => None
  end.
(* "go tgt": one invocation, target = tgt; the handler's 300 is clamped *)
Example ex_go_tgt : ex_run [s_go; s_tgt] (Ret (RInt 300)) = Some (Status 255, [([s_go], [(s_target, VStr s_tgt)])], false, false).
Proof. vm_compute. reflexivity. Qed.
(* "nosuch": no invocation, status 1, simple report *)
Example ex_nosuch : ex_run [s_nosuch] (Ret RNone) = Some (Status 1, [], true, true).
Proof. vm_compute. reflexivity. Qed.
(* "go --nosuch" and "go tgt tgt": the same *)
Example ex_bad_option : ex_run [s_go; s_ddnosuch] (Ret RNone) = Some (Status 1, [], true, true).
Proof. vm_compute. reflexivity. Qed.
Example ex_too_many : ex_run [s_go; s_tgt; s_tgt] (Ret RNone) = Some (Status 1, [], true, true).
Proof. vm_compute. reflexivity. Qed.
(* "nosuch -q": reported to a quiet io - nothing printed *)
Example ex_nosuch_quiet : ex_run [s_nosuch; T_q] (Ret RNone) = Some (Status 1, [], false, true).
Proof. vm_compute. reflexivity. Qed.
End RunLineExamples.
