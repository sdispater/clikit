(* Proofs about Model/Progress.v (C16): _overwrite on each kind of output, the state (step, maximum, throttle, what
   draws), the bar segment, quiet and plain outputs.  The frames written are the subject of Proofs/ProgressFrameLemmas.v. *)
From Coq Require Import Lia ZArith Arith.
From Clikit Require Import Base.Prelude Base.Res Base.Term Model.Conv Model.Markup Model.Section Model.Progress
  Proofs.ListLemmas Proofs.TermLemmas Proofs.MarkupLemmas Proofs.SectionLemmas.
Local Open Scope Z_scope.

Definition range (p : pbar) : Prop := 0 <= p_step p /\ 0 <= p_max p /\ (0 < p_max p -> p_step p <= p_max p).

Lemma set_out_id p : set_out p (p_f p) (p_secs p) = p.
Proof. destruct p; reflexivity. Qed.

Lemma out_write_shape p t nl p' es : out_write p t nl = Ok (p', es) -> exists f st, p' = set_out p f st.
Proof.
  unfold out_write. destruct (p_quiet p).
  { intros H. inversion H; subst. exists (p_f p'), (p_secs p'). now rewrite set_out_id. }
  destruct (p_section p).
  { intros H. bind_inv H x Hx. inversion H; subst. eauto. }
  destruct (p_ansi p); intros H; bind_inv H x Hx; inversion H; subst; eauto.
Qed.
Lemma out_write_quiet p t nl : p_quiet p = true -> out_write p t nl = Ok (p, []).
Proof. intros H. unfold out_write. now rewrite H. Qed.

(* _overwrite on each of the four kinds of output.  Quiet: nothing is written, the lines are only measured. *)
Lemma overwrite_quiet q now m : p_quiet q = true ->
  overwrite q now m =
  do pl <- pad_lines (p_last_len q) (p_f q) (lines_of m);
  do mv <- max_vis (fst pl) (snd pl) 0;
  Ok (set_written (set_out q (fst mv) (p_secs q)) (snd mv) now, []).
Proof.
  intros Hq. unfold overwrite, out_clear.
  destruct (pad_lines _ _ _) as [pl|e]; [|reflexivity]. cbn [bind p_ansi p_section p_quiet set_out]. rewrite Hq.
  destruct (p_ansi q), (p_section q); cbn [bind fst]; rewrite (out_write_quiet (set_out q _ _) _ _ Hq);
    cbn [bind fst snd p_f p_secs set_out app]; (destruct (max_vis _ _ _) as [mv|e]; reflexivity).
Qed.
(* plain: a line break after what was written before, then the padded lines *)
Lemma overwrite_plain q now m : p_ansi q = false -> p_quiet q = false ->
  overwrite q now m =
  do pl <- pad_lines (p_last_len q) (p_f q) (lines_of m);
  do wr <- out_write (set_out q (fst pl) (p_secs q)) (join_with NL (snd pl)) false;
  do mv <- max_vis (p_f (fst wr)) (snd pl) 0;
  Ok (set_written (set_out (fst wr) (fst mv) (p_secs (fst wr))) (snd mv) now,
      (if 0 <? p_write_count q then [Nl] else []) ++ snd wr).
Proof.
  intros Ha Hq. unfold overwrite. destruct (pad_lines _ _ _) as [pl|e]; [|reflexivity].
  cbn [bind p_ansi p_quiet p_write_count set_out]. rewrite Ha, Hq. reflexivity.
Qed.
(* an ANSI stream: back to the start of the frame's first row, then the padded lines over the old ones *)
Lemma overwrite_stream q now m : p_ansi q = true -> p_section q = false -> p_quiet q = false ->
  overwrite q now m =
  do pl <- pad_lines (p_last_len q) (p_f q) (lines_of m);
  do x <- Markup.format (fst pl) (join_with NL (snd pl)) None;
  do mv <- max_vis (fst x) (snd pl) 0;
  Ok (set_written (set_out q (fst mv) (p_secs q)) (snd mv) now,
      (Cr :: match p_flc q with O => [] | n => [Up n] end) ++ emits_of_ansi (snd x)).
Proof.
  intros Ha Hs Hq. unfold overwrite, out_write.
  destruct (pad_lines _ _ _) as [pl|e]; [|reflexivity]. cbn [bind p_ansi p_section p_quiet p_flc set_out].
  rewrite Ha, Hs, Hq. cbn [bind fst snd p_ansi p_section p_quiet p_f p_secs set_out]. rewrite Ha, Hs, Hq.
  destruct (Markup.format _ _ _) as [x|e]; [|reflexivity].
  cbn [bind fst snd p_secs p_f set_out]. rewrite app_nil_r. destruct (max_vis _ _ _) as [mv|e]; reflexivity.
Qed.
(* a section output: SectionOutput.clear of the rows the frame may occupy, then SectionOutput.write of the padded lines,
   both on the bar's own section (the first one) *)
Lemma overwrite_sec q now m : p_ansi q = true -> p_section q = true -> p_quiet q = false ->
  overwrite q now m =
  do pl <- pad_lines (p_last_len q) (p_f q) (lines_of m);
  do c <- sstep_ansi (p_w q) (p_secs q) (fst pl) (SClear 0 (Some (length (snd pl) / p_w q + p_flc q + 1)%nat));
  do wr <- sstep_ansi (p_w q) (fst (fst c)) (snd (fst c)) (SWrite 0 (join_with NL (snd pl)) false);
  do mv <- max_vis (snd (fst wr)) (snd pl) 0;
  Ok (set_written (set_out q (fst mv) (fst (fst wr))) (snd mv) now, snd c ++ snd wr).
Proof.
  intros Ha Hs Hq. unfold overwrite, out_clear, out_write.
  destruct (pad_lines _ _ _) as [pl|e]; [|reflexivity]. cbn [bind p_ansi p_section p_quiet p_w p_secs p_f p_flc set_out].
  rewrite Ha, Hs, Hq. destruct (sstep_ansi _ _ _ (SClear _ _)) as [c|e]; [|reflexivity].
  cbn [bind fst snd p_ansi p_section p_quiet p_w p_secs p_f set_out]. rewrite Ha, Hs, Hq.
  destruct (sstep_ansi _ _ _ (SWrite _ _ _)) as [wr|e]; [|reflexivity].
  cbn [bind fst snd p_secs p_f set_out]. destruct (max_vis _ _ _) as [mv|e]; reflexivity.
Qed.

Lemma overwrite_shape p now m p' es : overwrite p now m = Ok (p', es) ->
  exists f st ll, p' = set_written (set_out p f st) ll now.
Proof.
  intros H. destruct (p_quiet p) eqn:Hq.
  { rewrite (overwrite_quiet _ _ _ Hq) in H. bind_inv H pl Hpl. bind_inv H mv Hmv. inversion H; eauto. }
  destruct (p_ansi p) eqn:Ha; [destruct (p_section p) eqn:Hs|].
  - rewrite (overwrite_sec _ _ _ Ha Hs Hq) in H. bind_inv H pl Hpl. bind_inv H c Hc. bind_inv H wr Hwr. bind_inv H mv Hmv.
    inversion H; eauto.
  - rewrite (overwrite_stream _ _ _ Ha Hs Hq) in H. bind_inv H pl Hpl. bind_inv H x Hx. bind_inv H mv Hmv. inversion H; eauto.
  - rewrite (overwrite_plain _ _ _ Ha Hq) in H. bind_inv H pl Hpl. bind_inv H wr Hwr. bind_inv H mv Hmv. inversion H; subst.
    destruct wr as [r e]. apply out_write_shape in Hwr as (f & st & ->). eexists _, _, _. reflexivity.
Qed.

(* with_fmt only fixes the format, sp_state only the progress: every other field reads through them by computation *)
Lemma with_fmt_set p : exists fm n, with_fmt p = set_fmt p fm n.
Proof. unfold with_fmt. destruct (p_fmt p) eqn:E; [|eauto]. exists (p_fmt p), (p_flc p). destruct p; reflexivity. Qed.
Lemma sp_state_set p k : exists a b, sp_state p k = set_pct (with_progress p (sp_max p k) (sp_step p k)) a b.
Proof. unfold sp_state. destruct (0 <? sp_max p k); eauto. Qed.

Lemma display_quiet p now : p_quiet p = true -> display p now = Ok (p, []).
Proof. intros H. unfold display. now rewrite H. Qed.
Lemma display_writes q now p' es : display q now = Ok (p', es) -> p_quiet q = false ->
  exists fm fr p2, frame_of (with_fmt q) now = Ok (fm, fr) /\
    overwrite (set_out (with_fmt q) fm (p_secs (with_fmt q))) now fr = Ok (p2, es) /\
    p' = set_drawn p2 (Some (p_step q, p_max q)).
Proof.
  unfold display. intros H Hq. rewrite Hq in H. bind_inv H fr Hfr. bind_inv H x Hx. inversion H; subst.
  destruct fr as [fm fr], x as [p2 e]. cbn [fst snd] in *. exists fm, fr, p2. repeat split; auto.
Qed.
Lemma display_cases p now p' es : display p now = Ok (p', es) ->
  (p_quiet p = true /\ p' = p /\ es = []) \/
  (p_quiet p = false /\ exists f st ll,
     p' = set_drawn (set_written (set_out (with_fmt p) f st) ll now) (Some (p_step p, p_max p))).
Proof.
  intros H. destruct (p_quiet p) eqn:Hq; [rewrite (display_quiet _ _ Hq) in H; inversion H; auto|]. right. split; [reflexivity|].
  destruct (display_writes _ _ _ _ H Hq) as (fm & fr & p2 & _ & Ov & ->).
  apply overwrite_shape in Ov as (f & st & ll & ->). eexists _, _, _. reflexivity.
Qed.
Lemma display_progress p now p' es : display p now = Ok (p', es) ->
  p_step p' = p_step p /\ p_max p' = p_max p /\ p_quiet p' = p_quiet p /\ p_ansi p' = p_ansi p /\ p_section p' = p_section p.
Proof.
  intros H. apply display_cases in H as [(_ & -> & _)|(_ & f & st & ll & ->)]; [auto|].
  destruct (with_fmt_set p) as (fm & n & ->). cbn. auto.
Qed.

Lemma set_progress_cases p now k :
  (sp_step p k = sp_max p k /\ set_progress p now k = display (sp_state p k) now) \/
  (sp_step p k <> sp_max p k /\ (now - p_last_write p) * p_min_den p < p_min_num p * 1000 /\
   set_progress p now k = Ok (sp_state p k, [])) \/
  (sp_step p k <> sp_max p k /\ p_min_num p * 1000 <= (now - p_last_write p) * p_min_den p /\
   (set_progress p now k = display (sp_state p k) now \/ set_progress p now k = Ok (sp_state p k, []))).
Proof.
  unfold set_progress. fold (sp_max p k) (sp_step p k). fold (sp_state p k).
  destruct (Z.eqb_spec (sp_step p k) (sp_max p k)) as [E|E]; [left; auto|right].
  destruct (Z.ltb_spec ((now - p_last_write p) * p_min_den p) (p_min_num p * 1000)); [left; auto|right].
  split; [exact E|]. split; [lia|].
  destruct (negb (period p (sp_max p k) (p_step p) =? period p (sp_max p k) (sp_step p k))
            || (p_maxs_num p * 1000 <=? (now - p_last_write p) * p_maxs_den p)); auto.
Qed.
Lemma sp_state_range p k : range p -> range (sp_state p k).
Proof.
  intros (H0 & H1 & H2). unfold range. destruct (sp_state_set p k) as (a & b & ->). cbn. unfold sp_max, sp_step.
  destruct (Z.ltb_spec 0 (p_max p)), (Z.ltb_spec (p_max p) k), (Z.ltb_spec k 0); cbn [andb]; lia.
Qed.

Lemma display_range q now p' es : display q now = Ok (p', es) -> range q -> range p'.
Proof. intros H Hq. unfold range. destruct (display_progress q now p' es H) as (-> & -> & _). exact Hq. Qed.

Lemma set_progress_range p now k p' es : set_progress p now k = Ok (p', es) -> range p -> range p'.
Proof.
  intros H Hr. pose proof (sp_state_range p k Hr) as H1.
  destruct (set_progress_cases p now k) as [[_ E]|[(_ & _ & E)|(_ & _ & [E|E])]]; rewrite E in H.
  - eapply display_range; eauto.
  - inversion H; subst. exact H1.
  - eapply display_range; eauto.
  - inversion H; subst. exact H1.
Qed.

Lemma finish_state_range p : range p -> range (finish_state p).
Proof.
  intros Hr. unfold finish_state. destruct (Z.eqb_spec (p_max p) 0); [|exact Hr].
  destruct Hr as (H0 & _). unfold range; cbn. lia.
Qed.

Lemma pstep_range p now o p' es : pstep p now o = Ok (p', es) -> range p -> range p'.
Proof.
  intros H Hr. destruct o as [mx|k|k| | | |m|t]; cbn [pstep] in H.
  - eapply display_range; [exact H|]. destruct Hr as (H0 & H1 & H2).
    destruct mx as [m|]; unfold range, set_max_steps, with_progress; cbn; lia.
  - eapply set_progress_range; eauto.
  - eapply set_progress_range; eauto.
  - eapply display_range; eauto.
  - destruct (negb (p_ansi p)); [inversion H; subst; exact Hr|].
    apply overwrite_shape in H as (f & st & ll & ->). destruct (with_fmt_set p) as (fm & n & ->). exact Hr.
  - fold (finish_state p) in H. pose proof (finish_state_range p Hr) as H1.
    match type of H with (if ?c then _ else _) = _ => destruct c end.
    + inversion H; subst. exact H1.
    + eapply set_progress_range; eauto.
  - inversion H; subst. exact Hr.
  - destruct (p_section p); [|inversion H; subst; exact Hr]. bind_inv H x Hx. inversion H; subst. exact Hr.
Qed.

Lemma pow2_pos k : 0 <= k -> 0 < pow2 k.
Proof. intros H. unfold pow2. apply Z.pow_pos_nonneg; lia. Qed.

Lemma nomax_offset_bounds bw wc : 0 < bw -> 0 <= nomax_offset bw wc < bw.
Proof.
  intros Hw. unfold nomax_offset. destruct (75 <=? bw); [apply Z.mod_pos_bound; lia|].
  set (m := fst (dbl_round (fst (dbl_round bw 15) * wc) 1)).
  set (e := snd (dbl_round (fst (dbl_round bw 15) * wc) 1) + snd (dbl_round bw 15)).
  destruct (Z.ltb_spec e 0) as [He|He]; [|apply Z.mod_pos_bound; lia].
  pose proof (pow2_pos (- e) ltac:(lia)) as Hp.
  pose proof (Z.mod_pos_bound m (bw * pow2 (- e)) ltac:(nia)) as Hb.
  split; [apply Z.div_pos; lia|]. apply Z.div_lt_upper_bound; lia.
Qed.

Lemma bar_offset_bounds p : range p -> 0 < p_bar_width p -> 0 <= bar_offset p <= p_bar_width p.
Proof.
  intros (H0 & H1 & H2) Hw. unfold bar_offset.
  destruct (Z.ltb_spec 0 (p_max p)) as [Hm|Hm].
  - specialize (H2 Hm). split; [apply Z.div_pos; nia|].
    apply Z.div_le_upper_bound; nia.
  - destruct (p_redraw_freq p).
    + pose proof (Z.mod_pos_bound (p_step p) (p_bar_width p) Hw). lia.
    + pose proof (nomax_offset_bounds (p_bar_width p) (p_write_count p) Hw). lia.
Qed.

(* with a progress character of one visible cell (pc: its visible text) the bar segment has bar_width cells *)
Lemma render_bar_with_width p (pc : str) : range p -> 0 < p_bar_width p -> length pc = 1%nat ->
  length (render_bar_with p pc 1) = Z.to_nat (p_bar_width p).
Proof.
  intros Hr Hw Hpc. pose proof (bar_offset_bounds p Hr Hw) as Hb. unfold render_bar_with, bar_full, sp.
  rewrite app_length, repeat_length.
  destruct (Z.ltb_spec (bar_offset p) (p_bar_width p)); cbn [negb length]; [rewrite app_length, repeat_length, Hpc|]; lia.
Qed.

Lemma percent_bounds p : range p -> 0 < p_max p -> 0 <= p_step p * 100 / p_max p <= 100.
Proof.
  intros (H0 & H1 & H2) Hm. specialize (H2 Hm). split; [apply Z.div_pos; lia|]. apply Z.div_le_upper_bound; lia.
Qed.
Lemma percent_at_max p : 0 < p_max p -> p_step p = p_max p -> p_step p * 100 / p_max p = 100.
Proof. intros Hm ->. rewrite Z.mul_comm. apply Z.div_mul. lia. Qed.
Lemma percent_100_only_at_max p : range p -> 0 < p_max p -> p_step p * 100 / p_max p = 100 -> p_step p = p_max p.
Proof.
  intros (H0 & H1 & H2) Hm E. specialize (H2 Hm).
  pose proof (Z.mul_div_le (p_step p * 100) (p_max p) Hm) as H. rewrite E in H. nia.
Qed.

Lemma overwrite_quiet_silent p now m p' es : p_quiet p = true -> overwrite p now m = Ok (p', es) -> es = [].
Proof. intros Hq H. rewrite (overwrite_quiet _ _ _ Hq) in H. bind_inv H pl Hpl. bind_inv H mv Hmv. now inversion H. Qed.

Lemma out_write_plain p t nl p' es : p_ansi p = false -> out_write p t nl = Ok (p', es) -> forallb plain_emit es = true.
Proof.
  intros Ha H. unfold out_write in H. destruct (p_quiet p); [now inversion H|]. rewrite Ha in H. destruct (p_section p).
  - bind_inv H x Hx. inversion H; subst. apply sstep_plain_emits in Hx. exact Hx.
  - bind_inv H x Hx. inversion H; subst. rewrite forallb_app, emits_of_text_plain. destruct nl; reflexivity.
Qed.
Lemma overwrite_plain_emits p now m p' es : p_ansi p = false -> overwrite p now m = Ok (p', es) -> forallb plain_emit es = true.
Proof.
  intros Ha H. destruct (p_quiet p) eqn:Hq; [now rewrite (overwrite_quiet_silent _ _ _ _ _ Hq H)|].
  rewrite (overwrite_plain _ _ _ Ha Hq) in H. bind_inv H pl Hpl. bind_inv H wr Hwr. bind_inv H mv Hmv. inversion H; subst.
  destruct wr as [q e]. cbn [snd]. rewrite forallb_app, (out_write_plain (set_out p _ _) _ _ _ _ Ha Hwr). destruct (0 <? p_write_count p); reflexivity.
Qed.
Lemma display_plain p now p' es : p_ansi p = false -> display p now = Ok (p', es) -> forallb plain_emit es = true.
Proof.
  intros Ha H. destruct (p_quiet p) eqn:Hq; [rewrite (display_quiet _ _ Hq) in H; now inversion H|].
  destruct (display_writes _ _ _ _ H Hq) as (fm & fr & p2 & _ & Ov & _). eapply overwrite_plain_emits; [|exact Ov].
  destruct (with_fmt_set p) as (f & n & ->). exact Ha.
Qed.

(* the fields of the output side that a change of the progress leaves alone *)
Definition same_out (p q : pbar) : Prop :=
  p_ansi q = p_ansi p /\ p_quiet q = p_quiet p /\ p_section q = p_section p /\ p_f q = p_f p /\ p_flc q = p_flc p /\
  p_custom q = p_custom p /\ p_pchar q = p_pchar p /\ p_last_len q = p_last_len p /\ p_secs q = p_secs p /\ p_w q = p_w p.
Lemma same_out_refl p : same_out p p.
Proof. repeat split. Qed.
Lemma same_out_trans p q r : same_out p q -> same_out q r -> same_out p r.
Proof. unfold same_out. intuition congruence. Qed.
Lemma same_out_last_len p q : same_out p q -> p_last_len q = p_last_len p.
Proof. intros H. apply H. Qed.
Lemma same_out_secs p q : same_out p q -> p_secs q = p_secs p.
Proof. intros H. apply H. Qed.
Lemma sp_state_same p k : same_out p (sp_state p k).
Proof. destruct (sp_state_set p k) as (a & b & ->). repeat split. Qed.
Lemma finish_state_same p : same_out p (finish_state p).
Proof. unfold finish_state. destruct (p_max p =? 0); repeat split. Qed.
Lemma draw_state_same p now o q : draw_state p now o = Some q -> same_out p q.
Proof.
  destruct o as [mx|k|k| | | |m|t]; cbn [draw_state]; intros H; inversion H; subst.
  - destruct mx; repeat split.
  - apply sp_state_same.
  - apply sp_state_same.
  - apply same_out_refl.
  - eapply same_out_trans; [apply finish_state_same|apply sp_state_same].
Qed.

Lemma set_progress_draws p now k p' es : set_progress p now k = Ok (p', es) ->
  display (sp_state p k) now = Ok (p', es) \/ (es = [] /\ p' = sp_state p k).
Proof.
  intros H. destruct (set_progress_cases p now k) as [[_ E]|[(_ & _ & E)|(_ & _ & [E|E])]]; rewrite E in H; auto;
    inversion H; auto.
Qed.
(* A call displays the frame of its draw_state; or it writes nothing and leaves the output side alone (throttled; the frame
   of the maximum is already the last line of a plain output; set_message; clear on a plain output); or it is clear on an
   overwriting output: _overwrite of empty lines; or it is the write to the section below. *)
Lemma pstep_cases p now o p' es : pstep p now o = Ok (p', es) ->
  (exists q, draw_state p now o = Some q /\ display q now = Ok (p', es)) \/
  (es = [] /\ same_out p p') \/
  (o = OClear /\ p_ansi p = true /\ overwrite (with_fmt p) now (repeat LF (p_flc (with_fmt p))) = Ok (p', es)) \/
  (exists t x, o = OBelow t /\ p_section p = true /\ p' = set_out p (snd (fst x)) (fst (fst x)) /\ es = snd x /\
     (if p_ansi p then sstep_ansi (p_w p) (p_secs p) (p_f p) (SWrite 1 t true)
      else sstep_plain (p_w p) (p_secs p) (p_f p) (SWrite 1 t true)) = Ok x).
Proof.
  assert (forall p k, set_progress p now k = Ok (p', es) ->
            display (sp_state p k) now = Ok (p', es) \/ (es = [] /\ same_out p p')) as SP.
  { intros p0 k H. destruct (set_progress_draws _ _ _ _ _ H) as [E|[E ->]]; auto using sp_state_same. }
  intros H. destruct o as [mx|k|k| | | |m|t]; cbn [pstep draw_state] in *.
  - left. eauto.
  - destruct (SP _ _ H); eauto.
  - destruct (SP _ _ H); eauto.
  - left. eauto.
  - destruct (p_ansi p); cbn [negb] in H; [eauto 6|]. injection H as <- <-. right. left. split; [reflexivity|apply same_out_refl].
  - fold (finish_state p) in H. match type of H with (if ?c then _ else _) = _ => destruct c end.
    + injection H as <- <-. right. left. split; [reflexivity|apply finish_state_same].
    + destruct (SP _ _ H) as [D|[E S]]; [eauto|]. right. left. split; [exact E|].
      eapply same_out_trans; [apply finish_state_same|exact S].
  - injection H as <- <-. right. left. repeat split.
  - destruct (p_section p); [|injection H as <- <-; right; left; split; [reflexivity|apply same_out_refl]].
    bind_inv H x Hx. injection H as <- <-. right. right. right. exists t, x. auto.
Qed.

Lemma pstep_draws p now o p' es q : pstep p now o = Ok (p', es) -> draw_state p now o = Some q ->
  display q now = Ok (p', es) \/ (es = [] /\ same_out p p').
Proof.
  intros H Hq. destruct (pstep_cases _ _ _ _ _ H) as [(q' & Hq' & D)|[E|[(-> & _)|(t & x & -> & _)]]];
    [left; congruence|right; exact E|discriminate..].
Qed.

(* every call of the bar (the write to the section below is not one) *)
Definition bar_call (o : pop) : Prop := match o with OBelow _ => False | _ => True end.

(* an output the bar can draw on: not quiet, and (on a section output) the bar's section exists *)
Definition drawable (p : pbar) : Prop := p_quiet p = false /\ (p_section p = true -> p_secs p <> []).

Lemma write0_emits w st f t nl x : sstep_ansi w st f (SWrite 0 t nl) = Ok x -> st <> [] -> snd x <> [].
Proof.
  intros H Hne. cbn [sstep_ansi] in H. destruct st as [|s r]; [contradiction|]. cbn [nth_error] in H.
  bind_inv H m Hm. bind_inv H a Ha. bind_inv H b Hb. inversion H; subst. cbn [snd].
  intros E. apply app_eq_nil in E as [_ E]. apply app_eq_nil in E as [_ E]. discriminate.
Qed.
Lemma clear0_secs w st f n x : sstep_ansi w st f (SClear 0 n) = Ok x -> st <> [] -> fst (fst x) <> [].
Proof.
  intros H Hne. cbn [sstep_ansi] in H. destruct st as [|s r]; [contradiction|]. cbn [nth_error] in H.
  destruct (sc_content s).
  - inversion H; subst. cbn. discriminate.
  - bind_inv H kr Hkr. destruct kr as [[keep rc] f1]. bind_inv H y Hy. inversion H; subst. cbn. discriminate.
Qed.

(* a section output: the write to the bar's section, which the clear before it leaves in place, emits something *)
Lemma overwrite_draws p now m p' es : drawable p -> p_ansi p = true -> overwrite p now m = Ok (p', es) -> es <> [].
Proof.
  intros (Hq & Hs) Ha H. destruct (p_section p) eqn:Hsec.
  - rewrite (overwrite_sec _ _ _ Ha Hsec Hq) in H. bind_inv H pl Hpl. bind_inv H c Hc. bind_inv H wr Hwr. bind_inv H mv Hmv.
    inversion H; subst. pose proof (write0_emits _ _ _ _ _ _ Hwr (clear0_secs _ _ _ _ _ Hc (Hs eq_refl))) as Hne.
    intros E. apply app_eq_nil in E as [_ E]. contradiction.
  - rewrite (overwrite_stream _ _ _ Ha Hsec Hq) in H. bind_inv H pl Hpl. bind_inv H x Hx. bind_inv H mv Hmv.
    inversion H; subst. discriminate.
Qed.

Lemma display_draws p now p' es : drawable p -> p_ansi p = true -> display p now = Ok (p', es) -> es <> [].
Proof.
  intros (Hq & Hs) Ha H. destruct (display_writes _ _ _ _ H Hq) as (fm & fr & p2 & _ & Ov & _).
  destruct (with_fmt_set p) as (f & n & E). rewrite E in Ov.
  eapply overwrite_draws; [| |exact Ov]; [split; [exact Hq|exact Hs]|exact Ha].
Qed.
Lemma same_out_drawable p q : same_out p q -> drawable p -> p_ansi p = true -> drawable q /\ p_ansi q = true.
Proof. intros (A & Q & Sec & _ & _ & _ & _ & _ & St & _). unfold drawable. now rewrite A, Q, Sec, St. Qed.
Lemma sp_state_progress p k : p_step (sp_state p k) = sp_step p k /\ p_max (sp_state p k) = sp_max p k.
Proof. destruct (sp_state_set p k) as (a & b & ->). auto. Qed.


Lemma reaching_max_draws p now k p' es : drawable p -> p_ansi p = true -> set_progress p now k = Ok (p', es) ->
  p_step p' = p_max p' -> es <> [].
Proof.
  intros Hd Ha H Hsm. destruct (same_out_drawable _ _ (sp_state_same p k) Hd Ha) as [Hd1 Ha1].
  destruct (sp_state_progress p k) as [S1 S2].
  destruct (set_progress_cases p now k) as [[E0 E]|[(E0 & _ & E)|(E0 & _ & [E|E])]]; rewrite E in H;
    [eapply display_draws; eauto| |eapply display_draws; eauto| ]; inversion H; subst; rewrite S1, S2 in Hsm; contradiction.
Qed.

(* finish sets the progress to the maximum, which always displays *)
Lemma sp_at_max p : 0 <= p_max p -> sp_step p (p_max p) = p_max p /\ sp_max p (p_max p) = p_max p.
Proof.
  intros H. unfold sp_step, sp_max. rewrite Z.ltb_irrefl, Bool.andb_false_r. split; [|reflexivity].
  destruct (Z.ltb_spec (p_max p) 0); [lia|reflexivity].
Qed.
Lemma set_progress_max p now : 0 <= p_max p -> set_progress p now (p_max p) = display (sp_state p (p_max p)) now.
Proof.
  intros Hm. destruct (sp_at_max p Hm) as [E1 E2].
  destruct (set_progress_cases p now (p_max p)) as [[_ E]|[(Hn & _)|(Hn & _)]]; [exact E|congruence..].
Qed.

