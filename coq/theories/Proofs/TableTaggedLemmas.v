(* Proofs about the table model with the formatter threaded through (C14, style-tagged cells):
   on tag-free tables render_table_f is render_table; on tables whose cells are good markup and in which no cell
   holding '<' has to be wrapped, the visible text of what render_table_f writes is, line by line, the tag-free
   table of the cells' visible texts - hence a rectangle within the terminal that keeps every cell's visible text. *)
From Coq Require Import Lia ZifyBool.
From Clikit Require Import Base.Prelude Base.Res Model.Conv Model.Markup Model.OutputM Model.Wrap Model.Table
  Proofs.ListLemmas Proofs.MarkupLemmas Proofs.LiteralLemmas Proofs.MarkupShrinkLemmas Proofs.WrapLemmas Proofs.TableLemmas.
Local Open Scope Z_scope.

Lemma fmt_eta f : {| f_kind := f_kind f; f_styles := f_styles f; f_stack := f_stack f |} = f.
Proof. destruct f; reflexivity. Qed.

Lemma remove_format_no_lt f m : no_lt m -> remove_format f m = Ok (f, m).
Proof.
  intros H. destruct f as [k sty sk]. unfold remove_format. cbn [f_kind f_styles f_stack].
  destruct k; try reflexivity; rewrite (colorize_no_lt _ _ _ _ H); reflexivity.
Qed.
Lemma format_no_lt f m : no_lt m -> format f m None = Ok (f, m).
Proof.
  intros H. destruct f as [k sty sk]. unfold format. cbn [f_kind f_styles f_stack].
  destruct k; try reflexivity; rewrite (colorize_no_lt _ _ _ _ H); reflexivity.
Qed.
Lemma out_write_no_lt on f m : no_lt m -> out_write on f m = Ok (f, m).
Proof. intros H. unfold out_write. destruct on; [apply format_no_lt|apply remove_format_no_lt]; exact H. Qed.

Lemma spaces_inert sp : Forall (fun c => is_space c = true) sp -> Forall MarkupShrinkLemmas.inert sp.
Proof. apply Forall_impl. exact inert_space. Qed.

Local Opaque lex.
Definition inert (a : str) : Prop := Forall (fun c => c <> LT /\ c <> ESC /\ c <> BSL) a.
Lemma inert_no_lt a : inert a -> no_lt a. Proof. apply Forall_impl. intros c (H & _); exact H. Qed.
Lemma inert_good a : inert a -> Forall good a. Proof. apply Forall_impl. intros c (_ & H1 & H2); split; assumption. Qed.

Definition vis (f : formatter) (p : str) : str := match remove_format f p with Ok (_, v) => v | Err _ => p end.
(* the formatter reads x as the text y, is left as it was, and y holds no '<' *)
Definition vrel (f : formatter) (x y : str) : Prop :=
  Forall good x /\ colorize (f_styles f) false (f_stack f) x = Ok (f_stack f, y) /\ no_lt y.

Lemma vrel_remove f x y : f_kind f <> FNull -> vrel f x y -> remove_format f x = Ok (f, y).
Proof. intros Hk (_ & C & _). rewrite remove_format_eq, C by exact Hk. cbn [bind fst snd]. now rewrite fmt_eta. Qed.
Lemma vrel_vis f x y : f_kind f <> FNull -> vrel f x y -> vis f x = y.
Proof. intros Hk H. unfold vis. now rewrite (vrel_remove f x y Hk H). Qed.
Lemma remove_vrel f x y : f_kind f <> FNull -> Forall good x -> remove_format f x = Ok (f, y) -> no_lt y -> vrel f x y.
Proof.
  intros Hk Hg R Hy. split; [exact Hg|]. split; [|exact Hy]. rewrite remove_format_eq in R by exact Hk.
  destruct (colorize (f_styles f) false (f_stack f) x) as [[s v]|e]; cbn [bind fst snd] in R; [|discriminate].
  injection R as R <-. apply (f_equal f_stack) in R. cbn [f_stack] in R. now subst s.
Qed.
Lemma vrel_inert f a : inert a -> vrel f a a.
Proof. intros H. split; [apply inert_good, H|]. split; [apply colorize_no_lt, inert_no_lt, H|apply inert_no_lt, H]. Qed.
Lemma vrel_nil f : vrel f [] []. Proof. apply vrel_inert. constructor. Qed.
Lemma vrel_app f x y x' y' : vrel f x y -> vrel f x' y' -> vrel f (x ++ x') (y ++ y').
Proof.
  intros (G1 & C1 & L1) (G2 & C2 & L2). split; [apply Forall_app; split; assumption|]. split; [|apply Forall_app; split; assumption].
  exact (colorize_plain_app _ _ x x' _ _ _ _ (colorize_no_lt_closed _ _ _ _ _ C1 L1) (no_bsl_unescaped x (good_no_bsl x G1))
           (no_bsl_ends x' (good_no_bsl x' G2)) C1 C2).
Qed.
Lemma vis_no_lt f p : no_lt p -> vis f p = p.
Proof. intros H. unfold vis. now rewrite (remove_format_no_lt f p H). Qed.
Lemma vrel_P (P : N -> Prop) f x y : vrel f x y -> Forall P x -> Forall P y.
Proof. intros (_ & C & _) HP. exact (colorize_plain_P P _ _ _ _ _ HP C). Qed.

(* the output decorates: only an ANSI formatter on an output whose _format_output is set *)
Definition decorated (on : bool) (f : formatter) : bool := on && match f_kind f with FAnsi _ => true | _ => false end.
Lemma out_write_vrel on f x y : f_kind f <> FNull -> vrel f x y ->
  exists X, out_write on f x = Ok (f, X) /\ strips X y /\ (decorated on f = false -> X = y).
Proof.
  intros Hk (G & C & L).
  assert (Hy : strips y y).
  { apply strips_text. exact (colorize_plain_P _ _ _ _ _ _ (good_no_esc x G) C). }
  assert (Hplain : remove_format f x = Ok (f, y)) by (apply vrel_remove; [exact Hk|repeat split; assumption]).
  unfold out_write, decorated. destruct on; cbn [andb]; [|exists y; auto].
  unfold format. destruct (f_kind f) eqn:Ek; [| |congruence].
  - destruct (good_msg_fine x G) as [Hs Ht]. pose proof (colorize_strips (f_styles f) (f_stack f) x Hs Ht) as HS. rewrite C in HS.
    destruct (colorize (f_styles f) true (f_stack f) x) as [[s1 o1]|e]; [|contradiction]. destruct HS as [-> HS].
    cbn [bind fst snd]. exists o1. rewrite <- Ek, fmt_eta. split; [reflexivity|]. split; [exact HS|discriminate].
  - rewrite C. cbn [bind fst snd]. rewrite <- Ek, fmt_eta. exists y. auto.
Qed.

Lemma space_good c : is_space c = true -> good c. Proof. intros H. split; intros ->; vm_compute in H; discriminate. Qed.
Lemma spaces_good sp : Forall (fun c => is_space c = true) sp -> Forall good sp.
Proof. apply Forall_impl. exact space_good. Qed.

(* the line as io.write gets it: right-stripped, with the line break.  Its visible text is the visible text of
   the whole line less the white space the raw line ended with *)
Lemma vrel_rstrip_nl f x y : vrel f x y ->
  exists v sp, vrel f (t_rstrip x ++ [10%N]) (v ++ [10%N]) /\ y = v ++ sp /\ Forall (fun c => is_space c = true) sp.
Proof.
  intros (G & C & L). destruct (rstrip_split x) as (sp & E & F). set (r := t_rstrip x) in *.
  assert (Gr : Forall good r /\ Forall good sp) by (rewrite E in G; apply Forall_app in G; exact G). destruct Gr as [Gr Gs].
  rewrite E in C. rewrite colorize_plain_inert in C; [|apply no_bsl_ends, good_no_bsl, Gr|apply spaces_inert, F].
  destruct (colorize (f_styles f) false (f_stack f) r) as [[s v]|e] eqn:Cr; cbn [bind fst snd] in C; [|discriminate].
  injection C as -> <-. exists v, sp. split; [|split; [reflexivity|exact F]].
  assert (NLw : Forall MarkupShrinkLemmas.inert [10%N]) by (constructor; [exact inert_nl|constructor]).
  split; [apply Forall_app; split; [exact Gr|repeat constructor; discriminate]|]. split.
  - rewrite colorize_plain_inert; [|apply no_bsl_ends, good_no_bsl, Gr|exact NLw]. rewrite Cr. reflexivity.
  - apply Forall_app in L as [L _]. apply Forall_app; split; [exact L|repeat constructor; discriminate].
Qed.

Lemma has_lt_false c : has_lt c = false <-> no_lt c.
Proof.
  unfold has_lt, no_lt. induction c as [|x c IH]; cbn [existsb]; [split; [constructor|reflexivity]|].
  rewrite Bool.orb_false_iff, IH. split.
  - intros [H1 H2]. constructor; [|exact H2]. intros ->. unfold LT in H1. rewrite N.eqb_refl in H1. discriminate.
  - intros H. inversion H as [|? ? Hx Hc]; subst. split; [|exact Hc]. apply N.eqb_neq. congruence.
Qed.
(* good markup: no ESC, no backslash; the formatter reads the cell, is left as it was, and the visible text holds
   no '<'; a cell with markup holds no line break *)
Definition good_cell (f : formatter) (c : str) : Prop :=
  Forall good c /\ (has_lt c = true -> ~ In 10%N c) /\ exists v, remove_format f c = Ok (f, v) /\ no_lt v.
Lemma good_cell_plain f c : Forall good c -> no_lt c -> good_cell f c.
Proof.
  intros G L. split; [exact G|]. split.
  - apply has_lt_false in L. congruence.
  - exists c. split; [apply remove_format_no_lt, L|exact L].
Qed.
Lemma good_cell_nil f : good_cell f []. Proof. apply good_cell_plain; constructor. Qed.
Lemma good_cell_vrel f c : f_kind f <> FNull -> good_cell f c -> vrel f c (vis f c).
Proof. intros Hk (G & _ & v & R & L). unfold vis. rewrite R. apply remove_vrel; assumption. Qed.

Lemma measure_good f cs : Forall (good_cell f) cs -> measure f cs = Ok (f, map (fun c => zlen (vis f c)) cs).
Proof.
  induction 1 as [|c cs (_ & _ & v & R & _) _ IH]; [reflexivity|]. cbn [measure map]. unfold vis at 1. rewrite R. cbn [bind fst snd].
  rewrite IH. reflexivity.
Qed.

(* what textwrap returns consists of characters of the text and white space *)
Lemma wrap_chars (P : N -> Prop) t w ls : (forall c, is_space c = true -> P c) -> Forall P t -> wrap t w = Ok ls ->
  Forall P (join_with 10%N ls).
Proof.
  intros Hsp Ht W. apply join_with_P; [apply Hsp; reflexivity|]. apply (wrap_lines_chars_lemma P _ _ _ W).
  unfold munge. apply Forall_map. eapply Forall_impl; [|exact Ht]. intros c Hc. destruct (tw_space c); [apply Hsp; reflexivity|exact Hc].
Qed.
Lemma space_not_lt c : is_space c = true -> c <> LT. Proof. intros H. apply inert_space, H. Qed.
Lemma wrap_cell_nolt g w cu cell len c' l' wr cu' : no_lt cell -> wrap_cell g w cu cell len = Ok (c', l', wr, cu') -> no_lt c'.
Proof.
  intros Hl. unfold wrap_cell. destruct (w <? len); [|intros H; injection H as <- _ _ _; exact Hl].
  destruct (g cell); [discriminate|]. intros H. bind_inv H ls W. injection H as <- _ _ _.
  apply (wrap_chars _ cell w ls space_not_lt Hl W).
Qed.

Section Sim.
  Variable f : formatter.
  Let v := vis f.
  Definition vst (st : fitst) : fitst :=
    {| f_rows := map (map (vis f)) (f_rows st); f_lens := f_lens st; f_cols := f_cols st; f_wraps := f_wraps st; f_cuts := f_cuts st |}.
  Lemma vis_nil : vis f [] = []. Proof. apply vis_no_lt. constructor. Qed.
  Lemma set_nth_map {X Y} (g : X -> Y) k x l : set_nth k (g x) (map g l) = map g (set_nth k x l).
  Proof. revert k; induction l as [|y l IH]; intros [|k]; cbn; congruence. Qed.

  (* a cell that is wrapped holds no '<': it is its own visible text, and so is what textwrap makes of it *)
  Lemma wrap_cell_sim w cu cell len c' l' wr cu' : wrap_cell has_lt w cu cell len = Ok (c', l', wr, cu') ->
    wrap_cell (fun _ => false) w cu (v cell) len = Ok (v c', l', wr, cu').
  Proof.
    unfold wrap_cell, v. destruct (w <? len); [|intros H; injection H as <- <- <- <-; reflexivity].
    destruct (has_lt cell) eqn:Hl; [discriminate|]. apply has_lt_false in Hl. rewrite (vis_no_lt f cell Hl).
    intros H. bind_inv H ls W. rewrite W. injection H as <- <- <- <-. cbn [bind].
    rewrite vis_no_lt; [reflexivity|]. apply (wrap_chars _ cell w ls space_not_lt Hl W).
  Qed.
  Lemma wrap_col_sim col w rows lens wr cu rs ls wr' cu' :
    wrap_col has_lt col w rows lens wr cu = Ok (rs, ls, wr', cu') ->
    wrap_col (fun _ => false) col w (map (map v) rows) lens wr cu = Ok (map (map v) rs, ls, wr', cu').
  Proof.
    apply (wrap_col_ind has_lt col w (fun rows lens wr cu rs ls wr' cu' =>
      wrap_col (fun _ => false) col w (map (map v) rows) lens wr cu = Ok (map (map v) rs, ls, wr', cu'))).
    - intros ? ? ? ? [-> | ->]; [reflexivity|]. destruct rows0; reflexivity.
    - intros row ? ln ? ? ? ? ? ? ? ? ? ? ? WC IH. cbn [map wrap_col].
      replace (nth col (map v row) []) with (v (nth col row [])) by (unfold v; rewrite <- vis_nil at 2; symmetry; apply map_nth).
      rewrite (wrap_cell_sim _ _ _ _ _ _ _ _ WC). cbn [bind]. rewrite IH. cbn [bind]. now rewrite set_nth_map.
  Qed.
  Lemma fit_column_sim col w st st' : fit_column has_lt col w st = Ok st' -> fit_column (fun _ => false) col w (vst st) = Ok (vst st').
  Proof.
    unfold fit_column. cbn [vst f_rows f_lens f_cols f_wraps f_cuts]. intros H. bind_inv H x WR. destruct x as [[[rs ls] wr] cu].
    injection H as <-. fold v. rewrite (wrap_col_sim _ _ _ _ _ _ _ _ _ _ WR). reflexivity.
  Qed.
  Lemma distribute_sim share av : forall long col actual rem st st',
    distribute has_lt share av long col actual rem st = Ok st' ->
    distribute (fun _ => false) share av long col actual rem (vst st) = Ok (vst st').
  Proof.
    induction long as [|[len|] r IH]; intros col actual rem st st' H.
    - injection H as <-. reflexivity.
    - rewrite distribute_cons in *. bind_inv H w Hw. bind_inv H st1 F1. rewrite Hw. cbn [bind]. rewrite (fit_column_sim _ _ _ _ F1). exact (IH _ _ _ _ _ H).
    - exact (IH _ _ _ _ _ H).
  Qed.
  Lemma pad_row_map n r : pad_row n (map v r) = map v (pad_row n r).
  Proof.
    unfold pad_row. rewrite map_app, map_length. f_equal. unfold v. generalize (n - length r)%nat as k.
    induction k as [|k IH]; cbn [repeat map]; [reflexivity|]. rewrite vis_nil. f_equal. exact IH.
  Qed.
  Lemma init_state_l_sim n cells lens st : init_state_l n cells lens = Ok st -> init_state_l n (map v cells) lens = Ok (vst st).
  Proof.
    intros H. rewrite (init_state_l_rows _ _ _ _ H). unfold init_state_l in *. unfold vst. cbn [f_rows f_lens f_cols f_wraps f_cuts].
    rewrite map_length, chunk_map, !map_map. rewrite (map_ext _ _ (pad_row_map n)).
    destruct n; [destruct cells; [reflexivity|discriminate]|reflexivity].
  Qed.
  Theorem fit_g_sim share max_total n cells lens st : fit_g has_lt share max_total n cells lens = Ok st ->
    fit_g (fun _ => false) share max_total n (map v cells) lens = Ok (vst st).
  Proof.
    unfold fit_g. intros H. bind_inv H st0 E0.
    rewrite (init_state_l_sim _ _ _ _ E0). cbn [bind]. change (f_cols (vst st0)) with (f_cols st0).
    destruct (zsum (f_cols st0) <=? max_total); [injection H as <-; reflexivity|].
    destruct n; [discriminate|]. destruct (short_loop _ _ _ _) as [[av long]|]; [|discriminate].
    exact (distribute_sim _ _ _ _ _ _ _ _ H).
  Qed.

  Definition rows_good (rows : list (list str)) : Prop := Forall (Forall (good_cell f)) rows.
  Lemma wrap_cell_good w cu cell len c' l' wr cu' : good_cell f cell -> wrap_cell has_lt w cu cell len = Ok (c', l', wr, cu') -> good_cell f c'.
  Proof.
    intros Hc. unfold wrap_cell. destruct (w <? len); [|intros H; injection H as <- _ _ _; exact Hc].
    destruct (has_lt cell) eqn:Hl; [discriminate|]. apply has_lt_false in Hl. intros H. bind_inv H ls W. injection H as <- _ _ _.
    apply good_cell_plain; [apply (wrap_chars _ cell w ls space_good (proj1 Hc) W)|apply (wrap_chars _ cell w ls space_not_lt Hl W)].
  Qed.
  Theorem fit_g_good share max_total n cells lens st : length lens = length cells -> Forall (good_cell f) cells ->
    fit_g has_lt share max_total n cells lens = Ok st -> rows_good (f_rows st).
  Proof. apply (fit_g_cells has_lt (good_cell f) wrap_cell_good), good_cell_nil. Qed.
End Sim.

(* the lines of the tag-free table before right-stripping *)
Definition border_lines (ind : Z) (lens : list Z) (lc l c r : str) : list str :=
  let full := blanks ind ++ l ++ border_body lc c r lens in
  match t_rstrip full with [] => [] | _ => [full] end.
Definition row_lines (b : bstyle) (pre suf pad : str) (ind : Z) (row : list str) (cols al : list Z) : list str :=
  let cells := map (split_on 10%N) row in
  map (fun i => blanks ind ++ b_vl b ++ row_line pre suf pad (b_vc b) (b_vr b) i cells cols al)
      (seq 0 (fold_right Nat.max O (map (@length str) cells))).
Definition table_lines (s : tstyle) (header : list str) (ind : Z) (st : fitst) (al : list Z) : list str :=
  let b := t_border s in
  let bl := map (fun l => (l + excess s)%Z) (f_cols st) in
  let body := match header with [] => f_rows st | _ => tl (f_rows st) end in
  border_lines ind bl (b_ht b) (b_tl b) (b_ct b) (b_tr b) ++
  (match header with
   | [] => []
   | _ => row_lines b (t_hpre s) (t_hsuf s) (t_pad s) ind (hd [] (f_rows st)) (f_cols st) al ++
          border_lines ind bl (b_hc b) (b_cl b) (b_cc b) (b_cr b)
   end) ++
  flat_map (fun row => row_lines b (t_cpre s) (t_csuf s) (t_pad s) ind row (f_cols st) al) body ++
  border_lines ind bl (b_hb b) (b_bl b) (b_cb b) (b_br b).
Definition strip_lines (ls : list str) : str := flat_map (fun l => t_rstrip l ++ [10%N]) ls.
Lemma strip_lines_app a b : strip_lines (a ++ b) = strip_lines a ++ strip_lines b.
Proof. apply flat_map_app. Qed.
Lemma draw_border_lines ind lens lc l c r : draw_border ind lens lc l c r = strip_lines (border_lines ind lens lc l c r).
Proof.
  unfold draw_border, border_lines. destruct (t_rstrip (blanks ind ++ l ++ border_body lc c r lens)) eqn:E; [reflexivity|].
  unfold strip_lines. cbn [flat_map]. rewrite E, app_nil_r. reflexivity.
Qed.
Lemma draw_row_lines b pre suf pad ind row cols al : draw_row b pre suf pad ind row cols al = strip_lines (row_lines b pre suf pad ind row cols al).
Proof.
  unfold draw_row, row_lines, strip_lines. generalize (seq 0 (fold_right Nat.max O (map (@length str) (map (split_on 10%N) row)))). intros l.
  induction l as [|i l IH]; [reflexivity|]. cbn [flat_map map]. rewrite IH. reflexivity.
Qed.
Lemma draw_table_lines s header ind st al : draw_table s header ind st al = strip_lines (table_lines s header ind st al).
Proof.
  unfold draw_table, table_lines. rewrite !strip_lines_app. rewrite 3?draw_border_lines. f_equal. f_equal.
  - destruct header; [reflexivity|]. now rewrite strip_lines_app, draw_row_lines, ?draw_border_lines.
  - rewrite ?draw_border_lines. f_equal. generalize (match header with [] => f_rows st | _ :: _ => tl (f_rows st) end). intros body.
    induction body as [|r body IH]; [reflexivity|]. cbn [flat_map]. rewrite strip_lines_app, draw_row_lines, IH. reflexivity.
Qed.

Lemma table_lines_parts s header ind st al : table_lines s header ind st al =
  concat (table_parts s header (f_rows st)
            (fun '(lc, l, c, r) => border_lines ind (map (fun l => l + excess s) (f_cols st)) lc l c r)
            (fun pre suf row => row_lines (t_border s) pre suf (t_pad s) ind row (f_cols st) al)).
Proof.
  unfold table_lines, table_parts. cbn [concat]. f_equal. rewrite !concat_app, <- flat_map_concat_map. cbn [concat]. rewrite app_nil_r. f_equal.
  destruct header; cbn [concat]; now rewrite ?app_nil_r.
Qed.
(* what holds of the three borders and of the lines of every row holds of every line of the table *)
Lemma table_lines_forall (Q : str -> Prop) s header ind st al :
  (forall lc l c r, In (lc, l, c, r) (borders_of s) -> Forall Q (border_lines ind (map (fun l => l + excess s) (f_cols st)) lc l c r)) ->
  (forall pre suf row, is_format s pre suf -> In row (f_rows st) ->
     Forall Q (row_lines (t_border s) pre suf (t_pad s) ind row (f_cols st) al)) ->
  Forall Q (table_lines s header ind st al).
Proof.
  intros B HR. rewrite table_lines_parts. apply Forall_concat, table_parts_Forall.
  - intros [[[lc l] c] r]. apply B.
  - intros pre suf row Hf [-> | Hin]; [constructor|auto].
Qed.
(* a condition on every string of the style, in the form it has for the parts of the table *)
Definition style_all (P : str -> Prop) (s : tstyle) : Prop :=
  let b := t_border s in
  P (t_hpre s) /\ P (t_hsuf s) /\ P (t_cpre s) /\ P (t_csuf s) /\ P (t_pad s) /\
  Forall P [b_ht b; b_hc b; b_hb b; b_vl b; b_vc b; b_vr b; b_tl b; b_tr b; b_bl b; b_br b; b_cc b; b_cl b; b_ct b; b_cr b; b_cb b].
Lemma style_all_parts P s : style_all P s ->
  (forall lc l c r, In (lc, l, c, r) (borders_of s) -> P lc /\ P l /\ P c /\ P r) /\
  (forall pre suf, is_format s pre suf -> P pre /\ P suf) /\
  P (t_pad s) /\ P (b_vl (t_border s)) /\ P (b_vc (t_border s)) /\ P (b_vr (t_border s)).
Proof.
  intros (P1 & P2 & P3 & P4 & P5 & PB). repeat (apply Forall_cons_iff in PB as [? PB]).
  split; [intros lc l c r [E|[E|[E|[]]]]; injection E as <- <- <- <-; auto|].
  split; [intros pre suf [E|E]; injection E as -> ->; auto|auto].
Qed.

(* every line of the tag-free table has the table's width *)
Lemma table_lines_width s n header ind st al : wf_style s -> (1 <= n)%nat -> 0 <= ind -> INV n st -> length al = n ->
  Forall (fun l => zlen l = full_width s (f_cols st) ind) (table_lines s header ind st al).
Proof.
  intros Hwf Hn Hind HI Hal.
  pose proof (inv_cells_fit _ _ HI) as CF. pose proof (inv_len _ _ HI) as Hlen. pose proof (inv_nonneg _ _ HI) as Hnn.
  pose proof (inv_cols_ne _ _ HI Hn) as Hne.
  apply table_lines_forall.
  - intros lc l c r Hin. unfold border_lines.
    destruct (border_line_width s (f_cols st) ind lc l c r Hind Hne Hnn (wf_style_borders s _ _ _ _ Hwf Hin)) as [E|E].
    + rewrite E. constructor.
    + destruct (t_rstrip _); repeat constructor. exact E.
  - intros pre suf row Hps Hin. destruct (cells_fit_in _ _ CF Hne Hin). unfold row_lines. apply Forall_map, Forall_forall. intros i _.
    apply row_line_width; auto; [|congruence].
    destruct (wf_style_excess s Hwf). destruct Hps as [E|E]; injection E as -> ->; assumption.
Qed.

Section Draw.
  Variables (on : bool) (f : formatter).
  Hypothesis Hk : f_kind f <> FNull.
  Let dec := decorated on f.

  (* what is written for a line X and the line PL of the tag-free table: X without its SGR sequences is a text v and
     the line break, PL is v followed by white space; an undecorated output writes v itself *)
  Definition line_item (X PL : str) : Prop :=
    exists v sp, strips X (v ++ [10%N]) /\ (dec = false -> X = v ++ [10%N]) /\ PL = v ++ sp /\ Forall (fun c => is_space c = true) sp.
  (* a step of the drawing leaves the formatter as it was and writes the lines pls *)
  Definition step_ok (s : formatter -> res (formatter * str)) (pls : list str) : Prop :=
    exists Xs, s f = Ok (f, concat Xs) /\ Forall2 line_item Xs pls.

  Lemma run_steps_same steps outs : Forall2 (fun s o => s f = Ok (f, o)) steps outs -> run_steps steps f = Ok (f, concat outs).
  Proof. induction 1 as [|s o steps outs H _ IH]; [reflexivity|]. cbn [run_steps concat]. rewrite H. cbn [bind fst snd]. rewrite IH. reflexivity. Qed.
  Lemma steps_cons s steps r1 r2 : s f = Ok (f, r1) -> run_steps steps f = Ok (f, r2) -> run_steps (s :: steps) f = Ok (f, r1 ++ r2).
  Proof. intros E1 E2. cbn [run_steps]. rewrite E1. cbn [bind fst snd]. rewrite E2. reflexivity. Qed.
  Lemma run_steps_ok steps plss : Forall2 step_ok steps plss -> step_ok (run_steps steps) (concat plss).
  Proof.
    induction 1 as [|s pls steps plss (Xs & E & F) _ (Ys & E2 & F2)]; [exists []; split; [reflexivity|constructor]|].
    exists (Xs ++ Ys). cbn [run_steps concat]. rewrite E. cbn [bind fst snd]. rewrite E2. cbn [bind fst snd].
    split; [now rewrite concat_app|]. apply Forall2_app; assumption.
  Qed.

  Lemma inert_blanks k : inert (blanks k).
  Proof. apply Forall_blanks. repeat split; discriminate. Qed.
  Lemma vrel_fill pad a t p pv : inert pad -> vrel f p pv -> vrel f (fill pad a t p) (fill pad a t pv).
  Proof.
    intros Hp H. unfold fill. destruct (a =? 0); [|destruct (a =? 1)];
      repeat (apply vrel_app); try exact H; apply vrel_inert, Forall_rep, Hp.
  Qed.
  Lemma cell_f_ok pre suf pad a w p pv sep : inert pre -> inert suf -> inert pad -> inert sep -> vrel f p pv ->
    exists raw, cell_f pre suf pad a w p sep f = Ok (f, raw) /\
                vrel f raw (match pad_cell pad a w pv with Some x => pre ++ x ++ suf ++ sep | None => [] end).
  Proof.
    intros H1 H2 H3 H4 Hp. unfold cell_f, pad_cell. rewrite (vrel_remove f p pv Hk Hp). cbn [bind fst snd].
    eexists. split; [reflexivity|]. destruct (w - zlen pv <? 0); [apply vrel_nil|].
    apply vrel_app; [apply vrel_inert, H1|]. apply vrel_app; [apply vrel_fill; assumption|].
    apply vrel_app; apply vrel_inert; assumption.
  Qed.
  Definition cells_rel (cells cells' : list (list str)) : Prop :=
    Forall2 (fun c c' => forall i, vrel f (nth i c []) (nth i c' [])) cells cells'.
  Lemma row_steps_ok pre suf pad vc vr i : inert pre -> inert suf -> inert pad -> inert vc -> inert vr ->
    forall cells cells' cols al, cells_rel cells cells' ->
    exists raw, run_steps (row_steps pre suf pad vc vr i cells cols al) f = Ok (f, raw) /\
                vrel f raw (row_line pre suf pad vc vr i cells' cols al).
  Proof.
    intros H1 H2 H3 H4 H5 cells cells' cols al H. revert cols al.
    induction H as [|c c' cells cells' Hc Hrest IH]; intros cols al; cbn [row_steps row_line].
    - exists []. split; [reflexivity|apply vrel_nil].
    - destruct cols as [|w cols]; [exists []; split; [reflexivity|apply vrel_nil]|].
      destruct al as [|a al]; [exists []; split; [reflexivity|apply vrel_nil]|].
      destruct (IH cols al) as (r2 & E2 & V2). clear IH. cbn [row_steps row_line].
      assert (Hsep : forall sep, inert sep -> exists r1, cell_f pre suf pad a w (nth i c []) sep f = Ok (f, r1) /\
                       vrel f r1 (match pad_cell pad a w (nth i c' []) with Some x => pre ++ x ++ suf ++ sep | None => [] end))
        by (intros sep Hs; apply cell_f_ok; auto).
      destruct Hrest; cbv iota.
      + destruct (Hsep vr H5) as (r1 & E1 & V1). exists (r1 ++ r2). split; [apply steps_cons; [exact E1|exact E2]|]. apply vrel_app; [exact V1|exact V2].
      + destruct (Hsep vc H4) as (r1 & E1 & V1). exists (r1 ++ r2). split; [apply steps_cons; [exact E1|exact E2]|]. apply vrel_app; [exact V1|exact V2].
  Qed.
  Lemma line_f_ok pre suf pad vl vc vr ind cells cells' cols al i :
    inert pre -> inert suf -> inert pad -> inert vl -> inert vc -> inert vr -> cells_rel cells cells' ->
    step_ok (line_f on pre suf pad vl vc vr ind cells cols al i) [blanks ind ++ vl ++ row_line pre suf pad vc vr i cells' cols al].
  Proof.
    intros H1 H2 H3 H4 H5 H6 HR. unfold step_ok, line_f.
    destruct (row_steps_ok pre suf pad vc vr i H1 H2 H3 H5 H6 cells cells' cols al HR) as (raw & E & V). rewrite E. cbn [bind fst snd].
    assert (VL : vrel f (blanks ind ++ vl ++ raw) (blanks ind ++ vl ++ row_line pre suf pad vc vr i cells' cols al)).
    { apply vrel_app; [apply vrel_inert, inert_blanks|]. apply vrel_app; [apply vrel_inert, H4|exact V]. }
    destruct (vrel_rstrip_nl f _ _ VL) as (v & sp & VR & Ey & Fs).
    destruct (out_write_vrel on f _ _ Hk VR) as (X & EX & SX & DX).
    exists [X]. cbn [concat]. rewrite app_nil_r. split; [exact EX|]. constructor; [|constructor].
    exists v, sp. auto.
  Qed.
  Lemma max_len_rel cells cells' : Forall2 (fun c c' => length c = length c') cells cells' ->
    fold_right Nat.max O (map (@length str) cells) = fold_right Nat.max O (map (@length str) cells').
  Proof. induction 1 as [|c c' cells cells' E _ IH]; [reflexivity|]. cbn [map fold_right]. now rewrite E, IH. Qed.

  Lemma good_cell_pieces c : good_cell f c -> Forall2 (vrel f) (split_on 10%N c) (split_on 10%N (vis f c)).
  Proof.
    intros Hc. pose proof (good_cell_vrel f c Hk Hc) as V. destruct Hc as (G & Hnl & _).
    destruct (has_lt c) eqn:Hl.
    - specialize (Hnl eq_refl). rewrite (split_no_sep _ c Hnl), split_no_sep.
      + constructor; [exact V|constructor].
      + pose proof (vrel_P (fun x => x <> 10%N) f c (vis f c) V) as HP. intros Hin.
        assert (HF : Forall (fun x => x <> 10%N) c) by (apply Forall_forall; intros x Hx ->; apply Hnl, Hx).
        specialize (HP HF). rewrite Forall_forall in HP. exact (HP _ Hin eq_refl).
    - apply has_lt_false in Hl. rewrite (vis_no_lt f c Hl).
      assert (HI : inert c).
      { unfold inert, no_lt in *. rewrite Forall_forall in *. intros x Hx. destruct (G x Hx) as [G1 G2]. split; [exact (Hl x Hx)|split; assumption]. }
      pose proof (split_on_P _ 10%N c HI) as HS. induction HS as [|p ps Hp _ IH]; constructor; [apply vrel_inert, Hp|exact IH].
  Qed.
  Lemma row_cells_rel row : Forall (good_cell f) row ->
    cells_rel (map (split_on 10%N) row) (map (split_on 10%N) (map (vis f) row)) /\
    Forall2 (fun c c' => length c = length c') (map (split_on 10%N) row) (map (split_on 10%N) (map (vis f) row)).
  Proof.
    induction 1 as [|c row Hc _ [IH1 IH2]]; cbn [map]; [split; constructor|]. pose proof (good_cell_pieces c Hc) as HP.
    split; constructor; auto; [exact (Forall2_nth _ _ _ _ _ (vrel_nil f) HP)|apply (Forall2_length _ _ _ HP)].
  Qed.

  Lemma draw_row_f_ok b pre suf pad ind row cols al :
    inert pre -> inert suf -> inert pad -> inert (b_vl b) -> inert (b_vc b) -> inert (b_vr b) -> Forall (good_cell f) row ->
    step_ok (draw_row_f on b pre suf pad ind row cols al) (row_lines b pre suf pad ind (map (vis f) row) cols al).
  Proof.
    intros H1 H2 H3 H4 H5 H6 HG. destruct (row_cells_rel row HG) as [HR HL]. unfold draw_row_f, row_lines. cbv zeta.
    rewrite <- (max_len_rel _ _ HL). set (total := fold_right Nat.max O (map (@length str) (map (split_on 10%N) row))).
    set (cells := map (split_on 10%N) row) in *. set (cells' := map (split_on 10%N) (map (vis f) row)) in *.
    replace (map (fun i => blanks ind ++ b_vl b ++ row_line pre suf pad (b_vc b) (b_vr b) i cells' cols al) (seq 0 total))
      with (concat (map (fun i => [blanks ind ++ b_vl b ++ row_line pre suf pad (b_vc b) (b_vr b) i cells' cols al]) (seq 0 total))).
    2:{ generalize (seq 0 total). intros l. induction l as [|i l IH]; [reflexivity|]. cbn [map concat app]. now rewrite IH. }
    apply run_steps_ok. generalize (seq 0 total). intros l. induction l as [|i l IH]; cbn [map]; constructor; [|exact IH].
    apply line_f_ok; assumption.
  Qed.
  (* a border line: free of '<', written as it is *)
  Lemma draw_border_f_ok ind lens lc l c r : inert lc -> inert l -> inert c -> inert r ->
    step_ok (draw_border_f on ind lens lc l c r) (border_lines ind lens lc l c r).
  Proof.
    intros H1 H2 H3 H4. unfold step_ok, draw_border_f, border_lines. set (full := blanks ind ++ l ++ border_body lc c r lens).
    assert (HI : inert full) by (repeat (apply Forall_app; split); [apply inert_blanks|exact H2|apply Forall_border_body; assumption]).
    destruct (rstrip_split full) as (sp & E & F). destruct (t_rstrip full) as [|ch line] eqn:ER.
    - exists []. split; [reflexivity|constructor].
    - assert (HL : inert (ch :: line)) by (rewrite E in HI; apply Forall_app in HI; apply HI).
      rewrite out_write_no_lt by (apply Forall_app; split; [apply inert_no_lt, HL|repeat constructor; discriminate]).
      exists [(ch :: line) ++ [10%N]]. cbn [concat]. rewrite app_nil_r. split; [reflexivity|]. constructor; [|constructor].
      exists (ch :: line), sp. split; [|auto]. apply strips_text. apply Forall_app; split; [apply good_no_esc, inert_good, HL|repeat constructor; discriminate].
  Qed.

  Definition inert_style (s : tstyle) : Prop :=
    let b := t_border s in
    inert (t_hpre s) /\ inert (t_hsuf s) /\ inert (t_cpre s) /\ inert (t_csuf s) /\ inert (t_pad s) /\
    Forall inert [b_ht b; b_hc b; b_hb b; b_vl b; b_vc b; b_vr b; b_tl b; b_tr b; b_bl b; b_br b; b_cc b; b_cl b; b_ct b; b_cr b; b_cb b].
  Lemma draw_table_f_ok s header ind st al : inert_style s -> rows_good f (f_rows st) ->
    step_ok (draw_table_f on s header ind st al) (table_lines s header ind (vst f st) al).
  Proof.
    intros Hs HG. apply (style_all_parts inert) in Hs as (HB & HF & Hpad & Hvl & Hvc & Hvr).
    rewrite table_lines_parts. cbn [vst f_rows f_cols]. apply run_steps_ok.
    apply (table_parts_Forall2 step_ok s header (f_rows st) _ (map (vis f))
             (fun '(lc, l, c, r) => draw_border_f on ind (map (fun l => l + excess s) (f_cols st)) lc l c r)
             (fun pre suf row => draw_row_f on (t_border s) pre suf (t_pad s) ind row (f_cols st) al)); try reflexivity.
    - intros [[[lc l] c] r] Hin. destruct (HB _ _ _ _ Hin) as (? & ? & ? & ?). apply draw_border_f_ok; assumption.
    - intros pre suf row Hf Hrow. destruct (HF _ _ Hf). apply draw_row_f_ok; auto.
      destruct Hrow as [-> | Hin]; [constructor|]. unfold rows_good in HG. rewrite Forall_forall in HG. auto.
  Qed.
End Draw.

(* the visible text of what was written: the SGR sequences removed *)
Lemma items_visible on f Xs PLs : Forall2 (line_item on f) Xs PLs ->
  exists vs, strips (concat Xs) (flat_map (fun v => v ++ [10%N]) vs) /\
             (decorated on f = false -> concat Xs = flat_map (fun v => v ++ [10%N]) vs) /\
             Forall2 (fun v PL => exists sp, PL = v ++ sp /\ Forall (fun c => is_space c = true) sp) vs PLs.
Proof.
  induction 1 as [|X PL Xs PLs (v & sp & S & D & E & F) _ (vs & S2 & D2 & F2)].
  - exists []. repeat split; constructor.
  - exists (v :: vs). cbn [concat flat_map]. split; [apply strips_app; assumption|]. split.
    + intros Hd. rewrite (D Hd), (D2 Hd). reflexivity.
    + constructor; [exists sp; auto|exact F2].
Qed.

Section Main.
  Variable share : Z -> Z -> Z -> Z.
  Variables (on : bool) (f : formatter).
  Hypothesis Hk : f_kind f <> FNull.

  (* the cells of the table as CellWrapper holds them, and their visible texts *)
  Definition table_cells (header : list str) (rows : list (list str)) : list str := map t_rstrip (header ++ concat rows).

  (* what render_table_f writes is, line by line, the tag-free table of the visible texts of the cells *)
  Theorem table_visible_commutes s n header rows W ind st text :
    inert_style s -> rows <> [] -> Forall (good_cell f) (table_cells header rows) ->
    render_table_f share on f s n header rows W ind = Ok (st, text) ->
    let cs := map (vis f) (table_cells header rows) in
    exists al Xs,
      render_pure (fun _ => false) share s n header cs (map zlen cs) W ind
        = Ok (vst f st, strip_lines (table_lines s header ind (vst f st) al)) /\
      length al = length (f_cols st) /\
      text = concat Xs /\ Forall2 (line_item on f) Xs (table_lines s header ind (vst f st) al).
  Proof.
    intros Hs Hne HG H cs. unfold render_table_f in H. destruct rows as [|r0 rows]; [congruence|].
    unfold fit_f in H. fold (table_cells header (r0 :: rows)) in H. set (cs0 := table_cells header (r0 :: rows)) in *.
    assert (E : (do x <- (do m <- measure f cs0; do st <- fit_g has_lt share (available_width s W ind (Z.of_nat n)) n cs0 (snd m); Ok (fst m, st));
                 do al <- alignments s (length (f_cols (snd x))); do d <- draw_table_f on s header ind (snd x) al (fst x); Ok (snd x, snd d)) = Ok (st, text)).
    { destruct n; [|exact H]. destruct cs0; [exact H|discriminate]. }
    clear H. rewrite (measure_good f cs0 HG) in E. cbn [bind fst snd] in E.
    replace (map (fun c => zlen (vis f c)) cs0) with (map zlen cs) in E by (unfold cs; now rewrite map_map).
    destruct (fit_g has_lt share (available_width s W ind (Z.of_nat n)) n cs0 (map zlen cs)) as [st0|k] eqn:F; cbn [bind fst snd] in E; [|discriminate].
    destruct (alignments s (length (f_cols st0))) as [al|k] eqn:A; cbn [bind] in E; [|discriminate].
    assert (EL : length (map zlen cs) = length cs0) by (unfold cs; now rewrite !map_length).
    pose proof (fit_g_good f share _ _ _ _ _ EL HG F) as RG.
    destruct (draw_table_f_ok on f Hk s header ind st0 al Hs RG) as (Xs & D & I). rewrite D in E. cbn [bind fst snd] in E.
    injection E as <- <-. exists al, Xs. split; [|split; [exact (alignments_length _ _ _ A)|split; [reflexivity|exact I]]].
    unfold render_pure. subst cs. rewrite (fit_g_sim f share _ _ _ _ _ F). cbn [bind]. change (f_cols (vst f st0)) with (f_cols st0).
    rewrite A. cbn [bind]. now rewrite draw_table_lines.
  Qed.

  (* a rectangle within the terminal: the visible text of every line, followed by white space, has the table's width *)
  Theorem table_rect_tagged s n header rows W ind st text :
    wf_style s -> inert_style s -> (1 <= n)%nat -> 0 <= ind -> rows <> [] ->
    Z.of_nat n <= available_width s W ind (Z.of_nat n) ->
    Forall (good_cell f) (table_cells header rows) ->
    render_table_f share on f s n header rows W ind = Ok (st, text) ->
    (exists vs, strip_sgr text = flat_map (fun v => v ++ [10%N]) vs /\
                (decorated on f = false -> text = flat_map (fun v => v ++ [10%N]) vs) /\
                Forall (fun v => exists sp, Forall (fun c => is_space c = true) sp /\ zlen (v ++ sp) = full_width s (f_cols st) ind) vs) /\
    full_width s (f_cols st) ind <= W /\ length (f_cols st) = n.
  Proof.
    intros Hwf Hs Hn Hind Hne Hg HG H.
    destruct (table_visible_commutes s n header rows W ind st text Hs Hne HG H) as (al & Xs & P & Hal & -> & I).
    set (cs := map (vis f) (table_cells header rows)) in *.
    destruct (fit_g_spec wrap_lines_fit_lemma wrap_total_lemma share _ n cs Hn Hg) as (st1 & F1 & HI & Hsum).
    unfold render_pure in P. rewrite F1 in P. cbn [bind] in P.
    destruct (alignments s (length (f_cols st1))) as [al1|k]; cbn [bind] in P; [|discriminate]. injection P as E1 _.
    rewrite E1 in HI, Hsum. change (f_cols (vst f st)) with (f_cols st) in *.
    pose proof (inv_len _ _ HI) as Hlen. change (f_cols (vst f st)) with (f_cols st) in Hlen.
    pose proof (table_lines_width s n header ind (vst f st) al Hwf Hn Hind HI ltac:(lia)) as HW. change (f_cols (vst f st)) with (f_cols st) in HW.
    destruct (items_visible on f Xs _ I) as (vs & S & D & F2).
    split; [|split; [|exact Hlen]].
    - exists vs. split; [apply strips_sgr_strip, S|]. split; [exact D|].
      clear -F2 HW. induction F2 as [|v PL vs PLs (sp & -> & Fsp) _ IH]; [constructor|].
      apply Forall_cons_iff in HW as [H1 H2]. constructor; [exists sp; auto|auto].
    - exact (full_width_le _ _ _ _ _ Hlen Hsum).
  Qed.

  (* every cell keeps its visible text: the rows CellWrapper holds are, cell by cell and white space aside, the
     visible texts of the table's cells, and the visible lines are those of the tag-free table drawn from them *)
  Theorem table_keeps_text_tagged s n header rows W ind st text :
    inert_style s -> (1 <= n)%nat -> rows <> [] ->
    Forall (fun r => length r = n) rows -> (header = [] \/ length header = n) ->
    Forall (good_cell f) (table_cells header rows) ->
    render_table_f share on f s n header rows W ind = Ok (st, text) ->
    Forall2 (Forall2 (fun wrapped cell => filter nsp (vis f wrapped) = filter nsp (vis f (t_rstrip cell))))
            (f_rows st) (match header with [] => rows | _ => header :: rows end) /\
    exists al vs, strip_sgr text = flat_map (fun v => v ++ [10%N]) vs /\
                  Forall2 (fun v PL => exists sp, PL = v ++ sp /\ Forall (fun c => is_space c = true) sp) vs
                          (table_lines s header ind (vst f st) al).
  Proof.
    intros Hs Hn Hne Hrows Hhdr HG H.
    destruct (table_visible_commutes s n header rows W ind st text Hs Hne HG H) as (al & Xs & P & Hal & -> & I).
    split.
    - fold (all_rows header rows).
      assert (EC : map (vis f) (table_cells header rows) = concat (map (map (fun c => vis f (t_rstrip c))) (all_rows header rows))).
      { unfold table_cells. rewrite all_rows_concat, map_map, concat_map. reflexivity. }
      rewrite EC in P.
      assert (HX : Forall (fun r => length r = n) (map (map (fun c => vis f (t_rstrip c))) (all_rows header rows))).
      { apply Forall_map. eapply Forall_impl; [|exact (all_rows_length n header rows Hrows Hhdr)]. intros r Hr. now rewrite map_length. }
      pose proof (table_keeps_pure wrap_keeps_text_lemma share _ s n header _ W ind _ _ Hn HX P) as K.
      unfold rows_same, rows_rel in K. cbn [vst f_rows] in K. apply Forall2_map2 in K.
      eapply Forall2_mono; [|exact K]. intros r r'. exact (Forall2_map2 same_text (vis f) (fun c => vis f (t_rstrip c)) r r').
    - destruct (items_visible on f Xs _ I) as (vs & S & _ & F2). exists al, vs. split; [apply strips_sgr_strip, S|exact F2].
  Qed.
End Main.

(* without '<' in any cell the two guards agree wherever they are asked *)
Definition rows_nolt (rows : list (list str)) : Prop := Forall (Forall no_lt) rows.
Lemma wrap_col_nolt col w : forall rows lens wr cu, rows_nolt rows ->
  wrap_col has_lt col w rows lens wr cu = wrap_col (fun _ => false) col w rows lens wr cu.
Proof.
  induction rows as [|row rows IH]; intros lens wr cu HG; [reflexivity|]. destruct lens as [|ln lens]; [reflexivity|].
  apply Forall_cons_iff in HG as [Hrow Hrows]. cbn [wrap_col]. unfold wrap_cell at 1.
  rewrite (proj2 (has_lt_false _) (Forall_nth_d no_lt [] row (Forall_nil _) Hrow col)). fold (wrap_cell (fun _ => false) w cu (nth col row []) (nth col ln 0)).
  destruct (wrap_cell _ _ _ _ _) as [[[[c' l'] wrapped] cu1]|k]; cbn [bind]; [|reflexivity]. now rewrite IH.
Qed.
Lemma distribute_nolt share av : forall long col actual rem st, rows_nolt (f_rows st) -> length (f_rows st) = length (f_lens st) ->
  distribute has_lt share av long col actual rem st = distribute (fun _ => false) share av long col actual rem st.
Proof.
  induction long as [|[len|] r IH]; intros col actual rem st HG E; [reflexivity| |apply IH; assumption].
  rewrite !distribute_cons. destruct (col_width _ _ _ _ _ _) as [w|k]; cbn [bind]; [|reflexivity].
  unfold fit_column at 1. rewrite (wrap_col_nolt _ _ _ _ _ _ HG). fold (fit_column (fun _ => false) col w st).
  destruct (fit_column (fun _ => false) col w st) as [st1|k] eqn:F1; cbn [bind]; [|reflexivity].
  destruct (fit_column_cells _ no_lt (wrap_cell_nolt _) _ _ _ _ F1 E HG). apply IH; assumption.
Qed.
Lemma fit_g_nolt share max_total n cells lens : Forall no_lt cells -> length lens = length cells ->
  fit_g has_lt share max_total n cells lens = fit_g (fun _ => false) share max_total n cells lens.
Proof.
  intros HG E. unfold fit_g. destruct (init_state_l n cells lens) as [st0|k] eqn:E0; cbn [bind]; [|reflexivity].
  destruct (_ <=? _); [reflexivity|]. destruct n; [reflexivity|]. destruct (short_loop _ _ _ _) as [[av long]|]; [|reflexivity].
  apply init_state_l_rows in E0. subst st0. apply distribute_nolt; [apply init_rows_Forall; [constructor|exact HG]|apply init_rows_length, E].
Qed.
Lemma measure_nolt f cs : Forall no_lt cs -> measure f cs = Ok (f, map zlen cs).
Proof.
  induction 1 as [|c cs Hc _ IH]; [reflexivity|]. cbn [measure map]. rewrite (remove_format_no_lt f c Hc). cbn [bind fst snd]. now rewrite IH.
Qed.

Section TagFree.
  Variables (on : bool) (f : formatter).
  Definition nolt_style (s : tstyle) : Prop :=
    let b := t_border s in
    no_lt (t_hpre s) /\ no_lt (t_hsuf s) /\ no_lt (t_cpre s) /\ no_lt (t_csuf s) /\ no_lt (t_pad s) /\
    Forall no_lt [b_ht b; b_hc b; b_hb b; b_vl b; b_vc b; b_vr b; b_tl b; b_tr b; b_bl b; b_br b; b_cc b; b_cl b; b_ct b; b_cr b; b_cb b].
  Lemma draw_border_f_free ind lens lc l c r : no_lt lc -> no_lt l -> no_lt c -> no_lt r ->
    draw_border_f on ind lens lc l c r f = Ok (f, draw_border ind lens lc l c r).
  Proof.
    intros H1 H2 H3 H4. unfold draw_border_f, draw_border.
    assert (HL : no_lt (t_rstrip (blanks ind ++ l ++ border_body lc c r lens))).
    { apply Forall_rstrip. repeat (apply Forall_app; split); [now apply Forall_blanks|exact H2|apply Forall_border_body; assumption]. }
    destruct (t_rstrip (blanks ind ++ l ++ border_body lc c r lens)) as [|ch line]; [reflexivity|].
    apply out_write_no_lt. apply Forall_app; split; [exact HL|repeat constructor; discriminate].
  Qed.
  Lemma row_steps_free pre suf pad vc vr i cells cols al : Forall (fun c => no_lt (@nth str i c [])) cells ->
    run_steps (row_steps pre suf pad vc vr i cells cols al) f = Ok (f, row_line pre suf pad vc vr i cells cols al).
  Proof.
    intros H. revert cols al. induction H as [|c cells Hc _ IH]; intros cols al; cbn [row_steps row_line]; [reflexivity|].
    destruct cols as [|w cols]; [reflexivity|]. destruct al as [|a al]; [reflexivity|].
    cbn [run_steps]. unfold cell_f at 1. rewrite (remove_format_no_lt f _ Hc). cbn [bind fst snd]. rewrite IH. cbn [bind fst snd]. unfold pad_cell.
    destruct (w - zlen (nth i c []) <? 0); [reflexivity|]. now rewrite <- !app_assoc.
  Qed.
  Lemma draw_row_f_free b pre suf pad ind row cols al : no_lt pre -> no_lt suf -> no_lt pad ->
    no_lt (b_vl b) -> no_lt (b_vc b) -> no_lt (b_vr b) -> Forall no_lt row ->
    draw_row_f on b pre suf pad ind row cols al f = Ok (f, draw_row b pre suf pad ind row cols al).
  Proof.
    intros H1 H2 H3 H4 H5 H6 HG. unfold draw_row_f, draw_row. cbv zeta.
    assert (HC : forall i, Forall (fun c => no_lt (@nth str i c [])) (map (split_on 10%N) row)).
    { intros i. apply Forall_map. eapply Forall_impl; [|exact HG]. intros c Hc. apply (Forall_nth_d (Forall (fun x => x <> LT))); [constructor|apply split_on_P, Hc]. }
    generalize (seq 0 (fold_right Nat.max O (map (@length str) (map (split_on 10%N) row)))). intros l.
    induction l as [|i l IH]; [reflexivity|]. cbn [map flat_map]. apply steps_cons; [|exact IH].
    unfold line_f. rewrite (row_steps_free pre suf pad (b_vc b) (b_vr b) i _ cols al (HC i)). cbn [bind fst snd].
    apply out_write_no_lt. apply Forall_app; split; [|repeat constructor; discriminate].
    apply Forall_rstrip. repeat (apply Forall_app; split); [now apply Forall_blanks|exact H4|]. apply Forall_row_line; try assumption. exact (HC i).
  Qed.
  Lemma draw_table_f_free s header ind st al : nolt_style s -> rows_nolt (f_rows st) ->
    draw_table_f on s header ind st al f = Ok (f, draw_table s header ind st al).
  Proof.
    intros Hs HG. apply (style_all_parts no_lt) in Hs as (HB & HF & Hpad & Hvl & Hvc & Hvr).
    rewrite draw_table_parts. apply run_steps_same.
    apply (table_parts_Forall2 (fun s o => s f = Ok (f, o)) s header (f_rows st) _ (fun r => r)
             (fun '(lc, l, c, r) => draw_border_f on ind (map (fun l => l + excess s) (f_cols st)) lc l c r)
             (fun pre suf row => draw_row_f on (t_border s) pre suf (t_pad s) ind row (f_cols st) al)); [reflexivity|now rewrite map_id| |].
    - intros [[[lc l] c] r] Hin. destruct (HB _ _ _ _ Hin) as (? & ? & ? & ?). apply draw_border_f_free; assumption.
    - intros pre suf row Hf Hrow. destruct (HF _ _ Hf). apply draw_row_f_free; auto.
      destruct Hrow as [-> | Hin]; [constructor|]. unfold rows_nolt in HG. rewrite Forall_forall in HG. auto.
  Qed.

  (* on a table whose cells and style hold no '<' the formatter plays no part: render_table_f is render_table *)
  Theorem render_f_tag_free share s n header rows W ind : nolt_style s -> Forall no_lt (header ++ concat rows) ->
    render_table_f share on f s n header rows W ind = render_table share s n header rows W ind.
  Proof.
    intros Hs HC. unfold render_table_f, render_table. destruct rows as [|r0 rows]; [reflexivity|].
    set (cs := map t_rstrip (header ++ concat (r0 :: rows))).
    assert (HN : Forall no_lt cs).
    { unfold cs. apply Forall_map. eapply Forall_impl; [|exact HC]. intros c. apply Forall_rstrip. }
    unfold fit_f, render_pure. fold cs. pose proof (fit_g_nolt share (available_width s W ind (Z.of_nat n)) n cs (map zlen cs) HN (map_length _ _)) as EG.
    assert (E : (match n, cs with
                 | O, _ :: _ => Err (Other 3)
                 | _, _ => do m <- measure f cs; do st <- fit_g has_lt share (available_width s W ind (Z.of_nat n)) n cs (snd m); Ok (fst m, st)
                 end) = do st <- fit_g (fun _ => false) share (available_width s W ind (Z.of_nat n)) n cs (map zlen cs); Ok (f, st)).
    { rewrite (measure_nolt f cs HN). cbn [bind fst snd]. rewrite EG.
      destruct n; [|reflexivity]. destruct cs; [reflexivity|]. unfold fit_g, init_state_l. reflexivity. }
    rewrite E. clear E.
    destruct (fit_g (fun _ => false) share (available_width s W ind (Z.of_nat n)) n cs (map zlen cs)) as [st|k] eqn:F; cbn [bind fst snd]; [|reflexivity].
    destruct (alignments s (length (f_cols st))) as [al|k]; cbn [bind]; [|reflexivity].
    rewrite (draw_table_f_free s header ind st al Hs); [reflexivity|].
    exact (fit_g_cells _ no_lt (wrap_cell_nolt _) _ _ _ _ _ _ (Forall_nil _) (map_length _ _) HN F).
  Qed.
End TagFree.

Lemma row_line_unfold pre suf pad vc vr i c cells w cols a al :
  row_line pre suf pad vc vr i (c :: cells) (w :: cols) (a :: al)
  = (match pad_cell pad a w (nth i c []) with Some x => pre ++ x ++ suf ++ (match cells with [] => vr | _ => vc end) | None => [] end)
    ++ row_line pre suf pad vc vr i cells cols al.
Proof. reflexivity. Qed.
