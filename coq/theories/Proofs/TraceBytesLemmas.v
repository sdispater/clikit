(* C20: the bytes of the report on a DECORATED (ANSI) output, as one whole-buffer statement: what render appends to the
   buffer, with the SGR sequences removed, IS the undecorated report (TraceRenderLemmas.full_bytes_of_pieces) - for every
   exception case whose texts hold no ESC (needed: a message that holds ESC [ 3 1 m is shown as it is and strip_sgr strips
   it too: Props/C20.v) -; hence it contains the class name and every line of the message; and the pieces of the trace and
   snippet lines are good pieces (pieces_ok). *)
From Coq Require Import Lia.
From Clikit Require Import Base.Prelude Base.Res Model.Conv Model.Markup Model.OutputM Model.Trace
  Proofs.StrLemmas Proofs.MarkupLemmas Proofs.OutputLemmas Proofs.TraceLemmas Proofs.LiteralLemmas Proofs.TraceRenderLemmas
  Proofs.TraceSolutionLemmas Proofs.TraceEscLemmas.

(* p is a piece (infix) of s; partb below decides it (Props/C20.v, partb_decides) *)
Definition part_of (p s : str) : Prop := exists u v, s = u ++ p ++ v.
Lemma part_refl p : part_of p p. Proof. exists [], []. now rewrite app_nil_r. Qed.
Lemma part_trans a b c : part_of a b -> part_of b c -> part_of a c.
Proof. intros (u & v & ->) (u' & v' & ->). exists (u' ++ u), (v ++ v'). now rewrite <- !app_assoc. Qed.
Lemma part_app_l p a b : part_of p a -> part_of p (a ++ b).
Proof. intros (u & v & ->). exists u, (v ++ b). now rewrite <- !app_assoc. Qed.
Lemma part_app_r p a b : part_of p b -> part_of p (a ++ b).
Proof. intros (u & v & ->). exists (a ++ u), v. now rewrite <- !app_assoc. Qed.
Fixpoint prefixb (p s : str) : bool :=
  match p, s with [], _ => true | c :: p', d :: s' => N.eqb c d && prefixb p' s' | _ :: _, [] => false end.
Fixpoint partb (p s : str) : bool := prefixb p s || match s with [] => false | _ :: s' => partb p s' end.

Lemma strip_sgr_nil : strip_sgr [] = []. Proof. reflexivity. Qed.

(* what one sees of the bytes w written to o: the bytes without the SGR sequences when o decorates *)
Definition vis_of_out (o : outp) (w : str) : str := if decorated o then strip_sgr w else w.

(* the text of the report: stack trace, blank line, class name, blank line, message block, snippet *)
Definition report_text (ind : Z) (x : exn_case) (tr_p sn_p : list pline) : str :=
  flat_map shown_line tr_p
    ++ [NL] ++ spaces ind ++ shown (ind_text ind (x_name x)) ++ [NL]
    ++ [NL] ++ spaces ind ++ shown (ind_text ind (msg_text (x_msg x))) ++ [NL]
    ++ flat_map shown_line sn_p.
Theorem full_bytes_vis sty c o x :
  out_ok sty o -> resolvable sty st_error -> resolvable sty st_b -> (0 <= o_indent o)%Z -> x_frames x <> [] ->
  (decorated o = true -> inputs_ne c x) ->
  let ind := (o_indent o + 2)%Z in
  exists tr_p sn_p w,
    render_trace c ind (x_frames x) = Ok (map pline_w tr_p) /\ Forall (fun p => pieces_ok sty (snd p)) tr_p /\
    render_snippet c ind (last (x_frames x) dflt_frame) = Ok (map pline_w sn_p) /\ Forall (fun p => pieces_ok sty (snd p)) sn_p /\
    render c false o x = Ok (o_buf o ++ w) /\ vis_of_out o w = report_text ind x tr_p sn_p.
Proof.
  intros Ho Herr Hb Hi Hne Hin ind.
  destruct (render_trace_pieces sty c Herr Hb ind (x_frames x)) as (tr_p & ET & Htr).
  destruct (render_snippet_pieces sty c Herr Hb ind (last (x_frames x) dflt_frame)) as (sn_p & ES & Hsn).
  destruct (full_bytes_of_pieces sty c o x tr_p sn_p Ho Herr Hb Hi Hne ET Htr ES Hsn Hin) as (w & HR & HV).
  exists tr_p, sn_p, w. split; [exact ET|]. split; [exact Htr|]. split; [exact ES|]. split; [exact Hsn|]. split; [exact HR|exact HV].
Qed.

Lemma shown_has s : part_of s (shown s).
Proof. unfold shown. destruct (ends_with_bsl s); [exists [], [32%N]; reflexivity|apply part_refl]. Qed.
Lemma part_join sep p : forall l, In p l -> part_of p (join_with sep l).
Proof.
  induction l as [|x l IH]; [contradiction|]. intros [->|H].
  - destruct l as [|y l]; [apply part_refl|]. exists [], (sep :: join_with sep (y :: l)). reflexivity.
  - destruct (IH H) as (u & v & E). destruct l as [|y l]; [contradiction|].
    exists (x ++ sep :: u), v. cbn [join_with] in *. rewrite E, <- app_assoc. reflexivity.
Qed.
(* a piece of a text that holds no line break survives the indentation and the message's replace: both are the machine
   expand, which changes nothing between two line breaks but for blanks put in front *)
Lemma expand_keeps R P l : no_nl l -> forall s b, part_of l s -> part_of l (expand R P b s).
Proof.
  intros Hl s b (u & v & ->). destruct l as [|c l']; [exists [], (expand R P b (u ++ [] ++ v)); reflexivity|].
  rewrite expand_app. apply part_app_r. rewrite (expand_block R P (c :: l') v _ Hl ltac:(discriminate)).
  apply part_app_r, part_app_l, part_refl.
Qed.
Lemma ind_text_keeps n l s : no_nl l -> part_of l s -> part_of l (ind_text n s).
Proof. intros Hl H. unfold ind_text. apply part_app_l. now apply expand_keeps. Qed.
Lemma msg_text_keeps l m : no_nl l -> part_of l m -> part_of l (msg_text m).
Proof. intros Hl H. unfold msg_text. rewrite (replace_nl_expand nl_indent m false). now apply expand_keeps. Qed.
(* the report holds every piece without line break - in particular every line - of the class name and of the message *)
Theorem report_has_name_and_message ind x tr_p sn_p :
  (forall l, no_nl l -> part_of l (x_name x) -> part_of l (report_text ind x tr_p sn_p))
  /\ (forall l, no_nl l -> part_of l (x_msg x) -> part_of l (report_text ind x tr_p sn_p)).
Proof.
  unfold report_text. split; intros l Hl Hp.
  - apply part_app_r, part_app_r, part_app_r, part_app_l. eapply part_trans; [|apply shown_has]. now apply ind_text_keeps.
  - do 7 apply part_app_r. apply part_app_l. eapply part_trans; [|apply shown_has]. apply ind_text_keeps; [exact Hl|]. now apply msg_text_keeps.
Qed.

(* the same output with formatting off (Output.set_format_output(False)): what an undecorated run writes *)
Definition undecorate (o : outp) : outp :=
  {| o_indent := o_indent o; o_on := false; o_sec := o_sec o; o_fmt := o_fmt o; o_buf := o_buf o |}.
Lemma undecorate_plain o : decorated (undecorate o) = false. Proof. reflexivity. Qed.
Lemma undecorate_ok sty o : out_ok sty o -> out_ok sty (undecorate o).
Proof. intros (H1 & H2 & H3 & H4). repeat split; assumption. Qed.
