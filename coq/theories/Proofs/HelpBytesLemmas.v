(* C13, the RENDERED TEXT of a help page (the bytes render_page returns), through the plain formatter.
   command_page_complete_lemma & co (HelpLemmas) are statements about the layout - the elements handed to BlockLayout.  Here:
   what the layout's labels and names look like in the text written. *)
From Coq Require Import Lia.
From Clikit Require Import Base.Prelude Base.Res Model.Conv Model.Flags Model.Format Model.Markup Model.Wrap Model.Help.
From Clikit Require Import Proofs.WrapLemmas Proofs.HelpLemmas Proofs.MarkupLemmas Proofs.LiteralLemmas Proofs.MarkupShrinkLemmas
  Proofs.HelpPlainLemmas Proofs.HelpCleanLemmas Proofs.HelpRenderLemmas Proofs.ListLemmas.

Lemma infix_refl p : infix_of p p.
Proof. exists [], []. now rewrite app_nil_r. Qed.
Lemma infix_trans a b c : infix_of a b -> infix_of b c -> infix_of a c.
Proof. intros (u & v & ->) (u' & v' & ->). exists (u' ++ u), (v ++ v'). now rewrite <- !app_assoc. Qed.
Lemma infix_app_l p a b : infix_of p a -> infix_of p (a ++ b).
Proof. intros (u & v & ->). exists u, (v ++ b). now rewrite <- !app_assoc. Qed.
Lemma infix_app_r p a b : infix_of p b -> infix_of p (a ++ b).
Proof. intros (u & v & ->). exists (a ++ u), v. now rewrite <- !app_assoc. Qed.
Lemma infix_mid p a b : infix_of p (a ++ p ++ b).
Proof. exists a, b. reflexivity. Qed.
Lemma infix_sub a p b q : infix_of p q -> infix_of p (a ++ q ++ b).
Proof. intros H. apply infix_app_r, infix_app_l, H. Qed.
Lemma infix_concat p x : forall l, In x l -> infix_of p x -> infix_of p (concat l).
Proof.
  induction l as [|y l IH]; [contradiction|]. intros [->|H] Hp; cbn [concat]; [now apply infix_app_l|apply infix_app_r; auto].
Qed.

Definition on_line (p s : str) : Prop := exists ln, In ln (split_on 10%N s) /\ infix_of p ln.
Lemma hd_split_in s : In (hd [] (split_on 10%N s)) (split_on 10%N s).
Proof. destruct (split_on 10%N s) as [|l ls] eqn:E; [destruct (split_on_nonempty _ _ E)|now left]. Qed.
Lemma infix_on_line p s : no_nl p -> infix_of p s -> on_line p s.
Proof.
  intros Hp (u & v & ->). unfold on_line. induction u as [|c u (ln & Hin & Hl)].
  - cbn [app]. exists (hd [] (split_on 10%N (p ++ v))). split; [apply hd_split_in|].
    rewrite hd_split_no_nl by exact Hp. apply infix_app_l, infix_refl.
  - cbn [app]. destruct (N.eqb c 10) eqn:E.
    + cbn [split_on]. rewrite E. exists ln. split; [now right|exact Hl].
    + destruct (split_on_cons 10%N c (u ++ p ++ v) E) as (l & ls & E1 & ->). rewrite E1 in Hin. destruct Hin as [<-|Hin].
      * exists (c :: l). split; [now left|]. destruct Hl as (a & b & ->). exists (c :: a), b. reflexivity.
      * exists ln. split; [now right|exact Hl].
Qed.
Lemma on_line_infix p s : on_line p s -> infix_of p s.
Proof. intros (ln & Hin & Hl). eapply infix_trans; [exact Hl|]. rewrite <- (join_split s). now apply join_with_infix. Qed.
Lemma on_line_app_l p a b : on_line p a -> no_nl p -> on_line p (a ++ b).
Proof. intros H Hp. apply infix_on_line; [exact Hp|]. apply infix_app_l, on_line_infix, H. Qed.

Lemma cand_after_gt st : l_cand (lex_step st GT) = CText.
Proof.
  unfold lex_step. change (N.eqb GT LT) with false. cbv iota.
  destruct (l_cand st); cbn [l_cand]; try reflexivity.
Qed.
Lemma cand_snoc_gt a : l_cand (scan (a ++ [GT])) = CText.
Proof. unfold scan. rewrite fold_left_app. apply cand_after_gt. Qed.
Lemma cand_text_prefix t a : no_lt t -> l_cand (scan (t ++ a)) = l_cand (scan a).
Proof. intros Ht. rewrite scan_app by now rewrite (scan_text t Ht). apply glue_cand. Qed.

(* THE KEPT TEXT.  Behind a where no tag candidate is pending, a text n without "<" and backslash comes out as it is, between
   the rendering of what is before it and the rendering of what is behind it. *)
Lemma wout_kept sty a0 a n b : l_cand (scan a) = CText -> n <> [] -> no_lt n -> ends_with_bsl n = false ->
  wout_of sty a0 (a ++ n ++ b) = wout_of sty a0 a ++ n ++ wout_of sty false b.
Proof.
  intros Ha Hn Hlt Hb. unfold wout_of. fold (scan (a ++ n ++ b)) (scan a) (scan b).
  assert (scan (a ++ n ++ b) = glue (l_done (scan a)) (l_cur (scan a) ++ n) (scan b)) as ->.
  { unfold scan at 1. rewrite !fold_left_app. fold (scan a). destruct (scan a) as [d c k]. cbn [l_cand l_done l_cur] in *. subst k.
    rewrite (lex_text n Hlt d c). change {| l_done := d; l_cur := c ++ n; l_cand := CText |} with (mk d (c ++ n) CText).
    now rewrite <- glue_init, glue_fold. }
  rewrite wout_glue.
  - unfold wout at 2. rewrite Ha. cbn [raw_of]. now rewrite app_nil_r, <- !app_assoc.
  - destruct (l_cur (scan a)); [exact Hn|discriminate].
  - rewrite ends_app. destruct n; [congruence|exact Hb].
Qed.
Theorem plain_of_kept sty a0 a n b : l_cand (scan a) = CText -> n <> [] -> no_lt n -> no_bsl n ->
  plain_of sty a0 (a ++ n ++ b) = plain_of sty a0 a ++ n ++ plain_of sty false b.
Proof.
  intros Ha Hn Hlt Hb. unfold plain_of. change (wout sty a0 (fold_left lex_step (a ++ n ++ b) lex_init)) with (wout_of sty a0 (a ++ n ++ b)).
  rewrite (wout_kept sty a0 a n b Ha Hn Hlt (no_bsl_ends n Hb)). fold (wout_of sty a0 a) (wout_of sty false b).
  rewrite unescape_app_r.
  - rewrite unescape_app_l by now apply no_bsl_ends. now rewrite (unescape_id n Hb).
  - destruct n as [|c n']; [congruence|]. cbn [app no_lt_start]. now inversion Hlt.
Qed.
Corollary plain_of_keeps sty a0 a n b : l_cand (scan a) = CText -> n <> [] -> no_lt n -> no_bsl n ->
  infix_of n (plain_of sty a0 (a ++ n ++ b)).
Proof. intros. rewrite plain_of_kept by assumption. apply infix_mid. Qed.

Lemma plain_of_inert_prefix sty t b : Forall inert t -> plain_of sty false (t ++ b) = t ++ plain_of sty false b.
Proof. intros H. rewrite !plain_of_render. now apply render_inert_prefix. Qed.

Lemma rstrip_rev_stop x c y : is_space c = false -> rstrip_rev (x ++ c :: y) = rstrip_rev x ++ c :: y.
Proof.
  intros Hc. induction x as [|d x IH]; cbn [app rstrip_rev]; [now rewrite Hc|].
  destruct (is_space d); [exact IH|reflexivity].
Qed.
Lemma rstrip_behind a c b : is_space c = false -> rstrip (a ++ c :: b) = a ++ c :: rstrip b.
Proof.
  intros Hc. unfold rstrip. rewrite rev_app_distr. cbn [rev]. rewrite <- app_assoc. cbn [app].
  rewrite (rstrip_rev_stop (rev b) c (rev a) Hc), rev_app_distr. cbn [rev]. rewrite rev_involutive, <- app_assoc. reflexivity.
Qed.
Lemma rstrip_nil : rstrip [] = []. Proof. reflexivity. Qed.
Definition ends_visible (s : str) : Prop := exists s' c, s = s' ++ [c] /\ is_space c = false.
Lemma rstrip_ends_visible a b : ends_visible a -> rstrip (a ++ b) = a ++ rstrip b.
Proof. intros (a' & c & -> & Hc). rewrite <- !app_assoc. cbn [app]. now apply rstrip_behind. Qed.
Lemma rstrip_id a : ends_visible a -> rstrip a = a.
Proof. intros H. rewrite <- (app_nil_r a) at 1. rewrite (rstrip_ends_visible a [] H), rstrip_nil. apply app_nil_r. Qed.
Lemma ends_visible_app a b : ends_visible b -> ends_visible (a ++ b).
Proof. intros (b' & c & -> & Hc). exists (a ++ b'), c. now rewrite app_assoc. Qed.

(* the text a labelled paragraph hands to the formatter: indentation, label, and the rest - when the label does not end with
   white space (else the blanks stripped from an empty text could belong to the label) *)
Lemma lab_raw_shape W off ind vis label text padding aligned raw :
  elem_raw W off ind vis (ELab label text padding aligned) = Ok raw -> ends_visible label ->
  exists rest, raw = spaces ind ++ label ++ rest ++ [10%N].
Proof.
  intros H Hl. cbn [elem_raw] in H. cbv zeta in H. bind_inv H lines Ew.
  injection H as <-. unfold ljust. rewrite <- !app_assoc, (app_assoc (spaces ind) label).
  rewrite (rstrip_ends_visible (spaces ind ++ label) _ (ends_visible_app _ _ Hl)).
  match goal with |- context [rstrip ?b] => exists (rstrip b) end. now rewrite <- !app_assoc.
Qed.

(* what the plain formatter writes for one element: the rendering of the text elem_raw builds - the visible width of the label
   being what the formatter itself leaves of the label (vis_of) *)
Definition elem_text_for (sty : styles) (W off : Z) (x : nat * elem) : res str :=
  elem_raw W off (fst x) (vis_of sty (elem_label (snd x))) (snd x).
Lemma render_elem_plain W off f ind e x : f_kind f = FPlain -> render_elem W off f ind e = Ok x ->
  f_kind (fst x) = FPlain /\ f_styles (fst x) = f_styles f /\
  exists raw, elem_text_for (f_styles f) W off (ind, e) = Ok raw /\ snd x = plain_of (f_styles f) false raw.
Proof.
  intros Hk H. destruct (render_elem_inv _ _ _ _ _ _ H) as (f1 & v & raw & Hv & Er & He).
  assert (f_kind f1 = FPlain /\ f_styles f1 = f_styles f /\ zlen v = vis_of (f_styles f) (elem_label e)) as (Hk1 & Hs1 & Ev).
  { destruct e as [t|label text padding aligned|]; [destruct Hv as [-> ->]; now repeat split| |destruct Hv as [-> ->]; now repeat split].
    apply remove_format_plain_of in Hv; [|congruence]. cbn [fst snd] in Hv. destruct Hv as (-> & Ek1 & Es1).
    split; [congruence|]. split; [exact Es1|reflexivity]. }
  apply emit_plain_of in He; [|exact Hk1]. destruct He as (E & E1 & E2). rewrite Ev in Er.
  split; [exact E1|]. split; [congruence|]. exists raw. split; [exact Er|]. now rewrite E, Hs1, (elem_raw_ends _ _ _ _ _ _ Er).
Qed.

Definition written (sty : styles) (W off : Z) (l : layout) (ps : list str) : Prop :=
  Forall2 (fun x p => exists raw, elem_text_for sty W off x = Ok raw /\ p = plain_of sty false raw) l ps.
Lemma render_all_plain W off : forall l f out x, f_kind f = FPlain -> render_all W off f l out = Ok x ->
  f_kind (fst x) = FPlain /\ f_styles (fst x) = f_styles f /\
  exists ps, written (f_styles f) W off l ps /\ snd x = out ++ concat ps.
Proof.
  induction l as [|[ind e] r IH]; intros f out x Hk H; cbn [render_all] in H.
  - injection H as <-. cbn [fst snd]. split; [exact Hk|]. split; [reflexivity|]. exists []. split; [constructor|now rewrite app_nil_r].
  - bind_inv H y Ee.
    destruct (render_elem_plain _ _ _ _ _ _ Hk Ee) as (Hk' & Hs' & raw & Er & Ey).
    destruct (IH _ _ _ Hk' H) as (Hk2 & Hs2 & ps & Hps & Ex). split; [exact Hk2|]. split; [congruence|].
    exists (snd y :: ps). split.
    + constructor; [exists raw; split; [exact Er|exact Ey]|]. unfold written in Hps. now rewrite Hs' in Hps.
    + rewrite Ex. cbn [concat]. now rewrite <- app_assoc.
Qed.
Lemma render_all_app W off : forall l1 l2 f out, render_all W off f (l1 ++ l2) out =
  (do x <- render_all W off f l1 out; render_all W off (fst x) l2 (snd x)).
Proof.
  induction l1 as [|[ind e] r IH]; intros l2 f out; cbn [app render_all bind]; [reflexivity|].
  destruct (render_elem W off f ind e) as [y|k]; cbn [bind]; [apply IH|reflexivity].
Qed.

Lemma align_plain_at : forall l f acc a, f_kind f = FPlain -> align f l acc = Ok a ->
  f_styles (fst a) = f_styles f /\ snd a = align_vis (f_styles f) l acc.
Proof.
  induction l as [|[ind e] r IH]; intros f acc a Hk H; cbn [align align_vis] in *; [now injection H as <-|].
  destruct e as [t|label text padding aligned|]; [eapply IH; eassumption| |eapply IH; eassumption].
  destruct aligned; [|eapply IH; eassumption].
  bind_inv H x1 E1.
  apply remove_format_plain_of in E1; [|congruence]. destruct E1 as (E1 & E2 & E3).
  destruct (IH _ _ _ (eq_trans E2 Hk) H) as [A B]. now rewrite A, B, E3, E1.
Qed.
Theorem page_plain_is_elements_at W f l s : f_kind f = FPlain -> render_page W f l = Ok s ->
  exists ps, written (f_styles f) W (align_vis (f_styles f) l 0) l ps /\ s = concat ps.
Proof.
  intros Hk H. unfold render_page in H. bind_inv H a Ea.
  bind_inv H x E. injection H as <-.
  pose proof (align_plain _ _ _ _ Hk Ea) as Hk'. destruct (align_plain_at _ _ _ _ Hk Ea) as [Es Eo].
  destruct (render_all_plain _ _ _ _ _ _ Hk' E) as (_ & _ & ps & Hps & Ex). exists ps. split; [|exact Ex].
  now rewrite Es, Eo in Hps.
Qed.
Definition text_of (sty : styles) (W : Z) (l : layout) (s : str) : Prop := exists off ps, written sty W off l ps /\ s = concat ps.
Lemma page_text_of W f l s : f_kind f = FPlain -> render_page W f l = Ok s -> text_of (f_styles f) W l s.
Proof. intros Hk H. destruct (page_plain_is_elements_at W f l s Hk H) as (ps & Hps). now exists (align_vis (f_styles f) l 0), ps. Qed.
Lemma as_plain_kind f : f_kind (as_plain f) = FPlain. Proof. reflexivity. Qed.
Lemma ansi_text_of W f l s : is_ansi f -> good_layout l -> render_page W f l = Ok s -> text_of (f_styles f) W l (strip_sgr s).
Proof. intros Hk Hg H. exact (page_text_of W (as_plain f) l _ (as_plain_kind f) (ansi_page_visible_lemma W f l s Hk Hg H)). Qed.
Lemma written_section sty W off a b c ps : written sty W off (a ++ b ++ c) ps ->
  exists p1 p2 p3, ps = p1 ++ p2 ++ p3 /\ written sty W off b p2.
Proof.
  intros H. apply Forall2_app_inv_l in H as (p1 & p23 & _ & H & ->). apply Forall2_app_inv_l in H as (p2 & p3 & H & _ & ->). eauto.
Qed.
Lemma text_of_section sty W a b c s : text_of sty W (a ++ b ++ c) s -> exists s1 s2 s3, s = s1 ++ s2 ++ s3 /\ text_of sty W b s2.
Proof.
  intros (off & ps & Hps & ->). destruct (written_section _ _ _ _ _ _ _ Hps) as (p1 & p2 & p3 & -> & H2).
  exists (concat p1), (concat p2), (concat p3). split; [now rewrite !concat_app|]. now exists off, p2.
Qed.
Lemma written_in sty W off l ps x : written sty W off l ps -> In x l ->
  exists raw, elem_text_for sty W off x = Ok raw /\ infix_of (plain_of sty false raw) (concat ps).
Proof.
  induction 1 as [|y p l ps (raw & Er & Ep) _ IH]; [contradiction|]. intros [->|Hin].
  - exists raw. split; [exact Er|]. subst p. cbn [concat]. apply infix_app_l, infix_refl.
  - destruct (IH Hin) as (raw' & Er' & Hi). exists raw'. split; [exact Er'|]. cbn [concat]. now apply infix_app_r.
Qed.

(* A LABEL is never wrapped.  A piece n of a label, behind a part p of the label that leaves no tag candidate pending, is in the
   text written, directly behind what the formatter makes of p - on one line when it holds no line break *)
Theorem label_piece_kept sty W l s ind e p n q :
  text_of sty W l s -> In (ind, e) l -> ends_visible (elem_label e) -> elem_label e = p ++ n ++ q ->
  l_cand (scan p) = CText -> n <> [] -> plain n -> infix_of (plain_of sty false p ++ n) s.
Proof.
  intros (off & ps & Hps & ->) Hin Hv El Hp Hn [Hlt Hb].
  destruct (written_in _ _ _ _ _ _ Hps Hin) as (raw & Er & Hi). eapply infix_trans; [|exact Hi].
  unfold elem_text_for in Er. cbn [fst snd] in Er.
  destruct e as [t|label text padding aligned|]; try (destruct Hv as ([|] & c & E & _); discriminate). cbn [elem_label] in *.
  destruct (lab_raw_shape _ _ _ _ _ _ _ _ _ Er Hv) as (rest & ->). rewrite El, <- !app_assoc, (app_assoc (spaces ind) p).
  assert (l_cand (scan (spaces ind ++ p)) = CText) as Hp'.
  { rewrite cand_text_prefix; [exact Hp|]. apply Forall_forall. intros c Hc. apply repeat_spec in Hc. subst c. discriminate. }
  rewrite (plain_of_kept sty false _ n _ Hp' Hn Hlt Hb), plain_of_inert_prefix by apply inert_spaces.
  rewrite <- app_assoc, (app_assoc (plain_of sty false p)). apply infix_app_r, infix_app_l, infix_refl.
Qed.
Corollary label_piece_written sty W l s ind e p n q :
  text_of sty W l s -> In (ind, e) l -> ends_visible (elem_label e) -> elem_label e = p ++ n ++ q ->
  l_cand (scan p) = CText -> n <> [] -> plain n -> infix_of n s /\ (no_nl n -> on_line n s).
Proof.
  intros H Hin Hv El Hp Hn Hpl.
  assert (infix_of n s) as Hi by (eapply infix_trans; [apply infix_app_r, infix_refl|exact (label_piece_kept sty W l s ind e p n q H Hin Hv El Hp Hn Hpl)]).
  split; [exact Hi|]. intros Hnl. now apply infix_on_line.
Qed.
Corollary label_piece_on_line sty W l s ind e p n q :
  text_of sty W l s -> In (ind, e) l -> ends_visible (elem_label e) -> elem_label e = p ++ n ++ q ->
  l_cand (scan p) = CText -> n <> [] -> plain n -> no_nl n -> on_line n s.
Proof. intros H Hin Hv El Hp Hn Hpl. exact (proj2 (label_piece_written sty W l s ind e p n q H Hin Hv El Hp Hn Hpl)). Qed.

Lemma ends_visible_snoc x c : is_space c = false -> ends_visible (x ++ [c]).
Proof. intros H. exists x, c. split; [reflexivity|exact H]. Qed.
Lemma C1E_visible x : ends_visible (x ++ C1E).
Proof. apply ends_visible_app. exact (ends_visible_snoc [60;47;99;49]%N 62%N eq_refl). Qed.
Lemma option_label_visible h : ends_visible (elem_label (render_option h)).
Proof.
  rewrite render_option_names_lemma. destruct (bit (o_flags (h_o h)) 0).
  - destruct (o_short (h_o h)) as [sh|].
    + rewrite !app_assoc. now apply ends_visible_snoc.
    + rewrite app_nil_r, app_assoc. apply C1E_visible.
  - rewrite !app_assoc. now apply ends_visible_snoc.
Qed.
Lemma argument_label_visible a : ends_visible (elem_label (render_argument a)).
Proof. rewrite render_argument_name_lemma, !app_assoc. apply C1E_visible. Qed.
Lemma cand_C1 : l_cand (scan C1) = CText. Proof. reflexivity. Qed.
Lemma cand_behind_C1E x : l_cand (scan (x ++ C1E)) = CText.
Proof. change C1E with ([60;47;99;49]%N ++ [GT]). rewrite app_assoc. apply cand_snoc_gt. Qed.
Lemma cand_behind_C1 x : l_cand (scan (x ++ C1)) = CText.
Proof. change C1 with ([60;99;49]%N ++ [GT]). rewrite app_assoc. apply cand_snoc_gt. Qed.
Lemma cand_text_suffix t a : no_lt t -> l_cand (scan a) = CText -> l_cand (scan (a ++ t)) = CText.
Proof. intros Ht Ha. now rewrite (scan_app a t Ha), glue_cand, (scan_text t Ht). Qed.
Lemma plain_cons c n : c <> LT -> c <> BSL -> plain n -> plain (c :: n).
Proof. intros H1 H2 [A B]. split; constructor; assumption. Qed.
Lemma plain_snoc n c : c <> LT -> c <> BSL -> plain n -> plain (n ++ [c]).
Proof. intros H1 H2 Hn. apply plain_app; [exact Hn|]. split; constructor; auto; constructor. Qed.
Lemma no_nl_cons c n : c <> 10%N -> no_nl n -> no_nl (c :: n).
Proof. intros; constructor; assumption. Qed.

(* the names of an option, as they are typed on the command line, are pieces of its label: the preferred one behind <c1>, the
   other one behind "</c1> (" *)
Definition long_form (h : hopt) : str := DASH :: DASH :: o_long (h_o h).
Definition short_form (sh : str) : str := DASH :: sh.
Lemma cand_alternative x : l_cand (scan (C1 ++ x ++ C1E ++ [32; 40]%N)) = CText.
Proof. rewrite !app_assoc. apply cand_text_suffix; [repeat constructor; discriminate|apply cand_behind_C1E]. Qed.
Lemma option_label_long h : exists p q, elem_label (render_option h) = p ++ long_form h ++ q /\ l_cand (scan p) = CText.
Proof.
  rewrite render_option_names_lemma. unfold long_form. destruct (bit (o_flags (h_o h)) 0).
  - exists C1. eexists. split; [reflexivity|exact cand_C1].
  - exists (C1 ++ (DASH :: match o_short (h_o h) with Some s => s | None => [] end) ++ C1E ++ [32; 40]%N), [41%N].
    split; [now rewrite <- !app_assoc|apply cand_alternative].
Qed.
Lemma option_label_short h sh : o_short (h_o h) = Some sh ->
  exists p q, elem_label (render_option h) = p ++ short_form sh ++ q /\ l_cand (scan p) = CText.
Proof.
  intros Hs. rewrite render_option_names_lemma, Hs. unfold short_form. destruct (bit (o_flags (h_o h)) 0).
  - exists (C1 ++ (DASH :: DASH :: o_long (h_o h)) ++ C1E ++ [32; 40]%N), [41%N]. split; [now rewrite <- !app_assoc|apply cand_alternative].
  - exists C1. eexists. split; [reflexivity|exact cand_C1].
Qed.

(* the name of an argument: "name>" is a piece of the label behind the second <c1>; the "<" in front of it is written by the
   element <c1><</c1>, which comes out as "<" when c1 is a style of the formatter (else the tags are text and stand between) *)
Definition ARG_OPEN : str := C1 ++ [LT] ++ C1E ++ C1.
Lemma argument_label_name a : elem_label (render_argument a) = ARG_OPEN ++ (a_name (h_a a) ++ [GT]) ++ C1E /\ l_cand (scan ARG_OPEN) = CText.
Proof. split; [rewrite render_argument_name_lemma; unfold ARG_OPEN; now rewrite <- !app_assoc|reflexivity]. Qed.
Lemma recognised_c1 sty raw cl : resolvable sty NM_C1 -> recognised sty (Tag raw cl NM_C1) = true.
Proof. intros [p Hp]. unfold recognised. rewrite Hp. apply orb_true_r. Qed.
Lemma plain_of_ARG_OPEN sty : resolvable sty NM_C1 -> plain_of sty false ARG_OPEN = [LT].
Proof.
  intros Hr. unfold plain_of.
  assert (fold_left lex_step ARG_OPEN lex_init = mk [([], Tag C1 false NM_C1); ([LT], Tag C1E true NM_C1); ([], Tag C1 false NM_C1)] [] CText) as ->
    by (vm_compute; reflexivity).
  unfold wout. cbn [mk l_done l_cur l_cand raw_of plain_segs]. unfold kept. rewrite !(recognised_c1 sty _ _ Hr). unfold esc_of.
  change (ends_with_bsl [LT]) with false. cbn [andb orb negb app]. reflexivity.
Qed.
Theorem argument_name_written sty W l s ind a :
  text_of sty W l s -> In (ind, render_argument a) l -> plain (a_name (h_a a)) -> no_nl (a_name (h_a a)) ->
  on_line (a_name (h_a a) ++ [GT]) s /\ (resolvable sty NM_C1 -> on_line (LT :: a_name (h_a a) ++ [GT]) s).
Proof.
  intros H Hin Hp Hnl. destruct (argument_label_name a) as [El Hc]. pose proof (argument_label_visible a) as Hv.
  set (N := a_name (h_a a) ++ [GT]) in *.
  assert (plain N) as HpN by (apply plain_snoc; [discriminate|discriminate|exact Hp]).
  assert (no_nl N) as HnlN by (apply no_nl_app; [exact Hnl|constructor; [discriminate|constructor]]).
  assert (N <> []) as Hne by (subst N; destruct (a_name (h_a a)); discriminate).
  split; [exact (label_piece_on_line sty W l s ind _ ARG_OPEN N C1E H Hin Hv El Hc Hne HpN HnlN)|].
  intros Hr. apply infix_on_line; [constructor; [discriminate|exact HnlN]|].
  pose proof (label_piece_kept sty W l s ind _ ARG_OPEN N C1E H Hin Hv El Hc Hne HpN) as Hi.
  now rewrite (plain_of_ARG_OPEN sty Hr) in Hi.
Qed.
Theorem option_names_written sty W l s ind h :
  text_of sty W l s -> In (ind, render_option h) l ->
  (plain (o_long (h_o h)) -> no_nl (o_long (h_o h)) -> on_line (long_form h) s)
  /\ (forall sh, o_short (h_o h) = Some sh -> plain sh -> no_nl sh -> on_line (short_form sh) s).
Proof.
  intros H Hin. pose proof (option_label_visible h) as Hv. split.
  - intros Hp Hnl. destruct (option_label_long h) as (p & q & El & Hc).
    apply (label_piece_on_line sty W l s ind _ p (long_form h) q H Hin Hv El Hc); [discriminate| |].
    + unfold long_form. apply plain_cons; [discriminate|discriminate|]. apply plain_cons; [discriminate|discriminate|exact Hp].
    + unfold long_form. repeat apply no_nl_cons; try discriminate. exact Hnl.
  - intros sh Hs Hp Hnl. destruct (option_label_short h sh Hs) as (p & q & El & Hc).
    apply (label_piece_on_line sty W l s ind _ p (short_form sh) q H Hin Hv El Hc); [discriminate| |].
    + unfold short_form. apply plain_cons; [discriminate|discriminate|exact Hp].
    + unfold short_form. apply no_nl_cons; [discriminate|exact Hnl].
Qed.
Theorem command_label_written sty W l s ind name text padding aligned :
  text_of sty W l s -> In (ind, ELab (C1 ++ name ++ C1E) text padding aligned) l ->
  name <> [] -> plain name -> no_nl name -> on_line name s.
Proof.
  intros H Hin Hne Hp Hnl.
  apply (label_piece_on_line sty W l s ind _ C1 name C1E H Hin); auto.
  cbn [elem_label]. rewrite app_assoc. apply C1E_visible.
Qed.

Lemma para_raw_shape W off ind vis t raw : elem_raw W off ind vis (EPara t) = Ok raw ->
  exists lines, wrap t (W - 1 - Z.of_nat ind) = Ok lines /\ raw = spaces ind ++ rstrip (join_lines (spaces ind) lines) ++ [10%N].
Proof.
  cbn [elem_raw]. intros H. bind_inv H lines Hw. injection H as <-. eauto.
Qed.

Lemma tw_space_is_space c : tw_space c = true -> is_space c = true.
Proof.
  unfold tw_space. intros H. apply existsb_exists in H as (x & Hin & E). apply N.eqb_eq in E. subst x.
  cbn [In] in Hin. repeat (destruct Hin as [<-|Hin]; [reflexivity|]). contradiction.
Qed.
Definition spacefree (t : str) : Prop := Forall (fun c => is_space c = false) t.
Lemma spacefree_munge t : spacefree t -> munge t = t.
Proof.
  intros H. apply munge_id. eapply Forall_impl; [|exact H]. intros c Hc. cbv beta in *.
  destruct (tw_space c) eqn:E; [|reflexivity]. apply tw_space_is_space in E. congruence.
Qed.
(* t is one run of chunks, none blank, together within the width: the first iteration takes them all (fill_line leaves no rest)
   and strips nothing from the end *)
Lemma wrap_one_line t w : t <> [] -> spacefree t -> (Z.of_nat (length t) <= w)%Z -> wrap t w = Ok [t].
Proof.
  intros Hne Hsf Hw. unfold wrap. destruct (Z.leb_spec w 0) as [H0|H0]; [destruct t; [congruence|cbn [length] in Hw; lia]|].
  rewrite (spacefree_munge t Hsf). pose proof (chunks_concat t) as Hc. pose proof (chunks_ne t) as Hn.
  destruct (chunks t) as [|c0 r0] eqn:Ecs; [cbn in Hc; congruence|]. set (width := Z.to_nat w) in *.
  assert (length t <= width) as Hlen by (subst width; lia).
  assert (forall l, In l (c0 :: r0) -> blank l = false) as Hnb.
  { intros l Hl. rewrite <- Hc in Hsf. pose proof (proj1 (Forall_forall _ _) (proj1 (Forall_concat _ _) Hsf) l Hl) as Hl'. rewrite Forall_forall in Hn.
    specialize (Hn l Hl). destruct l as [|x l']; [now elim Hn|]. inversion Hl' as [|? ? Hx _]; subst. unfold blank. cbn [forallb]. now rewrite Hx. }
  replace (2 * length t + 2) with (S (S (2 * length t))) by lia. rewrite wrap_chunks_S.
  assert (wstep width c0 r0 [] = (c0 :: r0, [])) as ->.
  { unfold wstep. cbv zeta. rewrite andb_false_r.
    destruct (fill_line_spec width (c0 :: r0) [] 0) as (taken & rest & H1 & H2 & H3 & H4). cbn [app Nat.add] in H1, H4.
    rewrite H1. destruct rest as [|c r].
    - rewrite app_nil_r in H2. subst taken. f_equal. unfold dropblank.
      destruct (rev (c0 :: r0)) as [|l ls] eqn:Er; [reflexivity|]. rewrite Hnb; [reflexivity|].
      apply in_rev. rewrite Er. now left.
    - exfalso. rewrite H2, concat_app in Hc. cbn [concat] in Hc. rewrite <- Hc, !app_length in Hlen. lia. }
  cbn [fst snd wrap_chunks app]. f_equal. f_equal. exact Hc.
Qed.
Theorem para_piece_on_line sty W l s ind t a n b :
  text_of sty W l s -> In (ind, EPara t) l ->
  t = a ++ [GT] ++ n ++ b -> spacefree t -> ends_visible t -> (zlen t <= W - 1 - Z.of_nat ind)%Z ->
  n <> [] -> plain n -> no_nl n -> on_line n s.
Proof.
  intros H Hin Et Hsf Hv Hfit Hn [Hlt Hb] Hnl. apply infix_on_line; [exact Hnl|].
  destruct H as (off & ps & Hps & ->).
  destruct (written_in _ _ _ _ _ _ Hps Hin) as (raw & Er & Hi). eapply infix_trans; [|exact Hi].
  unfold elem_text_for in Er. cbn [fst snd] in Er. destruct (para_raw_shape _ _ _ _ _ _ Er) as (lines & Hw & ->).
  rewrite wrap_one_line in Hw; [|rewrite Et; destruct a; discriminate|exact Hsf|exact Hfit]. injection Hw as <-.
  cbn [join_lines]. rewrite (rstrip_id t Hv), Et, <- !app_assoc, (app_assoc (spaces ind) a), (app_assoc _ [GT]).
  apply plain_of_keeps; try assumption. apply cand_snoc_gt.
Qed.

Lemma spaces_blank n : Forall (fun c => is_space c = true) (spaces n).
Proof. now apply P_spaces. Qed.
(* in general the piece is written with white space put in (a line break and the indentation) where textwrap broke it *)
Definition spaced_in (n s : str) : Prop := exists m, infix_of m s /\ filter nsp m = filter nsp n.
Lemma filter_nsp_spaces t : Forall (fun c => is_space c = true) t -> filter nsp t = [].
Proof. exact (filter_nsp_blank t). Qed.
Lemma filter_nsp_join prefix : Forall (fun c => is_space c = true) prefix -> forall lines,
  filter nsp (join_lines prefix lines) = filter nsp (concat lines).
Proof.
  intros Hp. induction lines as [|x r IH]; [reflexivity|]. destruct r as [|y r]; [cbn [join_lines concat]; now rewrite app_nil_r|].
  change (join_lines prefix (x :: y :: r)) with (x ++ [10%N] ++ prefix ++ join_lines prefix (y :: r)).
  change (concat (x :: y :: r)) with (x ++ concat (y :: r)). rewrite !filter_app, IH, (filter_nsp_spaces prefix Hp). reflexivity.
Qed.
Lemma filter_nsp_munge t : filter nsp (munge t) = filter nsp t.
Proof.
  induction t as [|c t IH]; [reflexivity|]. cbn [munge map filter]. fold (munge t). rewrite IH.
  destruct (tw_space c) eqn:E; [|reflexivity]. unfold nsp. rewrite (tw_space_is_space c E). reflexivity.
Qed.
Lemma filter_nsp_rstrip s : filter nsp (rstrip s) = filter nsp s.
Proof.
  destruct (rstrip_prefix_space s) as (t & E & Ht). rewrite E at 2. now rewrite filter_app, (filter_nsp_spaces t Ht), app_nil_r.
Qed.
Lemma filter_app_inv {X} (p : X -> bool) : forall l x y, filter p l = x ++ y ->
  exists l1 l2, l = l1 ++ l2 /\ filter p l1 = x /\ filter p l2 = y.
Proof.
  induction l as [|c l IH]; intros x y E.
  - symmetry in E. apply app_eq_nil in E as [-> ->]. now exists [], [].
  - cbn [filter] in E. destruct (p c) eqn:Ec.
    + destruct x as [|x0 x']; [exists [], (c :: l); cbn [app filter]; now rewrite Ec|].
      injection E as <- E. destruct (IH x' y E) as (l1 & l2 & -> & <- & <-). exists (c :: l1), l2. cbn [app filter]. now rewrite Ec.
    + destruct (IH x y E) as (l1 & l2 & -> & <- & <-). exists (c :: l1), l2. cbn [app filter]. now rewrite Ec.
Qed.
Lemma space_not_special c : is_space c = true -> c <> LT /\ c <> BSL.
Proof. intros H. destruct (inert_space c H) as (H1 & _ & _ & H4 & _). auto. Qed.
Lemma spaced_plain n m : plain n -> filter nsp m = filter nsp n -> plain m.
Proof.
  intros [Hlt Hb] E.
  assert (forall c, In c m -> c <> LT /\ c <> BSL) as H.
  { intros c Hc. destruct (is_space c) eqn:Es; [now apply space_not_special|].
    assert (In c (filter nsp n)) as Hin by (rewrite <- E; apply filter_In; split; [exact Hc|unfold nsp; now rewrite Es]).
    apply filter_In in Hin as [Hin _]. unfold no_lt, no_bsl in *. rewrite Forall_forall in Hlt, Hb. auto. }
  split; apply Forall_forall; intros c Hc; now apply H.
Qed.
Theorem para_piece_spaced sty W l s ind t a n b :
  text_of sty W l s -> In (ind, EPara t) l ->
  t = a ++ [GT] ++ n ++ b -> plain n -> spaced_in n s.
Proof.
  intros H Hin Et Hp.
  destruct (filter nsp n) as [|n0 nr] eqn:En. { exists []. split; [exists [], s; reflexivity|now rewrite En]. }
  destruct H as (off & ps & Hps & ->).
  destruct (written_in _ _ _ _ _ _ Hps Hin) as (raw & Er & Hi).
  unfold elem_text_for in Er. cbn [fst snd] in Er. destruct (para_raw_shape _ _ _ _ _ _ Er) as (lines & Hw & ->).
  set (R := rstrip (join_lines (spaces ind) lines)) in *.
  assert (filter nsp R = filter nsp a ++ GT :: filter nsp n ++ filter nsp b) as ER.
  { subst R. rewrite filter_nsp_rstrip, filter_nsp_join.
    - pose proof (wrap_keeps_text_lemma t _ lines Hw) as Hkt. change (fun c => negb (is_space c)) with nsp in Hkt.
      now rewrite Hkt, filter_nsp_munge, Et, !filter_app.
    - apply spaces_blank. }
  (* R is some R1 ++ u ++ ">" ++ R2 ++ R3 with R2 spelling n *)
  destruct (filter_app_inv nsp R _ _ ER) as (R1 & R' & -> & _ & F').
  destruct (filter_cons_inv nsp GT _ R' F') as (u & v & -> & Fv).
  destruct (filter_app_inv nsp v _ _ Fv) as (R2 & R3 & -> & F2 & _).
  exists R2. split; [|exact F2]. eapply infix_trans; [|exact Hi].
  change (GT :: R2 ++ R3) with ([GT] ++ R2 ++ R3). rewrite <- !app_assoc, (app_assoc (spaces ind)), (app_assoc _ u), (app_assoc _ [GT]).
  pose proof (spaced_plain n R2 Hp F2) as [Hlt Hb].
  apply plain_of_keeps; [apply cand_snoc_gt| |exact Hlt|exact Hb].
  intros ->. cbn in F2. rewrite En in F2. discriminate.
Qed.

(* the conclusions of argument_name_written and option_names_written, named for the statements about whole pages *)
Definition arg_written (sty : styles) (a : harg) (s : str) : Prop :=
  on_line (a_name (h_a a) ++ [GT]) s /\ (resolvable sty NM_C1 -> on_line (LT :: a_name (h_a a) ++ [GT]) s).
Definition opt_written (h : hopt) (s : str) : Prop :=
  (plain (o_long (h_o h)) -> no_nl (o_long (h_o h)) -> on_line (long_form h) s)
  /\ (forall sh, o_short (h_o h) = Some sh -> plain sh -> no_nl sh -> on_line (short_form sh) s).
Definition arg_name_ok (a : harg) : Prop := plain (a_name (h_a a)) /\ no_nl (a_name (h_a a)).
Definition name_ok (n : str) : Prop := n <> [] /\ plain n /\ no_nl n.
(* the name of a sub-command under COMMANDS (a paragraph <u>name</u>): the name with white space put in where textwrap broke
   the paragraph; on one line when the name holds no white space and the paragraph - tags included: textwrap counts them -
   fits its line *)
Definition name_written (W : Z) (ind : nat) (n s : str) : Prop :=
  (plain n -> spaced_in n s)
  /\ (name_ok n -> spacefree n -> (zlen (u_tag n) <= W - 1 - Z.of_nat ind)%Z -> on_line n s).

Lemma u_tag_shape n : u_tag n = [60;117]%N ++ [GT] ++ n ++ [60;47;117;62]%N.
Proof. reflexivity. Qed.
Lemma name_para_written sty W l s ind n : text_of sty W l s -> In (ind, EPara (u_tag n)) l -> name_written W ind n s.
Proof.
  intros H Hin. split.
  - intros Hp. exact (para_piece_spaced sty W l s ind (u_tag n) _ n _ H Hin (u_tag_shape n) Hp).
  - intros (Hne & Hp & Hnl) Hsf Hfit.
    apply (para_piece_on_line sty W l s ind (u_tag n) _ n _ H Hin (u_tag_shape n)); auto.
    + rewrite u_tag_shape. repeat (apply Forall_app; split); try exact Hsf; repeat constructor.
    + rewrite u_tag_shape. exists ([60;117]%N ++ [GT] ++ n ++ [60;47;117]%N), 62%N. split; [now rewrite <- !app_assoc|reflexivity].
Qed.

(* the name of a sub-command in USAGE: the synopsis of the sub-command spells  app cmd ... name  in its LABEL, which is
   never wrapped *)
Lemma join_with_snoc sep : forall l z, l <> [] -> join_with sep (l ++ [z]) = join_with sep l ++ sep :: z.
Proof.
  induction l as [|x l IH]; intros z Hne; [congruence|]. destruct l as [|y l]; [reflexivity|].
  change ((x :: y :: l) ++ [z]) with (x :: (y :: l) ++ [z]).
  change (join_with sep (x :: (y :: l) ++ [z])) with (x ++ sep :: join_with sep ((y :: l) ++ [z])).
  rewrite IH by discriminate. change (join_with sep (x :: y :: l)) with (x ++ sep :: join_with sep (y :: l)).
  now rewrite <- app_assoc.
Qed.
Lemma synopsis_label_last sty app_name names nm opts args prefix lo :
  exists X Y, elem_label (synopsis sty app_name (names ++ [nm]) opts args prefix lo) = X ++ u_tag nm ++ Y /\ (Y = [] \/ Y = [93%N]).
Proof.
  unfold synopsis. cbv zeta. cbn [elem_label]. set (a := u_tag _). rewrite map_app. cbn [map].
  change (a :: map u_tag names ++ [u_tag nm]) with ((a :: map u_tag names) ++ [u_tag nm]). set (P0 := a :: map u_tag names).
  assert (P0 <> []) as HP by (subst P0; discriminate). destruct lo.
  - rewrite removelast_last, last_last, join_with_snoc by exact HP.
    exists (prefix ++ join_with 32%N P0 ++ [32; 91]%N), [93%N]. split; [now rewrite <- !app_assoc|now right].
  - rewrite join_with_snoc by exact HP. exists (prefix ++ join_with 32%N P0 ++ [32]%N), []. split; [now rewrite <- !app_assoc, app_nil_r|now left].
Qed.
Theorem sub_name_in_usage sty0 W sty app_name ch aliases help subs s sb :
  text_of sty0 W (command_page sty app_name ch aliases help subs) s ->
  In sb subs -> sb_enabled sb = true -> sb_anonymous sb = false -> (sb_default sb = true \/ sb_hidden sb = false) ->
  name_ok (sb_name sb) -> on_line (sb_name sb) s.
Proof.
  intros H Hin He Ha Hv (Hne & Hp & Hnl).
  assert (exists lo, In (sub_fmt ch sb, lo) (usage_entries ch subs)) as (lo & Hu).
  { destruct (sb_default sb) eqn:Ed.
    - eexists. exact (usage_lists_defaults ch subs sb Hin He Ed).
    - destruct Hv as [Hv|Hv]; [discriminate|]. eexists. exact (usage_lists_visible ch subs sb Hin He Ed Hv). }
  unfold sub_fmt in Hu. rewrite Ha in Hu.
  destruct (command_page_usage sty app_name ch aliases help subs _ _ _ _ Hu) as (prefix & Hl).
  destruct (synopsis_label_last sty app_name (chain_names ch) (sb_name sb) (sb_opts sb) (chain_args ch ++ sb_args sb) prefix lo) as (X & Y & El & HY).
  apply (label_piece_on_line sty0 W _ s 2 _ (X ++ [60;117;62]%N) (sb_name sb) ([60;47;117;62]%N ++ Y) H Hl); auto.
  - rewrite El. destruct HY as [->| ->].
    + rewrite app_nil_r. apply ends_visible_app. exists ([60;117;62]%N ++ sb_name sb ++ [60;47;117]%N), 62%N. split; [|reflexivity].
      unfold u_tag. now rewrite <- !app_assoc.
    + rewrite !app_assoc. now apply ends_visible_snoc.
  - rewrite El. unfold u_tag. now rewrite <- !app_assoc.
  - change [60;117;62]%N with ([60;117]%N ++ [GT]). rewrite app_assoc. apply cand_snoc_gt.
Qed.

Theorem command_page_text_complete sty0 W sty app_name ch aliases help subs s :
  text_of sty0 W (command_page sty app_name ch aliases help subs) s ->
  (forall a, In a (chain_args ch) -> arg_name_ok a -> arg_written sty0 a s)
  /\ (forall h, In h (own_opts ch) \/ In h (base_opts ch) -> opt_written h s)
  /\ (forall sb, In sb subs -> sb_enabled sb = true -> sb_anonymous sb = false -> sb_hidden sb = false ->
        (name_ok (sb_name sb) -> on_line (sb_name sb) s)
        /\ (forall a, In a (sb_args sb) -> arg_name_ok a -> arg_written sty0 a s)
        /\ (forall h, In h (sb_opts sb) -> opt_written h s)).
Proof.
  intros H. destruct (command_page_complete_lemma sty app_name ch aliases help subs) as (C1 & C2 & C3 & C4).
  split; [|split].
  - intros a Ha [Hp Hnl]. exact (argument_name_written sty0 W _ s 2 a H (C1 a Ha) Hp Hnl).
  - intros h [Hh|Hh]; [exact (option_names_written sty0 W _ s 2 h H (C2 h Hh))|exact (option_names_written sty0 W _ s 2 h H (C3 h Hh))].
  - intros sb Hin He Ha Hh. destruct (C4 sb Hin He Ha Hh) as (_ & D1 & D2 & D3). split; [|split].
    + intros Hn. exact (sub_name_in_usage sty0 W sty app_name ch aliases help subs s sb H Hin He Ha (or_intror Hh) Hn).
    + intros a Hia [Hp Hnl]. exact (argument_name_written sty0 W _ s 4 a H (D2 a Hia) Hp Hnl).
    + intros h Hih. exact (option_names_written sty0 W _ s 4 h H (D3 h Hih)).
Qed.
(* the COMMANDS section: a piece of the page that holds, for every enabled, named, non-hidden sub-command, its name (broken only
   where textwrap breaks it), its arguments and its options *)
Definition section_complete (sty0 : styles) (W : Z) (subs : list sub) (s2 : str) : Prop :=
  forall sb, In sb subs -> sb_enabled sb = true -> sb_anonymous sb = false -> sb_hidden sb = false ->
    name_written W 2 (sb_name sb) s2
    /\ (forall a, In a (sb_args sb) -> arg_name_ok a -> arg_written sty0 a s2)
    /\ (forall h, In h (sb_opts sb) -> opt_written h s2).
Theorem commands_section_text sty0 W subs s2 : text_of sty0 W (commands_section subs) s2 -> section_complete sty0 W subs s2.
Proof.
  intros H2 sb Hin He Ha Hh.
  assert (visible sb = true) as Hv by (unfold visible; now rewrite He, Ha, Hh).
  pose proof (commands_section_lists subs sb Hin Hv) as Hincl. destruct (sub_block_lists sb) as (B1 & B2 & B3 & _).
  split; [|split].
  - exact (name_para_written sty0 W _ s2 2 (sb_name sb) H2 (Hincl _ B1)).
  - intros a Hia [Hp Hnl]. exact (argument_name_written sty0 W _ s2 4 a H2 (Hincl _ (B2 a Hia)) Hp Hnl).
  - intros h Hih. exact (option_names_written sty0 W _ s2 4 h H2 (Hincl _ (B3 h Hih))).
Qed.
Theorem commands_section_text_complete sty0 W sty app_name ch aliases help subs s :
  text_of sty0 W (command_page sty app_name ch aliases help subs) s ->
  exists s1 s2 s3, s = s1 ++ s2 ++ s3 /\ text_of sty0 W (commands_section subs) s2 /\ section_complete sty0 W subs s2.
Proof.
  intros H. rewrite command_page_decomposes in H. destruct (text_of_section _ _ _ _ _ _ H) as (s1 & s2 & s3 & E & H2).
  exists s1, s2, s3. split; [exact E|]. split; [exact H2|]. now apply commands_section_text.
Qed.
Theorem application_page_text_complete sty0 W sty app_name display version gopts cmds help s :
  text_of sty0 W (application_page sty app_name display version gopts cmds help) s ->
  (forall h, In h gopts -> opt_written h s)
  /\ arg_written sty0 the_command_arg s /\ arg_written sty0 the_arg_arg s
  /\ (forall c, In c cmds -> ac_enabled c && negb (ac_anonymous c) && negb (ac_hidden c) = true ->
        name_ok (ac_name c) -> on_line (ac_name c) s).
Proof.
  intros H. destruct (application_page_complete_lemma sty app_name display version gopts cmds help) as (C1 & C2 & C3 & _ & C5).
  split; [|split; [|split]].
  - intros h Hh. exact (option_names_written _ W _ s 2 h H (C1 h Hh)).
  - apply (argument_name_written _ W _ s 2 the_command_arg H C2); [split|]; repeat constructor; discriminate.
  - apply (argument_name_written _ W _ s 2 the_arg_arg H C3); [split|]; repeat constructor; discriminate.
  - intros c Hc Hv (Hne & Hp & Hnl). exact (command_label_written _ W _ s 2 (ac_name c) (ac_desc c) 2 true H (C5 c Hc Hv) Hne Hp Hnl).
Qed.
