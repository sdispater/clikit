(* The hand model of the global switches (Model/Switches.v: io_settings, decorated, wants_help, wants_version - C09)
   EQUALS, for all inputs, what harness/translate_switches.py regenerates from
   DefaultApplicationConfig.create_io / resolve_help_command / print_version on every bin/setup
   (Generated/GenSwitches.v).  This file is hand-written; the generated file is not.  The proofs do not mention the
   shape of the generated text: they decide every token test and compare. *)
From Clikit Require Import Base.Prelude Base.Res Model.Gate Model.Tokenizer Model.Switches.
From Clikit Require Generated.GenGate Generated.GenSwitches.

Module G := GenSwitches.

(* what an Output does with the formatter it is given (Output.__init__:
     self._format_output = stream.supports_ansi() and not formatter.disable_ansi() or formatter.force_ansi()
   with PlainFormatter.disable_ansi() = True, AnsiFormatter.disable_ansi() = False, force_ansi() = its `forced`) *)
Definition decorates (f : G.gformatter) (stream_ansi : bool) : bool :=
  match f with
  | G.GPlain => stream_ansi && negb true || false
  | G.GAnsi forced => stream_ansi && negb false || forced
  end.

Definition tok_of (ots : list str) : list N -> bool := fun t => has_token t ots.

Lemma gen_constants : GenGate.NORMAL = NORMAL /\ GenGate.VERBOSE = VERBOSE /\ GenGate.VERY_VERBOSE = VERY_VERBOSE /\ GenGate.DEBUG = DEBUG.
Proof. repeat split; reflexivity. Qed.

(* the formatter create_io hands to a stream: fixed by the colour switches, else chosen by the stream *)
Definition formatter_for (s : settings) (stream_ansi : bool) : G.gformatter :=
  match s_ansi s with AnsiOff => G.GPlain | AnsiForced => G.GAnsi true | AnsiAuto => if stream_ansi then G.GAnsi false else G.GPlain end.

Lemma decorates_formatter_for s stream_ansi : decorates (formatter_for s stream_ansi) stream_ansi = decorated s stream_ansi.
Proof. unfold decorates, formatter_for, decorated. now destruct (s_ansi s), stream_ansi. Qed.

(* a || b decided as a whole, whichever way round it is written *)
Lemma orb_cases a b : (a || b = true /\ b || a = true) \/ (a = false /\ b = false).
Proof. destruct a, b; auto. Qed.

Lemma gen_create_io_fields debug ots out_ansi err_ansi :
  let s := io_settings debug ots in
  G.create_io (tok_of ots) debug out_ansi err_ansi =
  {| G.g_out := formatter_for s out_ansi; G.g_err := formatter_for s err_ansi;
     G.g_verbosity := s_verbosity s; G.g_quiet := s_quiet s; G.g_interactive := s_interactive s |}.
Proof.
  unfold G.create_io, io_settings, formatter_for, tok_of, T_no_ansi, T_ansi, T_vvv, T_vv, T_v, T_quiet, T_q, T_no_interaction, T_n.
  cbn [s_ansi s_verbosity s_quiet s_interactive].
  (* both sides test the same nine tokens; with the tests as variables the code's nest of ifs is decided in program order:
     colour (3 cases, and the two streams), the verbosity ladder, quiet, interaction; an || is decided as a whole
     (orb_cases), so the order of its operands in the source does not matter *)
  generalize (has_token [45;45;110;111;45;97;110;115;105]%N ots) (has_token [45;45;97;110;115;105]%N ots)
    (has_token [45;118;118;118]%N ots) (has_token [45;118;118]%N ots) (has_token [45;118]%N ots)
    (has_token [45;45;113;117;105;101;116]%N ots) (has_token [45;113]%N ots)
    (has_token [45;45;110;111;45;105;110;116;101;114;97;99;116;105;111;110]%N ots) (has_token [45;110]%N ots).
  intros no_ansi ansi vvv vv v quiet q no_inter n.
  destruct no_ansi; [|destruct ansi; [|destruct out_ansi, err_ansi]].
  all: destruct (orb_cases vvv debug) as [[E E']|[-> ->]]; [rewrite ?E, ?E'|destruct vv; [|destruct v]].
  all: destruct (orb_cases quiet q) as [[E1 E1']|[-> ->]]; rewrite ?E1, ?E1'.
  all: destruct (orb_cases no_inter n) as [[E2 E2']|[-> ->]]; rewrite ?E2, ?E2'; reflexivity.
Qed.

(* create_io = io_settings: verbosity, quiet, interactive, and which streams are decorated *)
Lemma gen_create_io debug ots out_ansi err_ansi :
  let g := G.create_io (tok_of ots) debug out_ansi err_ansi in
  let s := io_settings debug ots in
  G.g_verbosity g = s_verbosity s /\ G.g_quiet g = s_quiet s /\ G.g_interactive g = s_interactive s /\
  decorates (G.g_out g) out_ansi = decorated s out_ansi /\ decorates (G.g_err g) err_ansi = decorated s err_ansi.
Proof.
  intros g s. subst g. rewrite gen_create_io_fields. fold s. cbn [G.g_out G.g_err G.g_verbosity G.g_quiet G.g_interactive].
  repeat split; apply decorates_formatter_for.
Qed.

(* the guard of the help listener = wants_help *)
Lemma gen_help_listener ots : G.help_listener_fires (tok_of ots) = wants_help ots.
Proof.
  unfold G.help_listener_fires, wants_help, tok_of, T_h, T_help.
  now destruct (has_token _ ots), (has_token _ ots).
Qed.

(* the guard of the version listener = "the parsed option, or the switch among the option tokens" (every Args that
   command.parse builds carries its raw arguments: has_raw = true) *)
Lemma gen_version_listener ots version_set :
  G.version_listener_fires (tok_of ots) version_set true = version_set || wants_version ots.
Proof.
  unfold G.version_listener_fires, wants_version, tok_of, T_V, T_version.
  now destruct version_set, (has_token _ ots), (has_token _ ots).
Qed.

(* ArgvArgs / StringArgs: the option tokens are the tokens before the first "--", and has_option_token is membership *)
Lemma gen_option_tokens toks : G.option_tokens str_eqb toks = option_tokens toks.
Proof.
  unfold G.option_tokens. induction toks as [|t r IH]; [reflexivity|].
  cbn [G.takewhile option_tokens]. unfold is_ddash. change [DASH; DASH] with [45; 45]%N.
  destruct (str_eqb t [45; 45]%N); cbn [negb]; [reflexivity|]. f_equal. exact IH.
Qed.
Lemma gen_has_option_token toks t : G.has_option_token str_eqb toks t = has_token t (option_tokens toks).
Proof. unfold G.has_option_token, has_token. now rewrite gen_option_tokens. Qed.
