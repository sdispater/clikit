(* C09: switches at the level of the LINE (not of an abstract option-token list); the page of the help target, read off
   the command the leading tokens walk to; the help switch placed after the command path, by the C13 run-level statement
   HelpRunLemmas.help_same_run. *)
From Coq Require Import Lia Permutation.
From Clikit Require Import Base.Prelude Base.Res Model.Conv Model.Flags Model.Format Model.Parser Model.Resolver Model.Run
     Model.Tokenizer Model.Gate Model.Switches
     Proofs.StrLemmas Proofs.ResolverLemmas Proofs.SwitchesLemmas Proofs.HelpTargetLemmas Proofs.HelpSamePageLemmas
     Proofs.HelpRunLemmas.
From Clikit Require Proofs.TokenizerLemmas.

Definition no_ddash (l : list str) : bool := forallb (fun x => negb (is_ddash x)) l.

Lemma option_tokens_no_ddash l : no_ddash l = true -> option_tokens l = l.
Proof. exact (TokenizerLemmas.option_tokens_all l). Qed.
Lemma option_tokens_insert l1 s l2 : is_ddash s = false -> no_ddash l1 = true ->
  option_tokens (l1 ++ s :: l2) = l1 ++ s :: option_tokens l2.
Proof. intros Hs Hl. rewrite (option_tokens_app l1 _ Hl). cbn [option_tokens]. now rewrite Hs. Qed.

(* a switch inserted at ANY position of the line before its first "--": the settings, the help decision and the
   version decision are those of the line with the switch put first *)
Lemma line_insert_settings debug a l1 s l2 : is_ddash s = false -> no_ddash l1 = true ->
  sm_settings (run_summary debug a (l1 ++ s :: l2)) = sm_settings (run_summary debug a (s :: l1 ++ l2)).
Proof.
  intros Hs Hl. unfold run_summary. cbn [sm_settings]. rewrite (option_tokens_insert l1 s l2 Hs Hl).
  cbn [option_tokens]. rewrite Hs, (option_tokens_app l1 l2 Hl). apply io_settings_insert.
Qed.
Lemma line_insert_decisions l1 s l2 : is_ddash s = false -> no_ddash l1 = true ->
  wants_help (option_tokens (l1 ++ s :: l2)) = wants_help (option_tokens (s :: l1 ++ l2)) /\
  wants_version (option_tokens (l1 ++ s :: l2)) = wants_version (option_tokens (s :: l1 ++ l2)).
Proof.
  intros Hs Hl. rewrite (option_tokens_insert l1 s l2 Hs Hl). cbn [option_tokens]. rewrite Hs, (option_tokens_app l1 l2 Hl).
  split; [apply wants_help_perm|apply wants_version_perm]; apply Permutation_sym, Permutation_middle.
Qed.
(* ends without an error: a page is printed, status 0 *)
Definition prints_page (x : action) : bool := match x with AHelpApp | AHelpCmd _ => true | _ => false end.

(* the help resolver's probe: the first default that parses the line, the ones before it refused or with a value error *)
Definition unfit (toks : list str) (c : bcmd) : Prop :=
  parse (b_fmt c) (b_lenient c) toks = Err CannotParse \/ parse (b_fmt c) (b_lenient c) toks = Err ValueError.
Lemma unfit_skipped toks ds : Forall (unfit toks) ds -> Forall (skipped is_unfit toks) ds.
Proof. apply Forall_impl. intros c [H|H]; eexists; (split; [exact H|reflexivity]). Qed.
Lemma help_pick_first_parsable ds1 d x ds2 toks : Forall (unfit toks) ds1 -> parse (b_fmt d) (b_lenient d) toks = Ok x ->
  forall first, help_pick_default (ds1 ++ d :: ds2) toks first = Ok (Some (d, Ok x)).
Proof.
  intros Hf Hd first. rewrite help_pick_gpick, (gpick_split _ _ _ _ _ (unfit_skipped _ _ Hf)); now rewrite Hd.
Qed.
(* none parses it: the first one *)
Lemma help_pick_none_parsable toks : forall ds first, Forall (unfit toks) ds ->
  exists k, help_pick_default ds toks first =
    Ok (match first, ds with Some (b, k0), _ => Some (b, Err k0) | None, d :: _ => Some (d, Err k) | None, [] => None end).
Proof.
  intros ds first Hf. rewrite help_pick_gpick, (gpick_all_skipped _ _ _ _ (unfit_skipped _ _ Hf)).
  destruct first as [[b k0]|]; [exists CannotParse; reflexivity|].
  destruct Hf as [|d r [Hd|Hd] _]; [exists CannotParse; reflexivity|rewrite Hd; eexists; reflexivity|rewrite Hd; eexists; reflexivity].
Qed.

(* The page of the help target of a line whose leading tokens walk to the command b (name path p): that of b's first
   default sub-command that parses the line (under its own leniency), else of the first one, else of b itself. *)
Section Page.
  Variables (a : application) (toks : list str) (b : bcmd) (p : list str).
  Hypothesis Hh : not_help_word toks.
  Hypothesis Hw : walk (named_of (ap_cmds a)) None (leading toks) = Ok (Some (b, p)).

  (* b has no default sub-command: the page of p, unless the lenient parse of the line with b's format fails with
     something else than a value error (help_lenient; leniency swallows the two parse errors) *)
  Lemma help_page_that_command : defaults_of (b_subs b) = [] ->
    help_page a toks = match help_lenient (b_fmt b) toks with Ok _ => AHelpCmd p | Err k => AHelpFail k end.
  Proof.
    intros Hd. unfold help_page. rewrite (help_target_walk a toks b p Hh Hw), Hd. cbn [help_pick_default bind].
    destruct (help_lenient (b_fmt b) toks); reflexivity.
  Qed.
  Lemma help_page_default ds1 d ds2 y : defaults_of (b_subs b) = ds1 ++ d :: ds2 -> Forall (unfit toks) ds1 ->
    parse (b_fmt d) (b_lenient d) toks = Ok y -> help_lenient (b_fmt d) toks = Ok tt ->
    help_page a toks = AHelpCmd (p ++ [b_name d]).
  Proof.
    intros Hd H1 H2 H3. unfold help_page.
    rewrite (help_target_walk a toks b p Hh Hw), Hd, (help_pick_first_parsable ds1 d y ds2 toks H1 H2 None). cbn [bind]. now rewrite H3.
  Qed.
  Lemma help_page_default_none d ds : defaults_of (b_subs b) = d :: ds -> Forall (unfit toks) (d :: ds) ->
    help_lenient (b_fmt d) toks = Ok tt -> help_page a toks = AHelpCmd (p ++ [b_name d]).
  Proof.
    intros Hd H1 H3. unfold help_page. rewrite (help_target_walk a toks b p Hh Hw), Hd.
    destruct (help_pick_none_parsable toks (d :: ds) None H1) as [k ->]. cbn [bind]. now rewrite H3.
  Qed.
End Page.

Section HelpAfterPath.
  Variables (cfg : appcfg) (a : application) (debug : bool) (path : list str) (sw : str).
  Hypothesis Hb : build_app cfg = Ok a.
  Hypothesis Hcfg : default_help_config cfg = true.
  Hypothesis Hplain : forallb lead_ok path = true.
  Hypothesis Hne : path <> [].
  Hypothesis Hh : not_help_word path.
  Hypothesis Hsw : sw = T_help \/ sw = T_h.

  Lemma defines : defines_help cfg = true.
  Proof. unfold default_help_config in Hcfg. apply andb_prop in Hcfg as [H _]. apply andb_prop in H as [H _]. exact H. Qed.

  (* the run shows the page of the help target of "help <path>", which is that of <path> *)
  Lemma help_switch_run :
    sm_action (run_summary debug a (path ++ [sw])) = help_page a (S_help :: path) /\ help_page a (S_help :: path) = help_page a path.
  Proof.
    split; [|unfold help_page; now rewrite help_word_dropped].
    destruct (help_same_run cfg a debug path Hb Hcfg Hplain Hne Hh) as (_ & R2 & R3). destruct Hsw as [-> | ->]; assumption.
  Qed.
End HelpAfterPath.
