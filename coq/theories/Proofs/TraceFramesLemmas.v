(* C20, the frame listing: compact loses no frame (every frame of the kept stack but its last one is in some collection,
   up to the equality crashtest folds by: file, function, line) - the statements of TraceLemmas are soundness only ("a listed
   frame is a kept frame") and also hold of a compact that lists nothing.
   And what the ignore filter does NOT guarantee: the listing always leaves out the LAST kept frame (it is expected to be
   the frame of the snippet), while the snippet always shows the last frame of the traceback, ignored or not - when the
   raising frame is under an ignored path, the last kept frame is shown nowhere and the ignored frame is shown. *)
From Coq Require Import Lia.
From Clikit Require Import Proofs.ListLemmas.
From Clikit Require Import Base.Prelude Base.Res Model.Conv Model.Markup Model.OutputM Model.Trace
  Proofs.StrLemmas Proofs.TraceLemmas Proofs.LiteralLemmas Proofs.TraceRenderLemmas.

Lemma frame_eqb_refl f : frame_eqb f f = true.
Proof. unfold frame_eqb. now rewrite !str_eqb_refl, Z.eqb_refl. Qed.

Definition covered (x : frame) (cs : list coll) : Prop := exists y, In y (flat_map c_frames cs) /\ frame_eqb x y = true.

Lemma covered_app_l x a b : covered x a -> covered x (a ++ b).
Proof. intros (y & Hy & E). exists y. split; [|exact E]. rewrite flat_map_app. apply in_or_app. now left. Qed.
Lemma covered_snoc x acc cur y : In y (c_frames cur) -> frame_eqb x y = true -> covered x (acc ++ [cur]).
Proof. intros Hy E. exists y. split; [|exact E]. rewrite flat_map_app. apply in_or_app. right. cbn. now rewrite app_nil_r. Qed.
Lemma covered_snoc_inv x acc cur : covered x (acc ++ [cur]) -> covered x acc \/ exists y, In y (c_frames cur) /\ frame_eqb x y = true.
Proof.
  intros (y & Hy & E). rewrite flat_map_app in Hy. apply in_app_or in Hy as [Hy|Hy]; [left; exists y; auto|right].
  cbn in Hy. rewrite app_nil_r in Hy. eauto.
Qed.

Lemma frames_eqb_in : forall a b x, frames_eqb a b = true -> In x a -> exists y, In y b /\ frame_eqb x y = true.
Proof.
  induction a as [|x0 a IH]; intros [|y0 b] x H Hin; cbn [frames_eqb] in H; try discriminate; [destruct Hin|].
  apply andb_prop in H as [H1 H2]. destruct Hin as [->|Hin]; [exists y0; split; [now left|exact H1]|].
  destruct (IH b x H2 Hin) as (y & Hy & E). exists y. split; [now right|exact E].
Qed.

(* the invariant of the loop: x is still ahead among the frames but the last, or already in a collection *)
Lemma compact_loop_complete fuel rest cur acc x : length rest <= fuel ->
  In x (removelast rest) \/ covered x (acc ++ [cur]) -> covered x (compact_loop fuel rest cur acc).
Proof.
  intros Hf Hx.
  apply (compact_loop_inv (fun rest cur acc => In x (removelast rest) \/ covered x (acc ++ [cur])) (covered x)); [| | | | |exact Hf|exact Hx].
  - intros r c a [H|H] Hl; [|exact H]. destruct r as [|? [|? ?]]; [destruct H|destruct H|cbn [length] in Hl; lia].
  - (* x0 opens a new collection after the repeated one *)
    intros x0 after c a Hne [H|H] _; [|right; apply covered_app_l, H].
    destruct after; [congruence|]. destruct H as [<-|H]; [right|left; exact H].
    apply (covered_snoc _ _ _ x0); [now left|apply frame_eqb_refl].
  - (* x0 joins the current collection *)
    intros x0 after c a Hne [H|H] _.
    + destruct after; [congruence|]. destruct H as [<-|H]; [right|left; exact H].
      apply (covered_snoc _ _ _ x0); [apply in_or_app; right; now left|apply frame_eqb_refl].
    + right. apply covered_snoc_inv in H as [H|(z & Hz & E)]; [apply covered_app_l, H|].
      apply (covered_snoc _ _ _ z); [apply in_or_app; now left|exact E].
  - (* the frames up to the duplicate repeat the current collection: folded *)
    intros r c a d n [H|H] EF.
    + destruct (removelast_split (S d) _ x H) as [H'|H']; [right|left; exact H'].
      destruct (frames_eqb_in _ _ x EF H') as (z & Hz & E). apply (covered_snoc _ _ _ z); [exact Hz|exact E].
    + right. apply covered_snoc_inv in H as [H|(z & Hz & E)]; [apply covered_app_l, H|]. apply (covered_snoc _ _ _ z); [exact Hz|exact E].
  - (* a new collection: the frames up to the first duplicate *)
    intros r c a d [H|H]; [|right; apply covered_app_l, H].
    destruct (removelast_split (S d) _ x H) as [H'|H']; [right|left; exact H'].
    apply (covered_snoc _ _ _ x); [exact H'|apply frame_eqb_refl].
Qed.

(* compact loses no frame: every frame of the stack but the last is in some collection, up to (file, function, line) *)
Theorem compact_complete l x : In x (removelast l) -> exists y, In y (flat_map c_frames (compact l)) /\ frame_eqb x y = true.
Proof. intros H. apply (compact_loop_complete (length l) l _ [] x (le_n _)). now left. Qed.

(* the listing is complete for the kept frames but the last one ... *)
Theorem kept_frames_are_listed c fs f : In f (removelast (kept_frames c fs)) ->
  exists g, In g (trace_frames c fs) /\ frame_eqb f g = true.
Proof. apply compact_complete. Qed.

Module IgnoredLast.
  Import RenderExamples.
  Definition fr (file : N) (n : Z) (ign : bool) : frame :=
    {| f_file := [file]; f_ignored := ign; f_lineno := n; f_func := [102%N]; f_line := [120%N];
       f_content := TokOk demo_toks; f_linetoks := TokOk demo_toks |}.
  (* the traceback: a, b in the user's code, v under the ignored path - v raised *)
  Definition fs : list frame := [fr 97 1 false; fr 98 2 false; fr 118 3 true].
  Definition x : exn_case := {| x_name := [69%N]; x_msg := [109%N]; x_frames := fs |}.
  (* -v, not debug: b is kept and shown NOWHERE (not listed, not the snippet frame); v is ignored and IS shown *)
  Example kept_frame_shown_nowhere :
    t_verbose (demo_cfg true) = true /\ t_debug (demo_cfg true) = false /\
    In (fr 98 2 false) (kept_frames (demo_cfg true) fs) /\
    trace_frames (demo_cfg true) fs = [fr 97 1 false] /\
    last fs dflt_frame = fr 118 3 true /\ f_ignored (last fs dflt_frame) = true.
  Proof. vm_compute. repeat split. right. left. reflexivity. Qed.
  (* the bytes: "Stack trace:", "1  a:1 in f", the class name, the message, "at v:3 in f" and the snippet of v - no line for b:2 *)
  Example report_bytes :
    render (demo_cfg true) false (demo_out FPlain false 0) x
    = Ok ([10;32;32;83;116;97;99;107;32;116;114;97;99;101;58;10]%N
          ++ [10;32;32;49;32;32;97;58;49;32;105;110;32;102;10]%N ++ [32;32;32;32;32;120;10]%N
          ++ [10;32;32;69;10]%N ++ [10;32;32;109;10]%N
          ++ [10;32;32;97;116;32;118;58;51;32;105;110;32;102;10]%N ++ [32;32;32;32;32;32;32;32;49;124;32;120;10]%N).
  Proof. vm_compute. reflexivity. Qed.
End IgnoredLast.
