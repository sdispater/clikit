(* C03: what a CommandCollection built from a list of sibling commands looks up, alias invariance of the walk under
   distinct sibling names/aliases, the name path returned by the walk, and the three outcomes of the default choice. *)
From Coq Require Import Lia.
From Clikit Require Import Base.Prelude Base.Res Model.Conv Model.Flags Model.Format Model.Parser Model.Resolver
  Proofs.StrLemmas Proofs.ListLemmas Proofs.DictLemmas Proofs.ResolverLemmas.

(* lookups in coll_of l: the LAST sibling with that name / that alias *)
Definition by_name (n : str) (c : bcmd) : bool := str_eqb n (b_name c).
Definition by_alias (n : str) (c : bcmd) : bool := existsb (str_eqb n) (b_aliases c).
Lemma by_name_true n c : by_name n c = true <-> b_name c = n.
Proof. unfold by_name. destruct (str_eqb_spec n (b_name c)); split; congruence. Qed.
Lemma by_alias_true n c : by_alias n c = true <-> In n (b_aliases c).
Proof.
  unfold by_alias. rewrite existsb_exists. split; [|intros H; exists n; split; [exact H|apply str_eqb_refl]].
  intros (a & Ha & He). destruct (str_eqb_spec n a); [now subst|discriminate].
Qed.

Lemma coll_of_snoc l b : coll_of (l ++ [b]) = coll_add (coll_of l) b.
Proof. unfold coll_of. rewrite fold_left_app. reflexivity. Qed.

Lemma cmds_spec n : forall l, sget n (cc_cmds (coll_of l)) = find (by_name n) (rev l).
Proof.
  induction l as [|b l IH] using rev_ind; [reflexivity|].
  rewrite coll_of_snoc, rev_app_distr. cbn [rev app find coll_add cc_cmds]. rewrite sget_set. unfold by_name at 1.
  destruct (str_eqb n (b_name b)); [reflexivity|exact IH].
Qed.
Lemma alias_spec n : forall l, sget n (cc_alias (coll_of l)) = option_map b_name (find (by_alias n) (rev l)).
Proof.
  induction l as [|b l IH] using rev_ind; [reflexivity|].
  rewrite coll_of_snoc, rev_app_distr. cbn [rev app find coll_add cc_alias].
  rewrite sget_fold_sset. unfold by_alias at 1. destruct (existsb (str_eqb n) (b_aliases b)); [reflexivity|exact IH].
Qed.

Lemma find_name l n c : find (by_name n) (rev l) = Some c -> In c l /\ b_name c = n.
Proof. intros H. apply find_rev_in in H as [Hi Hp]. now apply by_name_true in Hp. Qed.
Lemma find_alias l n c : find (by_alias n) (rev l) = Some c -> In c l /\ In n (b_aliases c).
Proof. intros H. apply find_rev_in in H as [Hi Hp]. now apply by_alias_true in Hp. Qed.
Lemma find_name_self l n c : find (by_name n) (rev l) = Some c -> find (by_name (b_name c)) (rev l) = Some c.
Proof. intros H. now rewrite (proj2 (find_name l n c H)). Qed.
Lemma find_name_some l c : In c l -> exists b, find (by_name (b_name c)) (rev l) = Some b.
Proof. intros Hi. apply (find_rev_some _ l c Hi). now apply by_name_true. Qed.
Lemma find_alias_some l c n : In c l -> In n (b_aliases c) -> exists b, find (by_alias n) (rev l) = Some b.
Proof. intros Hi Ha. apply (find_rev_some _ l c Hi). now apply by_alias_true. Qed.

(* the keys of cc_cmds are distinct (a dict), so a listed pair is what the lookup finds *)
Lemma coll_of_nodup l : NoDup (map fst (cc_cmds (coll_of l))).
Proof.
  induction l as [|b l IH] using rev_ind; [constructor|]. rewrite coll_of_snoc. cbn [coll_add cc_cmds]. now apply sset_nodup.
Qed.
Lemma coll_of_in l k x : In (k, x) (cc_cmds (coll_of l)) -> find (by_name k) (rev l) = Some x.
Proof. intros H. rewrite <- cmds_spec. exact (sget_of_in _ _ _ (coll_of_nodup l) H). Qed.

(* by name or through the alias index: what get returns is the last sibling filed under the name it has *)
Lemma coll_get_find l n b : coll_get (coll_of l) n = Ok b -> find (by_name (b_name b)) (rev l) = Some b.
Proof.
  unfold coll_get. rewrite cmds_spec, alias_spec. destruct (find (by_name n) (rev l)) as [b0|] eqn:E.
  - intros [= <-]. exact (find_name_self l n b0 E).
  - destruct (find (by_alias n) (rev l)) as [c|]; cbn [option_map]; [|discriminate]. rewrite cmds_spec.
    destruct (find (by_name (b_name c)) (rev l)) as [b0|] eqn:E'; [|discriminate]. intros [= <-]. exact (find_name_self l _ b0 E').
Qed.

(* contains = the name or alias of some sibling; get never takes the KeyError branch *)
Lemma coll_contains_spec l n :
  coll_contains (coll_of l) n = true <-> exists c, In c l /\ (b_name c = n \/ In n (b_aliases c)).
Proof.
  unfold coll_contains. rewrite !shas_sget, cmds_spec, alias_spec. split.
  - destruct (find (by_name n) (rev l)) as [c|] eqn:E1.
    + intros _. apply find_name in E1 as [Hi Hn]. eauto.
    + destruct (find (by_alias n) (rev l)) as [c|] eqn:E2; [|discriminate].
      intros _. apply find_alias in E2 as [Hi Ha]. eauto.
  - intros (c & Hi & [<-|Ha]).
    + now destruct (find_name_some l c Hi) as [y ->].
    + destruct (find (by_name n) (rev l)); [reflexivity|]. now destruct (find_alias_some l c n Hi Ha) as [y ->].
Qed.

Lemma coll_get_total l n : coll_contains (coll_of l) n = true ->
  exists b, coll_get (coll_of l) n = Ok b /\ In b l /\
            (b_name b = n \/ exists c, In c l /\ In n (b_aliases c) /\ b_name c = b_name b).
Proof.
  unfold coll_contains, coll_get. rewrite !shas_sget, cmds_spec, alias_spec.
  destruct (find (by_name n) (rev l)) as [b|] eqn:E1; intros Hc.
  - apply find_name in E1 as [Hi Hn]. eauto.
  - destruct (find (by_alias n) (rev l)) as [c|] eqn:E2; [|discriminate]. cbn [option_map].
    apply find_alias in E2 as [Hi Ha]. rewrite cmds_spec. destruct (find_name_some l c Hi) as [b Hb]. rewrite Hb.
    apply find_name in Hb as [Hbi Hbn]. exists b. split; [reflexivity|]. split; [exact Hbi|right]. exists c. auto.
Qed.

(* the walk never fails: every collection it looks into is built by coll_of *)
Lemma walk_total : forall names l cur, exists w, walk (coll_of l) cur names = Ok w.
Proof.
  induction names as [|n r IH]; intros l cur; [cbn; eauto|]. rewrite walk_cons.
  destruct (coll_contains (coll_of l) n) eqn:Hc; [|eauto].
  destruct (coll_get_total l n Hc) as (b & -> & _). apply IH.
Qed.

Definition keys (c : bcmd) : list str := b_name c :: b_aliases c.
Definition siblings_distinct (l : list bcmd) : Prop := NoDup (flat_map keys l).

Lemma distinct_same_key : forall l b c k, siblings_distinct l -> In b l -> In c l -> In k (keys b) -> In k (keys c) -> b = c.
Proof.
  unfold siblings_distinct. induction l as [|x l IH]; intros b c k Hn Hb Hc Kb Kc; [destruct Hb|].
  cbn [flat_map] in Hn.
  assert (forall y, In y l -> In k (keys y) -> In k (keys x) -> False) as Cross.
  { intros y Hy Ky Kx. apply (NoDup_app_disjoint _ _ k Hn Kx). apply in_flat_map. eauto. }
  destruct Hb as [->|Hb], Hc as [->|Hc]; [reflexivity|exfalso; eapply Cross; eauto|exfalso; eapply Cross; eauto|].
  eapply IH; eauto. eapply NoDup_app_r, Hn.
Qed.

(* under that: the name and every alias of a sibling are contained and get exactly that sibling *)
Lemma contains_key l b k : In b l -> In k (keys b) -> coll_contains (coll_of l) k = true.
Proof. intros Hb Hk. apply coll_contains_spec. exists b. split; [exact Hb|]. destruct Hk as [Hk|Hk]; auto. Qed.
Lemma get_by_key l b k : siblings_distinct l -> In b l -> In k (keys b) -> coll_get (coll_of l) k = Ok b.
Proof.
  intros Hd Hb Hk.
  destruct (coll_get_total l k (contains_key l b k Hb Hk)) as (b' & -> & Hb' & [Hn|(c & Hc & Ha & Hcn)]); f_equal.
  - apply (distinct_same_key l b' b k Hd Hb' Hb); [left; exact Hn|exact Hk].
  - (* k is an alias of c, so c = b; the command found has c's name, so it is c *)
    assert (c = b) as -> by (apply (distinct_same_key l c b k Hd Hc Hb); [right; exact Ha|exact Hk]).
    apply (distinct_same_key l b' b (b_name b') Hd Hb' Hb); [now left|left; exact Hcn].
Qed.

Lemma walk_alias_head l b a cur r : siblings_distinct l -> In b l -> In a (b_aliases b) ->
  walk (coll_of l) cur (a :: r) = walk (coll_of l) cur (b_name b :: r).
Proof.
  intros Hd Hb Ha. assert (In a (keys b)) as Ka by now right. assert (In (b_name b) (keys b)) as Kn by now left.
  now rewrite !walk_cons, (contains_key l b _ Hb Ka), (contains_key l b _ Hb Kn), (get_by_key l b _ Hd Hb Ka), (get_by_key l b _ Hd Hb Kn).
Qed.

(* tree_distinct: the siblings at every level (non-anonymous ones: the ones reachable by name) are distinct *)
Inductive tree_distinct : list bcmd -> Prop :=
| td : forall l, siblings_distinct (filter (fun b => negb (b_anonymous b)) l) ->
                 (forall b, In b l -> tree_distinct (b_subs b)) -> tree_distinct l.

(* respells l names names': names' is names with any of the leading tokens that name a path replaced by another key
   (name or alias) of the same command, level by level; behind the path the two lines are the same *)
Inductive respells : list bcmd -> list str -> list str -> Prop :=
| rs_same : forall l names, respells l names names
| rs_step : forall l b k k' r r', In b (filter (fun b => negb (b_anonymous b)) l) -> In k (keys b) -> In k' (keys b) ->
            respells (b_subs b) r r' -> respells l (k :: r) (k' :: r').

Lemma walk_key l b k cur r : siblings_distinct (filter (fun b => negb (b_anonymous b)) l) ->
  In b (filter (fun b => negb (b_anonymous b)) l) -> In k (keys b) ->
  walk (named_of l) cur (k :: r) = walk (named_of (b_subs b)) (Some (b, cur_path cur ++ [b_name b])) r.
Proof. intros Hd Hb Hk. unfold named_of at 1. now rewrite walk_cons, (contains_key _ b k Hb Hk), (get_by_key _ b k Hd Hb Hk). Qed.

Lemma walk_respelled : forall l names names', respells l names names' -> tree_distinct l ->
  forall cur, walk (named_of l) cur names = walk (named_of l) cur names'.
Proof.
  induction 1 as [|l b k k' r r' Hb Hk Hk' Hr IH]; intros Ht cur; [reflexivity|].
  inversion Ht as [? Hd Hsub]; subst. rewrite (walk_key l b k cur r Hd Hb Hk), (walk_key l b k' cur r' Hd Hb Hk').
  apply IH. apply Hsub. apply filter_In in Hb. exact (proj1 Hb).
Qed.

Inductive descendsP : coll -> list str -> bcmd -> list str -> Prop :=
| dp_one named n b : coll_contains named n = true -> coll_get named n = Ok b -> descendsP named [n] b [b_name b]
| dp_step named n b l b' p : coll_contains named n = true -> coll_get named n = Ok b ->
    descendsP (named_of (b_subs b)) l b' p -> descendsP named (n :: l) b' (b_name b :: p).
Lemma descendsP_descends named l b p : descendsP named l b p -> descends named l b /\ length p = length l.
Proof.
  induction 1 as [named n b Hc Hg|named n b l b' p Hc Hg Hd [IH1 IH2]].
  - split; [now constructor|reflexivity].
  - split; [eapply d_step; eauto|cbn; now rewrite IH2].
Qed.

Lemma walk_path : forall names named cur b p,
  walk named cur names = Ok (Some (b, p)) ->
  (cur = Some (b, p) /\ match names with [] => True | n :: _ => coll_contains named n = false end) \/
  exists l1 l2 q, names = l1 ++ l2 /\ descendsP named l1 b q /\ p = cur_path cur ++ q /\
                  match l2 with [] => True | n :: _ => coll_contains (named_of (b_subs b)) n = false end.
Proof.
  induction names as [|n r IH]; intros named cur b p E; [inversion E; auto|].
  apply walk_cons_inv in E as [[Hc ->]|(b0 & Hc & Hg & E)]; [auto|]. right.
  apply IH in E as [[Hcur Hnext]|(l1 & l2 & q & -> & Hd & Hp & Hn)].
  - inversion Hcur; subst. exists [n], r, [b_name b]. split; [reflexivity|]. split; [now constructor|]. split; [reflexivity|exact Hnext].
  - exists (n :: l1), l2, (b_name b0 :: q). split; [reflexivity|]. split; [eapply dp_step; eauto|].
    split; [|exact Hn]. rewrite Hp. cbn [cur_path]. rewrite <- app_assoc. reflexivity.
Qed.

Definition cannot (toks : list str) (x : bcmd) : Prop := parse (b_fmt x) (b_lenient x) toks = Err CannotParse.
Lemma cannot_skipped toks ds : Forall (cannot toks) ds -> Forall (skipped is_cannot toks) ds.
Proof. apply Forall_impl. intros x H. exists CannotParse. auto. Qed.

(* the three outcomes of pick_default: a first default that parses the line, none, a first one that fails otherwise *)
Lemma pick_default_first_parsable ds1 d a ds2 toks : Forall (cannot toks) ds1 -> parse (b_fmt d) (b_lenient d) toks = Ok a ->
  forall first, pick_default (ds1 ++ d :: ds2) toks first = Ok (Some (d, Ok a)).
Proof.
  intros Hf Hd first. rewrite pick_default_gpick, (gpick_split _ _ _ _ _ (cannot_skipped _ _ Hf)); now rewrite Hd.
Qed.
Lemma pick_default_all_cannot : forall ds toks first, Forall (cannot toks) ds ->
  pick_default ds toks first =
  Ok (match first, ds with
      | Some (b, k), _ => Some (b, Err k)
      | None, d :: _ => Some (d, Err CannotParse)
      | None, [] => None end).
Proof.
  intros ds toks first Hf. rewrite pick_default_gpick, (gpick_all_skipped _ _ _ _ (cannot_skipped _ _ Hf)).
  destruct first as [[b k]|], Hf as [|d r Hd _]; try reflexivity. now rewrite Hd.
Qed.
Lemma pick_default_error_leaves : forall ds1 d ds2 toks k first, Forall (cannot toks) ds1 ->
  parse (b_fmt d) (b_lenient d) toks = Err k -> k <> CannotParse ->
  pick_default (ds1 ++ d :: ds2) toks first = Err k.
Proof.
  intros ds1 d ds2 toks k first Hf Hd Hk.
  rewrite pick_default_gpick, (gpick_split _ _ _ _ _ (cannot_skipped _ _ Hf)); rewrite Hd; [reflexivity|].
  destruct k; try reflexivity. congruence.
Qed.
(* every list of defaults falls under one of the three *)
Lemma defaults_cases : forall ds toks,
  (Forall (cannot toks) ds) \/
  (exists ds1 d ds2 a, ds = ds1 ++ d :: ds2 /\ Forall (cannot toks) ds1 /\ parse (b_fmt d) (b_lenient d) toks = Ok a) \/
  (exists ds1 d ds2 k, ds = ds1 ++ d :: ds2 /\ Forall (cannot toks) ds1 /\ parse (b_fmt d) (b_lenient d) toks = Err k /\ k <> CannotParse).
Proof.
  induction ds as [|d r IH]; intros toks; [left; constructor|].
  destruct (parse (b_fmt d) (b_lenient d) toks) as [a|k] eqn:E.
  - right. left. exists [], d, r, a. repeat split; auto.
  - assert (k = CannotParse \/ k <> CannotParse) as [->|Hk] by (destruct k; auto; right; discriminate).
    + destruct (IH toks) as [H|[(ds1 & d' & ds2 & a & -> & H1 & H2)|(ds1 & d' & ds2 & k & -> & H1 & H2 & H3)]].
      * left. constructor; assumption.
      * right. left. exists (d :: ds1), d', ds2, a. repeat split; auto; try (constructor; assumption).
      * right. right. exists (d :: ds1), d', ds2, k. repeat split; auto; try (constructor; assumption).
    + right. right. exists [], d, r, k. repeat split; auto.
Qed.

