(* "help <path>", "<path> --help" and "<path> -h" resolve to the same help target (C13), for every application built
   from a configuration whose global options define the help switch the way DefaultApplicationConfig does
   (long name "help", short name "h", no value), commands with default sub-commands included, with no hypothesis on
   what the parser answers.

   The reason: every command format extends the global format, so the switch is an option of every format the
   resolver parses with; a line of plain tokens followed by the switch is then parsed exactly like the line without
   it, plus one stored flag - same success, same error - under the command's own leniency (the probe of the default
   sub-commands) as well as leniently (the parse of the command picked).

   On the way: dict.update read at one key; the builder one element at a time (add_elem, add_elements_inv); the token
   loop over plain tokens; and what the other Help* files and ResolverAliasFullLemmas build on - tree_ok (a property of
   every format of a built tree), cmd_ind', build_cmd_inv / build_app_inv, Section Build. *)
From Coq Require Import Lia.
From Clikit Require Import Base.Prelude Base.Res Model.Conv Model.Flags Model.Format Model.Parser Model.Resolver
     Model.Switches Proofs.StrLemmas Proofs.ListLemmas Proofs.DictLemmas Proofs.FormatLemmas Proofs.ParserLemmas
     Proofs.ResolverLemmas Proofs.ResolverAliasLemmas Proofs.HelpTargetLemmas.
From Clikit Require Proofs.FormatWfLemmas.


Definition add_elem (f : fmt) (e : element) : res fmt :=
  match e with
  | EOpt o => add_option f o | ECOpt c => add_command_option f c
  | EArg a => add_argument f a | ECName c => add_command_name f c
  end.
Lemma add_elements_cons f e r : add_elements f (e :: r) = (do f' <- add_elem f e; add_elements f' r).
Proof. destruct e; reflexivity. Qed.
Lemma add_elements_inv (P : fmt -> Prop) :
  (forall f e f', P f -> add_elem f e = Ok f' -> P f') ->
  forall es f f', P f -> add_elements f es = Ok f' -> P f'.
Proof.
  intros Hstep. induction es as [|e r IH]; intros f f' Hf H.
  - cbn in H. inversion H; subst. exact Hf.
  - rewrite add_elements_cons in H. destruct (add_elem f e) as [f1|k] eqn:E; cbn [bind] in H; [|discriminate].
    eapply IH; [|exact H]. eapply Hstep; eauto.
Qed.

Lemma taken_false_own f n : opt_name_taken f n = false ->
  sget n (f_opts f) = None /\ sget n (f_opts_short f) = None /\ has_option_all f n = false.
Proof.
  unfold opt_name_taken. intros H. apply orb_false_elim in H as [H _]. split; [|split; [|exact H]];
    destruct f as [b cn co cs ar os oss hm ho]; cbn [has_option_all f_opts f_opts_short] in *;
    rewrite !shas_sget in H; destruct (sget n os), (sget n oss); try discriminate; reflexivity.
Qed.
Lemma add_option_inv f o f' : add_option f o = Ok f' ->
  opt_name_taken f (o_long o) = false /\ optname_taken f (o_short o) = false /\
  f_opts f' = sset (o_long o) o (f_opts f) /\
  f_opts_short f' = match o_short o with Some s => sset s o (f_opts_short f) | None => f_opts_short f end /\
  f_base f' = f_base f.
Proof.
  unfold add_option. destruct (opt_name_taken f (o_long o)); [discriminate|].
  destruct (optname_taken f (o_short o)); [discriminate|].
  destruct f as [b cn co cs ar os oss hm ho]. intros H. inversion H; subst. cbn. repeat split; reflexivity.
Qed.
Lemma add_other_inv f e f' : (forall o, e <> EOpt o) -> add_elem f e = Ok f' ->
  f_opts f' = f_opts f /\ f_opts_short f' = f_opts_short f /\ f_base f' = f_base f.
Proof.
  intros Hne. destruct e as [o|c|a|c]; cbn [add_elem]; [destruct (Hne o eq_refl)| | |].
  - unfold add_command_option.
    repeat match goal with |- (if ?c then _ else _) = _ -> _ => destruct c; [discriminate|] end.
    destruct f. intros H. inversion H; subst. cbn. auto.
  - unfold add_argument.
    repeat match goal with |- (if ?c then _ else _) = _ -> _ => destruct c; [discriminate|] end.
    destruct f. intros H. inversion H; subst. cbn. auto.
  - destruct f. cbn. intros H. inversion H; subst. cbn. auto.
Qed.

Lemma add_elem_names_wf f e f' : names_wf f -> add_elem f e = Ok f' -> names_wf f'.
Proof.
  intros Hw. destruct e as [o|c|a|c]; cbn [add_elem]; intros H.
  - eapply add_option_keeps_wf; eauto.
  - eapply add_copt_keeps_wf; eauto.
  - unfold add_argument in H.
    repeat match type of H with (if ?c then _ else _) = _ => destruct c; [discriminate|] end.
    destruct f. inversion H; subst. exact Hw.
  - destruct f. cbn in H. inversion H; subst. exact Hw.
Qed.

(* an entry of the long or of the short index stays what it is: a later option with that name is refused *)
Lemma add_elem_keeps_long n v f e f' : sget n (f_opts f) = Some v -> add_elem f e = Ok f' -> sget n (f_opts f') = Some v.
Proof.
  intros Hn H. destruct e as [o|c|a|c]; try (apply add_other_inv in H as (-> & _); [exact Hn|discriminate]).
  apply add_option_inv in H as (Ht & _ & -> & _). apply taken_false_own in Ht as (Ht & _).
  rewrite sget_set. destruct (str_eqb_spec n (o_long o)) as [->|]; [congruence|exact Hn].
Qed.
Lemma add_elem_keeps_short n v f e f' :
  sget n (f_opts_short f) = Some v -> add_elem f e = Ok f' -> sget n (f_opts_short f') = Some v.
Proof.
  intros Hn H. destruct e as [o|c|a|c]; try (apply add_other_inv in H as (_ & -> & _); [exact Hn|discriminate]).
  apply add_option_inv in H as (_ & Ht & _ & -> & _). destruct (o_short o) as [s|]; [|exact Hn].
  cbn [optname_taken] in Ht. apply taken_false_own in Ht as (_ & Ht & _).
  rewrite sget_set. destruct (str_eqb_spec n s) as [->|]; [congruence|exact Hn].
Qed.

(* an option among the elements added is found under its long name, and under its short name in the builder's index:
   it is entered when its turn comes, and the entry stays *)
Lemma add_elements_has es : forall f b o, add_elements f es = Ok b -> In (EOpt o) es ->
  sget (o_long o) (f_opts b) = Some o /\ forall s, o_short o = Some s -> sget s (f_opts_short b) = Some o.
Proof.
  induction es as [|e r IH]; intros f b o H Hin; [destruct Hin|].
  rewrite add_elements_cons in H. destruct (add_elem f e) as [f1|k] eqn:E; cbn [bind] in H; [|discriminate].
  destruct Hin as [->|Hin]; [|eapply IH; eauto].
  cbn [add_elem] in E. apply add_option_inv in E as (_ & _ & Hl & Hs & _). split.
  - apply (add_elements_inv _ (add_elem_keeps_long (o_long o) o) r f1 b); [|exact H]. rewrite Hl. apply sget_set_same.
  - intros s Es. apply (add_elements_inv _ (add_elem_keeps_short s o) r f1 b); [|exact H]. rewrite Hs, Es. apply sget_set_same.
Qed.

(* the builder's invariants: distinct keys; every option listed is indexed under its short name *)
Definition short_indexed (f : fmt) : Prop :=
  forall k o s, In (k, o) (f_opts f) -> o_short o = Some s -> sget s (f_opts_short f) = Some o.
Lemma add_elem_short_indexed f e f' : short_indexed f -> add_elem f e = Ok f' -> short_indexed f'.
Proof.
  intros Hi H. destruct e as [o|c|a|c];
    try (apply add_other_inv in H as (Ho & Hs & _); [|discriminate]; unfold short_indexed; rewrite Ho, Hs; exact Hi).
  apply add_option_inv in H as (_ & Ht & Ho & Hs & _). intros k o2 s Hin Es. rewrite Ho in Hin. rewrite Hs.
  apply in_sset in Hin as [[-> ->]|Hin].
  - rewrite Es. apply sget_set_same.
  - specialize (Hi k o2 s Hin Es). destruct (o_short o) as [s1|]; [|exact Hi].
    cbn [optname_taken] in Ht. apply taken_false_own in Ht as (_ & Ht & _).
    rewrite sget_set. destruct (str_eqb_spec s s1) as [->|]; [congruence|exact Hi].
Qed.
Lemma add_elem_nodup f e f' : NoDup (map fst (f_opts f)) -> add_elem f e = Ok f' -> NoDup (map fst (f_opts f')).
Proof.
  intros Hn H. destruct e as [o|c|a|c];
    try (apply add_other_inv in H as (-> & _); [exact Hn|discriminate]).
  apply add_option_inv in H as (_ & _ & -> & _). now apply sset_nodup.
Qed.

(* ArgsFormat.__init__ rebuilds the short index from the listing *)
Definition reindex (os : list (str * opt)) (acc : list (str * opt)) : list (str * opt) :=
  fold_left (fun d no => match o_short (snd no) with Some s => sset s (snd no) d | None => d end) os acc.
Lemma build_format_short f : f_opts_short (build_format f) = reindex (f_opts f) [].
Proof. destruct f as [b cn co cs ar os oss hm ho]. unfold build_format. destruct (index_copts (map snd co)). reflexivity. Qed.
Lemma reindex_all s o : forall os acc,
  (forall k o2, In (k, o2) os -> o_short o2 = Some s -> o2 = o) ->
  sget s (reindex os acc) = if existsb (fun no => match o_short (snd no) with Some s2 => str_eqb s s2 | None => false end) os
                            then Some o else sget s acc.
Proof.
  unfold reindex. induction os as [|[k o2] r IH]; intros acc Hall; cbn [fold_left existsb snd]; [reflexivity|].
  rewrite IH by (intros k' o' Hin; apply (Hall k' o'); now right).
  destruct (existsb _ r); [now rewrite orb_true_r|]. rewrite orb_false_r.
  destruct (o_short o2) as [s2|] eqn:E2; [|reflexivity].
  rewrite sget_set. destruct (str_eqb_spec s s2) as [->|]; [|reflexivity].
  now rewrite (Hall k o2 (or_introl eq_refl) E2).
Qed.

(* a format built without a base knows the options it was given *)
Lemma built_knows_option es b o :
  add_elements (empty_builder None) es = Ok b -> In (EOpt o) es ->
  has_option_all (build_format b) (o_long o) = true /\ get_option_all (build_format b) (o_long o) = Ok o /\
  forall s, o_short o = Some s ->
    has_option_all (build_format b) s = true /\ get_option_all (build_format b) s = Ok o.
Proof.
  intros Hb Hin. destruct (add_elements_has es _ b o Hb Hin) as [Hl Hs].
  assert (names_wf b) as Hwf.
  { apply (add_elements_inv names_wf add_elem_names_wf es (empty_builder None) b); [|exact Hb]. exact (proj1 empty_builder_wf_none). }
  assert (short_indexed b) as Hsi.
  { apply (add_elements_inv short_indexed add_elem_short_indexed es (empty_builder None) b); [|exact Hb]. intros k o2 s []. }
  pose proof (FormatWfLemmas.add_elements_base' _ _ _ Hb) as Hbase. cbn [empty_builder f_base] in Hbase.
  pose proof (build_format_short b) as Hre. destruct (build_format_same b) as (Hb0 & _ & _ & Ho & _).
  destruct (build_format b) as [b0 cn co cs ar os oss hm ho] eqn:Ebf. cbn [f_base f_opts f_opts_short] in *.
  rewrite Hbase in Hb0. subst b0 os oss. cbn [has_option_all get_option_all]. rewrite !shas_sget, Hl.
  split; [reflexivity|]. split; [reflexivity|]. intros s Es. specialize (Hs s Es). rewrite !shas_sget.
  assert (sget s (reindex (f_opts b) []) = Some o) as Hr.
  { rewrite (reindex_all s o).
    - replace (existsb _ (f_opts b)) with true; [reflexivity|]. symmetry. apply existsb_exists.
      exists (o_long o, o). split; [now apply sget_some_in|]. cbn [snd]. rewrite Es. apply str_eqb_refl.
    - intros k o2 Hk E2. specialize (Hsi k o2 s Hk E2). congruence. }
  destruct (sget s (f_opts b)) as [o1|] eqn:E1.
  - assert (o1 = o) as ->; [|split; reflexivity].
    assert (inl o1 = (inl o : opt + copt)) as Heq; [|now inversion Heq].
    apply (Hwf s); destruct b as [bb bcn bco bcs bar bos boss bhm bho]; cbn [denot f_opts f_opts_short] in *;
      rewrite E1, Hs; cbn; auto.
  - rewrite Hr. split; reflexivity.
Qed.

(* [carries o f]: under o's long name the format f (own level or a base) finds o, and lists o and nothing else *)
Definition carries (o : opt) (f : fmt) : Prop :=
  has_option_all f (o_long o) = true /\ get_option_all f (o_long o) = Ok o /\
  In (o_long o, o) (get_options_all f) /\ (forall v, In (o_long o, v) (get_options_all f) -> v = o).

Lemma carries_base es o g : format_of_elements es None = Ok g -> In (EOpt o) es -> carries o g.
Proof.
  unfold format_of_elements. destruct (add_elements (empty_builder None) es) as [b|k] eqn:Hb; cbn [bind]; [|discriminate].
  intros H Hin. inversion H; subst g. clear H.
  destruct (built_knows_option es b o Hb Hin) as (H1 & H2 & _).
  destruct (add_elements_has es _ b o Hb Hin) as [Hl _].
  assert (NoDup (map fst (f_opts b))) as Hnd.
  { apply (add_elements_inv (fun f => NoDup (map fst (f_opts f))) add_elem_nodup es (empty_builder None) b); [constructor|exact Hb]. }
  pose proof (FormatWfLemmas.add_elements_base' _ _ _ Hb) as Hbase. cbn [empty_builder f_base] in Hbase.
  split; [exact H1|]. split; [exact H2|].
  destruct (build_format_same b) as (Hb0 & _ & _ & Ho & _).
  destruct (build_format b) as [b0 cn co cs ar os oss hm ho]. cbn [f_base f_opts] in Hb0, Ho. rewrite Hbase in Hb0. subst b0 os.
  cbn [get_options_all]. split; [now apply sget_some_in|].
  intros v Hv. apply (sget_of_in _ _ _ Hnd) in Hv. congruence.
Qed.

Lemma has_option_base f bf n : f_base f = Some bf -> has_option_all bf n = true -> has_option_all f n = true.
Proof. destruct f as [b cn co cs ar os oss hm ho]. cbn. intros -> ->. now rewrite orb_true_r. Qed.
Lemma reindex_none n : forall os acc,
  (forall k o2, In (k, o2) os -> o_short o2 <> Some n) -> sget n (reindex os acc) = sget n acc.
Proof.
  unfold reindex. induction os as [|[k o2] r IH]; intros acc Hall; cbn [fold_left snd]; [reflexivity|].
  rewrite IH by (intros k' o' Hin; apply (Hall k' o'); now right).
  destruct (o_short o2) as [s2|] eqn:E2; [|reflexivity].
  rewrite sget_set. destruct (str_eqb_spec n s2) as [->|]; [|reflexivity].
  exfalso. exact (Hall k o2 (or_introl eq_refl) E2).
Qed.

Lemma carries_step es o bf f : carries o bf -> format_of_elements es (Some bf) = Ok f -> carries o f.
Proof.
  intros (B1 & B2 & B3 & B4). unfold format_of_elements.
  destruct (add_elements (empty_builder (Some bf)) es) as [b|k] eqn:Hb; cbn [bind]; [|discriminate].
  intros H. inversion H; subst f. clear H. set (n := o_long o) in *.
  (* the base owns the name n, so add_option refuses n as a long and as a short name: the level being built on top
     never lists n, nor an option whose short name is n *)
  assert (f_base b = Some bf /\ sget n (f_opts b) = None /\ forall k o2, In (k, o2) (f_opts b) -> o_short o2 <> Some n) as (I1 & I2 & I3).
  { apply (add_elements_inv (fun f => f_base f = Some bf /\ sget n (f_opts f) = None /\
                                     forall k o2, In (k, o2) (f_opts f) -> o_short o2 <> Some n))
      with (es := es) (f := empty_builder (Some bf)); [|cbn; repeat split; auto|exact Hb].
    intros f e f' (J1 & J2 & J3) He.
    destruct e as [o3|c|a|c];
      try (apply add_other_inv in He as (-> & _ & ->); [auto|discriminate]).
    apply add_option_inv in He as (Hl & Hs & -> & _ & ->).
    pose proof (has_option_base f bf n J1 B1) as Hhas.
    apply taken_false_own in Hl as (_ & _ & Hl).
    assert (o_long o3 <> n) as Hn1 by (intros E; rewrite E in Hl; congruence).
    assert (o_short o3 <> Some n) as Hn2.
    { intros E. rewrite E in Hs. cbn [optname_taken] in Hs. apply taken_false_own in Hs as (_ & _ & Hs). congruence. }
    split; [exact J1|]. split.
    - rewrite sget_set. destruct (str_eqb_spec n (o_long o3)); [congruence|exact J2].
    - intros k o2 Hin. apply in_sset in Hin as [[-> ->]|Hin]; [exact Hn2|eapply J3; eauto]. }
  pose proof (build_format_short b) as Hre. destruct (build_format_same b) as (Hb0 & _ & _ & Ho & _).
  destruct (build_format b) as [b0 cn co cs ar os oss hm ho]. cbn [f_base f_opts f_opts_short] in Hb0, Ho, Hre.
  rewrite I1 in Hb0. subst b0 os oss. unfold carries. fold n. cbn [has_option_all get_option_all get_options_all].
  rewrite B1, B2, I2, (reindex_none n _ [] I3), !orb_true_r. cbn [sget aget].
  split; [reflexivity|]. split; [reflexivity|]. apply supdate_carry; assumption.
Qed.

(* Option.NO_VALUE, as validated by C07: no value accepted, none required, not multi-valued *)
Definition no_value (o : opt) : Prop := o_accepts o = false /\ o_required o = false /\ o_multi o = false.
(* sw is a spelling of the help switch o: "--help", or "-h" if o has that short name *)
Definition help_switch_of (o : opt) (sw : str) : Prop :=
  o_long o = S_help /\ (sw = T_help \/ (sw = T_h /\ o_short o = Some [104%N])).

(* same success, same error *)
Definition same_ok {X} (r1 r2 : res X) : Prop :=
  match r1 with Ok _ => exists x, r2 = Ok x | Err k => r2 = Err k end.

(* the augmented format the token loop runs on knows the switch *)
Lemma aug_knows f o F ars cns : carries o f -> aug_format f = Ok (F, ars, cns) ->
  has_option_all F (o_long o) = true /\ get_option_all F (o_long o) = Ok o /\
  forall s, o_short o = Some s -> has_option_all F s = true /\ get_option_all F s = Ok o.
Proof.
  intros (_ & _ & Hin & _). unfold aug_format. cbv zeta.
  match goal with |- (do f' <- format_of_elements ?es None; _) = _ -> _ =>
    set (ES := es); destruct (format_of_elements ES None) as [f1|k] eqn:E; cbn [bind]; [|discriminate] end.
  intros H. inversion H; subst. clear H. unfold format_of_elements in E.
  destruct (add_elements (empty_builder None) ES) as [b|k] eqn:Hb; cbn [bind] in E; [|discriminate].
  inversion E; subst F. apply (built_knows_option ES b o Hb).
  unfold ES. apply in_or_app. right. apply in_or_app. right.
  apply in_map_iff. exists (o_long o, o). split; [reflexivity|exact Hin].
Qed.

Lemma starts_dd_dash t : starts_dash t = false -> starts_dd t = false.
Proof. destruct t as [|a [|b r]]; cbn; try reflexivity. intros ->. reflexivity. Qed.
Lemma lead_ok_step F len fuel st t rest : lead_ok t = true ->
  loop (S fuel) F len true st (t :: rest) =
  match parse_argument F len st t with Ok st' => loop fuel F len true st' rest | Err k => (st, Some k) end.
Proof.
  unfold lead_ok. intros H. apply andb_prop in H as [H H3]. apply andb_prop in H as [H1 H2].
  destruct (starts_dash t) eqn:Hd; [discriminate|]. destruct (is_dd t) eqn:Hdd; [discriminate|].
  cbn [loop]. rewrite H1, Hdd, Hd, (starts_dd_dash t Hd). reflexivity.
Qed.
Lemma parse_argument_opts F len st t st' : parse_argument F len st t = Ok st' -> ps_opts st' = ps_opts st.
Proof.
  unfold parse_argument. destruct (has_argument F (APos (Z.of_nat (length (ps_args st)))) true).
  - destruct (get_argument F _ true) as [a|k]; cbn [bind]; [|discriminate].
    destruct (a_multi a); intros H; inversion H; reflexivity.
  - destruct (has_argument F (APos (Z.of_nat (length (ps_args st)) - 1)) true).
    + destruct (get_argument F _ true) as [a|k]; cbn [bind]; [|discriminate].
      destruct (a_multi a); [intros H; inversion H; reflexivity|].
      destruct len; intros H; inversion H; reflexivity.
    + destruct len; intros H; inversion H; reflexivity.
Qed.

Section Switch.
  Variables (F : fmt) (o : opt).
  Hypothesis Hlong : o_long o = S_help.
  Hypothesis Hnv : no_value o.
  Hypothesis Hhas : has_option_all F S_help = true.
  Hypothesis Hget : get_option_all F S_help = Ok o.

  Lemma add_long_switch st :
    exists v, add_long_option F st S_help None [] =
              Ok ({| ps_args := ps_args st; ps_opts := sset S_help v (ps_opts st) |}, []).
  Proof.
    destruct Hnv as (Ha & Hr & Hm). unfold add_long_option. cbn [has_option get_option].
    rewrite Hhas, Hget. cbn [negb bind]. rewrite Ha, Hr, Hm. eexists. reflexivity.
  Qed.
  Lemma long_switch st :
    exists v, parse_long_option F st T_help [] =
              Ok ({| ps_args := ps_args st; ps_opts := sset S_help v (ps_opts st) |}, []).
  Proof.
    destruct Hnv as (Ha & _). unfold parse_long_option. change (skipn 2 T_help) with S_help.
    change (split_eq S_help []) with (@None (str * str)). unfold accepts. cbn [has_option get_option].
    rewrite Hhas, Hget, Ha. cbn [andb]. apply add_long_switch.
  Qed.
  Lemma short_switch st :
    has_option_all F [104%N] = true -> get_option_all F [104%N] = Ok o ->
    exists v, parse_short_option F st T_h [] =
              (Ok ({| ps_args := ps_args st; ps_opts := sset S_help v (ps_opts st) |}, []),
               {| ps_args := ps_args st; ps_opts := sset S_help v (ps_opts st) |}).
  Proof.
    intros Hh Hg. destruct Hnv as (Ha & _). unfold parse_short_option. change (skipn 1 T_h) with [104%N].
    unfold accepts. cbn [has_option get_option]. rewrite Hh, Hg, Ha. cbn [andb].
    unfold add_short_option. cbn [has_option get_option]. rewrite Hh, Hg. cbn [negb bind]. rewrite Hlong.
    destruct (add_long_switch st) as [v ->]. exists v. reflexivity.
  Qed.

  Variable sw : str.
  Hypothesis Hsw : sw = T_help \/ (sw = T_h /\ has_option_all F [104%N] = true /\ get_option_all F [104%N] = Ok o).

  Lemma switch_loop len st m :
    exists v, loop (S (S m)) F len true st [sw] =
              ({| ps_args := ps_args st; ps_opts := sset S_help v (ps_opts st) |}, None).
  Proof.
    destruct Hsw as [->|(-> & Hh & Hg)].
    - destruct (long_switch st) as [v Hv]. exists v. cbn [loop].
      change (true && negb (nonempty T_help)) with false. change (true && is_dd T_help) with false.
      change (true && starts_dd T_help) with true. cbv iota. rewrite Hv. reflexivity.
    - destruct (short_switch st Hh Hg) as [v Hv]. exists v. cbn [loop].
      change (true && negb (nonempty T_h)) with false. change (true && is_dd T_h) with false.
      change (true && starts_dd T_h) with false.
      change (true && starts_dash T_h && negb (str_eqb T_h [DASH])) with true. cbv iota. rewrite Hv. reflexivity.
  Qed.

  (* the loop over plain tokens leaves the options alone; with the switch behind them it ends in the same error, or
     in the same state plus the stored switch *)
  Lemma loop_suffix len : forall path fuel st, forallb lead_ok path = true -> length path < fuel ->
    ps_opts (fst (loop fuel F len true st path)) = ps_opts st /\
    match snd (loop fuel F len true st path) with
    | None => exists v, loop (S fuel) F len true st (path ++ [sw]) =
                        ({| ps_args := ps_args (fst (loop fuel F len true st path));
                            ps_opts := sset S_help v (ps_opts st) |}, None)
    | Some k => loop (S fuel) F len true st (path ++ [sw]) = (fst (loop fuel F len true st path), Some k)
    end.
  Proof.
    induction path as [|t r IH]; intros fuel st Hl Hf.
    - destruct fuel as [|m]; [cbn in Hf; lia|]. cbn [loop fst snd app]. split; [reflexivity|]. apply switch_loop.
    - destruct fuel as [|m]; [cbn in Hf; lia|]. cbn [length] in Hf. cbn [forallb] in Hl.
      apply andb_prop in Hl as [Ht Hr]. cbn [app]. rewrite !(lead_ok_step _ _ _ _ _ _ Ht).
      destruct (parse_argument F len st t) as [st'|k] eqn:Ep; [|cbn [fst snd]; auto].
      destruct (IH m st' Hr ltac:(lia)) as [I1 I2]. rewrite (parse_argument_opts _ _ _ _ _ Ep) in I1, I2.
      split; [exact I1|exact I2].
  Qed.
End Switch.

Lemma insert_missing_swap A C len st X :
  insert_missing A C len {| ps_args := ps_args st; ps_opts := X |} =
  match insert_missing A C len st with
  | Ok st2 => Ok {| ps_args := ps_args st2; ps_opts := X |}
  | Err k => Err k end.
Proof.
  unfold insert_missing. cbn [ps_args ps_opts]. destruct (skip_names (flatten (ps_args st)) C 0) as [[vals' cns'] k].
  destruct (copy_values vals' _ len _); reflexivity.
Qed.

(* over plain tokens the token loop stops only on a refused argument in strict mode (or on an error that is never ignored) *)
Definition hard_error (len : bool) (k : ekind) : Prop :=
  (k = CannotParse /\ len = false) \/ (k <> CannotParse /\ k <> NoSuchOption).
Lemma get_argument_err F r k : get_argument F r true = Err k -> k <> CannotParse /\ k <> NoSuchOption.
Proof.
  unfold get_argument. destruct r as [n|i].
  - destruct (sget n _); intros H; inversion H; split; discriminate.
  - destruct (_ <=? i)%Z; [intros H; inversion H; split; discriminate|].
    destruct (i <? 0)%Z; [intros H; inversion H; split; discriminate|].
    destruct (nth_error _ _) as [[? ?]|]; intros H; inversion H; split; discriminate.
Qed.
Lemma parse_argument_err F len st t k : parse_argument F len st t = Err k -> hard_error len k.
Proof.
  unfold parse_argument, hard_error. destruct (has_argument F (APos (Z.of_nat (length (ps_args st)))) true).
  - destruct (get_argument F _ true) as [a|k0] eqn:E; cbn [bind].
    + destruct (a_multi a); discriminate.
    + intros H. inversion H; subst. right. eapply get_argument_err; eauto.
  - destruct (has_argument F (APos (Z.of_nat (length (ps_args st)) - 1)) true).
    + destruct (get_argument F _ true) as [a|k0] eqn:E; cbn [bind].
      * destruct (a_multi a); [discriminate|]. destruct len; [discriminate|]. intros H. inversion H. now left.
      * intros H. inversion H; subst. right. eapply get_argument_err; eauto.
    + destruct len; [discriminate|]. intros H. inversion H. now left.
Qed.
Lemma loop_plain_err F len : forall path fuel st k, forallb lead_ok path = true ->
  snd (loop fuel F len true st path) = Some k -> hard_error len k.
Proof.
  assert (forall path st k, snd (loop 0 F len true st path) = Some k -> hard_error len k) as Hout
    by (intros path st k H; inversion H; right; split; discriminate).   (* out of fuel: Other 98 *)
  induction path as [|t r IH]; intros fuel st k Hl; (destruct fuel as [|m]; [apply Hout|]).
  - cbn. discriminate.
  - cbn [forallb] in Hl. apply andb_prop in Hl as [Ht Hr]. rewrite (lead_ok_step _ _ _ _ _ _ Ht).
    destruct (parse_argument F len st t) as [st'|k0] eqn:Ep.
    + apply IH. exact Hr.
    + cbn [snd]. intros H. inversion H; subst. eapply parse_argument_err; eauto.
Qed.

Lemma set_argument_opts f a n v a' : set_argument f a n v = Ok a' -> ar_opts a' = ar_opts a.
Proof.
  unfold set_argument. destruct (get_argument f (AName n) true) as [ar|k]; cbn [bind]; [|discriminate].
  match goal with |- (do pv <- ?X; _) = _ -> _ => destruct X as [pv|k]; cbn [bind]; [|discriminate] end.
  intros H. inversion H. reflexivity.
Qed.
Lemma set_arguments_opts f : forall l a a', set_arguments f a l = Ok a' -> ar_opts a' = ar_opts a.
Proof.
  induction l as [|[n v] r IH]; intros a a'; cbn [set_arguments]; [intros H; inversion H; reflexivity|].
  destruct (has_argument f (AName n) true); [|apply IH].
  destruct (set_argument f a n v) as [a1|k] eqn:E; cbn [bind]; [|discriminate].
  intros H. rewrite (IH _ _ H). eapply set_argument_opts; eauto.
Qed.

(* the parse of <plain tokens> <switch> is the parse of <plain tokens> - same error, same arguments - with the switch as
   the one option set *)
Lemma parse_switch_eq f o sw len path :
  carries o f -> no_value o -> help_switch_of o sw -> forallb lead_ok path = true ->
  parse f len (path ++ [sw]) =
  match parse f len path with Ok x => Ok {| ar_opts := [(S_help, VBool true)]; ar_args := ar_args x |} | Err k => Err k end.
Proof.
  intros Hc Hnv [Hlong Hsw] Hl. unfold parse, parse_on.
  destruct (aug_format f) as [[[F ars] cns]|k] eqn:Ea; [|reflexivity].
  destruct (aug_knows f o F ars cns Hc Ea) as (A1 & A2 & A3). rewrite Hlong in A1, A2.
  assert (sw = T_help \/ (sw = T_h /\ has_option_all F [104%N] = true /\ get_option_all F [104%N] = Ok o)) as Hsw'.
  { destruct Hsw as [->|[-> Hs]]; [now left|right]. destruct (A3 _ Hs). auto. }
  destruct (loop_suffix F o Hlong Hnv A1 A2 sw Hsw' len path (S (length path)) ps_empty Hl ltac:(lia)) as [L1 L2].
  pose proof (loop_plain_err F len path (S (length path)) ps_empty) as Herr.
  replace (S (length (path ++ [sw]))) with (S (S (length path))) by (rewrite app_length; cbn; lia).
  destruct (loop (S (length path)) F len true ps_empty path) as [st1 e]. cbn [fst snd] in L1, L2, Herr.
  destruct e as [k|].
  - (* the loop stopped on the path, on an error leniency does not swallow *)
    rewrite L2. destruct (Herr k Hl eq_refl) as [[-> ->]|[N1 N2]]; [reflexivity|].
    destruct k; try reflexivity; congruence.
  - destruct L2 as [v ->]. cbn [ps_opts ps_empty]. cbv iota.
    rewrite (insert_missing_swap ars cns len st1).
    pose proof (insert_missing_spec ars cns len st1) as Hi.
    destruct (insert_missing ars cns len st1) as [st2|k]; [|reflexivity].
    unfold missing_required. cbn [ps_args].
    destruct (existsb _ ars && negb len); [reflexivity|]. cbn [snd ps_args ps_opts].
    rewrite Hi, L1. cbn [ps_opts ps_empty].
    destruct (set_arguments f {| ar_opts := []; ar_args := [] |} (ps_args st2)) as [a1|k] eqn:Es; cbn [bind]; [|reflexivity].
    apply set_arguments_opts in Es. cbn [ar_opts] in Es.
    destruct Hc as (C1 & C2 & _). rewrite Hlong in C1, C2. destruct Hnv as (Ha & _ & Hm).
    change (sset S_help v []) with [(S_help, v)]. cbn [set_options has_option]. rewrite C1.
    unfold set_option. cbn [get_option]. rewrite C2. cbn [bind]. rewrite Hm, Ha. cbn [bind].
    rewrite Hlong, Es. reflexivity.
Qed.
(* ... so it succeeds exactly when the parse of <plain tokens> does, and fails alike *)
Lemma parse_switch f o sw len path :
  carries o f -> no_value o -> help_switch_of o sw -> forallb lead_ok path = true ->
  same_ok (parse f len path) (parse f len (path ++ [sw])).
Proof. intros Hc Hnv Hsw Hl. rewrite (parse_switch_eq f o sw len path Hc Hnv Hsw Hl). destruct (parse f len path); cbn; eauto. Qed.

(* every format of the command and of its sub-commands, at any depth, satisfies P *)
Fixpoint tree_ok (P : fmt -> Prop) (b : bcmd) : Prop :=
  match b with BCmd _ _ _ _ _ f subs =>
    P f /\ (fix go (l : list bcmd) : Prop := match l with [] => True | x :: r => tree_ok P x /\ go r end) subs end.
Lemma tree_ok_unfold P b : tree_ok P b <-> P (b_fmt b) /\ Forall (tree_ok P) (b_subs b).
Proof.
  destruct b as [n al d an len f subs]. cbn [tree_ok b_fmt b_subs]. split; intros [H1 H2]; (split; [exact H1|]).
  - induction subs as [|x r IH]; constructor; [apply H2|apply IH, H2].
  - induction subs as [|x r IH]; [exact I|]. inversion H2; subst. split; [assumption|apply IH; assumption].
Qed.

Lemma coll_get_in l n b : coll_get (coll_of l) n = Ok b -> In b l.
Proof. intros H. exact (proj1 (find_name l _ b (coll_get_find l n b H))). Qed.
Lemma named_get_in l n b : coll_get (named_of l) n = Ok b -> In b l.
Proof. intros H. apply coll_get_in in H. now apply filter_In in H as [H _]. Qed.
Lemma defaults_of_in l d : In d (defaults_of l) -> In d l.
Proof.
  unfold defaults_of. intros H. apply in_map_iff in H as [[k x] [<- H]]. apply coll_of_in, find_name in H as [H _].
  now apply filter_In in H as [H _].
Qed.

(* the command the walk reaches is in the tree *)
Lemma walk_tree_ok P : forall names l cur b p,
  Forall (tree_ok P) l -> (forall b0 p0, cur = Some (b0, p0) -> tree_ok P b0) ->
  walk (named_of l) cur names = Ok (Some (b, p)) -> tree_ok P b.
Proof.
  induction names as [|n r IH]; intros l cur b p Hl Hcur H; [inversion H; eapply Hcur; eauto|].
  apply walk_cons_inv in H as [[_ E]|(b0 & _ & Hg & H)]; [eapply Hcur; eauto|].
  apply named_get_in in Hg. pose proof (proj1 (Forall_forall _ _) Hl b0 Hg) as Hb0.
  revert H. apply IH; [apply tree_ok_unfold, Hb0|]. intros b1 p1 E. inversion E; subst. exact Hb0.
Qed.

(* The probe of the default (sub-)commands on two lines that every default parses alike. *)
Section Pick.
  Variables t1 t2 : list str.
  Let Q (d : bcmd) : Prop := forall len, same_ok (parse (b_fmt d) len t1) (parse (b_fmt d) len t2).

  Lemma help_lenient_same f : same_ok (parse f true t1) (parse f true t2) -> help_lenient f t1 = help_lenient f t2.
  Proof.
    unfold help_lenient, same_ok. destruct (parse f true t1) as [x|k]; [intros [x2 ->]; reflexivity|intros ->; reflexivity].
  Qed.

  Lemma pick_default_switch : forall ds first1 first2,
    Forall Q ds -> option_map fst first1 = option_map fst first2 -> (forall b k, first1 = Some (b, k) -> Q b) ->
    match help_pick_default ds t1 first1 with
    | Err k => help_pick_default ds t2 first2 = Err k
    | Ok None => help_pick_default ds t2 first2 = Ok None
    | Ok (Some (d, _)) => Q d /\ exists r2, help_pick_default ds t2 first2 = Ok (Some (d, r2))
    end.
  Proof.
    intros ds first1 first2. rewrite !help_pick_gpick. revert first1 first2.
    induction ds as [|d r IH]; intros first1 first2 Hds Hf Hq; cbn [gpick].
    - destruct first1 as [[b1 k1]|], first2 as [[b2 k2]|]; cbn in Hf; try discriminate; [|reflexivity].
      inversion Hf; subst. split; [eapply Hq; eauto|eauto].
    - inversion Hds as [|? ? Hd Hr]; subst. pose proof (Hd (b_lenient d)) as Hp. unfold same_ok in Hp.
      destruct (parse (b_fmt d) (b_lenient d) t1) as [x|k].
      + destruct Hp as [x2 ->]. split; [exact Hd|eauto].
      + rewrite Hp. destruct (is_unfit k); [|reflexivity]. apply IH; [exact Hr| |].
        * destruct first1 as [[b1 k1]|], first2 as [[b2 k2]|]; cbn in Hf |- *; try discriminate; auto.
        * intros b k0 E. destruct first1 as [[b1 k1]|]; [eapply Hq; eauto|]. inversion E; subst. exact Hd.
  Qed.

  (* ... followed by the lenient parse of the command picked *)
  Lemma pick_then_parse {Y} ds (K : bcmd -> Y) (alt1 alt2 : res Y) :
    Forall Q ds -> alt1 = alt2 ->
    (do d <- help_pick_default ds t1 None;
     match d with Some (dc, _) => do x <- help_lenient (b_fmt dc) t1; Ok (K dc) | None => alt1 end) =
    (do d <- help_pick_default ds t2 None;
     match d with Some (dc, _) => do x <- help_lenient (b_fmt dc) t2; Ok (K dc) | None => alt2 end).
  Proof.
    intros Hds <-. pose proof (pick_default_switch ds None None Hds eq_refl ltac:(discriminate)) as H.
    destruct (help_pick_default ds t1 None) as [[[d r1]|]|k].
    - destruct H as [Hd [r2 ->]]. cbn [bind]. now rewrite (help_lenient_same (b_fmt d) (Hd true)).
    - rewrite H. reflexivity.
    - rewrite H. reflexivity.
  Qed.
End Pick.

Theorem help_same_target_app a o sw path :
  Forall (tree_ok (carries o)) (ap_cmds a) -> no_value o -> help_switch_of o sw ->
  forallb lead_ok path = true ->
  (match path with t :: _ => str_eqb t S_help = false | [] => True end) ->
  help_target a (S_help :: path) = help_target a (path ++ [sw]).
Proof.
  intros Ht Hnv Hsw Hl Hh. rewrite help_word_dropped by exact Hh.
  assert (str_eqb sw S_help = false /\ stopper sw = true) as [Hs1 Hs2].
  { destruct Hsw as [_ [->|[-> _]]]; split; reflexivity. }
  assert (forall l, Forall (tree_ok (carries o)) l ->
            Forall (fun d => forall len, same_ok (parse (b_fmt d) len path) (parse (b_fmt d) len (path ++ [sw])))
                   (defaults_of l)) as Hdefs.
  { intros l Hall. apply Forall_forall. intros d Hd len. apply defaults_of_in in Hd.
    pose proof (proj1 (Forall_forall _ _) Hall d Hd) as Hd'. apply tree_ok_unfold in Hd' as [Hc _].
    apply (parse_switch _ o); assumption. }
  unfold help_target. fold (skip_help_word path) (skip_help_word (path ++ [sw])).
  rewrite (skip_help_word_id path Hh), (skip_help_word_id (path ++ [sw])) by (destruct path; [exact Hs1|exact Hh]).
  rewrite (leading_all _ Hl), (leading_cut _ sw [] Hl Hs2).
  destruct (walk (named_of (ap_cmds a)) None path) as [[[b p]|]|k] eqn:Hw; cbn [bind]; [| |reflexivity].
  - pose proof (walk_tree_ok (carries o) path (ap_cmds a) None b p Ht ltac:(discriminate) Hw) as Hb.
    apply tree_ok_unfold in Hb as [Hc Hsubs].
    apply (pick_then_parse path (path ++ [sw]) (defaults_of (b_subs b)) (fun dc => p ++ [b_name dc])); [apply Hdefs, Hsubs|].
    now rewrite (help_lenient_same path (path ++ [sw]) (b_fmt b) (parse_switch _ o sw true path Hc Hnv Hsw Hl)).
  - destruct path as [|t r]; [|reflexivity].
    apply (pick_then_parse [] ([] ++ [sw]) (defaults_of (ap_cmds a)) (fun dc => [b_name dc])); [apply Hdefs, Ht|reflexivity].
Qed.

Lemma cmd_ind' (P : cmd -> Prop) :
  (forall name al d an en len opts args subs, Forall P subs -> P (Cmd name al d an en len opts args subs)) ->
  forall c, P c.
Proof.
  intros H. fix F 1. intros [name al d an en len opts args subs]. apply H.
  induction subs as [|s r IHr]; constructor; [apply F|exact IHr].
Qed.

Definition cmd_enabled (c : cmd) : bool := let '(Cmd _ _ _ _ en _ _ _ _) := c in en.
Definition build_subs_of (f : fmt) : list cmd -> res (list bcmd) :=
  fix build_subs (l : list cmd) : res (list bcmd) :=
    match l with
    | [] => Ok []
    | (Cmd _ _ _ _ en _ _ _ _ as s) :: r =>
      if en then (do b <- build_cmd (Some f) s; do bs <- build_subs r; Ok (b :: bs)) else build_subs r
    end.
Lemma build_subs_cons f s r :
  build_subs_of f (s :: r) =
  if cmd_enabled s then (do b <- build_cmd (Some f) s; do bs <- build_subs_of f r; Ok (b :: bs)) else build_subs_of f r.
Proof. destruct s. reflexivity. Qed.
Lemma build_cmd_eq base name al d an en len opts args subs :
  build_cmd base (Cmd name al d an en len opts args subs) =
  (do f <- format_of_elements (cmd_elements name al an opts args) base;
   do bs <- build_subs_of f subs; Ok (BCmd name al d an len f bs)).
Proof. reflexivity. Qed.

(* What a built tree is made of: the enabled commands of the configuration, each built on the format one level up.
   Every invariant of the tree (carries, ResolverAliasFullLemmas.cn_tree) is an induction over cmd_ind' through these. *)
Definition built_on (f : fmt) (c : cmd) (b : bcmd) : Prop := build_cmd (Some f) c = Ok b.
Lemma build_subs_inv f : forall subs bs, build_subs_of f subs = Ok bs -> Forall2 (built_on f) (filter cmd_enabled subs) bs.
Proof.
  induction subs as [|s r IH]; intros bs H; [inversion H; constructor|].
  rewrite build_subs_cons in H. cbn [filter]. destruct (cmd_enabled s); [|now apply IH].
  bind_inv H b Hb. bind_inv H bs' Hbs. inversion H; subst. constructor; [exact Hb|now apply IH].
Qed.
Lemma build_cmd_inv base name al d an en len opts args subs b :
  build_cmd base (Cmd name al d an en len opts args subs) = Ok b ->
  exists f bs, format_of_elements (cmd_elements name al an opts args) base = Ok f /\
               b = BCmd name al d an len f bs /\ Forall2 (built_on f) (filter cmd_enabled subs) bs.
Proof.
  rewrite build_cmd_eq. intros H. bind_inv H f Hf. bind_inv H bs Hbs. inversion H; subst.
  exists f, bs. split; [exact Hf|]. split; [reflexivity|]. now apply build_subs_inv.
Qed.
Lemma build_cmds_inv g : forall l seen cs, build_cmds g seen l = Ok cs -> Forall2 (built_on g) (filter cmd_enabled l) cs.
Proof.
  induction l as [|c r IH]; intros seen cs H; [inversion H; constructor|].
  destruct c as [name al d an en len opts args subs]. cbn [build_cmds filter cmd_enabled] in *.
  destruct en; cbn [negb] in H; [|now apply IH in H]. destruct name as [|ch name]; [discriminate|].
  destruct (existsb _ seen); [discriminate|]. bind_inv H b Hb. bind_inv H bs Hbs. inversion H; subst.
  constructor; [exact Hb|now apply IH in Hbs].
Qed.
Lemma build_app_inv cfg a : build_app cfg = Ok a ->
  format_of_elements (map EArg (ac_args cfg) ++ map EOpt (ac_opts cfg)) None = Ok (ap_global a) /\
  Forall2 (built_on (ap_global a)) (filter cmd_enabled (ac_cmds cfg)) (ap_cmds a).
Proof.
  unfold build_app. intros H. bind_inv H g Hg. bind_inv H cs Hcs. inversion H; subst. cbn [ap_global ap_cmds].
  split; [exact Hg|]. now apply build_cmds_inv in Hcs.
Qed.
(* what holds of every command built from an enabled one of the list holds of all the commands built *)
Lemma built_all f (Q : bcmd -> Prop) l bs :
  Forall2 (built_on f) (filter cmd_enabled l) bs -> (forall c b, In c l -> built_on f c b -> Q b) -> Forall Q bs.
Proof.
  intros H HQ. assert (forall c, In c (filter cmd_enabled l) -> In c l) as Hin by (intros c Hc; now apply filter_In in Hc).
  induction H as [|c b l' bs' Hcb _ IH]; constructor; [apply (HQ c b); [apply Hin; now left|exact Hcb]|].
  apply IH. intros c' Hc'. apply Hin. now right.
Qed.

Lemma built_in f l bs c : Forall2 (built_on f) (filter cmd_enabled l) bs -> In c l -> cmd_enabled c = true ->
  exists b, In b bs /\ built_on f c b.
Proof.
  intros H Hin Hen. apply (Forall2_in_l _ _ _ _ H), filter_In. auto.
Qed.

(* A property P of formats that passes from a format to the format of a command built on it holds of the whole tree
   built; V is a condition on the commands of the configuration that holds of the sub-commands with the command. *)
Section Build.
  Variables (P : fmt -> Prop) (V : cmd -> bool).
  Hypothesis Vsubs : forall name al d an en len opts args subs,
    V (Cmd name al d an en len opts args subs) = true -> forallb V subs = true.
  Hypothesis Hstep : forall name al d an en len opts args subs bf f, V (Cmd name al d an en len opts args subs) = true ->
    P bf -> format_of_elements (cmd_elements name al an opts args) (Some bf) = Ok f -> P f.

  Lemma build_cmd_ok : forall c base b, V c = true -> P base -> build_cmd (Some base) c = Ok b -> tree_ok P b.
  Proof.
    induction c as [name al d an en len opts args subs IH] using cmd_ind'. intros base b Hv Hb H.
    apply build_cmd_inv in H as (f & bs & Ef & -> & Hbs). pose proof (Hstep _ _ _ _ _ _ _ _ _ _ _ Hv Hb Ef) as Hf.
    apply tree_ok_unfold. split; [exact Hf|]. apply (built_all f _ subs bs Hbs).
    intros s b' Hs. exact (proj1 (Forall_forall _ _) IH s Hs f b' (proj1 (forallb_forall _ _) (Vsubs _ _ _ _ _ _ _ _ _ Hv) s Hs) Hf).
  Qed.
  Lemma build_app_ok cfg a : build_app cfg = Ok a -> forallb V (ac_cmds cfg) = true -> P (ap_global a) ->
    Forall (tree_ok P) (ap_cmds a).
  Proof.
    intros H Hv Hg. apply build_app_inv in H as [_ H]. apply (built_all _ _ _ _ H).
    intros c b Hc. apply build_cmd_ok; [exact (proj1 (forallb_forall _ _) Hv c Hc)|exact Hg].
  Qed.
End Build.

(* an option among the global options of the configuration is carried by the format of every command *)
Theorem build_app_carries cfg a o :
  build_app cfg = Ok a -> In o (ac_opts cfg) -> Forall (tree_ok (carries o)) (ap_cmds a).
Proof.
  intros H Hin. apply (build_app_ok (carries o) (fun _ => true)) with (cfg := cfg); [| |exact H| |].
  - intros. now apply forallb_forall.
  - intros name al d an en len opts args subs bf f _. apply carries_step.
  - now apply forallb_forall.
  - apply build_app_inv in H as [Hg _]. apply (carries_base _ o _ Hg). apply in_or_app. right. now apply in_map.
Qed.

(* the global help option as DefaultApplicationConfig defines it: add_option("help", "h", Option.NO_VALUE, ...) *)
Definition is_help_option (o : opt) : bool :=
  str_eqb (o_long o) S_help && match o_short o with Some s => str_eqb s [104%N] | None => false end &&
  negb (o_accepts o) && negb (o_required o) && negb (o_multi o).
Definition defines_help (cfg : appcfg) : bool := existsb is_help_option (ac_opts cfg).

Lemma is_help_option_spec o : is_help_option o = true ->
  no_value o /\ help_switch_of o T_help /\ help_switch_of o T_h.
Proof.
  unfold is_help_option. intros H.
  apply andb_prop in H as [H H5]. apply andb_prop in H as [H H4]. apply andb_prop in H as [H H3].
  apply andb_prop in H as [H1 H2].
  destruct (str_eqb_spec (o_long o) S_help) as [Hl|]; [|discriminate].
  destruct (o_short o) as [s|] eqn:Es; [|discriminate]. destruct (str_eqb_spec s [104%N]) as [->|]; [|discriminate].
  unfold no_value, help_switch_of. destruct (o_accepts o), (o_required o), (o_multi o); try discriminate. auto 10.
Qed.

(* For every application built from a configuration that defines the help option, and every line of plain tokens
   (not empty, not "--", not option-like) that does not start with the word "help":
   "help <line>", "<line> --help" and "<line> -h" have the same help target - the same path, or the same error. *)
Theorem help_same_target cfg a path :
  build_app cfg = Ok a -> defines_help cfg = true ->
  forallb lead_ok path = true ->
  (match path with t :: _ => str_eqb t S_help = false | [] => True end) ->
  help_target a (S_help :: path) = help_target a (path ++ [T_help]) /\
  help_target a (S_help :: path) = help_target a (path ++ [T_h]).
Proof.
  intros Hb Hd Hl Hh. unfold defines_help in Hd. apply existsb_exists in Hd as [o [Hin Ho]].
  apply is_help_option_spec in Ho as (Hnv & H1 & H2).
  pose proof (build_app_carries cfg a o Hb Hin) as Ht.
  split; eapply help_same_target_app; eauto.
Qed.

(* For a command without default sub-commands whose lenient parse of the plain line succeeds, all three spellings give
   the path walked: HelpTargetLemmas.help_same_target without its second parse hypothesis.  The remaining hypothesis cannot be derived from the configuration: a typed argument makes the lenient
   parse raise ValueError (Props/C13.v, ex_help_value_error) - then all three spellings raise it. *)
Corollary help_target_no_defaults cfg a path b p x1 :
  build_app cfg = Ok a -> defines_help cfg = true ->
  forallb lead_ok path = true ->
  (match path with t :: _ => str_eqb t S_help = false | [] => True end) ->
  walk (named_of (ap_cmds a)) None path = Ok (Some (b, p)) ->
  defaults_of (b_subs b) = [] ->
  parse (b_fmt b) true path = Ok x1 ->
  help_target a (S_help :: path) = Ok p /\ help_target a (path ++ [T_help]) = Ok p /\ help_target a (path ++ [T_h]) = Ok p.
Proof.
  intros Hb Hd Hl Hh Hw Hdef Hp. destruct (help_same_target cfg a path Hb Hd Hl Hh) as [E1 E2].
  assert (help_target a (S_help :: path) = Ok p) as H0.
  { rewrite help_word_dropped by exact Hh. apply (help_target_plain a path b p x1 Hh); [|exact Hdef|exact Hp].
    now rewrite (leading_all _ Hl). }
  rewrite <- E1, <- E2. auto.
Qed.
