(* C01 (parse_spells), part 2: positional arguments in the token loop, the re-alignment against
   omitted command names, and Args.set_argument. *)
From Coq Require Import Lia.
From Clikit Require Import Base.Prelude Base.Res Model.Conv Model.Flags Model.Format Model.Parser Model.Spell
     Proofs.StrLemmas Proofs.ListLemmas Proofs.DictLemmas Proofs.FormatLemmas Proofs.ParserLemmas Proofs.SpellOpts.

(* dict.update (supdate of Model/Format.v) with the dictionary to change as first argument *)
Definition supd {V} (d : list (str * V)) (x : list (str * V)) : list (str * V) :=
  fold_left (fun d kv => sset (fst kv) (snd kv) d) x d.


Lemma supd_prefix {V} : forall (X D done : list (str * V)),
  NoDup (map fst (done ++ X)) -> map fst D = firstn (length D) (map fst X) ->
  supd (done ++ D) X = done ++ X.
Proof.
  unfold supd. induction X as [|[k v] X IH]; intros D done Hnd Hpre; cbn [fold_left fst snd].
  - destruct D; [reflexivity|discriminate].
  - assert (~ In k (map fst done)) as Hk.
    { rewrite map_app in Hnd. cbn in Hnd. apply NoDup_remove_2 in Hnd. rewrite in_app_iff in Hnd. tauto. }
    assert (NoDup (map fst ((done ++ [(k, v)]) ++ X))) as Hnd' by (rewrite <- app_assoc; exact Hnd).
    destruct D as [|[k1 w] D'].
    + rewrite app_nil_r. rewrite sset_new by (now apply sget_none_iff).
      rewrite <- (app_nil_r (done ++ [(k, v)])). rewrite IH; [now rewrite <- app_assoc|exact Hnd'|reflexivity].
    + cbn in Hpre. inversion Hpre; subst. rewrite sset_mid by exact Hk.
      change (done ++ (k, v) :: D') with (done ++ [(k, v)] ++ D'). rewrite app_assoc.
      rewrite IH; [now rewrite <- app_assoc|exact Hnd'|assumption].
Qed.
Lemma supd_nil {V} (X : list (str * V)) : NoDup (map fst X) -> supd [] X = X.
Proof. intros H. apply (supd_prefix X [] []); [exact H|reflexivity]. Qed.

(* fmt_ok f, unpacked: g is the augmented format and A its arguments - one single-valued pseudo-argument per command name
   of cns, then the declared arguments of f, under names that no pseudo-argument has *)
Record fmt_facts (f g : fmt) (A : list (str * arg)) (cns : list (str * cname)) : Prop := {
  ff_aug : aug_format f = Ok (g, A, cns);
  ff_args : get_arguments_all g = A;
  ff_real : skipn (length cns) A = get_arguments_all f;
  ff_pseudo : map fst (firstn (length cns) A) = map fst cns;
  ff_single : Forall (fun na => a_multi (snd na) = false) (firstn (length cns) A);
  ff_fresh : forall n, In n (map fst cns) -> sget n (get_arguments_all f) = None;
  ff_nodup : NoDup (map fst A);
  ff_names : Forall (fun na => fst na = a_name (snd na)) A }.

Lemma fmt_ok_inv f : fmt_ok f = true -> exists g A cns, fmt_facts f g A cns.
Proof.
  unfold fmt_ok. destruct (aug_format f) as [[[g A] cns]|] eqn:E; [|discriminate]. intros H.
  apply andb_prop in H as [H H7]. apply andb_prop in H as [H H6]. apply andb_prop in H as [H H5].
  apply andb_prop in H as [H H4]. apply andb_prop in H as [H H3]. apply andb_prop in H as [H1 H2].
  exists g, A, cns. constructor.
  - exact E.
  - apply (list_eqb_eq narg_eqb narg_eqb_eq). exact H1.
  - apply (list_eqb_eq narg_eqb narg_eqb_eq). exact H2.
  - apply (list_eqb_eq str_eqb str_eqb_eq). exact H3.
  - revert H4. apply forallb_Forall. intros na Hn. now apply negb_true_iff.
  - intros n Hn. rewrite forallb_forall in H5. specialize (H5 n Hn). apply negb_true_iff in H5.
    rewrite shas_sget in H5. destruct (sget n (get_arguments_all f)); [discriminate|reflexivity].
  - apply nodupb_NoDup. exact H6.
  - revert H7. apply forallb_Forall. intros na Hn. now apply str_eqb_eq.
Qed.

Lemma set_arguments_skip f l : forall a,
  (forall n v, In (n, v) l -> sget n (get_arguments_all f) = None) -> set_arguments f a l = Ok a.
Proof.
  induction l as [|[n v] r IH]; intros a H; cbn [set_arguments]; [reflexivity|].
  unfold has_argument. cbn [get_arguments]. rewrite shas_sget, (H n v) by (now left). apply IH.
  intros n' v' Hi. eapply H. right. exact Hi.
Qed.

Lemma has_argument_nat f c : has_argument f (APos (Z.of_nat c)) true = (c <? length (get_arguments_all f)).
Proof.
  unfold has_argument. cbn [get_arguments]. destruct (Z.leb_spec 0 (Z.of_nat c)); [|lia]. cbn [andb].
  destruct (Z.ltb_spec (Z.of_nat c) (Z.of_nat (length (get_arguments_all f)))), (Nat.ltb_spec c (length (get_arguments_all f)));
    try reflexivity; lia.
Qed.
Lemma get_argument_nat f c : get_argument f (APos (Z.of_nat c)) true =
  match nth_error (get_arguments_all f) c with Some (_, a) => Ok a | None => Err NoSuchArgument end.
Proof.
  unfold get_argument. cbn [get_arguments]. destruct (Z.leb_spec (Z.of_nat (length (get_arguments_all f))) (Z.of_nat c)).
  - assert (nth_error (get_arguments_all f) c = None) as -> by (apply nth_error_None; lia). reflexivity.
  - destruct (Z.ltb_spec (Z.of_nat c) 0); [lia|]. rewrite Nat2Z.id. reflexivity.
Qed.
(* _parse_argument by position, in terms of nth_error: the argument at the number of entries so far takes the token;
   failing that, a multi-valued argument just before that position takes it; otherwise the token is refused *)
Lemma parse_argument_nth g len st tok :
  parse_argument g len st tok =
  let refused := if len then Ok st else Err CannotParse in
  match nth_error (get_arguments_all g) (length (ps_args st)) with
  | Some (_, a) => Ok (if a_multi a then append_arg st (a_name a) tok
                       else {| ps_args := sset (a_name a) (RStr tok) (ps_args st); ps_opts := ps_opts st |})
  | None =>
      match length (ps_args st) with
      | S c => match nth_error (get_arguments_all g) c with
               | Some (_, a) => if a_multi a then Ok (append_arg st (a_name a) tok) else refused
               | None => refused
               end
      | 0 => refused
      end
  end.
Proof.
  unfold parse_argument. rewrite has_argument_nat, get_argument_nat.
  destruct (nth_error _ (length (ps_args st))) as [[n a]|] eqn:E.
  - assert (length (ps_args st) <? length (get_arguments_all g) = true) as ->
      by (apply Nat.ltb_lt, nth_error_Some; congruence).
    cbn [bind]. destruct (a_multi a); reflexivity.
  - assert (length (ps_args st) <? length (get_arguments_all g) = false) as ->
      by (apply Nat.ltb_ge, nth_error_None, E).
    destruct (length (ps_args st)) as [|c]; [reflexivity|].
    replace (Z.of_nat (S c) - 1)%Z with (Z.of_nat c) by lia. rewrite has_argument_nat, get_argument_nat.
    destruct (nth_error _ c) as [[n a]|] eqn:E2.
    + assert (c <? length (get_arguments_all g) = true) as -> by (apply Nat.ltb_lt, nth_error_Some; congruence). reflexivity.
    + assert (c <? length (get_arguments_all g) = false) as -> by (apply Nat.ltb_ge, nth_error_None, E2). reflexivity.
Qed.
Lemma parse_argument_at g len st tok n a :
  nth_error (get_arguments_all g) (length (ps_args st)) = Some (n, a) ->
  parse_argument g len st tok =
  Ok (if a_multi a then append_arg st (a_name a) tok
      else {| ps_args := sset (a_name a) (RStr tok) (ps_args st); ps_opts := ps_opts st |}).
Proof. intros H. rewrite parse_argument_nth, H. reflexivity. Qed.
Lemma parse_argument_last g len st tok c n a :
  length (ps_args st) = S c -> length (get_arguments_all g) = S c ->
  nth_error (get_arguments_all g) c = Some (n, a) -> a_multi a = true ->
  parse_argument g len st tok = Ok (append_arg st (a_name a) tok).
Proof.
  intros Hc Hl H Hm. rewrite parse_argument_nth, Hc, H, Hm.
  assert (nth_error (get_arguments_all g) (S c) = None) as -> by (apply nth_error_None; lia). reflexivity.
Qed.

(* the argument map of the scratch state once the token loop has read the positional tokens vals: one value each,
   and all that are left to a multi-valued argument *)
Fixpoint place (ars : list (str * arg)) (vals : list str) : list (str * rawarg) :=
  match vals, ars with
  | [], _ => []
  | _, [] => []
  | v :: vals', (n, a) :: ars' =>
      if a_multi a then [(n, RList vals)] else (n, RStr v) :: place ars' vals'
  end.
(* the values fit the arguments (as fits, without the conversions) *)
Fixpoint shape (ars : list (str * arg)) (vals : list str) : bool :=
  match vals, ars with
  | [], _ => true
  | _, [] => false
  | v :: vals', (n, a) :: ars' =>
      if a_multi a then match ars' with [] => true | _ => false end else shape ars' vals'
  end.

Lemma place_nil ars : place ars [] = [].
Proof. destruct ars; reflexivity. Qed.

(* A0 are the arguments that pre fills already, A those still open; the induction moves one argument from A to A0 *)
Lemma parg_place g len po tok : forall A A0 pre Pdone,
  get_arguments_all g = A0 ++ A ->
  Forall (fun na => fst na = a_name (snd na)) (A0 ++ A) -> NoDup (map fst (A0 ++ A)) ->
  map fst pre = map fst A0 ->
  shape A (Pdone ++ [tok]) = true ->
  parse_argument g len {| ps_args := pre ++ place A Pdone; ps_opts := po |} tok =
  Ok {| ps_args := pre ++ place A (Pdone ++ [tok]); ps_opts := po |}.
Proof.
  induction A as [|[n a] A' IH]; intros A0 pre Pdone HA Hnm Hnd Hpre Hsh.
  - destruct Pdone; discriminate.
  - assert (length pre = length A0) as Hlen by (rewrite <- (map_length fst pre), Hpre, map_length; reflexivity).
    assert (n = a_name a) as Hna.
    { rewrite Forall_forall in Hnm. apply (Hnm (n, a)). apply in_or_app. right. now left. }
    assert (~ In n (map fst pre)) as Hfresh.
    { rewrite Hpre. rewrite map_app in Hnd. cbn in Hnd. apply NoDup_remove_2 in Hnd. rewrite in_app_iff in Hnd. tauto. }
    assert (nth_error (A0 ++ (n, a) :: A') (length A0) = Some (n, a)) as Hnth.
    { rewrite nth_error_app2 by lia. rewrite Nat.sub_diag. reflexivity. }
    destruct Pdone as [|p Pd].
    + rewrite place_nil, app_nil_r. cbn [app place].
      rewrite (parse_argument_at g len _ tok n a) by (cbn [ps_args]; rewrite HA, Hlen; exact Hnth).
      rewrite <- Hna. unfold append_arg. cbn [ps_args ps_opts].
      rewrite (proj2 (sget_none_iff n pre) Hfresh), !sset_new by (now apply sget_none_iff).
      rewrite place_nil. destruct (a_multi a); reflexivity.
    + cbn [app place shape] in *. destruct (a_multi a) eqn:Hm.
      * destruct A' as [|x A'']; [|discriminate].
        rewrite (parse_argument_last g len _ tok (length A0) n a).
        -- rewrite <- Hna. unfold append_arg. cbn [ps_args ps_opts]. rewrite sget_app_notin by exact Hfresh. cbn [sget aget]. rewrite str_eqb_refl.
           rewrite sset_mid by exact Hfresh. reflexivity.
        -- cbn [ps_args]. rewrite app_length. cbn. lia.
        -- rewrite HA, app_length. cbn. lia.
        -- rewrite HA. exact Hnth.
        -- exact Hm.
      * change (pre ++ (n, RStr p) :: place A' Pd) with (pre ++ [(n, RStr p)] ++ place A' Pd).
        change (pre ++ (n, RStr p) :: place A' (Pd ++ [tok])) with (pre ++ [(n, RStr p)] ++ place A' (Pd ++ [tok])).
        rewrite !app_assoc. apply (IH (A0 ++ [(n, a)])).
        -- rewrite <- app_assoc. exact HA.
        -- rewrite <- app_assoc. exact Hnm.
        -- rewrite <- app_assoc. exact Hnd.
        -- rewrite !map_app, Hpre. reflexivity.
        -- exact Hsh.
Qed.

Lemma shape_app_l : forall A P Q, shape A (P ++ Q) = true -> shape A P = true.
Proof.
  induction A as [|[n a] A' IH]; intros P Q; destruct P as [|p P']; cbn [app shape]; try reflexivity.
  - discriminate.
  - destruct (a_multi a); [auto|apply IH].
Qed.

Section Tail.
  Variables (g : fmt) (A : list (str * arg)) (len : bool).
  Hypothesis HA : get_arguments_all g = A.
  Hypothesis Hnm : Forall (fun na => fst na = a_name (snd na)) A.
  Hypothesis Hnd : NoDup (map fst A).

  Lemma pos_step fuel p st tok rest Pdone :
    ps_args st = place A Pdone -> shape A (Pdone ++ [tok]) = true -> (p = true -> pos_tok tok = true) ->
    loop (S fuel) g len p st (tok :: rest) =
    loop fuel g len p {| ps_args := place A (Pdone ++ [tok]); ps_opts := ps_opts st |} rest.
  Proof.
    intros Hst Hsh Hp. rewrite loop_arg.
    - destruct st as [pa po]. cbn [ps_args ps_opts] in *. subst pa.
      pose proof (parg_place g len po tok A [] [] Pdone HA Hnm Hnd eq_refl Hsh) as H. cbn [app] in H. rewrite H. reflexivity.
    - exact Hp.
  Qed.

  (* the first positionals of a "--" tail, as long as they fit the slots *)
  Lemma loop_tail_pre : forall t1 rest Pdone st fuel,
    ps_args st = place A Pdone -> shape A (Pdone ++ t1) = true -> length (t1 ++ rest) < fuel ->
    loop fuel g len false st (t1 ++ rest) =
    loop (fuel - length t1) g len false {| ps_args := place A (Pdone ++ t1); ps_opts := ps_opts st |} rest.
  Proof.
    induction t1 as [|t t1 IH]; intros rest Pdone st fuel Hst Hsh Hf.
    - rewrite app_nil_r, Nat.sub_0_r, <- Hst. destruct st; reflexivity.
    - destruct fuel as [|fuel]; [cbn in Hf; lia|]. cbn [app length Nat.sub] in *.
      change (t :: t1) with ([t] ++ t1) in Hsh. rewrite app_assoc in Hsh.
      rewrite (pos_step fuel false st t _ Pdone Hst); [|eapply shape_app_l; exact Hsh|discriminate].
      rewrite (IH rest (Pdone ++ [t])); [|reflexivity|exact Hsh|lia]. cbn [ps_opts]. rewrite <- app_assoc. reflexivity.
  Qed.

  Lemma loop_tail : forall tl Pdone st fuel,
    ps_args st = place A Pdone -> shape A (Pdone ++ tl) = true -> length tl < fuel ->
    loop fuel g len false st tl = ({| ps_args := place A (Pdone ++ tl); ps_opts := ps_opts st |}, None).
  Proof.
    intros tl Pdone st fuel Hst Hsh Hf. pose proof (loop_tail_pre tl [] Pdone st fuel Hst Hsh) as H.
    rewrite app_nil_r in H. rewrite H by exact Hf. destruct (fuel - length tl) eqn:E; [lia|reflexivity].
  Qed.
End Tail.

Lemma render_item_length it : 1 <= length (render_item it).
Proof. destruct it as [o []|o [] s|o []|fl [[o [s|s|]]|]|s]; cbn; lia. Qed.
Lemma render_items_length items : length items <= length (flat_map render_item items).
Proof.
  induction items as [|it r IH]; cbn [flat_map length]; [lia|]. rewrite app_length.
  pose proof (render_item_length it). lia.
Qed.

(* what follows an item that looks ahead cannot be taken for a value *)
Lemma after_look_ahead (it : item) r tl :
  (if looks_ahead it then match r with IPos s :: _ => str_eqb s [DASH] | _ => true end else true) = true ->
  next_dash tl = true -> looks_ahead it = true -> next_dash (flat_map render_item r ++ tl) = true.
Proof.
  intros Hla Htl Hlk. rewrite Hlk in Hla. destruct r as [|it2 r']; [exact Htl|].
  cbn [flat_map]. rewrite <- app_assoc.
  destruct (is_pos it2) eqn:Hp2; [|apply (item_first_dash it2 _ Hp2)].
  destruct it2 as [| | | |s2]; try discriminate. apply str_eqb_eq in Hla. subst s2. reflexivity.
Qed.

(* the token loop over items (any condition tx on the texts that makes their options take values) *)
Section Items.
  Variables (f g : fmt) (A : list (str * arg)) (len : bool).
  Hypothesis HA : get_arguments_all g = A.
  Hypothesis Hnm : Forall (fun na => fst na = a_name (snd na)) A.
  Hypothesis Hnd : NoDup (map fst A).
  Variable tx : opt -> str -> bool.
  Hypothesis tx_acc : forall o s, tx o s = true -> o_accepts o = true.

  (* the first items of a line, as long as their positionals fit the slots *)
  Lemma loop_items_pre : forall i1 i2 Pdone st fuel tl,
    ps_args st = place A Pdone -> shape A (Pdone ++ flat_map item_pos i1) = true ->
    items_ok_with tx f g (i1 ++ i2) = true -> next_dash tl = true ->
    length (flat_map render_item (i1 ++ i2) ++ tl) < fuel ->
    loop fuel g len true st (flat_map render_item (i1 ++ i2) ++ tl) =
    loop (fuel - length i1) g len true
         {| ps_args := place A (Pdone ++ flat_map item_pos i1);
            ps_opts := fold_left raw_event (flat_map item_events i1) (ps_opts st) |} (flat_map render_item i2 ++ tl).
  Proof.
    induction i1 as [|it r IH]; intros i2 Pdone st fuel tl Hst Hsh Hok Htl Hf.
    - cbn [flat_map app length fold_left]. rewrite app_nil_r, Nat.sub_0_r, <- Hst. destruct st; reflexivity.
    - cbn [app items_ok_with] in Hok. apply andb_prop in Hok as [Hok Hr]. apply andb_prop in Hok as [Hit Hla].
      cbn [app flat_map] in *. rewrite <- app_assoc in *. rewrite app_length in Hf.
      pose proof (render_item_length it) as Hl1.
      destruct fuel as [|fuel]; [lia|]. cbn [length Nat.sub].
      destruct (is_pos it) eqn:Hp.
      + destruct it as [| | | |s]; try discriminate. cbn [render_item item_pos item_events app] in *.
        change (s :: flat_map item_pos r) with ([s] ++ flat_map item_pos r) in Hsh. rewrite app_assoc in Hsh.
        rewrite (pos_step g A len HA Hnm Hnd fuel true st s _ Pdone Hst); [|eapply shape_app_l; exact Hsh|intros _; exact Hit].
        rewrite (IH i2 (Pdone ++ [s])); [|reflexivity|exact Hsh|exact Hr|exact Htl|cbn in Hf; lia].
        cbn [ps_opts]. rewrite <- app_assoc. reflexivity.
      + rewrite (item_step tx tx_acc f g len it Hit Hp).
        * assert (item_pos it = []) as Hnil by (destruct it; try reflexivity; discriminate).
          rewrite Hnil in *. cbn [app] in *.
          rewrite (IH i2 Pdone); [|rewrite st_evs_args; exact Hst|exact Hsh|exact Hr|exact Htl|lia].
          rewrite st_evs_opts, fold_left_app. reflexivity.
        * apply (after_look_ahead it (r ++ i2) tl Hla Htl).
  Qed.

  Lemma loop_items_with : forall items Pdone st fuel tl,
    ps_args st = place A Pdone -> shape A (Pdone ++ flat_map item_pos items) = true ->
    items_ok_with tx f g items = true -> next_dash tl = true ->
    length (flat_map render_item items ++ tl) < fuel ->
    loop fuel g len true st (flat_map render_item items ++ tl) =
    loop (fuel - length items) g len true
         {| ps_args := place A (Pdone ++ flat_map item_pos items);
            ps_opts := fold_left raw_event (flat_map item_events items) (ps_opts st) |} tl.
  Proof.
    intros items Pdone st fuel tl Hst Hsh. pose proof (loop_items_pre items [] Pdone st fuel tl Hst Hsh) as H.
    rewrite app_nil_r in H. exact H.
  Qed.

  (* a whole line: items, then possibly "--" and positional tokens *)
  Lemma loop_rendered items tail fuel :
    items_ok_with tx f g items = true ->
    shape A (flat_map item_pos items ++ match tail with Some l => l | None => [] end) = true ->
    length (flat_map render_item items ++ render_tail tail) < fuel ->
    loop fuel g len true ps_empty (flat_map render_item items ++ render_tail tail) =
    ({| ps_args := place A (flat_map item_pos items ++ match tail with Some l => l | None => [] end);
        ps_opts := fold_left raw_event (flat_map item_events items) [] |}, None).
  Proof.
    intros Hit Hsh Hf. pose proof (render_items_length items) as Hlen. rewrite app_length in Hf.
    rewrite (loop_items_with items [] ps_empty);
      [|symmetry; apply place_nil|cbn [app]; eapply shape_app_l; exact Hsh|exact Hit|destruct tail; reflexivity|rewrite app_length; exact Hf].
    cbn [app ps_opts ps_empty].
    destruct tail as [tl|]; cbn [render_tail length] in *.
    - destruct (fuel - length items) as [|fuel'] eqn:E; [lia|]. rewrite loop_dd.
      rewrite (loop_tail g A len HA Hnm Hnd tl (flat_map item_pos items)); [reflexivity|reflexivity|exact Hsh|lia].
    - destruct (fuel - length items) as [|fuel'] eqn:E; [lia|]. rewrite app_nil_r. reflexivity.
  Qed.
End Items.

Section Loop.
  Variables (f g : fmt) (A : list (str * arg)) (len : bool).
  Hypothesis HA : get_arguments_all g = A.
  Hypothesis Hnm : Forall (fun na => fst na = a_name (snd na)) A.
  Hypothesis Hnd : NoDup (map fst A).

  Lemma loop_items : forall items Pdone st fuel tl,
    ps_args st = place A Pdone -> shape A (Pdone ++ flat_map item_pos items) = true ->
    items_ok f g items = true -> next_dash tl = true ->
    length (flat_map render_item items ++ tl) < fuel ->
    loop fuel g len true st (flat_map render_item items ++ tl) =
    loop (fuel - length items) g len true
         {| ps_args := place A (Pdone ++ flat_map item_pos items);
            ps_opts := fold_left raw_event (flat_map item_events items) (ps_opts st) |} tl.
  Proof. exact (loop_items_with f g A len HA Hnm Hnd text_ok text_ok_acc). Qed.
End Loop.

Lemma flatten_place : forall A P, shape A P = true -> flatten (place A P) = P.
Proof.
  induction A as [|[n a] A' IH]; intros [|p P'] H; cbn [place shape] in *; try reflexivity; try discriminate.
  destruct (a_multi a).
  - cbn. now rewrite app_nil_r.
  - cbn [flatten flat_map snd app]. f_equal. apply IH. exact H.
Qed.

(* names_ok asks a plain token where names_match asks a non-empty one; the re-alignment only needs the latter *)
Lemma names_ok_match cns names : names_ok cns names = true -> names_match cns names = true.
Proof.
  revert cns. induction names as [|s r IH]; intros cns H; [destruct cns; reflexivity|].
  destruct cns as [|c cns]; [discriminate|]. cbn [names_ok names_match] in *.
  apply andb_prop in H as [H Hr]. apply andb_prop in H as [Hp Hm].
  rewrite (plain_nonempty s Hp), Hm, (IH cns Hr). reflexivity.
Qed.
Lemma names_ok_plain cns names : names_ok cns names = true -> Forall (fun s => plain_tok s = true) names.
Proof.
  revert cns. induction names as [|s r IH]; intros cns H; [constructor|].
  destruct cns as [|c cns]; [discriminate|]. cbn [names_ok] in H. apply andb_prop in H as [H Hr].
  apply andb_prop in H as [Hp _]. constructor; [exact Hp|eapply IH; exact Hr].
Qed.
Lemma names_match_length cns names : names_match cns names = true -> length names <= length cns.
Proof.
  revert cns. induction names as [|s r IH]; intros cns H; [cbn; lia|].
  destruct cns as [|c cns]; [discriminate|]. cbn [names_match] in H.
  apply andb_prop in H as [_ H]. specialize (IH cns H). cbn [length]. lia.
Qed.

(* skip_names passes the spelled command names ... *)
Lemma skip_names_match V : forall names cns k, names_match cns names = true ->
  skip_names (names ++ V) cns k = skip_names V (skipn (length names) cns) (k + length names).
Proof.
  induction names as [|s r IH]; intros cns k Hn; cbn [app length skipn]; [now rewrite Nat.add_0_r|].
  destruct cns as [|c cns']; [discriminate|]. cbn [names_match] in Hn.
  apply andb_prop in Hn as [Hn Hr]. apply andb_prop in Hn as [Hp Hm].
  cbn [skip_names]. rewrite Hp, Hm. cbn [andb]. rewrite IH by exact Hr. f_equal. lia.
Qed.
(* ... and stops at the first value, which does not spell the next command name *)
Lemma skip_names_spec V names cns j :
  names_match cns names = true -> no_clash cns names V = true ->
  skip_names (names ++ V) cns j = (V, skipn (length names) cns, j + length names).
Proof.
  intros Hn Hc. rewrite (skip_names_match V names cns j Hn). unfold no_clash in Hc.
  destruct V as [|v V']; [destruct (skipn _ cns); reflexivity|]. destruct (skipn _ cns) as [|c cns']; [reflexivity|].
  cbn [skip_names]. apply negb_true_iff in Hc. rewrite Hc. reflexivity.
Qed.

Lemma copy_values_multi len n a : a_multi a = true -> forall V fixed l, ~ In n (map fst fixed) ->
  copy_values V [(n, a)] len (fixed ++ [(n, RList l)]) = Ok (fixed ++ [(n, RList (l ++ V))]).
Proof.
  intros Hm. induction V as [|v V' IH]; intros fixed l Hf; cbn [copy_values].
  - now rewrite app_nil_r.
  - rewrite Hm. rewrite sget_app_notin by exact Hf. cbn [sget aget]. rewrite str_eqb_refl.
    rewrite sset_mid by exact Hf. rewrite IH by exact Hf. rewrite <- app_assoc. reflexivity.
Qed.

Lemma copy_values_place len : forall real V fixed,
  shape real V = true -> NoDup (map fst real) -> (forall n, In n (map fst real) -> ~ In n (map fst fixed)) ->
  copy_values V real len fixed = Ok (fixed ++ place real V).
Proof.
  induction real as [|[n a] real' IH]; intros [|v V'] fixed Hsh Hnd Hdis; cbn [copy_values place shape] in *;
    try (now rewrite app_nil_r); try discriminate.
  assert (~ In n (map fst fixed)) as Hn by (apply Hdis; now left).
  inversion Hnd as [|? ? Hn' Hnd']; subst.
  destruct (a_multi a) eqn:Hm.
  - destruct real' as [|x r]; [|discriminate]. rewrite (proj2 (sget_none_iff n fixed) Hn).
    rewrite sset_new by (now apply sget_none_iff). cbn [app].
    rewrite (copy_values_multi len n a Hm V' fixed [v] Hn). reflexivity.
  - rewrite sset_new by (now apply sget_none_iff).
    rewrite IH; [now rewrite <- app_assoc|exact Hsh|exact Hnd'|].
    intros k Hk. rewrite map_app, in_app_iff. cbn. intros [Hi|[<-|[]]]; [|contradiction].
    eapply Hdis; [right; exact Hk|exact Hi].
Qed.

Definition keyin {V W} (real : list (str * W)) (kv : str * V) : bool := shas (fst kv) real.

Lemma set_arguments_filter f l : forall a,
  set_arguments f a l = set_arguments f a (filter (keyin (get_arguments_all f)) l).
Proof.
  induction l as [|[n v] r IH]; intros a; cbn [set_arguments filter]; [reflexivity|].
  change (keyin (get_arguments_all f) (n, v)) with (shas n (get_arguments_all f)). unfold has_argument. cbn [get_arguments].
  destruct (shas n (get_arguments_all f)) eqn:E.
  - cbn [set_arguments]. unfold has_argument. cbn [get_arguments]. rewrite E.
    destruct (set_argument f a n v); cbn [bind]; [apply IH|reflexivity].
  - apply IH.
Qed.

Lemma filter_sset {V W} (real : list (str * W)) k (v : V) d :
  filter (keyin real) (sset k v d) = if shas k real then sset k v (filter (keyin real) d) else filter (keyin real) d.
Proof.
  unfold sset. induction d as [|[k1 v1] r IH]; cbn [aset filter].
  - change (keyin real (k, v)) with (shas k real). destruct (shas k real); reflexivity.
  - destruct (str_eqb_spec k k1) as [->|Hn]; cbn [filter].
    + change (keyin real (k1, v)) with (shas k1 real). change (keyin real (k1, v1)) with (shas k1 real).
      destruct (shas k1 real); [cbn [aset]; now rewrite str_eqb_refl|reflexivity].
    + change (keyin real (k1, v1)) with (shas k1 real). rewrite IH.
      destruct (shas k1 real) eqn:E1; destruct (shas k real) eqn:E; try reflexivity.
      cbn [aset]. destruct (str_eqb_spec k k1); [contradiction|reflexivity].
Qed.
Lemma filter_supd {V W} (real : list (str * W)) (X : list (str * V)) : forall D,
  filter (keyin real) (supd D X) = supd (filter (keyin real) D) (filter (keyin real) X).
Proof.
  unfold supd. induction X as [|[k v] X IH]; intros D; cbn [fold_left filter fst snd]; [reflexivity|].
  rewrite IH, filter_sset. change (keyin real (k, v)) with (shas k real). destruct (shas k real); reflexivity.
Qed.
Lemma filter_none {V W} (real : list (str * W)) (l : list (str * V)) :
  (forall k, In k (map fst l) -> shas k real = false) -> filter (keyin real) l = [].
Proof.
  induction l as [|[k v] r IH]; intros H; cbn [filter]; [reflexivity|].
  change (keyin real (k, v)) with (shas k real). rewrite (H k) by (now left). apply IH. intros k' Hk. apply H. now right.
Qed.
Lemma filter_all {V W} (real : list (str * W)) (l : list (str * V)) :
  (forall k, In k (map fst l) -> shas k real = true) -> filter (keyin real) l = l.
Proof.
  induction l as [|[k v] r IH]; intros H; cbn [filter]; [reflexivity|].
  change (keyin real (k, v)) with (shas k real). rewrite (H k) by (now left). f_equal. apply IH. intros k' Hk. apply H. now right.
Qed.

Lemma place_keys_in : forall A P k, In k (map fst (place A P)) -> In k (map fst A).
Proof.
  induction A as [|[n a] A' IH]; intros [|p P'] k; cbn [place]; try (intros []).
  destruct (a_multi a); cbn [map fst In].
  - intros [<-|[]]. now left.
  - intros [<-|H]; [now left|right; eapply IH; exact H].
Qed.
Lemma place_keys_nodup : forall A P, NoDup (map fst A) -> NoDup (map fst (place A P)).
Proof.
  induction A as [|[n a] A' IH]; intros [|p P'] H; cbn [place]; try constructor.
  inversion H as [|? ? Hn Hr]; subst. destruct (a_multi a); cbn [map fst].
  - constructor; [intros []|constructor].
  - constructor; [|apply IH; exact Hr]. intros Hi. apply Hn. eapply place_keys_in. exact Hi.
Qed.
Lemma place_keys_prefix : forall A V W, length W <= length V ->
  map fst (place A W) = firstn (length (place A W)) (map fst (place A V)).
Proof.
  induction A as [|[n a] A' IH]; intros V [|w W'] H; cbn [place]; try reflexivity.
  destruct V as [|v V']; [cbn in H; lia|]. cbn [place]. destruct (a_multi a); cbn [map fst length firstn]; [reflexivity|].
  f_equal. apply IH. cbn in H. lia.
Qed.
Lemma place_app : forall A0 A1 P, Forall (fun na => a_multi (snd na) = false) A0 ->
  place (A0 ++ A1) P = place A0 (firstn (length A0) P) ++ place A1 (skipn (length A0) P).
Proof.
  induction A0 as [|[n a] A0' IH]; intros A1 P H; cbn [app length firstn skipn].
  - rewrite place_nil. reflexivity.
  - inversion H as [|? ? Ha Hr]; subst. cbn [snd] in Ha. destruct P as [|p P']; cbn [place firstn skipn].
    + rewrite place_nil. reflexivity.
    + rewrite Ha. cbn [app]. f_equal. apply IH. exact Hr.
Qed.
Lemma place_single_keys : forall A0 Q, Forall (fun na => a_multi (snd na) = false) A0 ->
  map fst (place A0 Q) = firstn (length Q) (map fst A0).
Proof.
  induction A0 as [|[n a] A0' IH]; intros [|q Q'] H; cbn [place length firstn map]; try reflexivity.
  inversion H as [|? ? Ha Hr]; subst. cbn [snd] in Ha. rewrite Ha. cbn [map fst]. f_equal. apply IH. exact Hr.
Qed.

Lemma shape_shorter : forall A V W, shape A V = true -> length W <= length V -> shape A W = true.
Proof.
  induction A as [|[n a] A' IH]; intros [|v V'] [|w W'] H Hl; cbn [shape] in *; try reflexivity; try discriminate;
    try (cbn in Hl; lia).
  destruct (a_multi a); [exact H|]. eapply IH; [exact H|cbn in Hl; lia].
Qed.
Lemma fits_shape : forall A V, fits A V = true -> shape A V = true.
Proof.
  induction A as [|[n a] A' IH]; intros [|v V'] H; cbn [fits shape] in *; try reflexivity; try discriminate.
  destruct (a_multi a).
  - now apply andb_prop in H as [H _].
  - apply andb_prop in H as [_ H]. apply IH. exact H.
Qed.
Lemma shape_nil A : shape A [] = true.
Proof. destruct A; reflexivity. Qed.
Lemma req_ok_in : forall A V n a, shape A V = true -> req_ok A V = true ->
  In (n, a) A -> a_required a = true -> In n (map fst (place A V)).
Proof.
  induction A as [|[n1 a1] A' IH]; intros V n a Hsh Hrq Hin Hr; [destruct Hin|].
  destruct V as [|v V']; cbn [req_ok shape place] in *.
  - exfalso. apply andb_prop in Hrq as [H1 H2]. destruct Hin as [E|Hin].
    + inversion E; subst. rewrite Hr in H1. discriminate.
    + specialize (IH [] n a (shape_nil A') H2 Hin Hr). rewrite place_nil in IH. destruct IH.
  - destruct (a_multi a1).
    + destruct A' as [|x r]; [|discriminate]. destruct Hin as [E|[]]. inversion E; subst. now left.
    + cbn [map fst]. destruct Hin as [E|Hin]; [inversion E; subst; now left|]. right. eapply IH; eauto.
Qed.

Lemma parse_each_map a V :
  forallb (fun s => res_ok (parse_typed (a_type a) (a_nullable a) (VStr s))) V = true ->
  parse_each (a_type a) (a_nullable a) V = Ok (map (conv_arg a) V).
Proof.
  induction V as [|s r IH]; cbn [forallb parse_each map]; [reflexivity|]. intros H. apply andb_prop in H as [H1 H2].
  apply res_ok_inv in H1 as [x Hx]. unfold conv_arg at 1. rewrite Hx, (IH H2). reflexivity.
Qed.
Lemma place_typed_nil A : place_typed A [] = [].
Proof. destruct A; reflexivity. Qed.

Lemma set_arguments_place f :
  NoDup (map fst (get_arguments_all f)) -> Forall (fun na => fst na = a_name (snd na)) (get_arguments_all f) ->
  forall R1 V acc, incl R1 (get_arguments_all f) -> NoDup (map fst R1) ->
  (forall n, In n (map fst R1) -> ~ In n (map fst (ar_args acc))) -> fits R1 V = true ->
  set_arguments f acc (place R1 V) = Ok {| ar_opts := ar_opts acc; ar_args := ar_args acc ++ place_typed R1 V |}.
Proof.
  intros Hnd Hnm. induction R1 as [|[n a] R1' IH]; intros V acc Hincl Hnd1 Hfr Hfit.
  - destruct V; cbn; rewrite app_nil_r; destruct acc; reflexivity.
  - destruct V as [|v V']; [cbn; rewrite app_nil_r; destruct acc; reflexivity|].
    assert (In (n, a) (get_arguments_all f)) as Hin by (apply Hincl; now left).
    assert (sget n (get_arguments_all f) = Some a) as Hget by (apply sget_of_in; assumption).
    assert (n = a_name a) as Hna by (rewrite Forall_forall in Hnm; apply (Hnm (n, a) Hin)).
    assert (~ In n (map fst (ar_args acc))) as Hn by (apply Hfr; now left).
    cbn [map fst] in Hnd1. apply NoDup_cons_iff in Hnd1 as [Hn1 Hnd1'].
    cbn [place place_typed fits] in *. destruct (a_multi a) eqn:Hm.
    + apply andb_prop in Hfit as [_ Hfit]. cbn [set_arguments]. unfold has_argument. cbn [get_arguments].
      rewrite shas_sget, Hget. unfold set_argument, get_argument. cbn [get_arguments]. rewrite Hget. cbn [bind].
      rewrite Hm, (parse_each_map a _ Hfit). cbn [bind]. rewrite <- Hna.
      rewrite sset_new by (now apply sget_none_iff). reflexivity.
    + apply andb_prop in Hfit as [Hc Hfit]. cbn [set_arguments]. unfold has_argument. cbn [get_arguments].
      rewrite shas_sget, Hget. unfold set_argument, get_argument. cbn [get_arguments]. rewrite Hget. cbn [bind].
      rewrite Hm. cbn [parse_raw_arg]. apply res_ok_inv in Hc as [x Hx]. unfold conv_arg. rewrite Hx. cbn [bind or_none].
      rewrite <- Hna. rewrite sset_new by (now apply sget_none_iff).
      rewrite IH; [cbn [ar_opts ar_args]; now rewrite <- app_assoc| | | |exact Hfit].
      * intros x' Hx'. apply Hincl. now right.
      * exact Hnd1'.
      * cbn [ar_args]. intros k Hk. rewrite map_app, in_app_iff. cbn. intros [Hi|[<-|[]]]; [|contradiction].
        eapply Hfr; [right; exact Hk|exact Hi].
Qed.

Lemma supd_keeps {V} n (X D : list (str * V)) : shas n D = true -> shas n (supd D X) = true.
Proof. exact (supdate_keeps n X D). Qed.
Lemma supd_has {V} n (X : list (str * V)) : forall D, In n (map fst X) -> shas n (supd D X) = true.
Proof.
  induction X as [|[k v] X IH]; intros D; cbn [map fst In]; [intros []|]. intros [->|Hi].
  - unfold supd. cbn [fold_left fst snd]. apply (supd_keeps n X). rewrite shas_set, str_eqb_refl. reflexivity.
  - unfold supd. cbn [fold_left]. apply IH. exact Hi.
Qed.
Lemma shape_app_single : forall A0 A1 P, Forall (fun na => a_multi (snd na) = false) A0 ->
  shape (A0 ++ A1) P = shape A1 (skipn (length A0) P).
Proof.
  induction A0 as [|[n a] A0' IH]; intros A1 P H; cbn [app length skipn]; [reflexivity|].
  inversion H as [|? ? Ha Hr]; subst. cbn [snd] in Ha. destruct P as [|p P']; cbn [shape skipn].
  - now rewrite shape_nil.
  - rewrite Ha. apply IH. exact Hr.
Qed.

Section Facts.
  Variables (f g : fmt) (A : list (str * arg)) (cns : list (str * cname)).
  Hypothesis FF : fmt_facts f g A cns.

  Lemma A_split : A = firstn (length cns) A ++ get_arguments_all f.
  Proof. rewrite <- (ff_real _ _ _ _ FF). symmetry. apply firstn_skipn. Qed.
  Lemma pseudo_len : length (firstn (length cns) A) = length cns.
  Proof. rewrite <- (map_length fst (firstn _ _)), (ff_pseudo _ _ _ _ FF), map_length. reflexivity. Qed.
  Lemma real_nodup : NoDup (map fst (get_arguments_all f)).
  Proof. pose proof (ff_nodup _ _ _ _ FF) as H. rewrite A_split, map_app in H. eapply NoDup_app_r. exact H. Qed.
  Lemma real_names : Forall (fun na => fst na = a_name (snd na)) (get_arguments_all f).
  Proof. pose proof (ff_names _ _ _ _ FF) as H. rewrite A_split in H. apply Forall_app in H. tauto. Qed.
  Lemma cns_not_real n : In n (map fst cns) -> shas n (get_arguments_all f) = false.
  Proof. intros H. now rewrite shas_sget, (ff_fresh _ _ _ _ FF n H). Qed.

  (* the spelled names take the first pseudo-arguments, the values the declared arguments *)
  Lemma shape_names_values names V :
    names_match cns names = true -> shape (get_arguments_all f) V = true -> shape A (names ++ V) = true.
  Proof.
    intros Hn Hsh. rewrite A_split, (shape_app_single _ _ _ (ff_single _ _ _ _ FF)), pseudo_len.
    eapply shape_shorter; [exact Hsh|]. pose proof (names_match_length _ _ Hn). rewrite skipn_length, app_length. lia.
  Qed.
End Facts.

(* after the token loop: the re-alignment against the omitted command names, and the required arguments *)
Section Realign.
  Variables (f g : fmt) (A : list (str * arg)) (cns : list (str * cname)).
  Hypothesis FF : fmt_facts f g A cns.
  Variables (names V : list str).
  Hypothesis Hnames : names_match cns names = true.
  Hypothesis Hsh : shape (get_arguments_all f) V = true.
  Hypothesis Hclash : no_clash cns names V = true.
  Hypothesis Hreq : req_ok (get_arguments_all f) V = true.

  Let real := get_arguments_all f.
  Let m := length cns.
  Let pseudo := firstn m A.

  (* the scratch map afterwards holds, under the names of the declared arguments, exactly the placed values *)
  Lemma realign len po :
    exists st2,
      insert_missing A cns len {| ps_args := place A (names ++ V); ps_opts := po |} = Ok st2 /\
      ps_opts st2 = po /\ missing_required A st2 = false /\
      filter (keyin real) (ps_args st2) = place real V.
  Proof.
    pose proof (names_match_length _ _ Hnames) as Hk. fold m in Hk.
    pose proof (A_split f g A cns FF) as HAs. pose proof (pseudo_len f g A cns FF) as Hpl.
    pose proof (ff_pseudo _ _ _ _ FF) as Hpk. pose proof (ff_single _ _ _ _ FF) as Hps.
    pose proof (real_nodup f g A cns FF) as Hrn. pose proof (cns_not_real f g A cns FF) as Hcnr.
    fold m in HAs, Hpl, Hpk, Hps. fold pseudo in HAs, Hpl, Hpk, Hps. fold real in HAs, Hrn, Hcnr, Hsh.
    pose proof (shape_names_values f g A cns FF _ _ Hnames Hsh) as HshA.
    set (fixed0 := map (fun c : str * cname => (fst c, RCmd (snd c))) (skipn (length names) cns)).
    assert (forall n, In n (map fst fixed0) -> In n (map fst cns)) as Hfx.
    { intros n Hn. unfold fixed0 in Hn. rewrite map_map in Hn. cbn [fst] in Hn.
      rewrite <- (firstn_skipn (length names) cns), map_app, in_app_iff. now right. }
    assert (copy_values V real len fixed0 = Ok (fixed0 ++ place real V)) as Hcopy.
    { apply copy_values_place; [exact Hsh|exact Hrn|].
      intros n Hn Hn2. apply Hfx, Hcnr in Hn2. apply shas_in in Hn. congruence. }
    exists {| ps_args := supd (place A (names ++ V)) (fixed0 ++ place real V); ps_opts := po |}.
    split; [|split; [reflexivity|split]].
    - unfold insert_missing. cbn [ps_args ps_opts]. rewrite (flatten_place _ _ HshA).
      rewrite (skip_names_spec V names cns 0 Hnames Hclash). cbn [Nat.add].
      replace (length names + length (skipn (length names) cns)) with m by (rewrite skipn_length; fold m; lia).
      unfold m. rewrite (ff_real _ _ _ _ FF). fold real. fold fixed0. rewrite Hcopy. reflexivity.
    - (* every required argument is present *)
      cbn [ps_args]. unfold missing_required.
      destruct (existsb _ A) eqn:E; [exfalso|reflexivity].
      apply existsb_exists in E as [[n a] [Hin H]]. cbn [fst snd ps_args] in H.
      apply andb_prop in H as [Hr Hs]. apply negb_true_iff in Hs.
      rewrite HAs in Hin. apply in_app_or in Hin as [Hin|Hin].
      + (* a pseudo-argument: filled by the loop or by the omitted command name *)
        assert (In n (map fst cns)) as Hn.
        { rewrite <- Hpk. change n with (fst (n, a)). now apply in_map. }
        rewrite <- (firstn_skipn (length names) cns), map_app, in_app_iff in Hn. destruct Hn as [Hn|Hn].
        * rewrite supd_keeps in Hs; [discriminate|]. apply shas_in.
          rewrite HAs, (place_app _ _ _ Hps), map_app, in_app_iff. left.
          rewrite (place_single_keys _ _ Hps), Hpk, firstn_length, Hpl, app_length.
          rewrite <- firstn_map in Hn. eapply firstn_in_le; [|exact Hn]. lia.
        * rewrite supd_has in Hs; [discriminate|]. rewrite map_app, in_app_iff. left.
          unfold fixed0. rewrite map_map. cbn [fst]. exact Hn.
      + rewrite supd_has in Hs; [discriminate|]. rewrite map_app, in_app_iff. right.
        eapply req_ok_in; eauto.
    - (* dict.update overwrites the values the loop placed too far to the left *)
      cbn [ps_args]. rewrite filter_supd, filter_app.
      rewrite (filter_none real fixed0) by (intros k0 Hk0; apply Hcnr, Hfx, Hk0).
      rewrite (filter_all real (place real V)) by (intros k0 Hk0; apply shas_in; eapply place_keys_in; exact Hk0).
      cbn [app].
      rewrite HAs at 1. rewrite (place_app _ _ _ Hps), filter_app, Hpl.
      rewrite (filter_none real (place pseudo _)).
      2:{ intros k0 Hk0. apply Hcnr. rewrite <- Hpk. eapply place_keys_in. exact Hk0. }
      rewrite (filter_all real (place real _)) by (intros k0 Hk0; apply shas_in; eapply place_keys_in; exact Hk0).
      cbn [app].
      apply (supd_prefix (place real V) (place real (skipn m (names ++ V))) []).
      + apply place_keys_nodup. exact Hrn.
      + apply place_keys_prefix. rewrite skipn_length, app_length. lia.
  Qed.

End Realign.

(* ... and Args.set_argument converts them, when they fit *)
Lemma finish_match f g A cns names V len po :
  fmt_facts f g A cns -> names_match cns names = true -> fits (get_arguments_all f) V = true ->
  no_clash cns names V = true -> req_ok (get_arguments_all f) V = true ->
  exists st2,
    insert_missing A cns len {| ps_args := place A (names ++ V); ps_opts := po |} = Ok st2 /\
    ps_opts st2 = po /\ missing_required A st2 = false /\
    set_arguments f {| ar_opts := []; ar_args := [] |} (ps_args st2) =
    Ok {| ar_opts := []; ar_args := place_typed (get_arguments_all f) V |}.
Proof.
  intros FF Hnames Hfit Hclash Hreq.
  destruct (realign f g A cns FF names V Hnames (fits_shape _ _ Hfit) Hclash Hreq len po) as (st2 & Hins & Hopts & Hmiss & Hfil).
  exists st2. split; [exact Hins|]. split; [exact Hopts|]. split; [exact Hmiss|]. rewrite set_arguments_filter, Hfil.
  pose proof (real_nodup f g A cns FF) as Hrn.
  apply (set_arguments_place f Hrn (real_names f g A cns FF) _ V {| ar_opts := []; ar_args := [] |});
    [apply incl_refl|exact Hrn|intros n _ []|exact Hfit].
Qed.

Section Finish.
  Variables (f g : fmt) (A : list (str * arg)) (cns : list (str * cname)).
  Hypothesis FF : fmt_facts f g A cns.
  Variables (names V : list str).
  Hypothesis Hnames : names_ok cns names = true.
  Hypothesis Hfit : fits (get_arguments_all f) V = true.

  Lemma shape_line : shape A (names ++ V) = true.
  Proof. exact (shape_names_values f g A cns FF _ _ (names_ok_match _ _ Hnames) (fits_shape _ _ Hfit)). Qed.

  Hypothesis Hclash : no_clash cns names V = true.
  Hypothesis Hreq : req_ok (get_arguments_all f) V = true.

  Lemma finish len po :
    exists st2,
      insert_missing A cns len {| ps_args := place A (names ++ V); ps_opts := po |} = Ok st2 /\
      ps_opts st2 = po /\ missing_required A st2 = false /\
      set_arguments f {| ar_opts := []; ar_args := [] |} (ps_args st2) =
      Ok {| ar_opts := []; ar_args := place_typed (get_arguments_all f) V |}.
  Proof. exact (finish_match f g A cns names V len po FF (names_ok_match _ _ Hnames) Hfit Hclash Hreq). Qed.
End Finish.

(* the whole parse of a line that the token loop scans to the state of names, values V and events es *)
Theorem parse_scanned f g A cns len toks names V es :
  fmt_facts f g A cns ->
  loop (S (length toks)) g len true ps_empty toks =
    ({| ps_args := place A (names ++ V); ps_opts := fold_left raw_event es [] |}, None) ->
  names_match cns names = true -> fits (get_arguments_all f) V = true ->
  no_clash cns names V = true -> req_ok (get_arguments_all f) V = true -> Forall (ev_ok f) es ->
  parse f len toks = Ok {| ar_opts := fold_left denote_event es []; ar_args := place_typed (get_arguments_all f) V |}.
Proof.
  intros FF Hloop Hn Hfit Hclash Hreq Hes. unfold parse, parse_on. rewrite (ff_aug _ _ _ _ FF), Hloop.
  destruct (finish_match f g A cns names V len (fold_left raw_event es []) FF Hn Hfit Hclash Hreq) as (st2 & Hins & Hopts & Hmiss & Hset).
  rewrite Hins, Hmiss. cbn [andb snd]. rewrite Hset. cbn [bind]. rewrite Hopts.
  now rewrite (set_options_events f es).
Qed.
