(* C17, the style clause: the heap of style objects of Model/AppState.v (TableStyle objects holding a REFERENCE to a
   BorderStyle object; presets cached in class attributes and handed out as copies) refines the specification in which
   every style is a value of its own.  Hence what a rendering of style i reads depends only on the operations that name
   i.  With the presets handed out WITHOUT a copy (the code before fix 30a48a0) the refinement fails: witness below. *)
From Coq Require Import Lia.
From Clikit Require Import Base.Prelude Base.Res Model.Conv Model.Format Model.Parser Model.Resolver Model.Run
     Model.Tokenizer Model.Switches Model.AppState Proofs.ListLemmas.

Lemma upd_nth_length {X} (f : X -> X) : forall l n, length (upd_nth n f l) = length l.
Proof. induction l as [|x r IH]; intros [|n]; cbn; auto. Qed.
Lemma upd_nth_same {X} (f : X -> X) : forall l n, nth_error (upd_nth n f l) n = option_map f (nth_error l n).
Proof. induction l as [|x r IH]; intros [|n]; cbn; auto. Qed.
Lemma upd_nth_other {X} (f : X -> X) : forall l n m, n <> m -> nth_error (upd_nth n f l) m = nth_error l m.
Proof. induction l as [|x r IH]; intros [|n] [|m] H; cbn; auto; try congruence. Qed.
Lemma upd_nth_beyond {X} (f : X -> X) : forall l n, length l <= n -> upd_nth n f l = l.
Proof. induction l as [|x r IH]; intros [|n] H; cbn in *; auto; try lia. f_equal. apply IH. lia. Qed.
Lemma upd_nth_map {X Y} (g : X -> Y) (f : X -> X) : (forall x, g (f x) = g x) -> forall l n, map g (upd_nth n f l) = map g l.
Proof. intros H. induction l as [|x r IH]; intros [|n]; cbn; auto; f_equal; auto. Qed.
Lemma upd_nth_in {X} (f : X -> X) : forall l n s, In s (upd_nth n f l) -> exists s0, In s0 l /\ (s = s0 \/ s = f s0).
Proof.
  induction l as [|x r IH]; intros [|n] s; cbn; try tauto.
  - intros [<-|H]; [exists x; auto|exists s; auto].
  - intros [<-|H]; [exists x; auto|]. destruct (IH n s H) as (s0 & Hi & Hs). exists s0. auto.
Qed.
Lemma upd_nth_app_l {X} (f : X -> X) : forall l l' n, n < length l -> upd_nth n f (l ++ l') = upd_nth n f l ++ l'.
Proof. induction l as [|x r IH]; intros l' [|n] H; cbn in *; try lia; auto. f_equal. apply IH. lia. Qed.
Lemma nth_error_map_seq {X} (g : nat -> option X) (l : list X) :
  (forall i, i < length l -> g i = nth_error l i) -> map g (seq 0 (length l)) = map Some l.
Proof.
  revert g. induction l as [|x r IH]; intros g H; [reflexivity|]. cbn [length seq map]. f_equal; [apply (H 0); cbn; lia|].
  rewrite <- seq_shift, map_map. apply IH. intros i Hi. apply (H (S i)). cbn. lia.
Qed.

Definition mkview (s : tstyle) (b : border) : view :=
  {| v_pad := ts_pad s; v_hfmt := ts_hfmt s; v_cfmt := ts_cfmt s; v_aligns := ts_aligns s; v_dalign := ts_dalign s;
     v_hstyle := ts_hstyle s; v_cstyle := ts_cstyle s; v_chars := bd_chars b; v_bstyle := bd_style b |}.
Lemma view_of_eq w i : view_of w i =
  match nth_error (w_styles w) i with
  | Some s => option_map (mkview s) (nth_error (w_heap w) (ts_border s))
  | None => None end.
Proof. unfold view_of, border_of. destruct (nth_error (w_styles w) i) as [s|]; [|reflexivity]. destruct (nth_error _ (ts_border s)); reflexivity. Qed.

Definition borders (w : world) : list nat := map ts_border (w_styles w).
Lemma border_in w i s : nth_error (w_styles w) i = Some s -> In (ts_border s) (borders w).
Proof. intros E. apply in_map. exact (nth_error_In _ _ E). Qed.
(* an edit of heap cell k is seen only through the styles whose border is k *)
Lemma view_of_upd_other w w' k g i :
  nth_error (w_styles w') i = nth_error (w_styles w) i -> w_heap w' = upd_nth k g (w_heap w) ->
  (forall s, nth_error (w_styles w) i = Some s -> ts_border s <> k) ->
  view_of w' i = view_of w i.
Proof.
  intros Es Eh Hk. rewrite !view_of_eq, Es, Eh. destruct (nth_error (w_styles w) i) as [s|]; [|reflexivity].
  rewrite upd_nth_other; [reflexivity|]. intros E. exact (Hk s eq_refl (eq_sym E)).
Qed.
(* a cached preset is still the preset, and no style refers to the cached object itself *)
Definition cache_ok (w : world) (b : bpreset) : Prop :=
  match cache_of w b with
  | Some c => nth_error (w_heap w) c = Some (preset_border b) /\ ~ In c (borders w)
  | None => True
  end.
Record inv (w : world) (vs : list view) : Prop := {
  inv_len : length (w_styles w) = length vs;
  inv_views : forall i, i < length vs -> view_of w i = nth_error vs i;
  inv_nodup : NoDup (borders w);                                   (* no two styles share a border object *)
  inv_bound : forall k, In k (borders w) -> k < length (w_heap w);
  inv_cache : forall b, cache_ok w b }.

Lemma inv_world0 : inv world0 [].
Proof.
  split.
  - reflexivity.
  - intros i H. cbn in H. lia.
  - constructor.
  - intros k [].
  - intros []; exact I.
Qed.

Lemma cache_of_set w b c h b' : cache_of (set_cache w b c h) b' = if match b, b' with BNone, BNone | BAscii, BAscii | BSolid, BSolid => true | _, _ => false end then Some c else cache_of w b'.
Proof. destruct b, b'; reflexivity. Qed.
Lemma styles_set_cache w b c h : w_styles (set_cache w b c h) = w_styles w. Proof. destruct b; reflexivity. Qed.
Lemma heap_set_cache w b c h : w_heap (set_cache w b c h) = h. Proof. destruct b; reflexivity. Qed.

(* objects appended to the heap are seen by no style and by no cache *)
Lemma inv_heap_app w vs l : inv w vs -> inv (with_heap w (w_heap w ++ l)) vs.
Proof.
  intros [Hl Hv Hn Hb Hc]. set (w1 := with_heap w (w_heap w ++ l)).
  assert (Hold : forall j, j < length (w_heap w) -> nth_error (w_heap w1) j = nth_error (w_heap w) j)
    by (intros j Hj; cbn; now apply nth_error_app1).
  split.
  - exact Hl.
  - intros i Hi. rewrite <- (Hv i Hi), !view_of_eq. change (w_styles w1) with (w_styles w).
    destruct (nth_error (w_styles w) i) as [s|] eqn:Es; [|reflexivity].
    rewrite Hold; [reflexivity|]. exact (Hb _ (border_in w i s Es)).
  - exact Hn.
  - intros k Hk. cbn. rewrite app_length. specialize (Hb k Hk). lia.
  - intros b'. unfold cache_ok. change (cache_of w1 b') with (cache_of w b'). specialize (Hc b'). unfold cache_ok in Hc.
    destruct (cache_of w b') as [c'|]; [|exact I]. destruct Hc as [H1 H2]. split; [|exact H2].
    rewrite Hold; [exact H1|]. apply nth_error_Some. congruence.
Qed.
(* the first use of a preset: the object is created on top of the heap and cached *)
Lemma inv_set_cache w vs b : inv w vs -> inv (set_cache w b (length (w_heap w)) (w_heap w ++ [preset_border b])) vs.
Proof.
  intros Hi. pose proof (inv_heap_app w vs [preset_border b] Hi) as [Hl Hv Hn Hb Hc]. destruct Hi as [_ _ _ Hb0 _].
  set (w0 := set_cache w b (length (w_heap w)) (w_heap w ++ [preset_border b])).
  assert (Hbor : borders w0 = borders w) by (unfold borders, w0; now rewrite styles_set_cache).
  split.
  - unfold w0. rewrite styles_set_cache. exact Hl.
  - intros i Hi. rewrite <- (Hv i Hi), !view_of_eq. unfold w0. now rewrite styles_set_cache, heap_set_cache.
  - rewrite Hbor. exact Hn.
  - intros k Hk. unfold w0. rewrite heap_set_cache. apply Hb. rewrite Hbor in Hk. exact Hk.
  - intros b'. unfold cache_ok. rewrite Hbor. unfold w0. rewrite cache_of_set, heap_set_cache.
    destruct (match b, b' with BNone, BNone | BAscii, BAscii | BSolid, BSolid => true | _, _ => false end) eqn:Eb; [|exact (Hc b')].
    assert (b' = b) as -> by (destruct b, b'; try discriminate; reflexivity). split.
    + rewrite nth_error_app2 by lia. now rewrite Nat.sub_diag.
    + intros Hin. specialize (Hb0 _ Hin). lia.
Qed.
(* an object pushed on the heap: nothing refers to it yet *)
Lemma inv_push w vs x : inv w vs ->
  let w1 := with_heap w (w_heap w ++ [x]) in let k := length (w_heap w) in
  inv w1 vs /\ nth_error (w_heap w1) k = Some x /\ ~ In k (borders w1) /\ (forall b c, cache_of w1 b = Some c -> c <> k).
Proof.
  intros Hi. cbv zeta. split; [now apply inv_heap_app|]. destruct Hi as [_ _ _ Hb Hc]. cbn [w_heap with_heap].
  split; [|split].
  - rewrite nth_error_app2 by lia. now rewrite Nat.sub_diag.
  - intros Hin. specialize (Hb _ Hin). lia.
  - intros b c E Heq. specialize (Hc b). unfold cache_ok in Hc. change (cache_of (with_heap w (w_heap w ++ [x])) b) with (cache_of w b) in E.
    rewrite E in Hc. destruct Hc as [H1 _]. assert (c < length (w_heap w)) by (apply nth_error_Some; congruence). lia.
Qed.

(* BorderStyle.<preset>() hands out a fresh object: a copy of the cached preset, which is created at its first use *)
Lemma get_border_fresh w vs b : inv w vs ->
  let w1 := fst (get_border false w b) in let k := snd (get_border false w b) in
  inv w1 vs /\ w_styles w1 = w_styles w /\ nth_error (w_heap w1) k = Some (preset_border b) /\
  ~ In k (borders w1) /\ (forall b' c, cache_of w1 b' = Some c -> c <> k).
Proof.
  intros Hi. unfold get_border.
  assert (exists w0 c, (match cache_of w b with
                        | Some c => (w, c)
                        | None => (set_cache w b (length (w_heap w)) (w_heap w ++ [preset_border b]), length (w_heap w))
                        end) = (w0, c) /\
                       inv w0 vs /\ w_styles w0 = w_styles w /\ nth_error (w_heap w0) c = Some (preset_border b))
    as (w0 & c & -> & Hi0 & Hst & Hc).
  { destruct (cache_of w b) as [c|] eqn:Ec.
    - exists w, c. pose proof (inv_cache _ _ Hi b) as Hcb. unfold cache_ok in Hcb. rewrite Ec in Hcb. destruct Hcb as [Hcb _]. auto.
    - eexists _, _. split; [reflexivity|]. split; [now apply inv_set_cache|]. split; [apply styles_set_cache|].
      rewrite heap_set_cache, nth_error_app2 by lia. now rewrite Nat.sub_diag. }
  cbn [fst snd]. rewrite (nth_error_nth _ _ _ Hc).
  destruct (inv_push w0 vs (preset_border b) Hi0) as (H1 & H2). split; [exact H1|]. split; [exact Hst|exact H2].
Qed.

(* a new style around a fresh border object k, the object first edited by g (borderless / compact assign three characters) *)
Lemma add_style_inv w vs k pb g hf cf : inv w vs ->
  nth_error (w_heap w) k = Some pb -> ~ In k (borders w) -> (forall b c, cache_of w b = Some c -> c <> k) ->
  inv (with_styles (with_heap w (upd_nth k g (w_heap w))) (w_styles w ++ [new_tstyle hf cf k]))
      (vs ++ [mkview (new_tstyle hf cf k) (g pb)]).
Proof.
  intros [Hl Hv Hn Hb Hc] Hk Hfresh Hcne.
  assert (Hlt : k < length (w_heap w)) by (apply nth_error_Some; congruence).
  split; cbn [w_styles w_heap with_styles with_heap].
  - rewrite !app_length. cbn. lia.
  - intros i Hi. rewrite app_length in Hi. cbn in Hi.
    destruct (Nat.eq_dec i (length vs)) as [->|Hne].
    + rewrite view_of_eq. cbn [w_styles w_heap with_styles with_heap].
      rewrite <- Hl at 1. rewrite nth_error_app2 by lia. rewrite Nat.sub_diag. cbn [nth_error new_tstyle ts_border].
      rewrite upd_nth_same, Hk. cbn [option_map]. rewrite nth_error_app2 by lia. rewrite Nat.sub_diag. reflexivity.
    + assert (Hi' : i < length vs) by lia. rewrite (nth_error_app1 vs) by exact Hi'. rewrite <- (Hv i Hi').
      apply (view_of_upd_other w _ k g); [apply nth_error_app1; lia|reflexivity|].
      intros s Es <-. exact (Hfresh (border_in w i s Es)).
  - unfold borders. cbn [w_styles with_styles]. rewrite map_app. cbn [map new_tstyle ts_border].
    apply NoDup_snoc; [exact Hn|exact Hfresh].
  - intros j Hj. unfold borders in Hj. cbn [w_styles with_styles] in Hj. rewrite map_app in Hj. rewrite upd_nth_length.
    apply in_app_or in Hj. destruct Hj as [Hj|[<-|[]]]; [apply Hb, Hj|cbn; lia].
  - intros b. unfold cache_ok. change (cache_of (with_styles _ _) b) with (cache_of w b). specialize (Hc b). unfold cache_ok in Hc.
    destruct (cache_of w b) as [c|] eqn:Ec; [|exact I]. destruct Hc as [H1 H2]. split.
    + cbn [w_heap with_styles with_heap]. rewrite upd_nth_other; [exact H1|]. intros ->. exact (Hcne b c Ec eq_refl).
    + unfold borders. cbn [w_styles with_styles]. rewrite map_app. intros Hin. apply in_app_or in Hin. destruct Hin as [Hin|[<-|[]]]; [exact (H2 Hin)|].
      exact (Hcne b _ Ec eq_refl).
Qed.

Lemma upd_nth_id {X} : forall (l : list X) n, upd_nth n (fun x => x) l = l.
Proof. induction l as [|x r IH]; intros [|n]; cbn; auto. f_equal. apply IH. Qed.
Lemma with_heap_same w : with_heap w (w_heap w) = w.
Proof. destruct w; reflexivity. Qed.

(* TableStyle.<preset>(): a new style around a fresh copy of the border preset b (edited by g: borderless / compact assign
   three characters); its view is the preset's, every other view as before *)
Lemma new_style_inv w vs b g hf cf : inv w vs ->
  let w1 := fst (get_border false w b) in let k := snd (get_border false w b) in
  inv (with_styles (with_heap w1 (upd_nth k g (w_heap w1))) (w_styles w1 ++ [new_tstyle hf cf k]))
      (vs ++ [mkview (new_tstyle hf cf k) (g (preset_border b))]).
Proof.
  intros Hi. destruct (get_border_fresh w vs b Hi) as (Hi1 & _ & Hk & Hfr & Hcn).
  exact (add_style_inv _ vs _ (preset_border b) g hf cf Hi1 Hk Hfr Hcn).
Qed.

(* the four presets as one: the border preset copied, the edit of the copy, the format of header and cells *)
Definition preset_border_of (p : preset) : bpreset :=
  match p with PBorderless | PCompact => BNone | PAscii => BAscii | PSolid => BSolid end.
Definition preset_edit (p : preset) : border -> border :=
  match p with
  | PBorderless => fun x => set_char 10 c_space (set_char 4 c_space (set_char 1 c_eq x))
  | PCompact => fun x => set_char 10 c_empty (set_char 4 c_space (set_char 1 c_empty x))
  | PAscii | PSolid => fun x => x
  end.
Definition preset_fmt (p : preset) : val := match p with PBorderless | PCompact => fmt_plain | PAscii | PSolid => fmt_padded end.
Lemma mk_style_eq sh w p : mk_style sh w p =
  let '(w1, k) := get_border sh w (preset_border_of p) in
  with_styles (with_heap w1 (upd_nth k (preset_edit p) (w_heap w1))) (w_styles w1 ++ [new_tstyle (preset_fmt p) (preset_fmt p) k]).
Proof.
  destruct p; cbn [mk_style preset_border_of preset_edit preset_fmt]; try reflexivity;
    destruct (get_border sh w _) as [w1 k]; now rewrite upd_nth_id, with_heap_same.
Qed.
Lemma init_view_eq p k :
  init_view p = mkview (new_tstyle (preset_fmt p) (preset_fmt p) k) (preset_edit p (preset_border (preset_border_of p))).
Proof. destruct p; reflexivity. Qed.
Lemma mk_style_inv w vs p : inv w vs -> inv (mk_style false w p) (vs ++ [init_view p]).
Proof.
  intros Hi. rewrite mk_style_eq, (init_view_eq p (snd (get_border false w (preset_border_of p)))).
  pose proof (new_style_inv w vs (preset_border_of p) (preset_edit p) (preset_fmt p) (preset_fmt p) Hi) as R.
  destruct (get_border false w (preset_border_of p)) as [w1 k]. exact R.
Qed.

(* an assignment to a field of style i itself *)
Lemma field_update_inv w vs i (f : tstyle -> tstyle) (g : view -> view) : inv w vs ->
  (forall s, ts_border (f s) = ts_border s) -> (forall s b, mkview (f s) b = g (mkview s b)) ->
  inv (with_styles w (upd_nth i f (w_styles w))) (upd_nth i g vs).
Proof.
  intros [Hl Hv Hn Hb Hc] Hfb Hfg.
  assert (Hbor : borders (with_styles w (upd_nth i f (w_styles w))) = borders w).
  { unfold borders. cbn [w_styles with_styles]. apply upd_nth_map. exact Hfb. }
  split.
  - cbn [w_styles with_styles]. rewrite !upd_nth_length. exact Hl.
  - intros j Hj. rewrite upd_nth_length in Hj. rewrite view_of_eq. cbn [w_styles w_heap with_styles].
    destruct (Nat.eq_dec i j) as [->|Hne].
    + rewrite !upd_nth_same, <- (Hv j Hj), view_of_eq. destruct (nth_error (w_styles w) j) as [s|]; [|reflexivity].
      cbn [option_map]. rewrite Hfb. destruct (nth_error (w_heap w) (ts_border s)) as [b|]; [|reflexivity]. cbn [option_map]. now rewrite Hfg.
    + rewrite !upd_nth_other by exact Hne. rewrite <- (Hv j Hj), view_of_eq. reflexivity.
  - rewrite Hbor. exact Hn.
  - rewrite Hbor. exact Hb.
  - intros b. unfold cache_ok. rewrite Hbor. exact (Hc b).
Qed.

(* an assignment THROUGH the reference of style i: only the border object of i changes, and no other style holds it *)
Lemma border_update_inv w vs i (f : border -> border) (g : view -> view) : inv w vs ->
  (forall s b, mkview s (f b) = g (mkview s b)) ->
  inv (on_border w i f) (upd_nth i g vs).
Proof.
  intros Hi Hfg. pose proof Hi as [Hl Hv Hn Hb Hc]. unfold on_border.
  destruct (nth_error (w_styles w) i) as [si|] eqn:Esi.
  2:{ rewrite upd_nth_beyond; [exact Hi|]. rewrite <- Hl. apply nth_error_None. exact Esi. }
  pose proof (border_in w i si Esi) as Hini.
  split.
  - cbn [w_styles with_heap]. rewrite upd_nth_length. exact Hl.
  - intros j Hj. rewrite upd_nth_length in Hj.
    destruct (Nat.eq_dec i j) as [->|Hne].
    + rewrite view_of_eq. cbn [w_styles w_heap with_heap]. rewrite Esi, !upd_nth_same, <- (Hv j Hj), view_of_eq, Esi.
      destruct (nth_error (w_heap w) (ts_border si)) as [b|]; [|reflexivity]. cbn [option_map]. now rewrite Hfg.
    + rewrite (upd_nth_other g) by exact Hne. rewrite <- (Hv j Hj).
      apply (view_of_upd_other w _ (ts_border si) f); [reflexivity|reflexivity|].
      intros sj Esj Heq. apply Hne.
      apply (NoDup_nth_error_inj (borders w) Hn i j (ts_border si)); unfold borders; rewrite nth_error_map.
      * rewrite Esi. reflexivity.
      * rewrite Esj. cbn. now rewrite Heq.
  - exact Hn.
  - intros k Hk. cbn [w_heap with_heap]. rewrite upd_nth_length. apply Hb. exact Hk.
  - intros b. unfold cache_ok. change (cache_of (with_heap w _) b) with (cache_of w b). specialize (Hc b). unfold cache_ok in Hc.
    destruct (cache_of w b) as [c|]; [|exact I]. destruct Hc as [H1 H2]. split; [|exact H2].
    cbn [w_heap with_heap]. rewrite upd_nth_other; [exact H1|]. intros <-. exact (H2 Hini).
Qed.

Lemma style_step_inv w vs o : inv w vs -> inv (fst (style_step false w o)) (spec_step vs o).
Proof.
  intros Hi. destruct o as [p|i f v|i z|i col al|i al|i k v|i v|i]; cbn [style_step spec_step fst].
  - apply mk_style_inv. exact Hi.
  - apply field_update_inv; [exact Hi|destruct f; reflexivity|destruct f; reflexivity].
  - apply field_update_inv; [exact Hi|reflexivity|reflexivity].
  - apply (field_update_inv w vs i _ (fun v => vwith_aligns (set_alignment (v_dalign v) col al (v_aligns v)) v)); [exact Hi|reflexivity|reflexivity].
  - apply (field_update_inv w vs i _ (fun v => vwith_aligns (v_aligns v ++ [al]) v)); [exact Hi|reflexivity|reflexivity].
  - apply (border_update_inv w vs i _ (fun x => vwith_chars (upd_nth k (fun _ => v) (v_chars x)) x)); [exact Hi|reflexivity].
  - apply (border_update_inv w vs i _ (vwith_bstyle v)); [exact Hi|reflexivity].
  - exact Hi.
Qed.
Lemma style_run_inv : forall ops w vs, inv w vs -> inv (fst (style_run false w ops)) (spec_run vs ops).
Proof.
  induction ops as [|o r IH]; intros w vs Hi; cbn [style_run spec_run fold_left fst]; [exact Hi|].
  pose proof (style_step_inv w vs o Hi) as H1. destruct (style_step false w o) as [w' out]. cbn [fst] in H1.
  specialize (IH w' (spec_step vs o) H1). destruct (style_run false w' r) as [w'' outs]. exact IH.
Qed.
Lemma inv_views_all w vs : inv w vs -> views w = map Some vs.
Proof. intros [Hl Hv _ _ _]. unfold views. rewrite Hl. apply nth_error_map_seq. exact Hv. Qed.

(* what each rendering on the way reads *)
Lemma style_run_renders : forall ops w vs, inv w vs ->
  snd (style_run false w ops) =
  (fix go (vs : list view) (ops : list sop) : list (option view) :=
     match ops with
     | [] => []
     | o :: r => match o with SRender i => nth_error vs i :: go vs r | _ => go (spec_step vs o) r end
     end) vs ops.
Proof.
  induction ops as [|o r IH]; intros w vs Hi; cbn [style_run snd]; [reflexivity|].
  pose proof (style_step_inv w vs o Hi) as H1. destruct (style_step false w o) as [w' out] eqn:Es. cbn [fst] in H1.
  specialize (IH w' (spec_step vs o) H1). destruct (style_run false w' r) as [w'' outs]. cbn [snd] in *.
  destruct o as [p|i f v|i z|i col al|i al|i k v|i v|i]; try exact IH.
  cbn [style_step] in Es. injection Es as <- <-. cbn [spec_step] in IH. rewrite IH. f_equal.
  destruct Hi as [Hl Hv _ _ _]. destruct (Nat.lt_ge_cases i (length vs)) as [Hlt|Hge]; [apply Hv, Hlt|].
  rewrite (proj2 (nth_error_None vs i) Hge). rewrite view_of_eq. rewrite <- Hl in Hge. now rewrite (proj2 (nth_error_None _ i) Hge).
Qed.

Definition names (o : sop) : option nat :=
  match o with
  | SMk _ => None | STSet i _ _ => Some i | STDalign i _ => Some i | SAlign i _ _ => Some i | SAppendAlign i _ => Some i
  | SBSet i _ _ => Some i | SBStyle i _ => Some i | SRender _ => None
  end.
Lemma spec_step_other vs o i : i < length vs -> names o <> Some i -> nth_error (spec_step vs o) i = nth_error vs i.
Proof.
  intros Hi Hn. destruct o; cbn [spec_step names] in *; try reflexivity; try (apply upd_nth_other; congruence).
  apply nth_error_app1. exact Hi.
Qed.

Lemma spec_step_length vs o : length vs <= length (spec_step vs o).
Proof. destruct o; cbn [spec_step]; rewrite ?upd_nth_length, ?app_length; lia. Qed.

(* BorderStyle.none() handing out the cached object itself (before fix 30a48a0): borderless(), then compact() - the first
   style's separator characters are now those of the second *)
Example styles_shared_refuted :
  nth_error (views (fst (style_run true world0 [SMk PBorderless; SMk PCompact]))) 0
  <> nth_error (map Some (spec_run [] [SMk PBorderless; SMk PCompact])) 0.
Proof. vm_compute. discriminate. Qed.
Example styles_copied_ok :
  views (fst (style_run false world0 [SMk PBorderless; SMk PCompact; SBSet 1 4 c_eq; SAlign 0 2 1; SMk PSolid]))
  = map Some (spec_run [] [SMk PBorderless; SMk PCompact; SBSet 1 4 c_eq; SAlign 0 2 1; SMk PSolid]).
Proof. vm_compute. reflexivity. Qed.
