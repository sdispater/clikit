(* C03, the resolver of Model/Resolver.v: the leading tokens and what ends them (stopper), the walk one name at a time,
   descends, resolve behind the walk, and gpick - the probe of the default sub-commands of which pick_default and
   Switches.help_pick_default are the two instances. *)
From Coq Require Import Lia.
From Clikit Require Import Base.Prelude Base.Res Model.Conv Model.Format Model.Parser Model.Resolver Proofs.StrLemmas.

(* a token that can be a command name: not empty, not "--", not option-like *)
Definition lead_ok (t : str) : bool := nonempty t && negb (is_dd t) && negb (starts_dash t).
Definition stopper (t : str) : bool := negb (lead_ok t).

Lemma leading_step t r : leading (t :: r) = if lead_ok t then t :: leading r else [].
Proof.
  cbn [leading]. unfold lead_ok. destruct (nonempty t), (is_dd t), (starts_dash t); reflexivity.
Qed.
Lemma leading_app names rest : forallb lead_ok names = true -> leading (names ++ rest) = names ++ leading rest.
Proof.
  induction names as [|t r IH]; intros H; [reflexivity|]. cbn [forallb] in H. apply andb_prop in H as [Ht Hr].
  cbn [app]. rewrite leading_step, Ht, IH by exact Hr. reflexivity.
Qed.
Lemma leading_all l : forallb lead_ok l = true -> leading l = l.
Proof. intros Hl. rewrite <- (app_nil_r l) at 1. rewrite (leading_app l [] Hl). apply app_nil_r. Qed.
(* the leading tokens end at the first stopper; nothing behind it matters *)
Lemma leading_insert_stopper l s r : stopper s = true -> leading (l ++ s :: r) = leading l.
Proof.
  intros Hs. apply negb_true_iff in Hs.
  induction l as [|t l IH]; cbn [app]; rewrite !leading_step; [now rewrite Hs|now rewrite IH].
Qed.
Lemma leading_cut l s r : forallb lead_ok l = true -> stopper s = true -> leading (l ++ s :: r) = l.
Proof. intros Hl Hs. now rewrite (leading_insert_stopper _ _ _ Hs), (leading_all _ Hl). Qed.
Lemma leading_behind_stopper l s r r' : stopper s = true -> leading (l ++ s :: r) = leading (l ++ s :: r').
Proof. intros Hs. now rewrite !(leading_insert_stopper _ _ _ Hs). Qed.

Lemma dd_is_stopper : stopper [DASH; DASH] = true.
Proof. reflexivity. Qed.
Lemma option_is_stopper o : starts_dash o = true -> stopper o = true.
Proof. intros H. unfold stopper, lead_ok. rewrite H. now rewrite andb_false_r. Qed.

Definition cur_path (cur : option (bcmd * list str)) : list str := match cur with Some (_, p) => p | None => [] end.
Lemma walk_cons named cur n r :
  walk named cur (n :: r) =
  if coll_contains named n
  then do b <- coll_get named n; walk (named_of (b_subs b)) (Some (b, cur_path cur ++ [b_name b])) r
  else Ok cur.
Proof. cbn [walk]. destruct (coll_contains named n); reflexivity. Qed.
Lemma walk_cons_inv named cur n r w : walk named cur (n :: r) = Ok w ->
  (coll_contains named n = false /\ w = cur) \/
  exists b, coll_contains named n = true /\ coll_get named n = Ok b /\
            walk (named_of (b_subs b)) (Some (b, cur_path cur ++ [b_name b])) r = Ok w.
Proof.
  rewrite walk_cons. destruct (coll_contains named n); [|intros H; inversion H; auto].
  destruct (coll_get named n) as [b|k]; cbn [bind]; [|discriminate]. right. eauto.
Qed.

Inductive descends : coll -> list str -> bcmd -> Prop :=
| d_one named n b : coll_contains named n = true -> coll_get named n = Ok b -> descends named [n] b
| d_step named n b l b' : coll_contains named n = true -> coll_get named n = Ok b ->
    descends (named_of (b_subs b)) l b' -> descends named (n :: l) b'.

Lemma descends_cons_inv named n l b' : descends named (n :: l) b' ->
  exists b, coll_get named n = Ok b /\ ((l = [] /\ b' = b) \/ descends (named_of (b_subs b)) l b').
Proof. intros H. inversion H; subst; eauto. Qed.
Lemma descends_nil named b : ~ descends named [] b.
Proof. intros H. inversion H. Qed.

(* the whole of resolve behind the walk: the selection is a function of the leading tokens and of what the parser
   says about the whole line *)
Lemma resolve_walk a toks :
  forall b p, walk (named_of (ap_cmds a)) None (leading toks) = Ok (Some (b, p)) ->
  resolve a toks =
    (do d <- pick_default (defaults_of (b_subs b)) toks None;
     match d with
     | Some (dc, r) => do x <- r; Ok (p ++ [b_name dc], b_fmt dc, x)
     | None => do x <- parse (b_fmt b) (b_lenient b) toks; Ok (p, b_fmt b, x) end).
Proof. intros b p H. unfold resolve. rewrite H. reflexivity. Qed.

(* The probe of the default (sub-)commands, for the resolver (pick_default: a default that cannot parse the line is
   passed over) and for the help resolver (Switches.help_pick_default: one that raises a value error as well): the
   errors in skip are passed over, the first default passed over is remembered, any other error ends the probe. *)
Fixpoint gpick (skip : ekind -> bool) (ds : list bcmd) (toks : list str) (first : option (bcmd * ekind))
  : res (option (bcmd * res args)) :=
  match ds with
  | [] => Ok (match first with Some (b, k) => Some (b, Err k) | None => None end)
  | d :: r =>
    match parse (b_fmt d) (b_lenient d) toks with
    | Ok a => Ok (Some (d, Ok a))
    | Err k => if skip k then gpick skip r toks (match first with None => Some (d, k) | s => s end) else Err k
    end
  end.
Definition skipped (skip : ekind -> bool) (toks : list str) (d : bcmd) : Prop :=
  exists k, parse (b_fmt d) (b_lenient d) toks = Err k /\ skip k = true.

Lemma gpick_split skip toks ds1 d ds2 : Forall (skipped skip toks) ds1 ->
  match parse (b_fmt d) (b_lenient d) toks with Ok _ => True | Err k => skip k = false end ->
  forall first, gpick skip (ds1 ++ d :: ds2) toks first =
                match parse (b_fmt d) (b_lenient d) toks with Ok a => Ok (Some (d, Ok a)) | Err k => Err k end.
Proof.
  induction 1 as [|x r (k & Hx & Hk) _ IH]; intros Hd first; cbn [app gpick].
  - destruct (parse (b_fmt d) (b_lenient d) toks) as [a|k]; [reflexivity|now rewrite Hd].
  - rewrite Hx, Hk. apply IH, Hd.
Qed.
Lemma gpick_all_skipped skip toks : forall ds first, Forall (skipped skip toks) ds ->
  gpick skip ds toks first =
  Ok (match first, ds with
      | Some (b, k), _ => Some (b, Err k)
      | None, d :: _ => Some (d, parse (b_fmt d) (b_lenient d) toks)
      | None, [] => None end).
Proof.
  induction ds as [|d r IH]; intros first Hf; cbn [gpick]; [destruct first as [[b k]|]; reflexivity|].
  inversion Hf as [|? ? (k & Hd & Hk) Hr]; subst. rewrite Hd, Hk, (IH _ Hr). destruct first as [[b k0]|]; reflexivity.
Qed.
Lemma gpick_ext skip ds toks toks' :
  Forall (fun d => parse (b_fmt d) (b_lenient d) toks = parse (b_fmt d) (b_lenient d) toks') ds ->
  forall first, gpick skip ds toks first = gpick skip ds toks' first.
Proof.
  induction 1 as [|d r Hd _ IH]; intros first; cbn [gpick]; [reflexivity|]. rewrite Hd.
  destruct (parse (b_fmt d) (b_lenient d) toks') as [a|k]; [reflexivity|]. now rewrite IH.
Qed.

(* the command picked is one of the list, or the one remembered *)
Lemma gpick_in skip toks : forall ds first dc r, gpick skip ds toks first = Ok (Some (dc, r)) ->
  In dc ds \/ exists k, first = Some (dc, k).
Proof.
  induction ds as [|d r0 IH]; intros first dc r; cbn [gpick].
  - destruct first as [[b k]|]; [|discriminate]. intros E. injection E as <- _. right. now exists k.
  - destruct (parse (b_fmt d) (b_lenient d) toks) as [x|k]; [intros E; injection E as <- _; left; now left|].
    destruct (skip k); [|discriminate]. intros E. apply IH in E as [Hin|[k' Hk]]; [left; now right|].
    destruct first as [[b0 k0]|]; [right; now exists k'|]. injection Hk as <- _. left. now left.
Qed.

Definition is_cannot (k : ekind) : bool := match k with CannotParse => true | _ => false end.
Lemma pick_default_gpick : forall ds toks first, pick_default ds toks first = gpick is_cannot ds toks first.
Proof.
  induction ds as [|d r IH]; intros toks first; cbn [pick_default gpick]; [reflexivity|].
  destruct (parse (b_fmt d) (b_lenient d) toks) as [a|[]]; cbn [is_cannot]; auto.
Qed.
