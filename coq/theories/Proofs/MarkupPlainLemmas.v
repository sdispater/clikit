(* C11: "an undecorated output never emits ... the markup of a registered style".
   What the plain rendering is, is known (colorize_plain_strip_tags: the message with exactly its recognised tags removed, strip_tags).
   Whether the RESULT holds a piece that reads like a tag of a style depends on the "<" the message holds outside its tags:
   - when every "<" of the message opens a tag the scanner finds (texts_without_lt), the result holds no <t>, no </t> for any
     style name t the table resolves (registered or inline), and no </>;
   - without that it can: "<<b></b>b>" - a stray "<", the balanced empty pair <b></b>, the plain characters "b>" - renders
     to "<b>".  The characters that spell it are plain characters of the message, not markup the message carried. *)
From Coq Require Import Lia.
From Clikit Require Import Base.Prelude Base.Res Model.Conv Model.Markup Proofs.MarkupLemmas Proofs.LiteralLemmas.
(* the tag that closes whatever is open *)
Definition CLOSE_ANY : str := [LT; SLASH; GT].

Definition occurs (p s : str) : Prop := exists u v, s = u ++ p ++ v.

(* the tags the scanner finds are "<" ("/")? name ">" with a name of tag characters *)
Definition tag_shape (t : tag) : Prop :=
  match t with Tag raw cl nm => raw = LT :: (if cl then [SLASH] else []) ++ nm ++ [GT] /\ Forall (fun c => tag_char c = true) nm end.
Definition cand_ok (k : cand) : Prop := match k with CName _ nm => Forall (fun c => tag_char c = true) nm | _ => True end.
Definition shape_inv (st : lexst) : Prop := Forall (fun sg => tag_shape (snd sg)) (l_done st) /\ cand_ok (l_cand st).
Lemma lex_step_shape_inv st c : shape_inv st -> shape_inv (lex_step st c).
Proof.
  intros [Hd Hk]. unfold lex_step. destruct (N.eqb c LT); [split; [exact Hd|exact I]|].
  destruct (l_cand st) as [| | |cl nm] eqn:Ek; cbn [cand_ok] in Hk.
  - split; [exact Hd|exact I].
  - destruct (N.eqb c SLASH); [split; [exact Hd|exact I]|]. destruct (tag_start c) eqn:Es; [|split; [exact Hd|exact I]].
    split; [exact Hd|]. cbn [l_cand cand_ok]. constructor; [now apply tag_start_char|constructor].
  - destruct (N.eqb c GT).
    + split; [|exact I]. cbn [l_done]. apply Forall_app. split; [exact Hd|]. constructor; [|constructor]. cbn [snd tag_shape raw_of].
      split; [reflexivity|constructor].
    + destruct (tag_start c) eqn:Es; [|split; [exact Hd|exact I]]. split; [exact Hd|]. cbn [l_cand cand_ok].
      constructor; [now apply tag_start_char|constructor].
  - destruct (N.eqb c GT).
    + split; [|exact I]. cbn [l_done]. apply Forall_app. split; [exact Hd|]. constructor; [|constructor]. cbn [snd tag_shape raw_of].
      split; [destruct cl; cbn [app]; now rewrite <- ?app_assoc|exact Hk].
    + destruct (tag_char c) eqn:Ec; [|split; [exact Hd|exact I]]. split; [exact Hd|]. cbn [l_cand cand_ok].
      apply Forall_app. split; [exact Hk|constructor; [exact Ec|constructor]].
Qed.
Lemma lex_shapes m : Forall (fun sg => tag_shape (snd sg)) (fst (lex m)).
Proof.
  unfold lex, lex_end. cbn [fst].
  assert (forall st, shape_inv st -> shape_inv (fold_left lex_step m st)) as H.
  { induction m as [|c r IH]; intros st Hst; cbn [fold_left]; [exact Hst|]. apply IH, lex_step_shape_inv, Hst. }
  apply H. split; [constructor|exact I].
Qed.

(* every "<" of the message opens a tag the scanner finds: no "<" in the texts between the tags nor behind the last one *)
Definition texts_without_lt (m : str) : Prop := Forall (fun sg => no_lt (fst sg)) (fst (lex m)) /\ no_lt (snd (lex m)).
Lemma app_lt_split a b u w : a ++ b = u ++ LT :: w -> no_lt a -> exists u', u = a ++ u' /\ b = u' ++ LT :: w.
Proof.
  revert u. induction a as [|c a IH]; intros u E Ha; [exists u; auto|]. inversion Ha as [|? ? Hc Ha']; subst.
  destruct u as [|d u]; cbn [app] in E; [injection E as E _; congruence|]. injection E as -> E.
  destruct (IH u E Ha') as (u' & -> & Eb). exists u'. auto.
Qed.
Lemma tagchars_no_lt nm : Forall (fun c => tag_char c = true) nm -> no_lt nm.
Proof. intros H. eapply Forall_impl; [|exact H]. intros c Hc. apply (tag_char_not c Hc). Qed.
Definition keep (sty : styles) (sg : str * tag) : str := if recognised sty (snd sg) then [] else raw_text (snd sg).
Lemma lt_of_result sty : forall segs tail u w,
  Forall (fun sg => no_lt (fst sg) /\ tag_shape (snd sg)) segs -> no_lt tail ->
  flat_map (fun sg => fst sg ++ keep sty sg) segs ++ tail = u ++ LT :: w ->
  exists sg r', In sg segs /\ recognised sty (snd sg) = false /\ raw_text (snd sg) = LT :: r' /\ exists rest, w = r' ++ rest.
Proof.
  induction segs as [|[pre t] segs IH]; intros tail u w Hs Ht E.
  - cbn [flat_map app] in E. exfalso. rewrite E in Ht. apply Forall_app in Ht as [_ Ht]. inversion Ht; congruence.
  - inversion Hs as [|? ? [Hpre Hsh] Hs']; subst. cbn [fst snd] in *. cbn [flat_map] in E. rewrite <- !app_assoc in E.
    destruct (app_lt_split _ _ _ _ E Hpre) as (u1 & -> & E1). unfold keep in E1 at 1. cbn [snd] in E1.
    destruct (recognised sty t) eqn:Er.
    + cbn [app] in E1. destruct (IH tail u1 w Hs' Ht E1) as (sg & r' & Hin & H1 & H2 & H3). exists sg, r'. split; [now right|auto].
    + destruct t as [raw cl nm]. destruct Hsh as [-> Hnm]. cbn [raw_text] in E1.
      destruct u1 as [|d u1].
      * cbn [app] in E1. injection E1 as E1. exists (pre, Tag (LT :: (if cl then [SLASH] else []) ++ nm ++ [GT]) cl nm). eexists.
        split; [now left|]. split; [exact Er|]. split; [reflexivity|]. eexists. symmetry. rewrite <- app_assoc in E1. rewrite <- E1. now rewrite <- !app_assoc.
      * (* the "<" lies behind the first character of the tag kept: not in the tag, which holds one "<" only *)
        cbn [app] in E1. injection E1 as Ed E1. subst d.
        assert (no_lt ((if cl then [SLASH] else []) ++ nm ++ [GT])) as Hbody.
        { apply Forall_app. split; [destruct cl; repeat constructor; discriminate|]. apply Forall_app. split; [now apply tagchars_no_lt|repeat constructor; discriminate]. }
        destruct (app_lt_split _ _ _ _ E1 Hbody) as (u2 & -> & E2).
        destruct (IH tail u2 w Hs' Ht E2) as (sg & r' & Hin & H1 & H2 & H3). exists sg, r'. split; [now right|auto].
Qed.
(* two texts without the character c in front of a c: the same text *)
Lemma same_until (c : N) : forall a b x y, ~ In c a -> ~ In c b -> a ++ c :: x = b ++ c :: y -> a = b.
Proof.
  induction a as [|d a IH]; intros b x y Ha Hb E.
  - destruct b as [|e b]; [reflexivity|]. cbn [app] in E. injection E as -> _. exfalso. apply Hb. now left.
  - destruct b as [|e b]; cbn [app] in E.
    + injection E as -> _. exfalso. apply Ha. now left.
    + injection E as -> E. f_equal. apply (IH b x y); [intros H; apply Ha; now right|intros H; apply Hb; now right|exact E].
Qed.
Lemma tagchars_no c nm : tag_char c = false -> Forall (fun x => tag_char x = true) nm -> ~ In c nm.
Proof. intros Hc H Hin. rewrite Forall_forall in H. specialize (H c Hin). congruence. Qed.
Lemma tag_name_chars t : tag_name t -> Forall (fun x => tag_char x = true) t.
Proof. destruct t as [|c r]; [contradiction|]. intros [H1 H2]. constructor; [now apply tag_start_char|exact H2]. Qed.

(* For every style table, stack and message without ESC and backslash all of whose "<" open tags: when the
   undecorated rendering succeeds its result holds no opening and no closing tag of any style name the table resolves, and
   no </>. *)
Theorem plain_holds_no_style_markup sty sk m sk' out :
  Forall good m -> texts_without_lt m -> colorize sty false sk m = Ok (sk', out) ->
  (forall t, tag_name t -> resolvable sty t -> ~ occurs (open_tag t) out /\ ~ occurs (close_tag t) out)
  /\ ~ occurs CLOSE_ANY out.
Proof.
  intros Hg [Hl1 Hl2] Hc.
  rewrite (colorize_plain_strip_tags _ _ _ _ _ (good_no_bsl m Hg) Hc).
  unfold strip_tags.
  assert (Forall (fun sg => no_lt (fst sg) /\ tag_shape (snd sg)) (fst (lex m))) as Hs.
  { pose proof (lex_shapes m) as H. rewrite Forall_forall in *. intros sg Hin. split; auto. }
  assert (forall w u, flat_map (fun sg : str * tag => fst sg ++ (if recognised sty (snd sg) then [] else raw_text (snd sg))) (fst (lex m)) ++ snd (lex m) = u ++ LT :: w ->
            exists (cl : bool) (nm rest : str), Forall (fun c => tag_char c = true) nm /\ w = (if cl then [SLASH] else []) ++ nm ++ [GT] ++ rest /\
              (cl && match nm with [] => true | _ => false end) || match resolve sty (py_lower nm) with Ok (Some _) => true | _ => false end = false) as Hlt.
  { intros w u E. destruct (lt_of_result sty _ _ u w Hs Hl2 E) as ([pre [raw cl nm]] & r' & Hin & Hr & Hraw & rest & ->).
    rewrite Forall_forall in Hs. destruct (Hs _ Hin) as [_ [Eraw Hnm]]. cbn [snd raw_text] in *. rewrite Eraw in Hraw. injection Hraw as <-.
    exists cl, nm, rest. split; [exact Hnm|]. split; [now rewrite <- !app_assoc|exact Hr]. }
  assert (tag_char GT = false) as HGT by reflexivity. assert (tag_char SLASH = false) as HSL by reflexivity.
  split; [intros t Ht (p & Hp); split|]; intros (u & v & E).
  - (* <t> *) unfold open_tag in E. cbn [app] in E. rewrite <- app_assoc in E. cbn [app] in E.
    destruct (Hlt _ _ E) as (cl & nm & rest & Hnm & Ew & Hr). destruct cl; cbn [app] in Ew.
    + destruct t as [|c r]; [contradiction|]. cbn [app] in Ew. injection Ew as -> _. destruct Ht as [Hst _]. vm_compute in Hst. discriminate.
    + apply same_until in Ew; [|apply tagchars_no; [exact HGT|now apply tag_name_chars]|apply tagchars_no; [exact HGT|exact Hnm]].
      subst nm. cbn [andb orb] in Hr. now rewrite Hp in Hr.
  - (* </t> *) unfold close_tag in E. cbn [app] in E. rewrite <- app_assoc in E. cbn [app] in E.
    destruct (Hlt _ _ E) as (cl & nm & rest & Hnm & Ew & Hr). destruct cl; cbn [app] in Ew.
    + injection Ew as Ew. apply same_until in Ew; [|apply tagchars_no; [exact HGT|now apply tag_name_chars]|apply tagchars_no; [exact HGT|exact Hnm]].
      subst nm. rewrite Hp in Hr. now rewrite orb_true_r in Hr.
    + destruct nm as [|c r]; cbn [app] in Ew; [discriminate|]. injection Ew as <- _. inversion Hnm as [|? ? Hch _]; subst. congruence.
  - (* </> *) unfold CLOSE_ANY in E. cbn [app] in E.
    destruct (Hlt _ _ E) as (cl & nm & rest & Hnm & Ew & Hr). destruct cl; cbn [app] in Ew.
    + destruct nm as [|c r]; [cbn in Hr; discriminate|]. cbn [app] in Ew. injection Ew as <- _. inversion Hnm as [|? ? Hch _]; subst. congruence.
    + destruct nm as [|c r]; cbn [app] in Ew; [discriminate|]. injection Ew as <- _. inversion Hnm as [|? ? Hch _]; subst. congruence.
Qed.

(* decision procedures for the examples *)
Fixpoint prefixb (p s : str) : bool :=
  match p, s with [], _ => true | c :: p', d :: s' => N.eqb c d && prefixb p' s' | _ :: _, [] => false end.
Fixpoint occursb (p s : str) : bool := prefixb p s || match s with [] => false | _ :: s' => occursb p s' end.
Lemma prefixb_spec p : forall s, prefixb p s = true <-> exists v, s = p ++ v.
Proof.
  induction p as [|c p IH]; intros s; cbn [prefixb]; [split; [intros _; exists s; reflexivity|reflexivity]|].
  destruct s as [|d s]; [split; [discriminate|intros [v E]; discriminate]|]. rewrite andb_true_iff, IH, N.eqb_eq. split.
  - intros [-> [v ->]]. exists v. reflexivity.
  - intros [v E]. injection E as -> ->. split; [reflexivity|exists v; reflexivity].
Qed.
Lemma occursb_spec p : forall s, occursb p s = true <-> occurs p s.
Proof.
  induction s as [|d s IH]; cbn [occursb]; rewrite orb_true_iff, prefixb_spec.
  - split; [intros [[v E]|E]; [exists [], v; exact E|discriminate]|].
    intros (u & v & E). left. destruct u; [exists v; exact E|discriminate].
  - rewrite IH. split.
    + intros [[v E]|(u & v & E)]; [exists [], v; exact E|exists (d :: u), v; now rewrite E].
    + intros (u & v & E). destruct u as [|c u]; [left; exists v; exact E|right]. injection E as -> E. exists u, v. exact E.
Qed.
Definition texts_without_ltb (m : str) : bool :=
  forallb (fun sg => forallb (fun c => negb (N.eqb c LT)) (fst sg)) (fst (lex m)) && forallb (fun c => negb (N.eqb c LT)) (snd (lex m)).
Lemma no_ltb_spec t : forallb (fun c => negb (N.eqb c LT)) t = true -> no_lt t.
Proof. intros H. apply Forall_forall. intros c Hc. rewrite forallb_forall in H. specialize (H c Hc). apply negb_true_iff, N.eqb_neq in H. exact H. Qed.
