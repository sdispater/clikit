(* Proofs about the FRAMES Model/Progress.v writes (C16): what the pieces of a frame show, the terminal line on an ANSI
   output over whole histories, the section below on a section output. *)
From Coq Require Import Lia ZArith Arith.
From Clikit Require Import Base.Prelude Base.Res Base.Term Model.Conv Model.Markup Model.Section Model.Progress
  Proofs.ListLemmas Proofs.TermLemmas Proofs.MarkupLemmas Proofs.SectionLemmas Proofs.ProgressLemmas.

Definition message_text (q : pbar) : str := match p_message q with Some m => m | None => [37;109;101;115;115;97;103;101;37]%N end.
Definition shows (q : pbar) (now : Z) (x : piece) (part : str) : Prop :=
  match x with
  | PLit s => part = s
  | PCurrent => part = just (SRight (p_step_width q)) (dec_text (p_step q))
  | PMax => part = dec_text (p_max q)
  | PPercent s => part = just s (dec_text (percent_of q))
  | PElapsed s => part = just s (format_time (now - p_start q))
  | PMessage => part = message_text q
  | PBar => exists pc n, part = render_bar_with q pc n
  | PEstimated _ | PRemaining _ => (0 < p_max q)%Z
  end.
Lemma render_piece_shows q now fm x fm' part : (0 <= p_max q)%Z -> render_piece q now fm x = Ok (fm', part) -> shows q now x part.
Proof.
  intros Hm. destruct x; cbn [render_piece shows]; intros H; try (inversion H; reflexivity).
  - destruct (bar_full q); [inversion H; eauto|]. bind_inv H y Hy. inversion H; eauto.
  - destruct (Z.eqb_spec (p_max q) 0); [discriminate|lia].
  - destruct (Z.eqb_spec (p_max q) 0); [discriminate|lia].
Qed.
Lemma render_frame_pieces q now : (0 <= p_max q)%Z -> forall f fm fm' fr, render_frame q now fm f = Ok (fm', fr) ->
  exists parts, fr = concat parts /\ Forall2 (shows q now) f parts.
Proof.
  intros Hm. induction f as [|x r IH]; intros fm fm' fr H; cbn [render_frame] in H.
  - inversion H. exists []. split; [reflexivity|constructor].
  - bind_inv H a Ha. bind_inv H b Hb. inversion H; subst. destruct a as [f1 pa], b as [f2 pb]. cbn [fst snd] in *.
    destruct (IH _ _ _ Hb) as (parts & -> & HF). exists (pa :: parts). split; [reflexivity|].
    constructor; [|exact HF]. eapply render_piece_shows; eauto.
Qed.

Definition padded_to (last : nat) (v : str) : str :=
  if Nat.ltb (length v) last then v ++ sp SPACE (last - length v) else v.
Lemma padded_to_len last v : length (padded_to last v) = Nat.max last (length v).
Proof.
  unfold padded_to. destruct (Nat.ltb_spec (length v) last); [|lia]. rewrite app_length. unfold sp. rewrite repeat_length. lia.
Qed.

Section Line.
Variable w : nat.
Hypothesis w_pos : 1 <= w.

Variable sty : styles.

(* a line of good markup that stays good when blanks are appended: it does not end inside a tag *)
Definition okl (l : str) : Prop := okline sty l /\ closed l.
Lemma okl_pad l n : okl l -> okline sty (l ++ sp SPACE n) /\ vis sty (l ++ sp SPACE n) = vis sty l ++ sp SPACE n.
Proof.
  intros [Hl Hc]. destruct (okline_blanks sty n) as (_ & Hb & HV). change (sp SPACE n) with (blanks n).
  rewrite <- HV at 3. apply okline_app; assumption.
Qed.
Lemma pad_to_ok last l : okl l ->
  okline sty (pad_to last l (vis sty l)) /\ vis sty (pad_to last l (vis sty l)) = padded_to last (vis sty l).
Proof.
  intros H. unfold pad_to, padded_to. destruct (Nat.ltb (length (vis sty l)) last); [apply okl_pad, H|].
  split; [apply H|reflexivity].
Qed.
Lemma okl_nil : okl [].
Proof. split; [apply okline_nil|apply closed_nil]. Qed.

(* a one-line format: the built-in ones are; a custom one when its text has no line break *)
Definition one_line (p : pbar) : Prop :=
  p_flc p = 0 /\ match p_custom p with Some f => count_nl (lits f) = 0 | None => True end.
Definition ansi_out (p : pbar) : Prop :=
  p_ansi p = true /\ p_quiet p = false /\ p_section p = false /\ fmt_ok sty (p_f p) /\ one_line p /\
  okline sty (p_pchar p) /\ p_last_len p <= w.
(* the cursor is in the last row of the screen, which holds r; the rows above are R *)
Definition on_line (R : list row) (r : row) (t : term) : Prop := exists c, t = {| rows := R ++ [r]; cr := length R; cc := c |}.

Lemma ansi_overwrite q now l p' es R r t :
  ansi_out q -> on_line R r t -> length r <= p_last_len q -> okl l -> length (vis sty l) <= w ->
  overwrite q now l = Ok (p', es) ->
  on_line R (padded_to (p_last_len q) (vis sty l)) (feed w t es) /\
  p' = set_written q (length (padded_to (p_last_len q) (vis sty l))) now.
Proof.
  intros (Ha & Hq & Hs & Hf & (Hflc & _) & _ & Hw) (c & ->) Hr Hl Hfit H.
  pose proof Hl as [(L1 & L2 & L3) Hc].
  rewrite (overwrite_stream q now l Ha Hs Hq), (lines_of_single l L1), Hflc in H. cbn [pad_lines] in H.
  rewrite (remove_format_ok sty (p_f q) l (vis sty l) Hf L3) in H. cbn [bind fst snd join_with] in H.
  destruct (pad_to_ok (p_last_len q) l Hl) as [(P1 & P2) PV].
  set (L := pad_to (p_last_len q) l (vis sty l)) in *.
  destruct (deco_of_plain sty L (vis sty L) (p_f q) P2 Hf) as (a & E2 & Hs2). rewrite E2 in H. cbn [bind fst snd max_vis] in H.
  rewrite (remove_format_ok sty (p_f q) L (vis sty L) Hf (proj2 P2)) in H. cbn [bind fst snd max_vis] in H.
  inversion H; subst; clear H. rewrite PV. split.
  - exists (length (padded_to (p_last_len q) (vis sty l))).
    change (Cr :: emits_of_ansi a) with ([Cr] ++ emits_of_ansi a). rewrite feed_app, feed_ansi, Hs2, PV.
    assert (no_lf (padded_to (p_last_len q) (vis sty l))) as Hn by (rewrite <- PV; apply vis_no_lf; exact (conj P1 P2)).
    rewrite (emits_no_lf _ Hn), <- feed_app. cbn [app].
    pose proof (padded_to_len (p_last_len q) (vis sty l)) as HL.
    apply line_replaced; lia.
  - reflexivity.
Qed.
(* rendering a frame leaves the formatter as it was (%bar% measures the progress character) *)
Lemma render_piece_fmt q now x fm fm' part : okline sty (p_pchar q) -> fmt_ok sty fm ->
  render_piece q now fm x = Ok (fm', part) -> fm' = fm.
Proof.
  intros (_ & _ & Hpc) Hf H. destruct x; cbn [render_piece] in H; try (inversion H; reflexivity).
  - destruct (bar_full q); [inversion H; reflexivity|].
    rewrite (remove_format_ok sty fm (p_pchar q) _ Hf Hpc) in H. inversion H; reflexivity.
  - destruct (p_max q =? 0)%Z; [discriminate|]. inversion H; reflexivity.
  - destruct (p_max q =? 0)%Z; [discriminate|]. inversion H; reflexivity.
Qed.
Lemma render_frame_fmt q now : okline sty (p_pchar q) -> forall f fm fm' fr, fmt_ok sty fm ->
  render_frame q now fm f = Ok (fm', fr) -> fm' = fm.
Proof.
  intros Hpc. induction f as [|x r IH]; intros fm fm' fr Hf H; cbn [render_frame] in H; [now inversion H|].
  bind_inv H a Ha. bind_inv H b Hb. inversion H; subst. destruct a as [f1 pa], b as [f2 pb]. cbn [fst snd] in *.
  apply (render_piece_fmt _ _ _ _ _ _ Hpc Hf) in Ha. subst f1. exact (IH _ _ _ Hf Hb).
Qed.

Lemma best_format_one_line v b : count_nl (lits (best_format v b)) = 0.
Proof. unfold best_format. destruct (v =? 1)%Z, ((v =? 2)%Z || (v =? 4)%Z)%bool, b; reflexivity. Qed.
Lemma with_fmt_ansi_out p : ansi_out p -> ansi_out (with_fmt p) /\ p_last_len (with_fmt p) = p_last_len p /\
  p_pchar (with_fmt p) = p_pchar p.
Proof.
  intros Ho. pose proof Ho as (Ha & Hq & Hs & Hf & (Hflc & Hc) & Hpc & Hw). unfold with_fmt. destruct (p_fmt p).
  { split; [exact Ho|split; reflexivity]. }
  split; [|split; reflexivity]. unfold ansi_out, one_line. cbn.
  split; [exact Ha|]. split; [exact Hq|]. split; [exact Hs|]. split; [exact Hf|]. split; [|split; [exact Hpc|exact Hw]].
  split; [|exact Hc]. fold (lits (match p_custom p with Some f => f | None => best_format (p_verbosity p) (0 <? p_max p)%Z end)).
  destruct (p_custom p) as [f|]; [exact Hc|apply best_format_one_line].
Qed.
(* a write records the new last length; everything else ansi_out reads it leaves alone *)
Lemma ansi_out_written p n now : ansi_out p -> n <= w -> ansi_out (set_written p n now).
Proof. intros (A1 & A2 & A3 & A4 & A5 & A6 & _) Hn. exact (conj A1 (conj A2 (conj A3 (conj A4 (conj A5 (conj A6 Hn)))))). Qed.
Lemma same_out_ansi p q : same_out p q -> ansi_out p -> ansi_out q.
Proof.
  intros (E1 & E2 & E3 & E4 & E5 & E6 & E7 & E8 & _) (Ha & Hq & Hs & Hf & (Hflc & Hc) & Hpc & Hw).
  unfold ansi_out, one_line. rewrite E1, E2, E3, E4, E5, E6, E7, E8.
  exact (conj Ha (conj Hq (conj Hs (conj Hf (conj (conj Hflc Hc) (conj Hpc Hw)))))).
Qed.

(* every frame the history draws is one line of good markup that fits the terminal line *)
Definition frame_fits (q : pbar) (now : Z) : Prop :=
  forall fm fr, frame_of (with_fmt q) now = Ok (fm, fr) -> okl fr /\ length (vis sty fr) <= w.

Lemma ansi_display q now p' es R r t :
  ansi_out q -> on_line R r t -> length r <= p_last_len q -> frame_fits q now -> display q now = Ok (p', es) ->
  exists fm fr, frame_of (with_fmt q) now = Ok (fm, fr) /\
    on_line R (padded_to (p_last_len q) (vis sty fr)) (feed w t es) /\
    ansi_out p' /\ p_last_len p' = length (padded_to (p_last_len q) (vis sty fr)).
Proof.
  intros Ho Hl Hr Hfit H. pose proof Ho as (_ & Hq & _).
  destruct (display_writes _ _ _ _ H Hq) as (fm & fr & p2 & Hfr & Hov & ->).
  destruct (with_fmt_ansi_out q Ho) as (Ho1 & EL & EP). destruct (Hfit fm fr Hfr) as [Hok Hlen].
  pose proof Ho1 as (Ha1 & Hq1 & Hs1 & Hf1 & Hol1 & Hpc1 & Hw1).
  assert (fm = p_f (with_fmt q)) as -> by (eapply (render_frame_fmt _ now Hpc1); [exact Hf1|exact Hfr]).
  rewrite set_out_id in Hov.
  destruct (ansi_overwrite _ now fr p2 es R r t Ho1 Hl ltac:(rewrite EL; exact Hr) Hok Hlen Hov) as (HL & ->).
  rewrite EL in *. exists (p_f (with_fmt q)), fr. split; [exact Hfr|]. split; [exact HL|]. split; [|reflexivity].
  apply (ansi_out_written (with_fmt q) _ now Ho1). rewrite padded_to_len. lia.
Qed.

Definition step_fits (p : pbar) (now : Z) (o : pop) : Prop :=
  match draw_state p now o with Some q => frame_fits q now | None => True end.
(* what the line shows after a call that wrote: the visible text of its frame, padded with blanks up to the length of
   the frame before (a clear: blanks only) *)
Definition shown_by (p : pbar) (now : Z) (o : pop) : str :=
  match draw_state p now o with
  | Some q => match frame_of (with_fmt q) now with Ok (_, fr) => padded_to (p_last_len p) (vis sty fr) | Err _ => [] end
  | None => padded_to (p_last_len p) []
  end.

Lemma ansi_step p now o p' es R r t :
  ansi_out p -> on_line R r t -> length r <= p_last_len p -> step_fits p now o -> pstep p now o = Ok (p', es) ->
  ansi_out p' /\ on_line R (match es with [] => r | _ => shown_by p now o end) (feed w t es) /\
  length (match es with [] => r | _ => shown_by p now o end) <= p_last_len p'.
Proof.
  intros Ho Hl Hr Hfit H. unfold step_fits, shown_by in *.
  destruct (pstep_cases _ _ _ _ _ H) as [(q & Hd & D)|[[-> Sp]|[(-> & _ & Ov)|(tx & x & -> & Hsec & _)]]].
  - rewrite Hd in *. pose proof (draw_state_same _ _ _ _ Hd) as Sq. pose proof (same_out_last_len _ _ Sq) as EL.
    pose proof (same_out_ansi _ _ Sq Ho) as Hoq.
    destruct (ansi_display q now p' es R r t Hoq Hl ltac:(rewrite EL; exact Hr) Hfit D) as (fm & fr & Hfr & HL & Ho' & ELL).
    rewrite Hfr, <- EL. assert (es <> []) as Hne.
    { pose proof Hoq as (Ha & Hq & Hs & _). eapply display_draws; [| |exact D]; [|exact Ha]. split; [exact Hq|]. intros E. congruence. }
    destruct es; [contradiction|]. split; [exact Ho'|]. split; [exact HL|]. lia.
  - (* nothing written *)
    cbn [feed fold_left]. pose proof (same_out_last_len _ _ Sp) as EL'. split; [eapply same_out_ansi; eauto|].
    split; [exact Hl|]. lia.
  - (* clear: an empty line, padded to the length of the frame before *)
    cbn [draw_state]. destruct (with_fmt_ansi_out p Ho) as (Ho1 & EL & _). pose proof Ho1 as (_ & _ & _ & _ & (Hflc & _) & _).
    rewrite Hflc in Ov. cbn [repeat] in Ov.
    destruct (ansi_overwrite (with_fmt p) now [] p' es R r t Ho1 Hl ltac:(rewrite EL; exact Hr) okl_nil) as (HL & ->);
      [destruct (okline_nil sty) as [_ ->]; cbn; lia|exact Ov|].
    destruct (okline_nil sty) as [_ EV]. rewrite EV, EL in *.
    assert (es <> []) as Hne.
    { pose proof Ho1 as (Ha1 & Hq1 & Hs1 & _). eapply overwrite_draws; [| |exact Ov]; [|exact Ha1]. split; [exact Hq1|]. congruence. }
    destruct es; [contradiction|]. split; [|split; [exact HL|cbn; lia]].
    apply (ansi_out_written (with_fmt p) _ now Ho1). rewrite padded_to_len. destruct Ho1 as (_ & _ & _ & _ & _ & _ & Hw1). cbn. lia.
  - (* the write below: not a section output *)
    destruct Ho as (_ & _ & Hs & _). congruence.
Qed.

Fixpoint run_fits (p : pbar) (now : Z) (ops : list (Z * pop)) : Prop :=
  match ops with
  | [] => True
  | (dt, o) :: r => step_fits p (now + dt) o /\
                    match pstep p (now + dt) o with Ok (p', _) => run_fits p' (now + dt) r | Err _ => True end
  end.
(* what the line shows after a history: the frame of the latest call that wrote *)
Fixpoint run_shown (p : pbar) (now : Z) (ops : list (Z * pop)) (cur : str) : str :=
  match ops with
  | [] => cur
  | (dt, o) :: r => match pstep p (now + dt) o with
                    | Ok (p', es) => run_shown p' (now + dt) r (match es with [] => cur | _ => shown_by p (now + dt) o end)
                    | Err _ => cur
                    end
  end.
End Line.

Lemma lines_of_repeat_lf n : lines_of (repeat LF n) = repeat [] (S n).
Proof. induction n as [|n IH]; cbn [repeat lines_of]; [reflexivity|]. now rewrite IH. Qed.

Section Sec.
Variable w : nat.
Hypothesis w_pos : 1 <= w.
Variable sty : styles.
Notation okl := (okl sty).

Lemma pad_lines_ok last : forall ls f, fmt_ok sty f -> Forall okl ls ->
  pad_lines last f ls = Ok (f, map (fun l => pad_to last l (vis sty l)) ls).
Proof.
  induction ls as [|l r IH]; intros f Hf H; cbn [pad_lines map]; [reflexivity|].
  inversion H as [|? ? [(_ & _ & L3) _] Hr]; subst. rewrite (remove_format_ok sty f l _ Hf L3). cbn [bind fst snd].
  now rewrite (IH f Hf Hr).
Qed.
Lemma max_vis_ok : forall ls f acc, fmt_ok sty f -> Forall (okline sty) ls -> exists n, max_vis f ls acc = Ok (f, n).
Proof.
  induction ls as [|l r IH]; intros f acc Hf H; cbn [max_vis]; [eauto|].
  inversion H as [|? ? (_ & _ & L3) Hr]; subst. rewrite (remove_format_ok sty f l _ Hf L3). cbn [bind fst snd]. apply IH; assumption.
Qed.

(* the bar's section is the first one; the screen is the stack of all sections (SectionLemmas.Inv) *)
Definition sec_out (p : pbar) (t : term) : Prop :=
  p_ansi p = true /\ p_quiet p = false /\ p_section p = true /\ p_w p = w /\ p_secs p <> [] /\ okline sty (p_pchar p) /\
  Inv w sty (p_secs p) (p_f p) t.

Lemma sec_overwrite q now m p' es t : sec_out q t -> Forall okl (lines_of m) -> overwrite q now m = Ok (p', es) ->
  sec_out p' (feed w t es) /\ skipn 1 (p_secs p') = skipn 1 (p_secs q).
Proof.
  intros (Ha & Hq & Hs & Hw & Hne & Hpc & -> & Hok & Hf) Hm H.
  rewrite (overwrite_sec q now m Ha Hs Hq), (pad_lines_ok (p_last_len q) _ (p_f q) Hf Hm), Hw in H. cbn [bind fst snd] in H.
  set (lines := map (fun l => pad_to (p_last_len q) l (vis sty l)) (lines_of m)) in *.
  assert (Forall (okline sty) lines) as Hlines.
  { unfold lines. apply Forall_map. eapply Forall_impl; [|exact Hm]. intros l Hl. apply (pad_to_ok sty), Hl. }
  assert (lines <> []) as Hlne by (unfold lines; pose proof (lines_of_ne m); destruct (lines_of m); [contradiction|discriminate]).
  destruct (p_secs q) as [|s0 r0]; [contradiction|]. inversion Hok as [|? ? _ Hr0]; subst.
  destruct (clear_step w w_pos sty (s0 :: r0) (p_f q) 0 (Some (length lines / w + p_flc q + 1)) s0 Hok Hf eq_refl)
    as (s1 & e1 & E1 & Hs1 & F1).
  rewrite E1 in H. cbn [bind fst snd] in H. change (set_sec (s0 :: r0) 0 s1) with (s1 :: r0) in *.
  assert (Forall (okline sty) (lines_of (join_with NL lines))) as Hjl.
  { rewrite lines_of_join; [exact Hlines|exact Hlne|]. eapply Forall_impl; [|exact Hlines]. intros l Hl. apply Hl. }
  destruct (write_step w w_pos sty (s1 :: r0) (p_f q) 0 (join_with NL lines) false s1 (Forall_cons _ Hs1 Hr0) Hf eq_refl Hjl)
    as (e2 & E2 & Hs2 & F2).
  rewrite E2 in H. cbn [bind fst snd] in H.
  destruct (max_vis_ok lines (p_f q) 0 Hf Hlines) as (ll & E4). rewrite E4 in H. injection H as <- <-.
  split; [|reflexivity].
  refine (conj Ha (conj Hq (conj Hs (conj Hw (conj _ (conj Hpc (conj _ (conj (Forall_cons _ Hs2 Hr0) Hf)))))))); [discriminate|].
  rewrite feed_app. exact (eq_trans (f_equal (fun t => feed w t e2) (F1 [])) (F2 [])).
Qed.

Lemma same_out_sec p q t : same_out p q -> sec_out p t -> sec_out q t.
Proof.
  intros (E1 & E2 & E3 & E4 & _ & _ & E7 & _ & E9 & E10) H. unfold sec_out. now rewrite E1, E2, E3, E4, E7, E9, E10.
Qed.

(* every line of the frame is good markup and does not end inside a tag *)
Definition frame_lines_ok (q : pbar) (now : Z) : Prop :=
  forall fm fr, frame_of (with_fmt q) now = Ok (fm, fr) -> Forall okl (lines_of fr).
Definition sec_step_ok (p : pbar) (now : Z) (o : pop) : Prop :=
  match draw_state p now o with Some q => frame_lines_ok q now | None => True end.

Lemma sec_display q now p' es t : sec_out q t -> frame_lines_ok q now -> display q now = Ok (p', es) ->
  sec_out p' (feed w t es) /\ skipn 1 (p_secs p') = skipn 1 (p_secs q).
Proof.
  intros Ho Hfit H. pose proof Ho as (Ha & Hq & Hs & Hw & Hne & Hpc & HI).
  destruct (display_writes _ _ _ _ H Hq) as (fm & fr & p2 & Hfr & Hov & ->).
  pose proof HI as (_ & _ & Hf). unfold frame_lines_ok in Hfit. destruct (with_fmt_set q) as (f0 & n & E). rewrite E in *.
  assert (fm = p_f q) as -> by (eapply (render_frame_fmt sty (set_fmt q f0 n) now Hpc); [exact Hf|exact Hfr]).
  change (p_f q) with (p_f (set_fmt q f0 n)) in Hov. rewrite set_out_id in Hov.
  exact (sec_overwrite (set_fmt q f0 n) now fr p2 es t Ho (Hfit _ fr Hfr) Hov).
Qed.

Lemma sec_step p now o p' es t : sec_out p t -> sec_step_ok p now o -> good_pop sty o = true -> pstep p now o = Ok (p', es) ->
  sec_out p' (feed w t es) /\ (bar_call o -> skipn 1 (p_secs p') = skipn 1 (p_secs p)).
Proof.
  intros Ho Hfit Hg H. unfold sec_step_ok in Hfit.
  destruct (pstep_cases _ _ _ _ _ H) as [(q & Hd & D)|[[-> Sp]|[(-> & _ & Ov)|(tx & x & -> & _ & -> & -> & Hx)]]].
  - rewrite Hd in Hfit. pose proof (draw_state_same _ _ _ _ Hd) as Sq. pose proof (same_out_secs _ _ Sq) as ES.
    destruct (sec_display q now p' es t (same_out_sec _ _ _ Sq Ho) Hfit D) as [Ho' B]. rewrite ES in B. auto.
  - (* nothing written *)
    cbn [feed fold_left]. pose proof (same_out_secs _ _ Sp) as ES'.
    split; [eapply same_out_sec; eauto|intros _; now rewrite ES'].
  - (* clear: as many empty lines as the format has line breaks *)
    destruct (with_fmt_set p) as (f0 & n & E). rewrite E in Ov.
    assert (Forall okl (lines_of (repeat LF (p_flc (set_fmt p f0 n))))) as Hbl.
    { rewrite lines_of_repeat_lf. apply Forall_forall. intros x Hx. apply repeat_spec in Hx. subst. apply okl_nil. }
    destruct (sec_overwrite (set_fmt p f0 n) now _ p' es t Ho Hbl Ov) as [Ho2 B]. auto.
  - (* a write to the section below *)
    pose proof Ho as (Ha & Hq & Hs & Hw & Hne & Hpc & -> & Hok & Hf). cbn [good_pop] in Hg. rewrite Ha, Hw in Hx.
    destruct (write_stack w w_pos sty (p_secs p) (p_f p) 1 tx true Hok Hf Hg) as (st2 & e2 & E & Hok2 & F). rewrite E in Hx.
    injection Hx as <-. split; [|intros []].
    refine (conj Ha (conj Hq (conj Hs (conj Hw (conj _ (conj Hpc (conj (F []) (conj Hok2 Hf)))))))).
    (* the bar's section is still there *)
    cbn [sstep_ansi] in E. destruct (nth_error (p_secs p) 1); [|injection E as <- _; exact Hne].
    bind_inv E m1 Hm1. bind_inv E a1 Ha1. bind_inv E b1 Hb1. injection E as <- _. unfold set_sec.
    destruct (p_secs p); [contradiction|discriminate].
Qed.

Fixpoint sec_run_ok (p : pbar) (now : Z) (ops : list (Z * pop)) : Prop :=
  match ops with
  | [] => True
  | (dt, o) :: r => sec_step_ok p (now + dt) o /\
                    match pstep p (now + dt) o with Ok (p', _) => sec_run_ok p' (now + dt) r | Err _ => True end
  end.
End Sec.

Lemma closedb_ok l : closedb l = true -> closed l.
Proof. unfold closedb, closed. destruct (l_cand _); intros H; try discriminate; reflexivity. Qed.
Lemma oklb_ok sty l : oklb sty l = true -> okl sty l.
Proof. unfold oklb. intros H. apply Bool.andb_true_iff in H as [H1 H2]. split; [apply good_line_ok, H1|apply closedb_ok, H2]. Qed.

Lemma frame_fitsb_ok w sty q now : frame_fitsb w sty q now = true -> frame_fits w sty q now.
Proof.
  unfold frame_fitsb, frame_fits. intros H fm fr E. rewrite E in H. apply Bool.andb_true_iff in H as [H1 H2].
  split; [apply oklb_ok, H1|apply Nat.leb_le, H2].
Qed.

Lemma frame_lines_okb_ok sty q now : frame_lines_okb sty q now = true -> frame_lines_ok sty q now.
Proof.
  unfold frame_lines_okb, frame_lines_ok. intros H fm fr E. rewrite E in H. revert H. apply forallb_Forall, oklb_ok.
Qed.
