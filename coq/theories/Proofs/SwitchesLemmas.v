(* C09, the switches over an abstract list of option tokens: io_settings and the help / version decisions depend only on
   which tokens are present; option_tokens and the first "--"; the table of switches; what a run does when no
   switch is given (handler_runs_lemma). *)
From Coq Require Import Lia Permutation.
From Clikit Require Import Base.Prelude Base.Res Model.Conv Model.Format Model.Parser Model.Resolver Model.Run
     Model.Tokenizer Model.Gate Model.Switches Proofs.StrLemmas Proofs.TokenizerLemmas Proofs.GateLemmas.

Lemma has_token_perm t l l' : Permutation l l' -> has_token t l = has_token t l'.
Proof.
  unfold has_token. induction 1; cbn; auto.
  - now rewrite IHPermutation.
  - destruct (str_eqb t x), (str_eqb t y); reflexivity.
  - congruence.
Qed.
Lemma has_token_In t l : has_token t l = true <-> In t l.
Proof.
  unfold has_token. rewrite existsb_exists. split; [|intros H; exists t; split; [exact H|apply str_eqb_refl]].
  intros (x & Hx & E). destruct (str_eqb_spec t x); [now subst|discriminate].
Qed.

Lemma io_settings_perm debug l l' : Permutation l l' -> io_settings debug l = io_settings debug l'.
Proof.
  intros H. unfold io_settings.
  rewrite !(has_token_perm _ _ _ H). reflexivity.
Qed.
Lemma wants_help_perm l l' : Permutation l l' -> wants_help l = wants_help l'.
Proof. intros H. unfold wants_help. now rewrite !(has_token_perm _ _ _ H). Qed.
Lemma wants_version_perm l l' : Permutation l l' -> wants_version l = wants_version l'.
Proof. intros H. unfold wants_version. now rewrite !(has_token_perm _ _ _ H). Qed.

Lemma io_settings_insert debug l1 s l2 : io_settings debug (l1 ++ s :: l2) = io_settings debug (s :: l1 ++ l2).
Proof. apply io_settings_perm. apply Permutation_sym, Permutation_middle. Qed.

(* tokens placed before the first "--" of the line are option tokens, at their place *)
Lemma option_tokens_app l1 l2 : forallb (fun x => negb (is_ddash x)) l1 = true -> option_tokens (l1 ++ l2) = l1 ++ option_tokens l2.
Proof.
  induction l1 as [|x r IH]; cbn [app option_tokens forallb]; intros H; [reflexivity|].
  apply andb_prop in H as [Hx Hr]. destruct (is_ddash x); [discriminate|]. now rewrite (IH Hr).
Qed.

(* everything behind the first "--" is as if it were not there: no effect on the settings or the help decision *)
Lemma option_tokens_ddash l t : option_tokens (l ++ [DASH; DASH] :: t) = option_tokens l.
Proof.
  induction l as [|x r IH]; cbn [app option_tokens]; [reflexivity|]. destruct (is_ddash x); [reflexivity|]. now rewrite IH.
Qed.
Lemma quiet_table debug ots : s_quiet (io_settings debug ots) = has_token T_quiet ots || has_token T_q ots.
Proof. reflexivity. Qed.
Lemma interactive_table debug ots :
  s_interactive (io_settings debug ots) = negb (has_token T_no_interaction ots || has_token T_n ots).
Proof. reflexivity. Qed.
Lemma verbosity_table debug ots :
  s_verbosity (io_settings debug ots) =
    if has_token T_vvv ots || debug then DEBUG
    else if has_token T_vv ots then VERY_VERBOSE else if has_token T_v ots then VERBOSE else NORMAL.
Proof. reflexivity. Qed.
Lemma ansi_table debug ots stream_ansi :
  decorated (io_settings debug ots) stream_ansi =
    if has_token T_no_ansi ots then false else if has_token T_ansi ots then true else stream_ansi.
Proof. unfold decorated, io_settings. cbn [s_ansi]. destruct (has_token T_no_ansi ots), (has_token T_ansi ots); reflexivity. Qed.

Lemma handler_runs_lemma debug a toks path f x :
  wants_help (option_tokens toks) = false -> wants_version (option_tokens toks) = false -> resolve a toks = Ok (path, f, x) ->
  args_is_option_set f x S_version = false -> (forall p, path = [p] -> str_eqb p S_help = false) ->
  sm_action (run_summary debug a toks) = AHandler path.
Proof.
  intros Hh Hw Hr Hv Hp. unfold run_summary. cbn [sm_action]. rewrite Hh, Hw, Hr, Hv. cbn [orb].
  destruct path as [|p [|q r]]; try reflexivity. rewrite (Hp p eq_refl). reflexivity.
Qed.
