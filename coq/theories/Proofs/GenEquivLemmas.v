(* The hand models of Model/Gate.v (C10) and Model/Flags.v (C07) EQUAL, for all inputs, the definitions that
   harness/translate.py regenerates from the Python sources on every bin/setup (Generated/GenGate.v, GenFlags.v).
   This file is hand-written; the generated files are not.  When the code changes its meaning, these proofs stop
   compiling (and the build, hence every check, fails); when it is only re-arranged they should go on compiling:
   the proofs do not depend on the order of the operands in the generated text - they unfold everything down to the bit tests
   "Z.land x c =? 0", split every mask test into tests of single masks (for Option._add_default_flags the other way round: the model's
   single-bit tests are folded into the code's mask test, bit_or_mask), decide the tests one by one and compare; the two Option lemmas
   first rewrite the super call with the AbstractOption lemma. *)
From Coq Require Import Lia.
From Clikit Require Import Base.Prelude Base.Res.
From Clikit Require Model.Gate Model.Flags Generated.GenGate Generated.GenFlags.

(* x & (a | b) is zero iff x & a and x & b are *)
Lemma land_lor_eqb0 x a b :
  (Z.land x (Z.lor a b) =? 0)%Z = ((Z.land x a =? 0)%Z && (Z.land x b =? 0)%Z).
Proof.
  rewrite Z.land_lor_distr_r.
  destruct (Z.eqb_spec (Z.land x a) 0) as [Ha|Ha], (Z.eqb_spec (Z.land x b) 0) as [Hb|Hb]; cbn;
    try (apply Z.eqb_eq; apply Z.lor_eq_0_iff; auto);
    apply Z.eqb_neq; rewrite Z.lor_eq_0_iff; tauto.
Qed.

(* (x | a) & c is zero iff x & c and a & c are *)
Lemma land_lor_l_eqb0 x a c :
  (Z.land (Z.lor x a) c =? 0)%Z = ((Z.land x c =? 0)%Z && (Z.land a c =? 0)%Z).
Proof. rewrite (Z.land_comm (Z.lor x a)), land_lor_eqb0, !(Z.land_comm c). reflexivity. Qed.

(* x has a bit of a or a bit of b iff it has one of a | b *)
Lemma bit_or_mask x a b :
  negb (Z.land x a =? 0)%Z || negb (Z.land x b =? 0)%Z = negb (Z.land x (Z.lor a b) =? 0)%Z.
Proof. now rewrite land_lor_eqb0, negb_andb. Qed.

(* closed sub-terms are computed; mask tests are split until they test the unknown word against one constant *)
Ltac closed_arith :=
  repeat match goal with
         | |- context [Z.pow (Zpos ?a) (Zpos ?b)] =>
           let v := eval vm_compute in (Z.pow (Zpos a) (Zpos b)) in change (Z.pow (Zpos a) (Zpos b)) with v
         | |- context [Z.pow (Zpos ?a) Z0] => change (Z.pow (Zpos a) Z0) with 1%Z
         | |- context [Z.land (Zpos ?a) (Zpos ?b)] =>
           let v := eval vm_compute in (Z.land (Zpos a) (Zpos b)) in change (Z.land (Zpos a) (Zpos b)) with v
         | |- context [Z.lor (Zpos ?a) (Zpos ?b)] =>
           let v := eval vm_compute in (Z.lor (Zpos a) (Zpos b)) in change (Z.lor (Zpos a) (Zpos b)) with v
         | |- context [Z.eqb (Zpos ?a) Z0] => change (Z.eqb (Zpos a) Z0) with false
         | |- context [Z.eqb Z0 Z0] => change (Z.eqb Z0 Z0) with true
         end.
(* c & x is written x & c; a literal mask with several bits is split into its bits *)
Ltac constants_right :=
  repeat match goal with
         | |- context [Z.land (Zpos ?a) ?x] =>
           lazymatch x with Zpos _ => fail | Z0 => fail | Zneg _ => fail | _ => rewrite (Z.land_comm (Zpos a) x) end
         end.
Ltac split_masks :=
  repeat match goal with
         | |- context [Z.eqb (Z.land ?x (Zpos ?c)) 0%Z] =>
           let c' := eval vm_compute in (Z.land (Zpos c) (Z.pred (Zpos c))) in
           lazymatch c' with
           | Z0 => fail
           | _ => let b := eval vm_compute in (Z.sub (Zpos c) c') in
                  change (Z.land x (Zpos c)) with (Z.land x (Z.lor b c')); rewrite land_lor_eqb0
           end
         end.
Ltac norm :=
  closed_arith; constants_right; repeat (rewrite land_lor_eqb0 || rewrite land_lor_l_eqb0); split_masks; closed_arith;
  cbn [negb andb orb]; rewrite ?andb_true_r, ?andb_false_r.
(* everything except the bit operations on an unknown word is computed away *)
Ltac expose :=
  cbv -[Z.land Z.lor Z.lxor Z.lnot Z.eqb Z.leb Z.ltb Z.add Z.sub Z.mul Z.pow negb andb orb]; norm.
(* decide the innermost undecided test; a test of a word that still contains an `if` waits for its turn.  The decision may
   uncover tests of a word x | c: they are split again (all literal masks were split by expose) *)
Ltac decide_one :=
  match goal with
  | |- context [Z.eqb (Z.land ?x ?c) 0%Z] =>
    lazymatch x with context [if _ then _ else _] => fail | _ => destruct (Z.eqb (Z.land x c) 0%Z) eqn:? end
  end; cbn [negb andb orb]; try (progress (repeat rewrite land_lor_l_eqb0); closed_arith; cbn [negb andb orb]).
(* two words built from the same word by or-ing constants in: equal bit by bit *)
Ltac same_word :=
  apply Z.bits_inj'; intros ? _; rewrite ?Z.lor_spec;
  repeat match goal with |- context [Z.testbit ?a ?n] => destruct (Z.testbit a n) end; reflexivity.
Ltac same := reflexivity || congruence || same_word.
Ltac by_cases := expose; repeat decide_one; same.


Lemma gen_gate_constants :
  GenGate.NORMAL = Gate.NORMAL /\ GenGate.VERBOSE = Gate.VERBOSE /\
  GenGate.VERY_VERBOSE = Gate.VERY_VERBOSE /\ GenGate.DEBUG = Gate.DEBUG.
Proof. repeat split; reflexivity. Qed.

(* Output._may_write(flags) with self._quiet = quiet, self._verbosity = verbosity *)
Lemma gen_may_write_eq : forall quiet verbosity flags,
  GenGate.may_write quiet verbosity flags = Gate.may_write quiet verbosity flags.
Proof.
  intros quiet verbosity [flags|]; destruct quiet; try reflexivity; by_cases.
Qed.

(* AbstractOption._validate_flags *)
Lemma gen_abs_validate_eq : forall f, GenFlags.abstractoption_validate_flags f = Flags.abs_validate f.
Proof. intros f. by_cases. Qed.

(* Option._validate_flags (calls AbstractOption._validate_flags through super) *)
Lemma gen_opt_validate_eq : forall f, GenFlags.option_validate_flags f = Flags.opt_validate f.
Proof.
  intros f. unfold GenFlags.option_validate_flags, Flags.opt_validate. rewrite gen_abs_validate_eq.
  destruct (Flags.abs_validate f) as [[]|]; [|reflexivity]. by_cases.
Qed.

(* Argument._validate_flags *)
Lemma gen_arg_validate_eq : forall f, GenFlags.argument_validate_flags f = Flags.arg_validate f.
Proof. intros f. by_cases. Qed.

(* AbstractOption._add_default_flags, has_short = bool(self._short_name) *)
Lemma gen_abs_defaults_eq : forall f has_short,
  GenFlags.abstractoption_add_default_flags has_short f = Flags.abs_defaults f has_short.
Proof. intros f [|]; by_cases. Qed.

(* Option._add_default_flags (calls AbstractOption._add_default_flags through super) *)
Lemma gen_opt_defaults_eq : forall f has_short,
  GenFlags.option_add_default_flags has_short f = Flags.opt_defaults f has_short.
Proof.
  (* after the common first step both sides are the same three conditional updates of a word g.  The model's "one of these
     bits" is folded into one mask test, as the code writes it; the masks are closed and are computed, so the order of the
     operands of | in the source does not matter; the four tests left are decided one by one *)
  intros f hs. unfold GenFlags.option_add_default_flags, Flags.opt_defaults. rewrite gen_abs_defaults_eq.
  generalize (Flags.abs_defaults f hs). intros g. unfold Flags.bit, Flags.setbit. rewrite !bit_or_mask.
  cbv delta [GenFlags.Option_NO_VALUE GenFlags.Option_REQUIRED_VALUE GenFlags.Option_OPTIONAL_VALUE GenFlags.Option_MULTI_VALUED
    GenFlags.Option_STRING GenFlags.Option_BOOLEAN GenFlags.Option_INTEGER GenFlags.Option_FLOAT]. cbv zeta. closed_arith. constants_right.
  repeat decide_one. all: same.
Qed.

(* Argument._add_default_flags *)
Lemma gen_arg_defaults_eq : forall f, GenFlags.argument_add_default_flags f = Flags.arg_defaults f.
Proof. intros f. by_cases. Qed.

(* the flag words of the classes are the bit numbers the hand model (and Props/C07.v) speaks of *)
Lemma gen_flag_constants :
  GenFlags.AbstractOption_PREFER_LONG_NAME = (2 ^ 0)%Z /\ GenFlags.AbstractOption_PREFER_SHORT_NAME = (2 ^ 1)%Z /\
  GenFlags.Option_NO_VALUE = (2 ^ 2)%Z /\ GenFlags.Option_REQUIRED_VALUE = (2 ^ 3)%Z /\
  GenFlags.Option_OPTIONAL_VALUE = (2 ^ 4)%Z /\ GenFlags.Option_MULTI_VALUED = (2 ^ 5)%Z /\
  GenFlags.Option_STRING = (2 ^ 7)%Z /\ GenFlags.Option_BOOLEAN = (2 ^ 8)%Z /\ GenFlags.Option_INTEGER = (2 ^ 9)%Z /\
  GenFlags.Option_FLOAT = (2 ^ 10)%Z /\ GenFlags.Option_NULLABLE = (2 ^ 11)%Z /\
  GenFlags.Argument_REQUIRED = (2 ^ 0)%Z /\ GenFlags.Argument_OPTIONAL = (2 ^ 1)%Z /\
  GenFlags.Argument_MULTI_VALUED = (2 ^ 2)%Z /\ GenFlags.Argument_STRING = (2 ^ 4)%Z /\
  GenFlags.Argument_BOOLEAN = (2 ^ 5)%Z /\ GenFlags.Argument_INTEGER = (2 ^ 6)%Z /\ GenFlags.Argument_FLOAT = (2 ^ 7)%Z /\
  GenFlags.Argument_NULLABLE = (2 ^ 8)%Z.
Proof. repeat split; reflexivity. Qed.
