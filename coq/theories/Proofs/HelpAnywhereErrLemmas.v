(* C09, the help switch anywhere: the help command's own lenient parse of the line can only fail with a value error -
   given that the options its format lists (the global options, and its own) are well-formed objects
   (ClassifyLineLemmas.opts_listed_ok: a multi-valued option requires a value; the default of an option that does not
   require one is a value the conversions accept - what Option's constructor guarantees, C07).  CannotParse / NoSuchOption
   are swallowed by leniency, the token loop has fuel to spare, the re-alignment cannot fail leniently; what is left
   is Args.set_option converting the value of a typed global option. *)
From Clikit Require Import Base.Prelude Base.Res Model.Conv Model.Flags Model.Format Model.Parser Model.Spell
     Model.Resolver Model.Tokenizer Model.Switches
     Proofs.StrLemmas Proofs.FormatLemmas Proofs.ParserLemmas Proofs.SpellArgs Proofs.FmtOkLemmas
     Proofs.HelpSamePageLemmas Proofs.HelpRunLemmas Proofs.HelpAnywhereLemmas.
From Clikit Require Proofs.ClassifyLemmas Proofs.ClassifyLineLemmas.

(* C02's parse_error_kinds_w for a format with the invariant whose listed options are well-formed objects: a parse fails
   with a refusal, an unknown option or a value error, and a lenient one with a value error only *)
Lemma listed_parse_errors f len toks k : fmt_inv f -> ClassifyLineLemmas.opts_listed_ok f = true ->
  parse f len toks = Err k -> (k = CannotParse \/ k = NoSuchOption \/ k = ValueError) /\ (len = true -> k = ValueError).
Proof.
  intros Hinv Hl H. pose proof (wf_implies_fmt_ok_lemma f Hinv) as Hok. apply fmt_ok_inv in Hok as (g & A & cns & FF).
  pose proof (ClassifyLineLemmas.opts_listed_ok_w f g A cns (ff_aug _ _ _ _ FF) Hl) as Hw.
  exact (ClassifyLemmas.parse_error_kinds_w f len toks g A cns (ff_aug _ _ _ _ FF) Hw k H).
Qed.

(* the options of the help command's format are well-formed objects *)
Definition help_options_ok (a : application) : bool :=
  match find_cmd a S_help with Some hc => ClassifyLineLemmas.opts_listed_ok (b_fmt hc) | None => false end.
