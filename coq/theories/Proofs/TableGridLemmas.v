(* C14, the rectangle read exactly:
   (a) the lines of the rectangle are free of line breaks, and for a style whose right border ends in a non-blank
       character (ascii, solid) the text is literally those lines, each of the table's full width, each followed by a
       line break (the right-strip of Table.render removes nothing);
   (b) the grid: every line of every row is  indentation ++ left border ++ for each column
       (cell prefix ++ the cell line padded to exactly the column's width ++ cell suffix) joined by the vertical centre
       border ++ right border - the same column widths f_cols st in every row, header included. *)
From Coq Require Import Lia ZifyBool.
From Clikit Require Import Base.Prelude Base.Res Model.Conv Model.Markup Model.OutputM Model.Wrap Model.Table
  Proofs.ListLemmas Proofs.MarkupLemmas Proofs.WrapLemmas Proofs.TableLemmas Proofs.TableTaggedLemmas.
From Clikit Require Proofs.OutputLemmas.
Local Open Scope Z_scope.

Notation NLc := 10%N (only parsing).

Definition ends_nsb (l : str) : bool := match rev l with c :: _ => negb (is_space c) | [] => false end.
Lemma ends_nsb_app x y : ends_nsb y = true -> ends_nsb (x ++ y) = true.
Proof.
  unfold ends_nsb. rewrite rev_app_distr. destruct (rev y) as [|c r]; [discriminate|]. cbn [app]. auto.
Qed.
Lemma rstrip_ends_ns l : ends_nsb l = true -> t_rstrip l = l.
Proof.
  unfold ends_nsb, t_rstrip. destruct (rev l) as [|c r] eqn:E; [discriminate|]. intros H. cbn [t_rstrip_rev].
  destruct (is_space c); [discriminate|]. rewrite <- E. apply rev_involutive.
Qed.

Definition nlf (l : str) : Prop := Forall (fun c => c <> NLc) l.
Definition nlfb (l : str) : bool := forallb (fun c => negb (N.eqb c NLc)) l.
Lemma nlfb_nlf l : nlfb l = true -> nlf l.
Proof.
  unfold nlfb, nlf. rewrite forallb_forall, Forall_forall. intros H c Hc E. specialize (H c Hc). subst c. discriminate.
Qed.
Lemma nlf_nil : nlf []. Proof. constructor. Qed.
Lemma nlf_not_in l : nlf l -> ~ In NLc l.
Proof. unfold nlf. rewrite Forall_forall. intros H Hi. exact (H _ Hi eq_refl). Qed.
Lemma nth_split_nlf i cell : nlf (nth i (split_on NLc cell) []).
Proof. apply (Forall_nth_d nlf); [exact nlf_nil|exact (OutputLemmas.split_lines_no_nl cell)]. Qed.

(* the cells of one line, each between the cell prefix and suffix, joined by the centre border, closed by the right one *)
Fixpoint join_cells (pre suf vc vr : str) (xs : list str) : str :=
  match xs with
  | [] => []
  | [x] => pre ++ x ++ suf ++ vr
  | x :: r => pre ++ x ++ suf ++ vc ++ join_cells pre suf vc vr r
  end.
Lemma join_cells_ends pre suf vc vr xs : xs <> [] -> exists y, join_cells pre suf vc vr xs = y ++ vr.
Proof.
  induction xs as [|x r IH]; intros Hne; [congruence|]. destruct r as [|x2 r].
  - exists (pre ++ x ++ suf). cbn [join_cells]. now rewrite <- !app_assoc.
  - destruct IH as [y Hy]; [congruence|]. exists (pre ++ x ++ suf ++ vc ++ y).
    change (join_cells pre suf vc vr (x :: x2 :: r)) with (pre ++ x ++ suf ++ vc ++ join_cells pre suf vc vr (x2 :: r)).
    rewrite Hy, <- !app_assoc. reflexivity.
Qed.

(* the i-th line of a row: every cell line is padded to exactly its column's width, and sits between paddings *)
Lemma row_line_grid pre suf pad vc vr i : zlen pad = 1 -> forall cells cols al,
  Forall2 (fun c w => zlen (nth i c []) <= w) cells cols -> length al = length cols ->
  exists xs, row_line pre suf pad vc vr i cells cols al = join_cells pre suf vc vr xs /\
    Forall2 (fun x w => zlen x = w) xs cols /\
    Forall2 (fun x c => exists k1 k2, x = rep pad k1 ++ nth i c [] ++ rep pad k2) xs cells.
Proof.
  intros Hp cells cols al H. revert al. induction H as [|c w cells cols Hcw Hrest IH]; intros al Hal.
  - exists []. cbn. repeat split; constructor.
  - destruct al as [|a al]; [discriminate|]. cbn [length] in Hal.
    destruct (IH al ltac:(lia)) as (xs & E & W & P).
    destruct (pad_cell_len pad a w (@nth str i c []) Hp Hcw) as (x & Ex & Hx).
    exists (x :: xs). split; [|split; constructor; auto; exact (pad_cell_holds _ _ _ _ _ Ex)].
    cbn [row_line]. rewrite Ex, E. destruct cells as [|c2 cells].
    + inversion Hrest; subst. inversion W; subst. cbn [join_cells]. now rewrite <- !app_assoc, app_nil_r.
    + inversion Hrest; subst. inversion W; subst. cbn [join_cells]. now rewrite <- !app_assoc.
Qed.

(* a line of the grid over the column widths cols: which pieces it holds and where *)
Definition grid_line (s : tstyle) (ind : Z) (cols : list Z) (pre suf : str) (pieces : list str) (l : str) : Prop :=
  exists xs, l = blanks ind ++ b_vl (t_border s) ++ join_cells pre suf (b_vc (t_border s)) (b_vr (t_border s)) xs /\
    Forall2 (fun x w => zlen x = w) xs cols /\
    Forall2 (fun x p => exists k1 k2, x = rep (t_pad s) k1 ++ p ++ rep (t_pad s) k2) xs pieces.

Lemma row_lines_grid s pre suf ind row cols al : zlen (t_pad s) = 1 ->
  Forall2 (fun cell c => cell_ok c cell) row cols -> Forall (fun x => 0 <= x) cols -> length al = length cols ->
  forall i, grid_line s ind cols pre suf (map (fun cell => nth i (split_on NLc cell) []) row)
              (blanks ind ++ b_vl (t_border s) ++
               row_line pre suf (t_pad s) (b_vc (t_border s)) (b_vr (t_border s)) i (map (split_on NLc) row) cols al).
Proof.
  intros Hp Hrow Hnn Hal i.
  destruct (row_line_grid pre suf (t_pad s) (b_vc (t_border s)) (b_vr (t_border s)) i Hp _ cols al (cells_fit_row i row cols Hrow Hnn) Hal)
    as (xs & E & W & P).
  exists xs. split; [now rewrite E|]. split; [exact W|].
  clear -P. remember (map (split_on NLc) row) as cells eqn:Ec. revert row Ec.
  induction P as [|x c xs cells Hxc _ IH]; intros row Ec; destruct row as [|r0 row]; try discriminate; cbn [map]; constructor.
  - cbn [map] in Ec. injection Ec as -> _. exact Hxc.
  - cbn [map] in Ec. injection Ec as _ Ec. exact (IH row Ec).
Qed.

(* no string of the style holds a line break (true of ascii, solid and borderless: C14.presets_conditions) *)
Definition nl_free_styleb (s : tstyle) : bool :=
  let b := t_border s in
  forallb nlfb [b_ht b; b_hc b; b_hb b; b_vl b; b_vc b; b_vr b; b_tl b; b_tr b; b_bl b; b_br b; b_cc b; b_cl b; b_ct b; b_cr b; b_cb b;
                t_hpre s; t_hsuf s; t_cpre s; t_csuf s; t_pad s].
(* the right border ends in a non-blank character, and so does the right end of every border line that is drawn *)
Definition solid_rightb (s : tstyle) : bool :=
  let b := t_border s in
  ends_nsb (b_vr b) && (is_nil (b_ht b) || ends_nsb (b_tr b)) && (is_nil (b_hc b) || ends_nsb (b_cr b)) &&
  (is_nil (b_hb b) || ends_nsb (b_br b)).

Lemma border_body_ends lc c r : forall lens, lens <> [] -> exists y, border_body lc c r lens = y ++ r.
Proof.
  induction lens as [|x lens IH]; intros Hne; [congruence|]. cbn [border_body]. destruct lens as [|x2 lens].
  - exists (rep lc x). reflexivity.
  - destruct IH as [y Hy]; [congruence|]. exists (rep lc x ++ c ++ y). rewrite Hy, <- !app_assoc. reflexivity.
Qed.
Lemma border_lines_nlf ind lens lc l c r : nlf lc -> nlf l -> nlf c -> nlf r -> Forall nlf (border_lines ind lens lc l c r).
Proof.
  intros. unfold border_lines. destruct (t_rstrip _); constructor; [|constructor].
  repeat (apply Forall_app; split); [now apply Forall_blanks|assumption|apply Forall_border_body; assumption].
Qed.
Lemma border_lines_ends vl vc vr ind lens lc l c r : lens <> [] -> (is_nil lc || ends_nsb r = true) ->
  wf_border vl vc vr lc l c r -> Forall (fun x => ends_nsb x = true) (border_lines ind lens lc l c r).
Proof.
  intros Hne He Hw. unfold border_lines. destruct Hw as [[(H1 & _)|(-> & -> & -> & ->)]].
  - destruct (t_rstrip _); constructor; [|constructor].
    destruct (border_body_ends lc c r lens Hne) as [y ->].
    rewrite !app_assoc. apply ends_nsb_app. destruct lc; [discriminate H1|]. exact He.
  - rewrite border_body_nil, !app_nil_r, rstrip_blanks. constructor.
Qed.

Lemma row_lines_nlf s pre suf ind row cols al : nlf pre -> nlf suf -> nlf (t_pad s) ->
  nlf (b_vl (t_border s)) -> nlf (b_vc (t_border s)) -> nlf (b_vr (t_border s)) ->
  Forall nlf (row_lines (t_border s) pre suf (t_pad s) ind row cols al).
Proof.
  intros Hpre Hsuf Hpad Hvl Hvc Hvr. unfold row_lines. apply Forall_map, Forall_forall. intros i _.
  repeat (apply Forall_app; split); [now apply Forall_blanks|exact Hvl|]. apply Forall_row_line; auto.
  apply Forall_map, Forall_forall. intros cell _. apply nth_split_nlf.
Qed.
Lemma row_lines_ends s pre suf ind row cols al : zlen (t_pad s) = 1 -> row <> [] ->
  Forall2 (fun cell c => cell_ok c cell) row cols -> Forall (fun x => 0 <= x) cols -> length al = length cols ->
  ends_nsb (b_vr (t_border s)) = true ->
  Forall (fun x => ends_nsb x = true) (row_lines (t_border s) pre suf (t_pad s) ind row cols al).
Proof.
  intros Hp Hne Hrow Hnn Hal Hvr. unfold row_lines. apply Forall_forall. intros x Hx. apply in_map_iff in Hx as (i & <- & _).
  destruct (row_line_grid pre suf (t_pad s) (b_vc (t_border s)) (b_vr (t_border s)) i Hp _ cols al (cells_fit_row i row cols Hrow Hnn) Hal)
    as (xs & E & W & P).
  assert (xs <> []) as Hx.
  { intros ->. inversion P as [E0|]. destruct row; [congruence|discriminate]. }
  destruct (join_cells_ends pre suf (b_vc (t_border s)) (b_vr (t_border s)) xs Hx) as [y Hy].
  rewrite E, Hy, !app_assoc. now apply ends_nsb_app.
Qed.

Lemma render_table_lines share s n header rows W ind st text : (1 <= n)%nat -> rows <> [] ->
  Z.of_nat n <= available_width s W ind (Z.of_nat n) ->
  render_table share s n header rows W ind = Ok (st, text) ->
  exists al, alignments s n = Ok al /\ length al = n /\ INV n st /\ text = strip_lines (table_lines s header ind st al).
Proof.
  intros Hn Hrows Hg H. unfold render_table in H. destruct rows as [|r0 rows]; [congruence|].
  destruct (render_pure_drawn wrap_lines_fit_lemma wrap_total_lemma share s n header _ W ind _ Hn Hg H) as (st0 & HI & _ & E).
  symmetry in E. bind_inv E al Ea. injection E as <- <-. exists al. split; [exact Ea|]. split; [exact (alignments_length _ _ _ Ea)|].
  split; [exact HI|apply draw_table_lines].
Qed.

Lemma table_lines_nlf s header ind st al : nl_free_styleb s = true -> Forall nlf (table_lines s header ind st al).
Proof.
  intros Hnl. unfold nl_free_styleb in Hnl. rewrite forallb_forall in Hnl. pose proof (fun x Hx => nlfb_nlf x (Hnl x Hx)) as N.
  apply table_lines_forall.
  - intros lc l c r [E|[E|[E|[]]]]; injection E as <- <- <- <-; apply border_lines_nlf; apply N; cbn; auto 25.
  - intros pre suf row [E|E] Hin; injection E as -> ->; apply row_lines_nlf; apply N; cbn; auto 25.
Qed.
Lemma table_lines_ends s n header ind st al : wf_style s -> solid_rightb s = true -> (1 <= n)%nat -> INV n st -> length al = n ->
  Forall (fun x => ends_nsb x = true) (table_lines s header ind st al).
Proof.
  intros Hwf Hs Hn HI Hal. unfold solid_rightb in Hs. rewrite !andb_true_iff in Hs. destruct Hs as (((S1 & S2) & S3) & S4).
  pose proof (inv_cells_fit _ _ HI) as CF. pose proof (inv_len _ _ HI) as Hlen. pose proof (inv_nonneg _ _ HI) as Hnn.
  pose proof (inv_cols_ne _ _ HI Hn) as Hne.
  apply table_lines_forall.
  - intros lc l c r Hin. eapply border_lines_ends; [|  |exact (wf_style_borders s _ _ _ _ Hwf Hin)].
    + destruct (f_cols st); [congruence|discriminate].
    + destruct Hin as [E|[E|[E|[]]]]; injection E as <- <- <- <-; assumption.
  - intros pre suf row _ Hin. destruct (cells_fit_in _ _ CF Hne Hin). apply row_lines_ends; auto; [apply Hwf|congruence].
Qed.
(* lines that end in a non-blank character lose nothing to the right-strip *)
Lemma strip_lines_ends ls : Forall (fun x => ends_nsb x = true) ls -> strip_lines ls = flat_map (fun l => l ++ [NLc]) ls.
Proof. induction 1 as [|l ls Hl _ IH]; [reflexivity|]. unfold strip_lines in *. cbn [flat_map]. now rewrite (rstrip_ends_ns l Hl), IH. Qed.

(* TableStyle.solid(): the box-drawing characters of BorderStyle.solid(), cell formats " {} " *)
Definition solid_border : bstyle :=
  {| b_ht := [9472%N]; b_hc := [9472%N]; b_hb := [9472%N]; b_vl := [9474%N]; b_vc := [9474%N]; b_vr := [9474%N];
     b_tl := [9484%N]; b_tr := [9488%N]; b_bl := [9492%N]; b_br := [9496%N]; b_cc := [9532%N]; b_cl := [9500%N]; b_ct := [9516%N];
     b_cr := [9508%N]; b_cb := [9524%N] |}.
Definition solid_style : tstyle :=
  {| t_border := solid_border; t_hpre := [32%N]; t_hsuf := [32%N]; t_cpre := [32%N]; t_csuf := [32%N]; t_pad := [32%N]; t_aligns := []; t_default := 0 |}.
Example solid_style_conditions : wf_styleb solid_style = true /\ nl_free_styleb solid_style = true /\ solid_rightb solid_style = true.
Proof. repeat split; vm_compute; reflexivity. Qed.

(* the lines of a row are exactly these, one for each line of its tallest cell *)
Lemma row_lines_are b pre suf pad ind row cols al :
  row_lines b pre suf pad ind row cols al =
  map (fun i => blanks ind ++ b_vl b ++ row_line pre suf pad (b_vc b) (b_vr b) i (map (split_on NLc) row) cols al)
      (seq 0 (fold_right Nat.max O (map (@length str) (map (split_on NLc) row)))).
Proof. reflexivity. Qed.
