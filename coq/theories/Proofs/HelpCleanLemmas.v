(* C13, the ANSI formatter: clean_layout (no ESC in a label or text, no backslash in a label - the hypothesis of
   page_fits_ansi_clean_lemma) from the configuration: names without ESC and backslash, descriptions, value names, aliases
   and defaults without ESC.  Here: json.dumps writes no ESC, and the elements and blocks the pages are made of (options,
   arguments, synopsis, sub_block, description_block); the two pages are put together in Props/C13.v
   (command_page_is_clean, application_page_is_clean). *)
From Coq Require Import Lia.
From Clikit Require Import Proofs.ListLemmas.
From Clikit Require Import Base.Prelude Base.Res Model.Conv Model.Flags Model.Format Model.Markup Model.Wrap Model.Help.
From Clikit Require Import Proofs.MarkupLemmas Proofs.MarkupShrinkLemmas Proofs.HelpLemmas Proofs.HelpPlainLemmas.

Ltac lit_char := first [ split; discriminate | discriminate ].
Ltac ch_solve :=
  unfold no_esc in *;
  repeat first [ assumption | apply Forall_nil | apply Forall_app; split | apply Forall_cons; [lit_char|]
               | apply good_no_esc; assumption ].

Definition scalar_clean (v : pyval) : Prop := match v with VFloat t => no_esc t | _ => True end.
Definition pyval_clean (v : pyval) : Prop := match v with VList l => Forall scalar_clean l | _ => scalar_clean v end.
Lemma hex_digit_no_esc n : hex_digit n <> ESC.
Proof. unfold hex_digit, ESC. destruct (N.ltb_spec n 10); lia. Qed.
Lemma u_escape_no_esc c : no_esc (u_escape c).
Proof. unfold u_escape. repeat (constructor; [first [apply hex_digit_no_esc|discriminate]|]). constructor. Qed.
Lemma json_char_no_esc c : no_esc (json_char c).
Proof.
  unfold json_char.
  do 7 (match goal with |- no_esc (if N.eqb ?a ?b then _ else _) => destruct (N.eqb a b); [repeat constructor; discriminate|] end).
  destruct (N.ltb_spec c 32); [apply u_escape_no_esc|]. destruct (c <? 127)%N; [constructor; [unfold ESC; lia|constructor]|].
  destruct (c <? 65536)%N; [apply u_escape_no_esc|]. apply Forall_app. split; apply u_escape_no_esc.
Qed.
Lemma param_no_esc q : Forall param_char q -> no_esc q.
Proof. intros H. eapply Forall_impl; [|exact H]. intros c Hc ->. vm_compute in Hc. discriminate. Qed.
Lemma dec_text_no_esc z : no_esc (dec_text z).
Proof.
  unfold dec_text. destruct (Z.to_int z); [|constructor; [discriminate|]]; apply param_no_esc, chars_of_uint_digits.
Qed.
Lemma json_scalar_no_esc v : scalar_clean v -> no_esc (json_scalar v).
Proof.
  destruct v as [|[|]|z|s|t|l]; cbn [json_scalar scalar_clean]; intros H.
  - ch_solve.
  - ch_solve.
  - ch_solve.
  - apply dec_text_no_esc.
  - unfold json_str. constructor; [discriminate|]. apply Forall_app. split; [|constructor; [discriminate|constructor]].
    induction s as [|c s IH]; cbn [flat_map]; [constructor|]. apply Forall_app. split; [apply json_char_no_esc|exact IH].
  - unfold float_json. repeat (match goal with |- no_esc (if ?b then _ else _) => destruct b; [ch_solve|] end). exact H.
  - constructor.
Qed.

Definition opt_clean (h : hopt) : Prop :=
  Forall good (o_long (h_o h)) /\ (match o_short (h_o h) with Some s => Forall good s | None => True end)
  /\ no_esc (odesc (h_odesc h)) /\ no_esc (h_vname h) /\ no_esc (json (o_default (h_o h))).
Definition arg_clean (a : harg) : Prop :=
  Forall good (a_name (h_a a)) /\ no_esc (odesc (h_adesc a)) /\ no_esc (json (a_default (h_a a))).
Definition sub_clean (s : sub) : Prop :=
  Forall good (sb_name s) /\ no_esc (odesc (sb_desc s)) /\ no_esc (odesc (sb_help s))
  /\ Forall arg_clean (sb_args s) /\ Forall opt_clean (sb_opts s).

Lemma clean_para i t : no_esc t -> clean_elem (i, EPara t).
Proof. intros H. repeat split; try constructor. exact H. Qed.
Lemma clean_empty i : clean_elem (i, EEmpty).
Proof. repeat split; constructor. Qed.
Lemma clean_lab i label text p a : Forall good label -> no_esc text -> clean_elem (i, ELab label text p a).
Proof. intros H1 H2. split; [apply good_no_esc, H1|]. split; [apply good_no_bsl, H1|exact H2]. Qed.
Lemma clean_elem_intro i e : Forall good (elem_label e) -> no_esc (elem_text e) -> clean_elem (i, e).
Proof. destruct e; cbn [elem_label elem_text]; intros H1 H2; [now apply clean_para|now apply clean_lab|apply clean_empty]. Qed.

Lemma render_option_clean i h : opt_clean h -> clean_elem (i, render_option h).
Proof.
  intros (H1 & H2 & H3 & H4 & H5). apply clean_elem_intro.
  - rewrite render_option_names_lemma. unfold C1, C1E.
    destruct (bit (o_flags (h_o h)) 0); destruct (o_short (h_o h)); ch_solve.
  - unfold render_option. destruct (opt_preferred (h_o h)) as [pref alt]. cbn [elem_text].
    destruct (o_accepts (h_o h) && has_default (o_default (h_o h))); destruct (o_multi (h_o h)); ch_solve.
Qed.
Lemma render_argument_clean i a : arg_clean a -> clean_elem (i, render_argument a).
Proof.
  intros (H1 & H2 & H3). apply clean_elem_intro.
  - rewrite render_argument_name_lemma. unfold C1, C1E. ch_solve.
  - unfold render_argument. cbn [elem_text]. destruct (has_default (a_default (h_a a))); ch_solve.
Qed.

Lemma placeholder_no_esc sty n : no_esc n -> no_esc (placeholder sty n).
Proof. intros H. unfold placeholder. destruct (is_tag sty n); ch_solve. Qed.
Lemma preferred_no_esc h : opt_clean h -> no_esc (fst (opt_preferred (h_o h))).
Proof.
  intros (H1 & H2 & _). unfold opt_preferred. destruct (bit (o_flags (h_o h)) 0); cbn [fst]; [ch_solve|].
  destruct (o_short (h_o h)); ch_solve.
Qed.
Lemma syn_opt_part_no_esc sty h : opt_clean h -> no_esc (syn_opt_part sty h).
Proof.
  intros H. pose proof (preferred_no_esc h H) as Hn. destruct H as (_ & _ & _ & Hv & _).
  pose proof (placeholder_no_esc sty _ Hv) as Hp. unfold syn_opt_part. cbv zeta.
  destruct (o_required (h_o h)); [|destruct (o_optional (h_o h))]; ch_solve.
Qed.
Lemma syn_arg_parts_no_esc sty a : arg_clean a -> Forall no_esc (syn_arg_parts sty a).
Proof.
  intros (H & _). apply good_no_esc in H. unfold syn_arg_parts. cbv zeta.
  assert (H1 : no_esc (a_name (h_a a) ++ (if a_multi (h_a a) then [49%N] else []))) by (destruct (a_multi (h_a a)); ch_solve).
  assert (H2 : no_esc (a_name (h_a a) ++ [78%N])) by ch_solve.
  pose proof (placeholder_no_esc sty _ H1) as P1. pose proof (placeholder_no_esc sty _ H2) as P2.
  constructor; [destruct (a_required (h_a a)); ch_solve|]. destruct (a_multi (h_a a)); constructor; [ch_solve|constructor].
Qed.
Lemma synopsis_clean i sty app_name names opts args prefix lo :
  (match app_name with Some n => Forall good n | None => True end) -> Forall (Forall good) names -> Forall good prefix ->
  Forall opt_clean opts -> Forall arg_clean args ->
  clean_elem (i, synopsis sty app_name names opts args prefix lo).
Proof.
  intros Ha Hn Hp Ho Hg. apply clean_elem_intro.
  - apply (synopsis_label_P (Forall good)); [constructor|intros; now apply Forall_app|ch_solve|ch_solve|ch_solve|exact Hp|]. constructor.
    + unfold u_tag. destruct app_name as [[|c r]|]; ch_solve.
    + clear - Hn. induction Hn; cbn [map]; constructor; auto. unfold u_tag. ch_solve.
  - rewrite synopsis_text. apply join_with_P; [discriminate|]. unfold syn_parts. apply Forall_app. split.
    + induction Ho; cbn [map]; constructor; [now apply syn_opt_part_no_esc|assumption].
    + induction Hg; cbn [flat_map]; [constructor|]. apply Forall_app. split; [now apply syn_arg_parts_no_esc|assumption].
Qed.

Lemma join_comma_P (P : N -> Prop) l : P 44%N -> P 32%N -> Forall (Forall P) l -> Forall P (join_comma l).
Proof.
  intros H1 H2. induction 1 as [|x r Hx Hr IH]; [constructor|]. destruct r as [|y r]; [exact Hx|].
  change (join_comma (x :: y :: r)) with (x ++ [44; 32]%N ++ join_comma (y :: r)).
  apply Forall_app. split; [exact Hx|]. constructor; [exact H1|]. constructor; [exact H2|exact IH].
Qed.
Lemma sub_block_clean s : sub_clean s -> clean_layout (sub_block s).
Proof.
  intros (H1 & H2 & H3 & Ha & Ho). apply (sub_block_all (fun e => clean_elem (0, e))).
  - apply clean_empty.
  - apply clean_para. unfold u_tag. ch_solve.
  - now apply clean_para.
  - now apply clean_para.
  - eapply Forall_impl; [|exact Ha]. exact (render_argument_clean 0).
  - eapply Forall_impl; [|exact Ho]. exact (render_option_clean 0).
Qed.
Lemma description_block_clean help : no_esc (odesc help) -> clean_layout (description_block help).
Proof.
  intros H. apply (description_block_all (fun e => clean_elem (0, e))); [apply clean_empty|apply clean_para; unfold H_DESCRIPTION; ch_solve|].
  eapply Forall_impl; [|exact (split_on_P _ 10%N _ H)]. exact (clean_para 0).
Qed.
