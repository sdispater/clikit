(* C06, full agreement of a builder and the format built from it.

   ArgsFormat(builder) copies the builder's base, command names, arguments, options and flags, but REBUILDS
   the option short-name index and both command-option indexes from the listings.  The invariant idx_inv
   says that the builder's own indexes are exactly those rebuilt ones; it holds for every empty builder
   (over any base whatsoever) and is kept by every builder operation, so that for every reachable builder
   build_format f = f, and in particular every public query is answered identically. *)
From Coq Require Import Lia.
From Clikit Require Import Base.Prelude Base.Res Model.Conv Model.Flags Model.Format Proofs.ListLemmas Proofs.StrLemmas Proofs.DictLemmas Proofs.FormatLemmas.

Definition short_step (d : list (str * opt)) (no : str * opt) : list (str * opt) :=
  match o_short (snd no) with Some s => sset s (snd no) d | None => d end.
(* what ArgsFormat.__init__ computes for _options_by_short_name *)
Definition short_index (os : list (str * opt)) : list (str * opt) := fold_left short_step os [].

Definition addkeys {V} (v : V) (ks : list str) (d : list (str * V)) : list (str * V) :=
  fold_left (fun d a => sset a v d) ks d.
(* the keys under which a command option is filed: long index, short index *)
Definition lkeys (c : copt) : list str := co_long c :: co_lals c.
Definition skeys (c : copt) : list str := olist (co_short c) ++ co_sals c.
Definition cstep (acc : list (str * copt) * list (str * copt)) (c : copt) : list (str * copt) * list (str * copt) :=
  (addkeys c (lkeys c) (fst acc), addkeys c (skeys c) (snd acc)).

(* the builder's own indexes are the ones the format would rebuild from the listings *)
Definition idx_inv (f : fmt) : Prop :=
  f_opts_short f = short_index (f_opts f) /\
  (f_copts f, f_copts_short f) = index_copts (map snd (f_copts f)).

Lemma addkeys_skeys (c : copt) (cs : list (str * copt)) :
  addkeys c (skeys c) cs =
  fold_left (fun d a => sset a c d) (co_sals c) (match co_short c with Some s => sset s c cs | None => cs end).
Proof. unfold addkeys, skeys. destruct (co_short c) as [s|]; reflexivity. Qed.

Lemma index_copts_fold (l : list copt) : index_copts l = fold_left cstep l ([], []).
Proof.
  unfold index_copts. generalize (@nil (str * copt), @nil (str * copt)).
  induction l as [|c r IH]; intros acc; cbn [fold_left]; [reflexivity|].
  rewrite IH. f_equal. destruct acc as [co cs]. unfold cstep. cbn [fst snd].
  rewrite addkeys_skeys. reflexivity.
Qed.

Lemma idx_inv_build f : idx_inv f -> build_format f = f.
Proof.
  destruct f as [b cn co cs ar os oss hm ho]. unfold idx_inv. cbn [f_opts_short f_opts f_copts f_copts_short].
  intros [Hs Hc]. unfold build_format. rewrite <- Hc.
  change (fold_left _ os []) with (short_index os). rewrite <- Hs. reflexivity.
Qed.

Section Keys.
  Context {V : Type}.
  Implicit Types (d : list (str * V)) (v : V).

  Lemma addkeys_id v ks : forall d, (forall k, In k ks -> sget k d = Some v) -> addkeys v ks d = d.
  Proof.
    unfold addkeys. induction ks as [|k r IH]; intros d H; cbn [fold_left]; [reflexivity|].
    rewrite sset_same by (apply H; now left). apply IH. intros k' Hk'. apply H. now right.
  Qed.

  Lemma addkeys_get v ks k d : In k ks -> sget k (addkeys v ks d) = Some v.
  Proof.
    intros Hk. unfold addkeys. rewrite sget_fold_sset.
    assert (existsb (str_eqb k) ks = true) as ->; [|reflexivity].
    apply existsb_exists. exists k. split; [exact Hk|apply str_eqb_refl].
  Qed.

  (* keys absent from d0 are appended behind d0, all with value v; nothing in d0 moves *)
  Lemma addkeys_ext v ks : forall d0 ext,
    (forall k, In k ks -> sget k d0 = None) -> Forall (fun e => snd e = v) ext ->
    exists more, addkeys v ks (d0 ++ ext) = d0 ++ ext ++ more /\ Forall (fun e => snd e = v) more.
  Proof.
    induction ks as [|k r IH]; intros d0 ext Hfr Hext.
    - exists []. cbn. now rewrite app_nil_r.
    - assert (Hk : sget k d0 = None) by (apply Hfr; now left).
      assert (Hr : forall k', In k' r -> sget k' d0 = None) by (intros k' Hk'; apply Hfr; now right).
      unfold addkeys. cbn [fold_left]. fold (addkeys v r (sset k v (d0 ++ ext))).
      destruct (sget k ext) as [w|] eqn:Ek.
      + assert (w = v) as ->.
        { apply sget_some_in in Ek. rewrite Forall_forall in Hext. exact (Hext _ Ek). }
        rewrite sset_same; [apply IH; assumption|].
        rewrite sget_concat, Hk. exact Ek.
      + assert (sset k v (d0 ++ ext) = d0 ++ (ext ++ [(k, v)])) as ->.
        { rewrite sset_new by (rewrite sget_concat, Hk; exact Ek). now rewrite <- app_assoc. }
        destruct (IH d0 (ext ++ [(k, v)]) Hr) as [more [Hm Hf]].
        { apply Forall_app. split; [exact Hext|]. constructor; [reflexivity|constructor]. }
        exists ((k, v) :: more). split; [|constructor; [reflexivity|exact Hf]].
        rewrite Hm, <- app_assoc. reflexivity.
  Qed.
End Keys.

Lemma not_taken_own b cn co cs ar os oss hm ho n :
  opt_name_taken (Fmt b cn co cs ar os oss hm ho) n = false ->
  sget n os = None /\ sget n oss = None /\ sget n co = None /\ sget n cs = None.
Proof.
  unfold opt_name_taken. cbn [has_option_all has_command_option_all]. rewrite !shas_sget. intros H.
  apply orb_false_elim in H as [Ho Hc].
  apply orb_false_elim in Ho as [Ho _]. apply orb_false_elim in Ho as [Ho1 Ho2].
  apply orb_false_elim in Hc as [Hc _]. apply orb_false_elim in Hc as [Hc1 Hc2].
  destruct (sget n os), (sget n oss), (sget n co), (sget n cs); try discriminate. repeat split; reflexivity.
Qed.

Lemma short_index_snoc os no : short_index (os ++ [no]) = short_step (short_index os) no.
Proof. unfold short_index. now rewrite fold_left_app. Qed.

Lemma add_option_keeps_idx f o f' : idx_inv f -> add_option f o = Ok f' -> idx_inv f'.
Proof.
  intros Hi H. apply add_option_ok in H as (Hl & _ & ->). destruct f as [b cn co cs ar os oss hm ho]. destruct Hi as [Hs Hc].
  apply not_taken_own in Hl as (Hos & _).
  unfold idx_inv in *. cbn [f_opts_short f_opts f_copts f_copts_short] in *. split; [|exact Hc].
  rewrite (sset_new _ _ _ Hos), short_index_snoc, <- Hs.
  unfold short_step. cbn [snd]. reflexivity.
Qed.

Lemma cstep_fixed acc c : forall l,
  cstep acc c = acc -> Forall (fun e : str * copt => snd e = c) l -> fold_left cstep (map snd l) acc = acc.
Proof.
  induction l as [|[k x] r IH]; intros Hfix Hall; cbn [map fold_left]; [reflexivity|].
  pose proof (Forall_inv Hall) as Hx. pose proof (Forall_inv_tail Hall) as Hr.
  cbn [snd] in *. rewrite Hx, Hfix. now apply IH.
Qed.

Lemma cstep_idem acc c : cstep (cstep acc c) c = cstep acc c.
Proof.
  unfold cstep. cbn [fst snd]. f_equal; apply addkeys_id; intros k Hk; now apply addkeys_get.
Qed.

Lemma add_copt_shape b cn co cs ar os oss hm ho c f' :
  add_command_option (Fmt b cn co cs ar os oss hm ho) c = Ok f' ->
  f' = Fmt b cn (fst (cstep (co, cs) c)) (snd (cstep (co, cs) c)) ar os oss hm ho /\
  (forall k, In k (lkeys c) -> sget k co = None).
Proof.
  intros H. apply add_copt_ok in H as (Hl & Hla & _ & _ & ->). split.
  - unfold cstep. cbn [fst snd]. rewrite addkeys_skeys. reflexivity.
  - intros k [<-|Hk].
    + now apply not_taken_own in Hl as (_ & _ & Hco & _).
    + pose proof (existsb_false_in _ _ k Hla Hk) as Hk'. now apply not_taken_own in Hk' as (_ & _ & Hco & _).
Qed.

Lemma add_copt_keeps_idx f c f' : idx_inv f -> add_command_option f c = Ok f' -> idx_inv f'.
Proof.
  destruct f as [b cn co cs ar os oss hm ho]. intros [Hs Hc] H.
  apply add_copt_shape in H as [-> Hfr].
  unfold idx_inv in *. cbn [f_opts_short f_opts f_copts f_copts_short] in *. split; [exact Hs|].
  rewrite index_copts_fold in *.
  (* the long index grows behind co, by entries that all hold c, the first of them under the long name *)
  assert (exists more, fst (cstep (co, cs) c) = co ++ (co_long c, c) :: more /\ Forall (fun e => snd e = c) more) as [more [Hco Hall]].
  { unfold cstep, lkeys. cbn [fst]. unfold addkeys at 1. cbn [fold_left]. fold (addkeys c (co_lals c) (sset (co_long c) c co)).
    assert (sset (co_long c) c co = co ++ [(co_long c, c)]) as ->.
    { apply sset_new, Hfr. now left. }
    destruct (addkeys_ext c (co_lals c) co [(co_long c, c)]) as [more [Hm Hf]].
    - intros k Hk. apply Hfr. now right.
    - constructor; [reflexivity|constructor].
    - exists more. split; [exact Hm|exact Hf]. }
  rewrite Hco at 2. rewrite map_app, fold_left_app, <- Hc. cbn [map fold_left snd].
  rewrite (cstep_fixed _ c more (cstep_idem _ _) Hall). symmetry. apply surjective_pairing.
Qed.

Lemma idx_invariant : builder_invariant (fun _ => true) idx_inv.
Proof.
  split.
  - exact add_option_keeps_idx.
  - exact add_copt_keeps_idx.
  - intros f a f' Hi _ H. apply add_argument_ok in H as (_ & _ & _ & ->). destruct f. exact Hi.
  - intros f c f' Hi H. destruct f. cbn in H. inversion H; subst. exact Hi.
  - intros b cn co cs ar os oss hm ho [_ Hc]. split; [reflexivity|exact Hc].
  - intros b cn co cs ar os oss hm ho [Hs _]. split; [exact Hs|reflexivity].
  - intros b cn co cs ar os oss hm ho Hi. exact Hi.
  - intros b cn co cs ar os oss hm ho Hi. exact Hi.
Qed.

Lemma empty_builder_idx base : idx_inv (empty_builder base).
Proof. split; reflexivity. Qed.

Lemma brun_keeps_idx ops : forall f, idx_inv f -> idx_inv (brun f ops).
Proof.
  intros f Hi. exact (brun_preserves idx_invariant ops f Hi (ops_ok_all ops)).
Qed.

(* ArgsFormat(elements, base) goes through the same additions *)
Lemma add_elements_keeps_idx es f f' : idx_inv f -> add_elements f es = Ok f' -> idx_inv f'.
Proof.
  intros Hi. apply (add_elements_preserves idx_invariant); [exact Hi|]. apply forallb_forall. now intros [].
Qed.

(* the public queries of a builder or format, and their answers, as data: C06 states the agreement for every query at once *)
Inductive query :=
| QCommandNames (incl : bool) | QHasCommandNames (incl : bool)
| QHasCommandOption (n : str) (incl : bool) | QGetCommandOption (n : str) (incl : bool)
| QCommandOptions (incl : bool) | QHasCommandOptions (incl : bool)
| QHasArgument (r : aref) (incl : bool) | QGetArgument (r : aref) (incl : bool)
| QArguments (incl : bool) | QHasArguments (incl : bool)
| QHasMulti (incl : bool) | QHasOptional (incl : bool) | QHasRequired (incl : bool)
| QHasOption (n : str) (incl : bool) | QGetOption (n : str) (incl : bool)
| QOptions (incl : bool) | QHasOptions (incl : bool)
| QBase.

Inductive answer :=
| ABool (b : bool) | ACNames (l : list cname) | ACOpt (r : res copt) | ACOpts (l : list copt)
| AArg (r : res arg) | AArgs (l : list (str * arg)) | AOpt (r : res opt) | AOpts (l : list (str * opt))
| AFmt (b : option fmt).

Definition ask (f : fmt) (q : query) : answer :=
  match q with
  | QCommandNames i => ACNames (get_command_names f i)
  | QHasCommandNames i => ABool (has_command_names f i)
  | QHasCommandOption n i => ABool (has_command_option f n i)
  | QGetCommandOption n i => ACOpt (get_command_option f n i)
  | QCommandOptions i => ACOpts (get_command_options f i)
  | QHasCommandOptions i => ABool (has_command_options f i)
  | QHasArgument r i => ABool (has_argument f r i)
  | QGetArgument r i => AArg (get_argument f r i)
  | QArguments i => AArgs (get_arguments f i)
  | QHasArguments i => ABool (has_arguments f i)
  | QHasMulti i => ABool (has_multi f i)
  | QHasOptional i => ABool (has_optional f i)
  | QHasRequired i => ABool (has_required f i)
  | QHasOption n i => ABool (has_option f n i)
  | QGetOption n i => AOpt (get_option f n i)
  | QOptions i => AOpts (get_options f i)
  | QHasOptions i => ABool (has_options f i)
  | QBase => AFmt (f_base f)
  end.

Lemma reachable_build_id base ops : build_format (brun (empty_builder base) ops) = brun (empty_builder base) ops.
Proof. apply idx_inv_build, brun_keeps_idx, empty_builder_idx. Qed.

(* a short name found in the rebuilt index belongs to a listed option having that short name *)
Lemma short_index_sound os : forall s o,
  sget s (short_index os) = Some o -> In o (map snd os) /\ o_short o = Some s.
Proof.
  induction os as [|no r IH] using rev_ind; intros s o H; [discriminate|].
  rewrite short_index_snoc in H. unfold short_step in H. rewrite map_app, in_app_iff. cbn [map In].
  destruct (o_short (snd no)) as [s'|] eqn:Es.
  - rewrite sget_set in H. destruct (str_eqb_spec s s') as [->|Hn].
    + inversion H; subst. split; [right; now left|exact Es].
    + destruct (IH s o H) as [Hin Hsh]. split; [now left|exact Hsh].
  - destruct (IH s o H) as [Hin Hsh]. split; [now left|exact Hsh].
Qed.
(* every listed option with a short name is found under it (the last such one, if several shared it) *)
Lemma short_index_complete os : forall o s,
  In o (map snd os) -> o_short o = Some s -> exists o', sget s (short_index os) = Some o' /\ o_short o' = Some s.
Proof.
  induction os as [|no r IH] using rev_ind; intros o s Hin Hs; [contradiction|].
  rewrite short_index_snoc. unfold short_step. rewrite map_app, in_app_iff in Hin. cbn [map In] in Hin.
  destruct Hin as [Hin|[<-|[]]].
  - destruct (IH o s Hin Hs) as [o' [Hg Ho']].
    destruct (o_short (snd no)) as [s'|] eqn:Es; [|eauto].
    rewrite sget_set. destruct (str_eqb_spec s s') as [->|Hn]; eauto.
  - rewrite Hs, sget_set_same. eauto.
Qed.

Definition nth_arg (ars : list (str * arg)) (i : Z) : option arg :=
  if (i <? 0)%Z then None else option_map snd (nth_error ars (Z.to_nat i)).
Lemma get_argument_pos f i incl :
  get_argument f (APos i) incl = match nth_arg (get_arguments f incl) i with Some a => Ok a | None => Err NoSuchArgument end.
Proof.
  unfold get_argument, nth_arg. set (ars := get_arguments f incl).
  destruct (Z.leb_spec (Z.of_nat (length ars)) i) as [Hle|Hlt].
  - destruct (Z.ltb_spec i 0) as [H0|H0]; [reflexivity|].
    assert (nth_error ars (Z.to_nat i) = None) as -> by (apply nth_error_None; lia). reflexivity.
  - destruct (Z.ltb_spec i 0) as [H0|H0]; [reflexivity|].
    destruct (nth_error ars (Z.to_nat i)) as [[n a]|] eqn:E; reflexivity.
Qed.
Lemma has_argument_pos f i incl :
  has_argument f (APos i) incl = match nth_arg (get_arguments f incl) i with Some _ => true | None => false end.
Proof.
  unfold has_argument, nth_arg. set (ars := get_arguments f incl).
  destruct (Z.ltb_spec i 0) as [H0|H0].
  - destruct (Z.leb_spec 0 i); [lia|reflexivity].
  - destruct (Z.leb_spec 0 i); [|lia]. cbn [andb].
    destruct (Z.ltb_spec i (Z.of_nat (length ars))) as [Hlt|Hge].
    + destruct (nth_error ars (Z.to_nat i)) eqn:E; [reflexivity|]. apply nth_error_None in E. lia.
    + assert (nth_error ars (Z.to_nat i) = None) as -> by (apply nth_error_None; lia). reflexivity.
Qed.
