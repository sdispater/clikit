(* C20, the solutions: ExceptionTrace._render_solution writes, after the report of _render_exception, one block per
   solution the provider repository returns for the exception (title, description, documentation links - texts that come
   from outside clikit).  The line of a solution IS a line of literals and safe separators, for every title, description
   and links; hence the solutions add no failure to render - which never fails (render_sol_never_fails_any) -
   and the undecorated bytes say the texts as they are. *)
From Coq Require Import Lia.
From Clikit Require Import Base.Prelude Base.Res Model.Conv Model.Markup Model.OutputM Model.Trace
  Proofs.MarkupLemmas Proofs.OutputLemmas Proofs.TraceLemmas Proofs.LiteralLemmas Proofs.TraceRenderLemmas.

(* the texts between the tags: the title without its trailing dots; the description with four blanks after every line
   break, without the blanks at its two ends; the links *)
Definition bullet (utf8 : bool) : str := if utf8 then [8226%N] else [42%N].
Definition sol_title (s : solution) : str := rstrip_char 46 (so_title s).
Definition sol_desc (s : solution) : str := strip_char 32 (replace [NL] nl_indent4 (so_desc s)).
(* a link: a line break and two blanks (after a comma for every link but the first), then <fg=blue>link</> *)
Definition link_piece (pre : str) (l : str) : list piece := [PRaw (pre ++ [NL; 32; 32]%N); PLit Trace.st_blue l].
Definition link_pieces (links : list str) : list piece :=
  match links with [] => [] | l :: r => link_piece [] l ++ flat_map (link_piece [COMMA]) r end.
(* <fg=blue;options=bold>* </><fg=default;options=bold>title</>: <fg=default>description</> links *)
Definition sol_pieces (utf8 : bool) (s : solution) : list piece :=
  [PLit th_number (bullet utf8 ++ [32%N]); PLit th_builtin (sol_title s); PRaw [58; 32]%N; PLit th_default (sol_desc s)]
    ++ link_pieces (so_links s).

Lemma link_piece_str pre l :
  line_str (link_piece pre l) = pre ++ [NL; 32; 32]%N ++ tagged Trace.st_blue (literal l Trace.st_blue).
Proof. unfold link_piece, line_str. cbn [flat_map piece_str]. now rewrite app_nil_r, <- app_assoc. Qed.
Lemma link_pieces_str links :
  join_with COMMA (map (fun l => [NL; 32; 32]%N ++ tagged Trace.st_blue (literal l Trace.st_blue)) links) = line_str (link_pieces links).
Proof.
  destruct links as [|l r]; [reflexivity|]. cbn [map]. rewrite join_with_cons. unfold link_pieces.
  rewrite line_str_app, link_piece_str. cbn [app]. f_equal. f_equal. f_equal. f_equal.
  induction r as [|y r IH]; [reflexivity|]. cbn [map flat_map]. rewrite line_str_app, link_piece_str, IH. reflexivity.
Qed.
Lemma bullet_safe utf8 : safe (bullet utf8 ++ [32%N]).
Proof. destruct utf8; safe_by_compute. Qed.

Theorem solution_line_pieces utf8 s : solution_line utf8 s = line_str (sol_pieces utf8 s).
Proof.
  unfold solution_line, sol_pieces. rewrite line_str_app, <- link_pieces_str. fold (sol_title s) (sol_desc s) (bullet utf8).
  unfold line_str at 1. cbn [flat_map piece_str]. rewrite (literal_safe _ th_number (bullet_safe utf8)).
  generalize (literal (sol_title s) th_builtin) (literal (sol_desc s) th_default)
    (join_with COMMA (map (fun l => [NL; 32; 32]%N ++ tagged Trace.st_blue (literal l Trace.st_blue)) (so_links s))).
  intros A B C. unfold s_sol_open, s_sol_mid, s_sol_colon, tagged, close_any, th_number, th_builtin, th_default, bullet, LT, GT, SLASH.
  destruct utf8; repeat (progress (rewrite <- ?app_assoc; cbn [app])); reflexivity.
Qed.

(* Trace.st_blue (Model/Trace.v) and the st_blue of inline_tags are the same string *)
Lemma st_blue_inline : In Trace.st_blue inline_tags.
Proof. unfold inline_tags. cbn [In]. right. right. right. left. reflexivity. Qed.
Lemma link_piece_ok sty pre l : safe pre -> pieces_ok sty (link_piece pre l).
Proof.
  intros Hpre. constructor; [apply safe_app; [exact Hpre|safe_by_compute]|].
  constructor; [apply inline_piece_ok, st_blue_inline|constructor].
Qed.
Lemma link_pieces_ok sty links : pieces_ok sty (link_pieces links).
Proof.
  destruct links as [|l r]; [constructor|]. unfold link_pieces. apply Forall_app. split; [apply link_piece_ok, safe_nil|].
  apply Forall_flat_map, Forall_forall. intros y _. apply link_piece_ok. safe_by_compute.
Qed.
(* the tags are inline styles: they resolve in every style table, no style has to be registered *)
Theorem sol_pieces_ok sty utf8 s : pieces_ok sty (sol_pieces utf8 s).
Proof.
  unfold sol_pieces. apply Forall_app. split; [|apply link_pieces_ok].
  constructor; [apply inline_piece_ok; inline_in|]. constructor; [apply inline_piece_ok; inline_in|].
  constructor; [cbn [piece_ok]; safe_by_compute|]. constructor; [apply inline_piece_ok; inline_in|constructor].
Qed.
Theorem solution_line_good sty utf8 s : good_line sty (solution_line utf8 s).
Proof. exists (sol_pieces utf8 s). split; [apply sol_pieces_ok|apply solution_line_pieces]. Qed.

Definition sol_ne (s : solution) : Prop := no_esc (so_title s) /\ no_esc (so_desc s) /\ Forall no_esc (so_links s).
Lemma sol_title_ne s : no_esc (so_title s) -> no_esc (sol_title s).
Proof. apply rstrip_char_P. Qed.
Lemma sol_desc_ne s : no_esc (so_desc s) -> no_esc (sol_desc s).
Proof. intros H. unfold sol_desc. apply strip_char_P, replace_P; [ne_compute|exact H]. Qed.
Lemma link_piece_noesc pre l : no_esc pre -> no_esc l -> pieces_noesc (link_piece pre l).
Proof.
  intros Hpre Hl. constructor; [cbn [piece_noesc]; apply ne_app; [exact Hpre|ne_compute]|]. constructor; [exact Hl|constructor].
Qed.
Lemma link_pieces_noesc links : Forall no_esc links -> pieces_noesc (link_pieces links).
Proof.
  intros H. destruct links as [|l r]; [constructor|]. inversion H as [|? ? Hl Hr]; subst. unfold link_pieces.
  apply Forall_app. split; [apply link_piece_noesc; [constructor|exact Hl]|].
  apply Forall_flat_map. eapply Forall_impl; [|exact Hr]. intros y Hy. apply link_piece_noesc; [ne_compute|exact Hy].
Qed.
Theorem sol_pieces_noesc utf8 s : sol_ne s -> pieces_noesc (sol_pieces utf8 s).
Proof.
  intros (Ht & Hd & Hl). unfold sol_pieces. apply Forall_app. split; [|apply link_pieces_noesc, Hl].
  constructor; [cbn [piece_noesc]; destruct utf8; ne_compute|]. constructor; [apply sol_title_ne, Ht|].
  constructor; [cbn [piece_noesc]; ne_compute|]. constructor; [apply sol_desc_ne, Hd|constructor].
Qed.
Theorem solution_line_good_ne sty utf8 s : sol_ne s -> good_line_ne sty (solution_line utf8 s).
Proof.
  intros H. exists (sol_pieces utf8 s). split; [apply sol_pieces_ok|]. split; [apply sol_pieces_noesc, H|apply solution_line_pieces].
Qed.
Lemma solution_line_ne utf8 s : sol_ne s -> no_esc (solution_line utf8 s).
Proof.
  intros (Ht & Hd & Hl). unfold solution_line. apply ne_app; [ne_compute|]. apply ne_app; [destruct utf8; ne_compute|].
  apply ne_app; [ne_compute|]. apply ne_app; [apply ne_literal; [ne_compute|apply sol_title_ne, Ht]|]. apply ne_app; [ne_compute|].
  apply ne_app; [apply ne_tagged; [ne_compute|apply ne_literal; [ne_compute|apply sol_desc_ne, Hd]]|].
  destruct (so_links s) as [|l r]; [constructor|]. cbn [map]. rewrite join_with_cons. inversion Hl as [|? ? Hl1 Hlr]; subst.
  assert (forall y, no_esc y -> no_esc ([NL; 32; 32]%N ++ tagged Trace.st_blue (literal y Trace.st_blue))) as Hf.
  { intros y Hy. apply ne_app; [ne_compute|]. apply ne_tagged; [ne_compute|apply ne_literal; [ne_compute|exact Hy]]. }
  apply ne_app; [apply Hf, Hl1|]. apply Forall_flat_map, Forall_map. eapply Forall_impl; [|exact Hlr].
  intros y Hy. constructor; [discriminate|apply Hf, Hy].
Qed.

(* the lines of the solution blocks, given by their pieces: a blank line, then the solution *)
Definition sol_plines (ind : Z) (utf8 : bool) (sols : list solution) : list pline :=
  flat_map (fun s => [(ind, []); (ind, sol_pieces utf8 s)]) sols.
Lemma render_solutions_pieces c ind sols : render_solutions c ind sols = map pline_w (sol_plines ind (t_utf8 c) sols).
Proof.
  unfold render_solutions, sol_plines. induction sols as [|s r IH]; [reflexivity|]. cbn [flat_map]. rewrite map_app, IH. f_equal.
  unfold render_line, pline_w. cbn [map fst snd app Z.to_nat repeat]. rewrite solution_line_pieces. reflexivity.
Qed.
Lemma sol_plines_ok sty ind utf8 sols : Forall (fun p : pline => pieces_ok sty (snd p)) (sol_plines ind utf8 sols).
Proof.
  unfold sol_plines. apply Forall_flat_map, Forall_forall. intros s _.
  constructor; [constructor|]. constructor; [apply sol_pieces_ok|constructor].
Qed.
Lemma sol_plines_noesc ind utf8 sols : Forall sol_ne sols -> Forall (fun p : pline => pieces_noesc (snd p)) (sol_plines ind utf8 sols).
Proof.
  intros H. unfold sol_plines. apply Forall_flat_map. eapply Forall_impl; [|exact H]. intros s Hs.
  constructor; [constructor|]. constructor; [apply sol_pieces_noesc, Hs|constructor].
Qed.
Lemma good_render_solutions sty c ind sols : Forall (fun wl : wline => good_line sty (snd wl)) (render_solutions c ind sols).
Proof.
  unfold render_solutions. apply Forall_flat_map, Forall_forall. intros s _. apply good_render_line, solution_line_good.
Qed.
Lemma render_solutions_noesc c ind sols : Forall sol_ne sols -> Forall (fun wl : wline => no_esc (snd wl)) (render_solutions c ind sols).
Proof.
  intros H. unfold render_solutions. apply Forall_flat_map. eapply Forall_impl; [|exact H]. intros s Hs.
  apply render_line_ne, solution_line_ne, Hs.
Qed.

(* the shape of render_lines_sol: the report alone in simple mode and for an exception without frames, otherwise the
   report followed by the blocks *)
Lemma render_lines_sol_shape c simple ind x sols :
  render_lines_sol c simple ind x sols
  = if simple || match x_frames x with [] => true | _ => false end then render_lines c simple ind x
    else do ls <- render_lines c simple ind x; Ok (ls ++ render_solutions c (ind + 2) sols).
Proof.
  unfold render_lines_sol. destruct simple; [reflexivity|]. cbn [orb].
  destruct (x_frames x) as [|f0 fs] eqn:EF; [|reflexivity]. unfold render_lines, render_exception. rewrite EF. reflexivity.
Qed.

Section GoodSol.
Variable sty : styles.
Hypothesis Herr : resolvable sty st_error.
Hypothesis Hb : resolvable sty st_b.
Theorem render_lines_sol_good c simple ind x sols ls :
  render_lines_sol c simple ind x sols = Ok ls -> Forall (fun wl => good_line sty (snd wl)) ls.
Proof.
  rewrite render_lines_sol_shape. destruct (simple || match x_frames x with [] => true | _ => false end).
  - apply (render_lines_good sty Herr Hb).
  - destruct (render_lines c simple ind x) as [l0|e] eqn:E; cbn [bind]; [|discriminate]. intros H. injection H as <-.
    apply Forall_app. split; [apply (render_lines_good sty Herr Hb c simple ind x l0 E)|apply good_render_solutions].
Qed.
Corollary render_lines_sol_good_ne c simple ind x sols ls :
  render_lines_sol c simple ind x sols = Ok ls -> Forall (fun wl => no_esc (snd wl)) ls -> Forall (fun wl => good_line_ne sty (snd wl)) ls.
Proof. intros H. apply good_lines_noesc, (render_lines_sol_good c simple ind x sols ls H). Qed.
End GoodSol.

(* the solutions add no failure: the lines always exist, as those of the report alone do *)
Theorem render_lines_sol_total c simple ind x sols : exists ls, render_lines_sol c simple ind x sols = Ok ls.
Proof.
  rewrite render_lines_sol_shape. destruct (simple || match x_frames x with [] => true | _ => false end); [apply render_lines_total|].
  destruct (render_lines_total c simple ind x) as (l0 & ->). cbn [bind]. eexists. reflexivity.
Qed.
Theorem render_lines_sol_simple_ok c ind x sols : exists ls, render_lines_sol c true ind x sols = Ok ls.
Proof. apply render_lines_sol_total. Qed.
Lemma render_lines_sol_pieces sty c simple ind x sols : resolvable sty st_error -> resolvable sty st_b ->
  exists pls, render_lines_sol c simple ind x sols = Ok (map pline_w pls) /\ Forall (fun p => pieces_ok sty (snd p)) pls.
Proof.
  intros Herr Hb. destruct (render_lines_sol_total c simple ind x sols) as (ls & E).
  destruct (good_lines_pieces sty ls (render_lines_sol_good sty Herr Hb c simple ind x sols ls E)) as (pls & -> & H). eauto.
Qed.
(* For every exception case, solutions (whatever their texts hold), configuration, report mode and output as in
   render_never_fails_any, render with a solution provider repository returns. *)
Theorem render_sol_never_fails_any sty c simple o x sols :
  out_ok sty o -> resolvable sty st_error -> resolvable sty st_b -> exists bytes, render_sol c simple o x sols = Ok bytes.
Proof.
  intros Ho Herr Hb. destruct (render_lines_sol_pieces sty c simple (o_indent o) x sols Herr Hb) as (pls & HL & Hok).
  destruct (written_buffer sty o pls _ HL Ho Hok) as (w & HW & _). eexists. exact HW.
Qed.
Corollary render_sol_never_fails_inputs sty c simple o x sols :
  out_ok sty o -> resolvable sty st_error -> resolvable sty st_b ->
  (decorated o = true -> inputs_ne c x /\ Forall sol_ne sols) ->
  exists bytes, render_sol c simple o x sols = Ok bytes.
Proof. intros Ho Herr Hb _. exact (render_sol_never_fails_any sty c simple o x sols Ho Herr Hb). Qed.
Theorem render_sol_no_frames c o x sols : x_frames x = [] -> render_sol c false o x sols = render c false o x.
Proof. intros H. unfold render_sol, render. rewrite render_lines_sol_shape, H. reflexivity. Qed.
Theorem render_sol_no_solutions c simple o x : render_sol c simple o x [] = render c simple o x.
Proof.
  unfold render_sol, render. rewrite render_lines_sol_shape. destruct (simple || match x_frames x with [] => true | _ => false end); [reflexivity|].
  destruct (render_lines c simple (o_indent o) x) as [ls|e]; cbn [bind render_solutions flat_map]; [|reflexivity]. now rewrite app_nil_r.
Qed.

Fixpoint pieces_start (b : bool) (ps : list piece) : bool :=
  match ps with [] => b | p :: r => pieces_start (piece_start b p) r end.
Lemma ind_pieces_app n : forall a b bb, ind_pieces n bb (a ++ b) = ind_pieces n bb a ++ ind_pieces n (pieces_start bb a) b.
Proof.
  induction a as [|p a IH]; intros b bb; [reflexivity|]. cbn [app ind_pieces pieces_start]. rewrite IH, <- app_assoc. reflexivity.
Qed.

(* the links as shown at indentation ind: each on its own line, two more blanks in front, a comma after all but the last *)
Definition link_shown (ind : Z) (l : str) : str := [NL] ++ spaces ind ++ [32; 32]%N ++ shown (ind_text ind l).
Definition links_shown (ind : Z) (links : list str) : str := join_with COMMA (map (link_shown ind) links).
(* the line of a solution as shown at indentation ind: bullet, blank, title, ": ", description, links *)
Definition sol_shown (ind : Z) (utf8 : bool) (s : solution) : str :=
  spaces ind ++ bullet utf8 ++ [32%N] ++ shown (ind_text ind (sol_title s)) ++ [58; 32]%N ++ shown (ind_text ind (sol_desc s))
    ++ links_shown ind (so_links s) ++ [NL].

(* what stands before the line break of a link (nothing, or the comma) holds no line break: it is not indented *)
Lemma link_piece_shown n pre l : no_nl pre ->
  flat_map piece_shown (ind_pieces n false (link_piece pre l)) = pre ++ link_shown n l /\ pieces_start false (link_piece pre l) = false.
Proof.
  intros Hpre. split; [|reflexivity]. unfold link_piece, link_shown. cbn [ind_pieces ind_piece piece_start flat_map piece_shown].
  assert (expand NLs (spaces n) false (pre ++ [NL; 32; 32]%N) = pre ++ [NL] ++ spaces n ++ [32; 32]%N) as ->.
  { assert (expand NLs (spaces n) false [NL; 32; 32]%N = [NL] ++ spaces n ++ [32; 32]%N) as E by reflexivity.
    destruct pre as [|c pre']; [exact E|]. now rewrite (expand_block _ _ _ _ false Hpre ltac:(discriminate)), E. }
  assert (at_start false (pre ++ [NL; 32; 32]%N) = false) as -> by (rewrite at_start_app; reflexivity).
  cbn [pad app flat_map piece_shown]. rewrite app_nil_r. repeat (progress (rewrite <- ?app_assoc; cbn [app])). reflexivity.
Qed.
Lemma link_pieces_shown n links : flat_map piece_shown (ind_pieces n false (link_pieces links)) = links_shown n links.
Proof.
  unfold links_shown. destruct links as [|l r]; [reflexivity|]. cbn [map]. rewrite join_with_cons. unfold link_pieces.
  destruct (link_piece_shown n [] l (Forall_nil _)) as [E1 E2]. rewrite ind_pieces_app, flat_map_app, E1, E2. cbn [app]. f_equal.
  induction r as [|y r IH]; [reflexivity|]. cbn [flat_map map].
  destruct (link_piece_shown n [COMMA] y ltac:(repeat constructor; discriminate)) as [F1 F2]. rewrite ind_pieces_app, flat_map_app, F1, F2, IH. reflexivity.
Qed.
Lemma bullet_no_nl utf8 : no_nl (bullet utf8 ++ [32%N]).
Proof. destruct utf8; repeat constructor; discriminate. Qed.
Lemma shown_sol_line ind utf8 s : (0 < ind)%Z -> shown_line (ind, sol_pieces utf8 s) = sol_shown ind utf8 s.
Proof.
  intros Hi. unfold shown_line, wpieces, sol_shown. cbn [fst snd]. destruct (Z.ltb_spec 0 ind) as [_|Hle]; [|lia].
  unfold sol_pieces. rewrite ind_pieces_app, flat_map_app. cbn [pieces_start piece_start]. rewrite link_pieces_shown.
  cbn [ind_pieces ind_piece piece_start flat_map piece_shown pad expand at_start]. unfold NLs.
  change (N.eqb 58 NL) with false. change (N.eqb 32 NL) with false. cbv iota. cbn [pad app].
  cbn [flat_map piece_shown]. rewrite (ind_text_no_nl ind _ (bullet_no_nl utf8)), (shown_safe _ (bullet_safe utf8)), ?app_nil_r, <- ?app_assoc. cbn [app]. reflexivity.
Qed.
Lemma shown_sol_plines ind utf8 sols : (0 < ind)%Z ->
  flat_map shown_line (sol_plines ind utf8 sols) = flat_map (fun s => [NL] ++ sol_shown ind utf8 s) sols.
Proof.
  intros Hi. unfold sol_plines. induction sols as [|s r IH]; [reflexivity|]. cbn [flat_map]. rewrite flat_map_app. f_equal; [|exact IH]. cbn [flat_map].
  rewrite shown_line_blank, (shown_sol_line ind utf8 s Hi), app_nil_r. reflexivity.
Qed.

(* the bytes of render_sol are the bytes of render followed by, per solution, a blank line and the shown block *)
Theorem sol_bytes sty c o x sols bytes :
  out_ok sty o -> resolvable sty st_error -> resolvable sty st_b -> decorated o = false -> (0 <= o_indent o)%Z ->
  x_frames x <> [] -> render_sol c false o x sols = Ok bytes ->
  let ind := (o_indent o + 2)%Z in
  exists report, render c false o x = Ok report /\
    bytes = report ++ flat_map (fun s => [NL] ++ sol_shown ind (t_utf8 c) s) sols.
Proof.
  intros Ho Herr Hb Hd Hi Hne HR ind.
  destruct (render_lines_pieces sty c Herr Hb false (o_indent o) x) as (pls & HL & Hpls).
  destruct (written_buffer sty o pls _ HL Ho Hpls) as (w & HRen & HV).
  assert (render_lines_sol c false (o_indent o) x sols = Ok (map pline_w (pls ++ sol_plines ind (t_utf8 c) sols))) as HLS.
  { rewrite render_lines_sol_shape. destruct (x_frames x); [congruence|]. cbn [orb]. rewrite HL. cbn [bind].
    now rewrite render_solutions_pieces, map_app. }
  destruct (written_buffer sty o _ _ HLS Ho) as (w2 & HR2 & HV2); [apply Forall_app; split; [exact Hpls|apply sol_plines_ok]|].
  exists (o_buf o ++ w). split; [exact HRen|]. assert (Ok bytes = Ok (o_buf o ++ w2)) as E by (rewrite <- HR; exact HR2).
  injection E as ->. rewrite Hd in HV, HV2. rewrite HV, HV2 by discriminate.
  rewrite flat_map_app, shown_sol_plines by (unfold ind; lia). now rewrite app_assoc.
Qed.

(* the description: four blanks after every line break, then the blanks at the two ends dropped *)
Lemma sol_desc_spec s :
  sol_desc s = strip_char 32 (flat_map (fun c => if N.eqb c NL then [NL; 32; 32; 32; 32]%N else [c]) (so_desc s)).
Proof. unfold sol_desc. now rewrite replace_single. Qed.
(* texts without line breaks are shown as they are *)
Lemma sol_desc_no_nl s : no_nl (so_desc s) -> sol_desc s = strip_char 32 (so_desc s).
Proof. intros H. unfold sol_desc. now rewrite (replace_nl_no_nl _ _ H). Qed.
(* a solution whose texts hold no line break: bullet, blank, the title without its trailing dots, ": ", the description
   without the blanks at its ends, every link on its own line *)
Theorem sol_shown_one_line ind utf8 s : no_nl (so_title s) -> no_nl (so_desc s) -> Forall no_nl (so_links s) ->
  sol_shown ind utf8 s
  = spaces ind ++ bullet utf8 ++ [32%N] ++ shown (rstrip_char 46 (so_title s)) ++ [58; 32]%N ++ shown (strip_char 32 (so_desc s))
      ++ join_with COMMA (map (fun l => [NL] ++ spaces ind ++ [32; 32]%N ++ shown l) (so_links s)) ++ [NL].
Proof.
  intros Ht Hd Hl. unfold sol_shown, links_shown. rewrite (sol_desc_no_nl s Hd).
  rewrite (ind_text_no_nl ind (sol_title s) (rstrip_char_P _ 46 _ Ht)), (ind_text_no_nl ind _ (strip_char_P _ 32 _ Hd)).
  assert (map (link_shown ind) (so_links s) = map (fun l => [NL] ++ spaces ind ++ [32; 32]%N ++ shown l) (so_links s)) as ->; [|reflexivity].
  apply map_ext_in. intros l Hin. unfold link_shown. rewrite Forall_forall in Hl. now rewrite (ind_text_no_nl ind l (Hl l Hin)).
Qed.

Module SolutionExamples.
Import RenderExamples.
(* the solution  "Close </error>"  whose description ends in a backslash, with the link  https://x/<z>  *)
Definition ex_t1 : str := [67;108;111;115;101;32;60;47;101;114;114;111;114;62]%N.     (* Close </error> *)
Definition ex_d1 : str := [69;115;99;97;112;101;32;105;116;32;119;105;116;104;32;92]%N.   (* Escape it with \ *)
Definition ex_l1 : str := [104;116;116;112;115;58;47;47;120;47;60;122;62]%N.     (* https://x/<z> *)
Definition ex_s1 : solution := {| so_title := ex_t1; so_desc := ex_d1; so_links := [ex_l1] |}.
(* a title with trailing dots, a description of two lines with blanks at its ends, two links *)
Definition ex_t2 : str := [82;101;97;100;32;116;104;101;32;100;111;99;115;46;46;46]%N.     (* Read the docs... *)
Definition ex_d2 : str := [32;102;105;114;115;116;32;108;105;110;101;10;115;101;99;111;110;100;32]%N.   (* " first line" NL "second " *)
Definition ex_l2a : str := [97;60;98]%N.      (* a<b *)
Definition ex_l2b : str := [99;92]%N.         (* c\ *)
Definition ex_s2 : solution := {| so_title := ex_t2; so_desc := ex_d2; so_links := [ex_l2a; ex_l2b] |}.

(* the line is the line of its pieces, and what the markup looks like *)
Example ex_sol_pieces : solution_line false ex_s1
  = line_str [PLit th_number [42; 32]%N; PLit th_builtin ex_t1; PRaw [58; 32]%N; PLit th_default ex_d1; PRaw [NL; 32; 32]%N; PLit Trace.st_blue ex_l1].
Proof. rewrite solution_line_pieces. vm_compute. reflexivity. Qed.
(* <fg=blue;options=bold>* </><fg=default;options=bold>Close <</><fg=default;options=bold>/error></>: <fg=default>Escape it with \ </>
     <fg=blue>https://x/<</><fg=blue>z></> *)
Example ex_sol_markup : solution_line false ex_s1
  = [60;102;103;61;98;108;117;101;59;111;112;116;105;111;110;115;61;98;111;108;100;62;42;32;60;47;62;60;102;103;61;100;101;102;97;117;108;116;59;111;112;116;105;111;110;115;61;98;111;108;100;62;67;108;111;115;101;32;60;60;47;62;60;102;103;61;100;101;102;97;117;108;116;59;111;112;116;105;111;110;115;61;98;111;108;100;62;47;101;114;114;111;114;62;60;47;62;58;32;60;102;103;61;100;101;102;97;117;108;116;62;69;115;99;97;112;101;32;105;116;32;119;105;116;104;32;92;32;60;47;62;10;32;32;60;102;103;61;98;108;117;101;62;104;116;116;112;115;58;47;47;120;47;60;60;47;62;60;102;103;61;98;108;117;101;62;122;62;60;47;62]%N.
Proof. vm_compute. reflexivity. Qed.
Example ex_sol_good : good_line demo_sty2 (solution_line false ex_s1) /\ good_line_ne demo_sty2 (solution_line true ex_s2).
Proof.
  split; [apply solution_line_good|apply solution_line_good_ne]. split; [|split]; repeat constructor; discriminate.
Qed.
(* the lines of the report with both solutions are good *)
Example ex_sol_lines_good ls : render_lines_sol (demo_cfg true) false 0 (demo_x [demo_frame; demo_frame]) [ex_s1; ex_s2] = Ok ls ->
  Forall (fun wl => good_line demo_sty2 (snd wl)) ls.
Proof. apply (render_lines_sol_good demo_sty2 demo_error demo_b). Qed.

(* render_sol does not fail - plain and decorated *)
Example ex_sols_ne : Forall sol_ne [ex_s1; ex_s2].
Proof. repeat constructor; discriminate. Qed.
Example ex_sol_never_fails_plain v simple :
  exists bytes, render_sol (demo_cfg v) simple (demo_out FPlain false 0) (demo_x [demo_frame; demo_frame]) [ex_s1; ex_s2] = Ok bytes.
Proof.
  apply (render_sol_never_fails_any demo_sty2); [apply demo_out_ok; discriminate|apply demo_error|apply demo_b].
Qed.
Example ex_sol_never_fails_ansi simple :
  exists bytes, render_sol (demo_cfg true) simple (demo_out (FAnsi false) true 4) (demo_x [demo_frame; demo_frame]) [ex_s1; ex_s2] = Ok bytes.
Proof.
  apply (render_sol_never_fails_any demo_sty2); [apply demo_out_ok; discriminate|apply demo_error|apply demo_b].
Qed.
(* the bytes, by computation: the report of ex_full_vm, then per solution a blank line and the block *)
Definition ex_report : str := [10;32;32;66;60;47;101;114;114;111;114;62;10;10;32;32;60;98;62;120;92;32;10;10;32;32;97;116;32;97;46;112;121;58;49;32;105;110;32;60;102;62;10;32;32;32;32;62;32;32;32;49;124;32;120;10]%N.
(*   * Close </error>: Escape it with \ _
       https://x/<z> *)
Definition ex_block1 : str := [10;32;32;42;32;67;108;111;115;101;32;60;47;101;114;114;111;114;62;58;32;69;115;99;97;112;101;32;105;116;32;119;105;116;104;32;92;32;10;32;32;32;32;104;116;116;112;115;58;47;47;120;47;60;122;62;10]%N.
(*   * Read the docs: first line
         second
       a<b,
       c\ _ *)
Definition ex_block2 : str := [10;32;32;42;32;82;101;97;100;32;116;104;101;32;100;111;99;115;58;32;102;105;114;115;116;32;108;105;110;101;10;32;32;32;32;32;32;115;101;99;111;110;100;10;32;32;32;32;97;60;98;44;10;32;32;32;32;99;92;32;10]%N.
Example ex_report_vm : render (demo_cfg false) false (demo_out FPlain false 0) (demo_x [demo_frame]) = Ok ex_report.
Proof. vm_compute. reflexivity. Qed.
Example ex_sol_vm : render_sol (demo_cfg false) false (demo_out FPlain false 0) (demo_x [demo_frame]) [ex_s1; ex_s2]
  = Ok (ex_report ++ ex_block1 ++ ex_block2).
Proof. vm_compute. reflexivity. Qed.
(* a file that tokenize rejects / that cannot be read: the report without snippet lines, then the solutions *)
Example ex_sol_unreadable_vm : render_sol (demo_cfg false) false (demo_out FPlain false 0) (demo_x [bad_frame]) [ex_s1]
  = Ok (ex_head ++ [10;32;32;97;116;32;97;46;112;121;58;49;32;105;110;32;102;10]%N ++ ex_block1).
Proof. vm_compute. reflexivity. Qed.
Example ex_sol_unreadable_other_vm : render_sol (demo_cfg false) false (demo_out FPlain false 0) (demo_x [bad_frame2]) [ex_s1]
  = Ok (ex_head ++ [10;32;32;97;116;32;98;46;112;121;58;55;32;105;110;32;103;10]%N ++ ex_block1).
Proof. vm_compute. reflexivity. Qed.
(* decorated: the same text under the escape codes *)
Example ex_sol_ansi_vm :
  match render_sol (demo_cfg false) false (demo_out (FAnsi false) true 0) (demo_x [demo_frame]) [ex_s1; ex_s2] with
  | Ok b => strip_sgr b = ex_report ++ ex_block1 ++ ex_block2 /\ b <> ex_report ++ ex_block1 ++ ex_block2
  | Err _ => False
  end.
Proof. vm_compute. split; [reflexivity|discriminate]. Qed.
(* simple mode (library errors): no solutions are printed *)
Example ex_sol_simple_vm : render_sol (demo_cfg false) true (demo_out FPlain false 0) (demo_x [demo_frame]) [ex_s1; ex_s2] = Ok (demo_msg ++ [32; NL]%N).
Proof. vm_compute. reflexivity. Qed.
(* the same through the theorems: the block of a solution whose texts hold no line break *)
Example ex_sol_thm : exists report, render (demo_cfg false) false (demo_out FPlain false 0) (demo_x [demo_frame]) = Ok report /\
  render_sol (demo_cfg false) false (demo_out FPlain false 0) (demo_x [demo_frame]) [ex_s1]
  = Ok (report ++ [NL] ++ [32; 32]%N ++ [42; 32]%N ++ ex_t1 ++ [58; 32]%N ++ ex_d1 ++ [32%N] ++ [NL] ++ [32; 32; 32; 32]%N ++ ex_l1 ++ [NL]).
Proof.
  destruct (render_sol (demo_cfg false) false (demo_out FPlain false 0) (demo_x [demo_frame]) [ex_s1]) as [b|e] eqn:E; [|vm_compute in E; discriminate].
  destruct (sol_bytes demo_sty2 (demo_cfg false) (demo_out FPlain false 0) (demo_x [demo_frame]) [ex_s1] b
              (demo_out_ok FPlain false 0 ltac:(discriminate)) demo_error demo_b eq_refl ltac:(cbn; lia) ltac:(discriminate) E)
    as (report & HR & ->).
  exists report. split; [exact HR|]. cbn [flat_map]. rewrite sol_shown_one_line by (repeat constructor; discriminate). reflexivity.
Qed.
End SolutionExamples.

Print Assumptions solution_line_pieces.
Print Assumptions solution_line_good.
Print Assumptions solution_line_good_ne.
Print Assumptions render_lines_sol_good.
Print Assumptions render_lines_sol_total.
Print Assumptions sol_bytes.
Print Assumptions sol_shown_one_line.
