(* Proofs about the help pages (Model/Help.v).  The layout: a page as the sequence of its sections, what it lists
   (completeness; the listed sub-commands are the visible ones, sorted by name) and what it never lists (hiding); a
   property of every element of a page from properties of the configuration (all_elems, *_all), and as its first use:
   no label holds a line break (one_line_labels).  The rendering: what elem_raw builds (elem_raw_shape), lines within
   the width on the null formatter (okr, lines_within; the other formatters: HelpPlainLemmas.v), the width a layout
   needs, and that render_page fails with ValueError only (only_ve). *)
From Coq Require Import Lia ZifyBool Permutation Sorted.
From Clikit Require Import Base.Prelude Base.Res Model.Conv Model.Flags Model.Format Model.Markup Model.Wrap Model.Help.
From Clikit Require Import Proofs.ListLemmas Proofs.MarkupLemmas Proofs.WrapLemmas.

Lemma insert_by_perm {X} (key : X -> str) x l : Permutation (insert_by key x l) (x :: l).
Proof.
  induction l as [|y r IH]; cbn [insert_by]; [auto|]. destruct (str_leb (key x) (key y)); [auto|].
  eapply perm_trans; [apply perm_skip, IH|apply perm_swap].
Qed.
Lemma sort_by_perm {X} (key : X -> str) l : Permutation (sort_by key l) l.
Proof.
  induction l as [|x l IH]; cbn [sort_by fold_right]; [constructor|].
  eapply perm_trans; [apply insert_by_perm|]. constructor. exact IH.
Qed.

Lemma str_leb_cons x a y b : str_leb (x :: a) (y :: b) = true <-> (x < y)%N \/ (x = y /\ str_leb a b = true).
Proof.
  cbn [str_leb]. destruct (N.ltb_spec x y) as [H|H]; [split; auto|]. destruct (N.ltb_spec y x) as [H'|H'].
  - split; [discriminate|]. intros [?|[? _]]; lia.
  - split; [intros E; right; split; [lia|exact E]|]. intros [?|[_ E]]; [lia|exact E].
Qed.
Lemma str_leb_total a : forall b, str_leb a b = true \/ str_leb b a = true.
Proof.
  induction a as [|x a IH]; intros [|y b]; try (now left); try (now right). rewrite !str_leb_cons.
  destruct (N.lt_trichotomy x y) as [H|[->|H]]; [auto|destruct (IH b); auto|auto].
Qed.
Lemma str_leb_trans a : forall b c, str_leb a b = true -> str_leb b c = true -> str_leb a c = true.
Proof.
  induction a as [|x a IH]; intros [|y b] [|z c] H1 H2; try reflexivity; try discriminate.
  apply str_leb_cons in H1, H2. apply str_leb_cons.
  destruct H1 as [H1|[-> H1]], H2 as [H2|[-> H2]]; [left; lia|left; exact H1|left; exact H2|right; eauto].
Qed.
Lemma str_leb_refl a : str_leb a a = true.
Proof. induction a as [|x a IH]; [reflexivity|]. apply str_leb_cons. auto. Qed.

Definition key_le {X} (key : X -> str) (a b : X) : Prop := str_leb (key a) (key b) = true.

Lemma insert_by_sorted {X} (key : X -> str) x l :
  StronglySorted (key_le key) l -> StronglySorted (key_le key) (insert_by key x l).
Proof.
  induction 1 as [|y r Hs IH Hy]; cbn [insert_by]; [repeat constructor|].
  destruct (str_leb (key x) (key y)) eqn:E.
  - constructor; [constructor; assumption|]. constructor; [exact E|].
    eapply Forall_impl; [|exact Hy]. intros z Hz. unfold key_le in *. eapply str_leb_trans; eassumption.
  - constructor; [exact IH|]. eapply Permutation_Forall; [apply Permutation_sym, insert_by_perm|].
    constructor; [|exact Hy]. unfold key_le. destruct (str_leb_total (key x) (key y)) as [H|H]; [congruence|exact H].
Qed.
Lemma sort_by_sorted {X} (key : X -> str) l : StronglySorted (key_le key) (sort_by key l).
Proof. induction l as [|x l IH]; cbn [sort_by fold_right]; [constructor|]. apply insert_by_sorted, IH. Qed.


Definition H_USAGE : str := ([60;98;62;85;83;65;71;69;60;47;98;62]%N).
Definition H_ARGUMENTS : str := ([60;98;62;65;82;71;85;77;69;78;84;83;60;47;98;62]%N).
Definition H_COMMANDS : str := ([60;98;62;67;79;77;77;65;78;68;83;60;47;98;62]%N).
Definition H_OPTIONS : str := ([60;98;62;79;80;84;73;79;78;83;60;47;98;62]%N).
Definition H_GLOBAL : str := ([60;98;62;71;76;79;66;65;76;32;79;80;84;73;79;78;83;60;47;98;62]%N).
Definition H_AVAILABLE : str := ([60;98;62;65;86;65;73;76;65;66;76;69;32;67;79;77;77;65;78;68;83;60;47;98;62]%N).
Definition H_DESCRIPTION : str := [60;98;62;68;69;83;67;82;73;80;84;73;79;78;60;47;98;62]%N.
Definition C1 : str := ([60;99;49;62]%N).        (* the tag opening the c1 style *)
Definition C1E : str := ([60;47;99;49;62]%N).    (* and closing it *)

(* a sub-command is listed when it is enabled, named and not hidden *)
Definition visible (s : sub) : bool := sb_enabled s && negb (sb_anonymous s) && negb (sb_hidden s).
Definition named_subs (subs : list sub) : list sub := filter (fun s => negb (sb_anonymous s)) (filter sb_enabled subs).
Definition listed_subs (subs : list sub) : list sub := filter (fun s => negb (sb_hidden s)) (sort_by sb_name (named_subs subs)).
Definition commands_section (subs : list sub) : layout :=
  match named_subs subs with [] => [] | _ => (0, EPara H_COMMANDS) :: flat_map sub_block (listed_subs subs) end.

Definition arguments_section (ch : list level) : layout :=
  match chain_args ch with [] => [] | l => (0, EPara H_ARGUMENTS) :: block (at0 (map render_argument l)) ++ [(0, EEmpty)] end.
Definition options_section (ch : list level) : layout :=
  match own_opts ch with [] => [] | l => (0, EPara H_OPTIONS) :: block (at0 (map render_option l)) ++ [(0, EEmpty)] end.
Definition global_options_section (l : list hopt) : layout :=
  match l with [] => [] | x :: r => (0, EPara H_GLOBAL) :: block (at0 (map render_option (x :: r))) ++ [(0, EEmpty)] end.
Definition aliases_section (aliases : list str) : layout :=
  match aliases with [] => [] | _ => [(2, EEmpty); (2, EPara (([97;108;105;97;115;101;115;58;32]%N) ++ join_comma aliases))] end.

(* USAGE: one synopsis per entry; an entry = (names, options, arguments) and whether the last name is bracketed *)
Definition usage_entry : Type := (list str * list hopt * list harg) * bool.
Definition sub_fmt (ch : list level) (s : sub) : list str * list hopt * list harg :=
  (chain_names ch ++ (if sb_anonymous s then [] else [sb_name s]), sb_opts s, chain_args ch ++ sb_args s).
Definition own_fmt (ch : list level) : list str * list hopt * list harg := (chain_names ch, own_opts ch, chain_args ch).
Definition usage_entries (ch : list level) (subs : list sub) : list usage_entry :=
  (match filter sb_default (filter sb_enabled subs) with
   | [] => [(own_fmt ch, false)]
   | _ => map (fun s => (sub_fmt ch s, negb (sb_anonymous s))) (filter sb_default (filter sb_enabled subs))
   end) ++
  map (fun s => (sub_fmt ch s, false)) (filter (fun s => negb (sb_hidden s) && negb (sb_default s)) (filter sb_enabled subs)).
Definition usage_prefixes (n : nat) : list str :=
  (match n with S (S _) => [32; 32; 32; 32]%N | _ => [] end) :: repeat ([111;114;58;32]%N) n.
Definition usage_line (sty : styles) (app_name : option str) (xp : usage_entry * str) : nat * elem :=
  let '((names, opts, args), lo) := fst xp in (2, synopsis sty app_name names opts args (snd xp) lo).
Definition usage_section (sty : styles) (app_name : option str) (ch : list level) (subs : list sub) : layout :=
  map (usage_line sty app_name) (combine (usage_entries ch subs) (usage_prefixes (length (usage_entries ch subs)))).

Lemma usage_prefixes_eq {X} (l : list X) :
  usage_prefixes (length l) = (match l with _ :: _ :: _ => [32; 32; 32; 32]%N | _ => [] end) :: repeat ([111;114;58;32]%N) (length l).
Proof. destruct l as [|a [|b l]]; reflexivity. Qed.

Lemma command_page_sections sty app_name ch aliases help subs :
  command_page sty app_name ch aliases help subs =
  [(0, EPara H_USAGE)] ++ usage_section sty app_name ch subs ++ aliases_section aliases ++ [(0, EEmpty)] ++
  arguments_section ch ++ commands_section subs ++ options_section ch ++ global_options_section (base_opts ch) ++
  description_block help.
Proof.
  unfold command_page, usage_section. cbv zeta.
  change (map _ (filter sb_default (filter sb_enabled subs)))
    with (map (fun s => (sub_fmt ch s, negb (sb_anonymous s))) (filter sb_default (filter sb_enabled subs))).
  fold (own_fmt ch). rewrite (usage_prefixes_eq (usage_entries ch subs)).
  reflexivity.
Qed.

Definition command_page_before sty app_name ch aliases subs : layout :=
  [(0, EPara H_USAGE)] ++ usage_section sty app_name ch subs ++ aliases_section aliases ++ [(0, EEmpty)] ++ arguments_section ch.
Definition command_page_after ch help : layout :=
  options_section ch ++ global_options_section (base_opts ch) ++ description_block help.
Lemma command_page_decomposes sty app_name ch aliases help subs :
  command_page sty app_name ch aliases help subs =
  command_page_before sty app_name ch aliases subs ++ commands_section subs ++ command_page_after ch help.
Proof. rewrite command_page_sections. unfold command_page_before, command_page_after. now rewrite <- !app_assoc. Qed.

Lemma perm_filter_in {X} (v : X -> bool) l l' x : Permutation l (filter v l') -> In x l <-> In x l' /\ v x = true.
Proof. intros H. rewrite <- filter_In. split; apply Permutation_in; [|apply Permutation_sym]; exact H. Qed.
Lemma listed_subs_perm subs : Permutation (listed_subs subs) (filter visible subs).
Proof.
  unfold listed_subs, named_subs. eapply perm_trans; [apply filter_perm, sort_by_perm|].
  rewrite !filter_filter. erewrite filter_ext; [apply Permutation_refl|]. intros x. unfold visible. now rewrite andb_assoc.
Qed.
Lemma listed_subs_sorted subs : StronglySorted (key_le sb_name) (listed_subs subs).
Proof. apply StronglySorted_filter, sort_by_sorted. Qed.
Lemma listed_subs_in subs s : In s (listed_subs subs) <-> In s subs /\ visible s = true.
Proof. apply perm_filter_in, listed_subs_perm. Qed.
Lemma named_subs_nil subs : named_subs subs = [] -> listed_subs subs = [].
Proof. unfold listed_subs. now intros ->. Qed.

Definition sub_name_line (s : sub) : nat * elem := (2, EPara (u_tag (sb_name s))).
Definition at_indent (n : nat) (l : layout) : layout := filter (fun x => Nat.eqb (fst x) n) l.
Lemma at_indent_cons n i e l : at_indent n ((i, e) :: l) = if Nat.eqb i n then (i, e) :: at_indent n l else at_indent n l.
Proof. reflexivity. Qed.
Lemma at2_block_block l : at_indent 2 (block (block l)) = [].
Proof. unfold at_indent, block. induction l as [|x l IH]; [reflexivity|]. cbn [map filter fst]. exact IH. Qed.
Lemma at2_sub_block s : at_indent 2 (sub_block s) = [sub_name_line s].
Proof. unfold sub_block. rewrite at_indent_cons, at2_block_block. reflexivity. Qed.
Lemma at2_flat_map l : at_indent 2 (flat_map sub_block l) = map sub_name_line l.
Proof.
  induction l as [|s l IH]; [reflexivity|]. cbn [flat_map map]. unfold at_indent in *. rewrite filter_app, IH.
  fold (at_indent 2 (sub_block s)). now rewrite at2_sub_block.
Qed.
Lemma commands_section_names subs : at_indent 2 (commands_section subs) = map sub_name_line (listed_subs subs).
Proof.
  unfold commands_section. destruct (named_subs subs) eqn:E.
  - now rewrite (named_subs_nil _ E).
  - rewrite at_indent_cons. apply at2_flat_map.
Qed.

Lemma in_block i e l : In (i, e) l -> In (2 + i, e) (block l).
Proof. intros H. unfold block. apply in_map_iff. exists (i, e). auto. Qed.
Lemma in_at0 e l : In e l -> In (0, e) (at0 l).
Proof. intros H. unfold at0. apply in_map_iff. exists e. auto. Qed.

Lemma sub_block_lists s :
  In (sub_name_line s) (sub_block s)
  /\ (forall a, In a (sb_args s) -> In (4, render_argument a) (sub_block s))
  /\ (forall h, In h (sb_opts s) -> In (4, render_option h) (sub_block s))
  /\ (forall d, nonempty_opt (sb_desc s) = Some d -> In (4, EPara d) (sub_block s))
  /\ (forall d, nonempty_opt (sb_help s) = Some d -> In (4, EPara d) (sub_block s)).
Proof.
  unfold sub_block. split; [left; reflexivity|].
  split; [|split; [|split]].
  - intros a Ha. right. apply (in_block 2), (in_block 0). rewrite !in_app_iff. right. right. left.
    destruct (sb_args s) as [|x l]; [contradiction|]. apply in_or_app. left. apply in_at0, in_map, Ha.
  - intros h Hh. right. apply (in_block 2), (in_block 0). rewrite !in_app_iff. right. right. right. left.
    destruct (sb_opts s) as [|x l]; [contradiction|]. apply in_or_app. left. apply in_at0, in_map, Hh.
  - intros d Hd. right. apply (in_block 2), (in_block 0). rewrite !in_app_iff. left. rewrite Hd. left. reflexivity.
  - intros d Hd. right. apply (in_block 2), (in_block 0). rewrite !in_app_iff. right. left. rewrite Hd. left. reflexivity.
Qed.

Lemma listed_in {X} t (f : X -> elem) l x : In x l ->
  In (2, f x) (match l with [] => [] | x0 :: r => (0, EPara t) :: block (at0 (map f (x0 :: r))) ++ [(0, EEmpty)] end).
Proof. intros H. destruct l; [contradiction|]. right. apply in_or_app. left. apply (in_block 0), in_at0, in_map, H. Qed.
Lemma arguments_section_lists ch a : In a (chain_args ch) -> In (2, render_argument a) (arguments_section ch).
Proof. apply listed_in. Qed.
Lemma options_section_lists ch h : In h (own_opts ch) -> In (2, render_option h) (options_section ch).
Proof. apply listed_in. Qed.
Lemma global_options_section_lists l h : In h l -> In (2, render_option h) (global_options_section l).
Proof. apply listed_in. Qed.
Lemma commands_section_lists subs s : In s subs -> visible s = true -> incl (sub_block s) (commands_section subs).
Proof.
  intros Hs Hv x Hx. assert (Hl : In s (listed_subs subs)) by (apply listed_subs_in; auto).
  unfold commands_section. destruct (named_subs subs) eqn:E; [rewrite (named_subs_nil _ E) in Hl; contradiction|].
  right. apply in_flat_map. exists s. auto.
Qed.

Lemma chain_opts_split ch l h : In l ch -> In h (lv_opts l) -> In h (own_opts ch) \/ In h (base_opts ch).
Proof.
  intros Hl Hh. unfold own_opts, base_opts. apply in_rev in Hl. destruct (rev ch) as [|x r]; [contradiction|].
  destruct Hl as [->|Hl]; [left; exact Hh|]. right. apply in_flat_map. eauto.
Qed.
Lemma chain_args_in ch l a : In l ch -> In a (lv_args l) -> In a (chain_args ch).
Proof. intros Hl Ha. unfold chain_args. apply in_flat_map. eauto. Qed.

Lemma command_page_complete_lemma sty app_name ch aliases help subs :
  let page := command_page sty app_name ch aliases help subs in
  (forall a, In a (chain_args ch) -> In (2, render_argument a) page)
  /\ (forall h, In h (own_opts ch) -> In (2, render_option h) page)
  /\ (forall h, In h (base_opts ch) -> In (2, render_option h) page)
  /\ (forall s, In s subs -> sb_enabled s = true -> sb_anonymous s = false -> sb_hidden s = false ->
        incl (sub_block s) page
        /\ In (2, EPara (u_tag (sb_name s))) page
        /\ (forall a, In a (sb_args s) -> In (4, render_argument a) page)
        /\ (forall h, In h (sb_opts s) -> In (4, render_option h) page)).
Proof.
  cbv zeta. rewrite command_page_sections.
  split; [|split; [|split]].
  - intros a Ha. apply arguments_section_lists in Ha. rewrite !in_app_iff. tauto.
  - intros h Hh. apply options_section_lists in Hh. rewrite !in_app_iff. tauto.
  - intros h Hh. apply global_options_section_lists in Hh. rewrite !in_app_iff. tauto.
  - intros s Hs H1 H2 H3.
    assert (Hincl : incl (sub_block s) ([(0, EPara H_USAGE)] ++ usage_section sty app_name ch subs ++ aliases_section aliases ++
              [(0, EEmpty)] ++ arguments_section ch ++ commands_section subs ++ options_section ch ++
              global_options_section (base_opts ch) ++ description_block help)).
    { intros x Hx. apply (commands_section_lists subs s Hs) in Hx; [|unfold visible; now rewrite H1, H2, H3].
      rewrite !in_app_iff. tauto. }
    destruct (sub_block_lists s) as (L1 & L2 & L3 & _).
    split; [exact Hincl|]. split; [apply Hincl, L1|]. split; intros y Hy; apply Hincl; auto.
Qed.
Lemma command_page_inherited sty app_name ch aliases help subs l :
  In l ch ->
  (forall a, In a (lv_args l) -> In (2, render_argument a) (command_page sty app_name ch aliases help subs))
  /\ (forall h, In h (lv_opts l) -> In (2, render_option h) (command_page sty app_name ch aliases help subs)).
Proof.
  intros Hl. destruct (command_page_complete_lemma sty app_name ch aliases help subs) as (P1 & P2 & P3 & _). cbv zeta in *.
  split; [intros a Ha; apply P1; eapply chain_args_in; eassumption|].
  intros h Hh. destruct (chain_opts_split ch l h Hl Hh); auto.
Qed.

Definition elem_label (e : elem) : str := match e with ELab l _ _ _ => l | _ => [] end.
Definition elem_text (e : elem) : str := match e with ELab _ t _ _ => t | EPara t => t | EEmpty => [] end.
Lemma render_option_names_lemma h :
  elem_label (render_option h) =
  if bit (o_flags (h_o h)) 0      (* the long name is preferred *)
  then C1 ++ (DASH :: DASH :: o_long (h_o h)) ++ C1E ++
       match o_short (h_o h) with Some s => [32; 40]%N ++ (DASH :: s) ++ [41]%N | None => [] end
  else C1 ++ (DASH :: match o_short (h_o h) with Some s => s | None => [] end) ++ C1E ++
       [32; 40]%N ++ (DASH :: DASH :: o_long (h_o h)) ++ [41]%N.
Proof. unfold render_option, opt_preferred. destruct (bit (o_flags (h_o h)) 0); [destruct (o_short (h_o h))|]; reflexivity. Qed.
Lemma render_argument_name_lemma a :
  elem_label (render_argument a) = C1 ++ [60%N] ++ C1E ++ C1 ++ a_name (h_a a) ++ [62%N] ++ C1E.
Proof. reflexivity. Qed.

Definition syn_opt_part (sty : styles) (h : hopt) : str :=
  let o := h_o h in
  let nm := fst (opt_preferred o) in
  [91%N] ++ (if o_required o then nm ++ [160%N] ++ placeholder sty (h_vname h)
             else if o_optional o then nm ++ [160; 91]%N ++ placeholder sty (h_vname h) ++ [93%N]
             else nm) ++ [93%N].
Definition syn_arg_parts (sty : styles) (a : harg) : list str :=
  let n := a_name (h_a a) in
  let n1 := n ++ (if a_multi (h_a a) then [49%N] else []) in
  (if a_required (h_a a) then placeholder sty n1 else [91%N] ++ placeholder sty n1 ++ [93%N])
  :: (if a_multi (h_a a) then [[46; 46; 46; 32; 91]%N ++ placeholder sty (n ++ [78%N]) ++ [93%N]] else []).
Definition syn_parts (sty : styles) (opts : list hopt) (args : list harg) : list str :=
  map (syn_opt_part sty) opts ++ flat_map (syn_arg_parts sty) args.
Lemma synopsis_text sty app_name names opts args prefix lo :
  elem_text (synopsis sty app_name names opts args prefix lo) = join_with 32%N (syn_parts sty opts args).
Proof. reflexivity. Qed.

Definition infix_of (p s : str) : Prop := exists u v, s = u ++ p ++ v.
Lemma join_with_infix sep p : forall l, In p l -> infix_of p (join_with sep l).
Proof.
  induction l as [|x l IH]; [contradiction|]. intros [->|H].
  - destruct l as [|y l]; [exists [], []; cbn; now rewrite app_nil_r|]. exists [], (sep :: join_with sep (y :: l)). reflexivity.
  - destruct (IH H) as (u & v & E). destruct l as [|y l]; [contradiction|].
    exists (x ++ sep :: u), v. cbn [join_with] in *. rewrite E, <- app_assoc. reflexivity.
Qed.
Lemma synopsis_lists_all_lemma sty app_name names opts args prefix lo :
  let t := elem_text (synopsis sty app_name names opts args prefix lo) in
  (forall h, In h opts -> In (syn_opt_part sty h) (syn_parts sty opts args) /\ infix_of (syn_opt_part sty h) t)
  /\ (forall a p, In a args -> In p (syn_arg_parts sty a) -> In p (syn_parts sty opts args) /\ infix_of p t).
Proof.
  cbv zeta. rewrite synopsis_text. split.
  - intros h Hh. assert (H : In (syn_opt_part sty h) (syn_parts sty opts args)) by (apply in_or_app; left; now apply in_map).
    split; [exact H|now apply join_with_infix].
  - intros a p Ha Hp. assert (H : In p (syn_parts sty opts args)) by (apply in_or_app; right; apply in_flat_map; eauto).
    split; [exact H|now apply join_with_infix].
Qed.
Lemma syn_opt_part_name sty h : exists tail, syn_opt_part sty h = [91%N] ++ fst (opt_preferred (h_o h)) ++ tail.
Proof.
  unfold syn_opt_part. cbv zeta. destruct (o_required (h_o h)); [|destruct (o_optional (h_o h))].
  - eexists. rewrite <- app_assoc. reflexivity.
  - eexists. rewrite <- app_assoc. reflexivity.
  - eexists. reflexivity.
Qed.
Lemma syn_arg_part_name sty a : exists p, In p (syn_arg_parts sty a) /\ infix_of ([60%N] ++ a_name (h_a a)) p.
Proof.
  unfold syn_arg_parts. cbv zeta. eexists. split; [left; reflexivity|]. unfold placeholder, infix_of.
  set (sfx := if a_multi (h_a a) then [49%N] else []). set (esc := if is_tag sty (a_name (h_a a) ++ sfx) then [92%N] else []).
  destruct (a_required (h_a a)).
  - exists esc, (sfx ++ [62%N]). now rewrite <- !app_assoc.
  - exists ([91%N] ++ esc), (sfx ++ [62%N] ++ [93%N]). now rewrite <- !app_assoc.
Qed.

Lemma usage_section_length sty app_name ch subs : length (usage_section sty app_name ch subs) = length (usage_entries ch subs).
Proof. unfold usage_section, usage_prefixes. rewrite map_length, combine_length. cbn [length]. rewrite repeat_length. lia. Qed.
Lemma usage_entry_origin ch subs e : In e (usage_entries ch subs) ->
  (e = (own_fmt ch, false) /\ (forall s, In s subs -> sb_enabled s = true -> sb_default s = false))
  \/ exists s, In s subs /\ sb_enabled s = true /\ (sb_default s = true \/ sb_hidden s = false) /\ fst e = sub_fmt ch s.
Proof.
  unfold usage_entries. intros H. apply in_app_or in H. destruct H as [H|H].
  - destruct (filter sb_default (filter sb_enabled subs)) as [|d ds] eqn:E.
    + destruct H as [<-|[]]. left. split; [reflexivity|]. intros s Hs He. destruct (sb_default s) eqn:Ed; [|reflexivity].
      assert (Hin : In s (filter sb_default (filter sb_enabled subs))) by (apply filter_In; split; [apply filter_In|]; auto).
      rewrite E in Hin. contradiction.
    + rewrite <- E in H. apply in_map_iff in H. destruct H as (s & <- & Hs). apply filter_In in Hs. destruct Hs as [Hs Hd].
      apply filter_In in Hs. destruct Hs as [Hs He]. right. exists s. auto.
  - apply in_map_iff in H. destruct H as (s & <- & Hs). apply filter_In in Hs. destruct Hs as [Hs Hd].
    apply filter_In in Hs. destruct Hs as [Hs He]. apply andb_prop in Hd. destruct Hd as [Hh _]. apply negb_true_iff in Hh.
    right. exists s. auto.
Qed.
(* an enabled default sub-command has its synopsis in USAGE - hidden or not *)
Lemma usage_lists_defaults ch subs s : In s subs -> sb_enabled s = true -> sb_default s = true ->
  In (sub_fmt ch s, negb (sb_anonymous s)) (usage_entries ch subs).
Proof.
  intros Hs He Hd. unfold usage_entries. apply in_or_app. left.
  assert (Hin : In s (filter sb_default (filter sb_enabled subs))) by (apply filter_In; split; [apply filter_In|]; auto).
  destruct (filter sb_default (filter sb_enabled subs)) as [|d ds] eqn:E; [contradiction|].
  apply in_map_iff. exists s. auto.
Qed.
Lemma usage_lists_visible ch subs s : In s subs -> sb_enabled s = true -> sb_default s = false -> sb_hidden s = false ->
  In (sub_fmt ch s, false) (usage_entries ch subs).
Proof.
  intros Hs He Hd Hh. unfold usage_entries. apply in_or_app. right. apply in_map_iff. exists s. split; [reflexivity|].
  apply filter_In. split; [apply filter_In; auto|]. now rewrite Hd, Hh.
Qed.
Lemma usage_section_lists sty app_name ch subs names opts args lo :
  In ((names, opts, args), lo) (usage_entries ch subs) ->
  exists prefix, In (2, synopsis sty app_name names opts args prefix lo) (usage_section sty app_name ch subs).
Proof.
  intros H. destruct (in_combine_fst _ _ (usage_prefixes (length (usage_entries ch subs))) H) as [p Hp].
  { unfold usage_prefixes. cbn [length]. rewrite repeat_length. apply Nat.le_succ_diag_r. }
  exists p. unfold usage_section. apply in_map_iff. exists ((names, opts, args), lo, p). split; [reflexivity|exact Hp].
Qed.
Lemma command_page_usage sty app_name ch aliases help subs names opts args lo :
  In ((names, opts, args), lo) (usage_entries ch subs) ->
  exists prefix, In (2, synopsis sty app_name names opts args prefix lo) (command_page sty app_name ch aliases help subs).
Proof.
  intros H. destruct (usage_section_lists sty app_name ch subs _ _ _ _ H) as [p Hp]. exists p.
  rewrite command_page_sections, !in_app_iff. tauto.
Qed.

Definition cmd_visible (c : appcmd) : bool := ac_enabled c && negb (ac_anonymous c) && negb (ac_hidden c).
Definition named_cmds (cmds : list appcmd) : list appcmd := filter (fun c => ac_enabled c && negb (ac_anonymous c)) cmds.
Definition listed_cmds (cmds : list appcmd) : list appcmd := filter (fun c => negb (ac_hidden c)) (sort_by ac_name (named_cmds cmds)).
Definition cmd_line (c : appcmd) : nat * elem := (2, ELab (C1 ++ ac_name c ++ C1E) (ac_desc c) 2 true).
Definition available_section (cmds : list appcmd) : layout :=
  match named_cmds cmds with [] => [] | _ => (0, EPara H_AVAILABLE) :: map cmd_line (listed_cmds cmds) ++ [(0, EEmpty)] end.
Definition builtin_args : list harg := [the_command_arg; the_arg_arg].
Definition application_page_before sty app_name display version gopts : layout :=
  [(0, name_version display version); (0, EEmpty); (0, EPara H_USAGE); (2, synopsis sty app_name [] gopts builtin_args [] false); (0, EEmpty)] ++
  ((0, EPara H_ARGUMENTS) :: block (at0 (map render_argument builtin_args)) ++ [(0, EEmpty)]) ++
  global_options_section gopts.
Lemma application_page_decomposes sty app_name display version gopts cmds help :
  application_page sty app_name display version gopts cmds help =
  application_page_before sty app_name display version gopts ++ available_section cmds ++ description_block help.
Proof.
  unfold application_page, application_page_before. cbv zeta. rewrite <- !app_assoc.
  do 2 (apply (f_equal2 (@app _)); [reflexivity|]). apply (f_equal2 (@app _)); [|reflexivity].
  destruct gopts; reflexivity.
Qed.

Lemma listed_cmds_perm cmds : Permutation (listed_cmds cmds) (filter cmd_visible cmds).
Proof.
  unfold listed_cmds, named_cmds. eapply perm_trans; [apply filter_perm, sort_by_perm|].
  rewrite !filter_filter. apply Permutation_refl.
Qed.
Lemma listed_cmds_sorted cmds : StronglySorted (key_le ac_name) (listed_cmds cmds).
Proof. apply StronglySorted_filter, sort_by_sorted. Qed.
Lemma listed_cmds_in cmds c : In c (listed_cmds cmds) <-> In c cmds /\ cmd_visible c = true.
Proof. apply perm_filter_in, listed_cmds_perm. Qed.
Lemma named_cmds_nil cmds : named_cmds cmds = [] -> listed_cmds cmds = [].
Proof. unfold listed_cmds. now intros ->. Qed.
Lemma at2_cmd_lines l : at_indent 2 (map cmd_line l ++ [(0, EEmpty)]) = map cmd_line l.
Proof. induction l as [|c l IH]; [reflexivity|]. cbn [map app]. unfold cmd_line at 1. rewrite at_indent_cons. cbn [Nat.eqb]. now rewrite IH. Qed.
Lemma available_section_names cmds : at_indent 2 (available_section cmds) = map cmd_line (listed_cmds cmds).
Proof.
  unfold available_section. destruct (named_cmds cmds) eqn:E.
  - now rewrite (named_cmds_nil _ E).
  - rewrite at_indent_cons. apply at2_cmd_lines.
Qed.
Lemma hidden_never_listed_app_lemma cmds name text padding aligned :
  In (2, ELab (C1 ++ name ++ C1E) text padding aligned) (available_section cmds) ->
  exists c, In c cmds /\ ac_name c = name /\ ac_enabled c = true /\ ac_anonymous c = false /\ ac_hidden c = false.
Proof.
  intros H. assert (H2 : In (2, ELab (C1 ++ name ++ C1E) text padding aligned) (at_indent 2 (available_section cmds))).
  { apply filter_In. split; [exact H|reflexivity]. }
  rewrite available_section_names in H2. apply in_map_iff in H2. destruct H2 as (c & E & Hc).
  apply listed_cmds_in in Hc. destruct Hc as [Hin Hv]. exists c. split; [exact Hin|].
  unfold cmd_visible in Hv. apply andb_prop in Hv. destruct Hv as [Hv H3]. apply andb_prop in Hv. destruct Hv as [H1 H2].
  apply negb_true_iff in H2, H3. unfold cmd_line in E. injection E as E _ _. apply app_inv_tail in E. auto.
Qed.

Lemma application_page_complete_lemma sty app_name display version gopts cmds help :
  let page := application_page sty app_name display version gopts cmds help in
  (forall h, In h gopts -> In (2, render_option h) page)
  /\ In (2, render_argument the_command_arg) page /\ In (2, render_argument the_arg_arg) page
  /\ In (2, synopsis sty app_name [] gopts [the_command_arg; the_arg_arg] [] false) page
  /\ (forall c, In c cmds -> ac_enabled c && negb (ac_anonymous c) && negb (ac_hidden c) = true ->
        In (2, ELab (C1 ++ ac_name c ++ C1E) (ac_desc c) 2 true) page).
Proof.
  cbv zeta. rewrite application_page_decomposes. unfold application_page_before.
  split; [|split; [|split; [|split]]].
  - intros h Hh. apply global_options_section_lists in Hh. rewrite !in_app_iff. tauto.
  - apply in_or_app. left. apply in_or_app. right. apply in_or_app. left. right. left. reflexivity.
  - apply in_or_app. left. apply in_or_app. right. apply in_or_app. left. right. right. left. reflexivity.
  - apply in_or_app. left. apply in_or_app. left. right. right. right. left. reflexivity.
  - intros c Hc Hv. assert (Hl : In c (listed_cmds cmds)) by (apply listed_cmds_in; auto).
    apply in_or_app. right. apply in_or_app. left. unfold available_section.
    destruct (named_cmds cmds) eqn:E; [rewrite (named_cmds_nil _ E) in Hl; contradiction|].
    right. apply in_or_app. left. apply (in_map cmd_line) in Hl. exact Hl.
Qed.

Definition all_elems (Q : elem -> Prop) (l : layout) : Prop := Forall (fun x => Q (snd x)) l.
Lemma all_app Q a b : all_elems Q a -> all_elems Q b -> all_elems Q (a ++ b).
Proof. intros. apply Forall_app. auto. Qed.
Lemma all_cons (Q : elem -> Prop) i e l : Q e -> all_elems Q l -> all_elems Q ((i, e) :: l).
Proof. intros. constructor; assumption. Qed.
Lemma all_block Q l : all_elems Q l -> all_elems Q (block l).
Proof. intros H. apply Forall_map. exact H. Qed.
Lemma all_at0 Q es : Forall Q es -> all_elems Q (at0 es).
Proof. intros H. apply Forall_map. exact H. Qed.
Lemma all_listed {X} (Q : elem -> Prop) t (f : X -> elem) l : Q (EPara t) -> Q EEmpty -> Forall (fun x => Q (f x)) l ->
  all_elems Q (match l with [] => [] | x :: r => (0, EPara t) :: block (at0 (map f (x :: r))) ++ [(0, EEmpty)] end).
Proof.
  intros Ht He H. destruct l; [constructor|]. apply all_cons; [exact Ht|].
  apply all_app; [apply all_block, all_at0, Forall_map, H|]. apply all_cons; [exact He|constructor].
Qed.

Lemma nonempty_odesc o d : nonempty_opt o = Some d -> odesc o = d.
Proof. destruct o as [[|c r]|]; cbn; intros H; [discriminate|now injection H|discriminate]. Qed.
Lemma description_block_all (Q : elem -> Prop) help : Q EEmpty -> Q (EPara H_DESCRIPTION) ->
  Forall (fun p => Q (EPara p)) (split_on 10%N (odesc help)) -> all_elems Q (description_block help).
Proof.
  intros He Ht H. unfold description_block. destruct (nonempty_opt help) as [h|] eqn:E; [|constructor].
  rewrite (nonempty_odesc _ _ E) in H. apply all_cons; [exact Ht|]. apply all_app; [|apply all_cons; [exact He|constructor]].
  apply Forall_map. exact H.
Qed.
Lemma sub_block_all (Q : elem -> Prop) s : Q EEmpty -> Q (EPara (u_tag (sb_name s))) ->
  Q (EPara (odesc (sb_desc s))) -> Q (EPara (odesc (sb_help s))) ->
  Forall (fun a => Q (render_argument a)) (sb_args s) -> Forall (fun h => Q (render_option h)) (sb_opts s) ->
  all_elems Q (sub_block s).
Proof.
  intros He Hn Hd Hh Ha Ho. unfold sub_block. apply all_cons; [exact Hn|]. do 2 apply all_block.
  assert (forall o, Q (EPara (odesc o)) ->
            all_elems Q (match nonempty_opt o with Some d => [(0, EPara d); (0, EEmpty)] | None => [] end)) as Hpara.
  { intros o H. destruct (nonempty_opt o) as [d|] eqn:E; [|constructor]. rewrite (nonempty_odesc _ _ E) in H. repeat constructor; assumption. }
  assert (forall X (f : X -> elem) l, Forall (fun x => Q (f x)) l ->
            all_elems Q (match l with [] => [] | x :: r => at0 (map f (x :: r)) ++ [(0, EEmpty)] end)) as Hlist.
  { intros X f l H. destruct l; [constructor|]. apply all_app; [apply all_at0, Forall_map, H|repeat constructor; exact He]. }
  repeat apply all_app; auto.
  destruct (nonempty_opt (sb_desc s)), (nonempty_opt (sb_help s)), (sb_args s), (sb_opts s); repeat constructor; exact He.
Qed.

(* every prefix and name of a synopsis in USAGE, its options and its arguments: those of the chain and of the sub-commands *)
Lemma usage_section_all (Q : elem -> Prop) (N : str -> Prop) (O : hopt -> Prop) (A : harg -> Prop) sty app_name ch subs :
  (forall names opts args prefix lo, Forall N names -> N prefix -> Forall O opts -> Forall A args ->
     Q (synopsis sty app_name names opts args prefix lo)) ->
  N [] -> N [32; 32; 32; 32]%N -> N [111;114;58;32]%N ->
  Forall N (chain_names ch) -> Forall O (own_opts ch) -> Forall A (chain_args ch) ->
  Forall (fun s => N (sb_name s) /\ Forall O (sb_opts s) /\ Forall A (sb_args s)) subs ->
  all_elems Q (usage_section sty app_name ch subs).
Proof.
  intros Hsyn N0 N4 Nor Hc Hown Hargs Hs. apply Forall_map, Forall_forall. intros [e q] Hin.
  pose proof (in_combine_l _ _ _ _ Hin) as He. apply in_combine_r in Hin.
  assert (N q) as Hq.
  { destruct Hin as [<-|Hin]; [destruct (length _) as [|[|n]]; assumption|]. apply repeat_spec in Hin. now subst q. }
  unfold usage_line. cbn [fst snd]. destruct e as [[[names opts] args] lo].
  assert (Forall N names /\ Forall O opts /\ Forall A args) as (Hn & Ho & Ha); [|now apply Hsyn].
  apply usage_entry_origin in He. destruct He as [[E _]|(s & Hsin & _ & _ & E)]; cbn [fst] in E; injection E as -> -> ->; [auto|].
  rewrite Forall_forall in Hs. destruct (Hs s Hsin) as (S1 & S2 & S3). repeat split; [|exact S2|apply Forall_app; auto].
  apply Forall_app. split; [exact Hc|]. destruct (sb_anonymous s); repeat constructor. exact S1.
Qed.

Lemma command_page_all (Q : elem -> Prop) sty app_name ch aliases help subs :
  Q EEmpty -> Forall (fun t => Q (EPara t)) [H_USAGE; H_ARGUMENTS; H_COMMANDS; H_OPTIONS; H_GLOBAL] ->
  all_elems Q (usage_section sty app_name ch subs) ->
  Q (EPara (([97;108;105;97;115;101;115;58;32]%N) ++ join_comma aliases)) ->
  Forall (fun a => Q (render_argument a)) (chain_args ch) ->
  Forall (fun h => Q (render_option h)) (own_opts ch) -> Forall (fun h => Q (render_option h)) (base_opts ch) ->
  Forall (fun s => all_elems Q (sub_block s)) subs -> all_elems Q (description_block help) ->
  all_elems Q (command_page sty app_name ch aliases help subs).
Proof.
  intros He Hh Hu Hal Hargs Hown Hbase Hsubs Hd. rewrite command_page_sections.
  rewrite !Forall_cons_iff in Hh. destruct Hh as (H1 & H2 & H3 & H4 & H5 & _).
  repeat apply all_app; try assumption.
  - repeat constructor; exact H1.
  - unfold aliases_section. destruct aliases; repeat constructor; assumption.
  - repeat constructor; exact He.
  - now apply all_listed.
  - unfold commands_section. destruct (named_subs subs); [constructor|]. apply all_cons; [exact H3|]. apply Forall_flat_map, Forall_forall.
    intros sb Hsb. apply listed_subs_in in Hsb. rewrite Forall_forall in Hsubs. now apply Hsubs.
  - now apply all_listed.
  - unfold global_options_section. now apply all_listed.
Qed.

Lemma application_page_all (Q : elem -> Prop) sty app_name display version gopts cmds help :
  Q EEmpty -> Forall (fun t => Q (EPara t)) [H_USAGE; H_ARGUMENTS; H_GLOBAL; H_AVAILABLE] ->
  Q (name_version display version) -> Q (synopsis sty app_name [] gopts builtin_args [] false) ->
  Forall (fun a => Q (render_argument a)) builtin_args -> Forall (fun h => Q (render_option h)) gopts ->
  Forall (fun c => Q (snd (cmd_line c))) cmds -> all_elems Q (description_block help) ->
  all_elems Q (application_page sty app_name display version gopts cmds help).
Proof.
  intros He Hh Hnv Hsyn Hargs Hg Hc Hd. rewrite application_page_decomposes. unfold application_page_before.
  rewrite !Forall_cons_iff in Hh. destruct Hh as (H1 & H2 & H3 & H4 & _).
  repeat apply all_app; try assumption.
  - repeat constructor; assumption.
  - now apply (all_listed Q H_ARGUMENTS render_argument builtin_args).
  - unfold global_options_section. now apply all_listed.
  - unfold available_section. destruct (named_cmds cmds); [constructor|]. apply all_cons; [exact H4|].
    apply all_app; [|repeat constructor; exact He]. apply Forall_map, Forall_forall. intros c Hin.
    apply listed_cmds_in in Hin. rewrite Forall_forall in Hc. now apply Hc.
Qed.

Local Open Scope Z_scope.
Definition no_nl (s : str) : Prop := Forall (fun c => c <> 10%N) s.

(* okr b1 b s: walking s, the current line still has room for b1 characters and every later line for b *)
Fixpoint okr (b1 b : Z) (s : str) : Prop :=
  match s with
  | [] => 0 <= b1
  | c :: r => if N.eqb c 10 then 0 <= b1 /\ okr b b r else okr (b1 - 1) b r
  end.

Lemma okr_nonneg b s : forall b1, okr b1 b s -> 0 <= b1.
Proof. induction s as [|c r IH]; intros b1 H; cbn [okr] in H; [exact H|]. destruct (N.eqb c 10); [tauto|]. apply IH in H. lia. Qed.
Lemma okr_mono b s : forall b1 b1', b1 <= b1' -> okr b1 b s -> okr b1' b s.
Proof.
  induction s as [|c r IH]; intros b1 b1' Hle H; cbn [okr] in *; [lia|].
  destruct (N.eqb c 10); [split; [lia|tauto]|]. eapply IH; [|exact H]. lia.
Qed.
Lemma okr_prefix b q p : forall b1, okr b1 b (p ++ q) -> okr b1 b p.
Proof.
  induction p as [|c r IH]; intros b1 H; cbn [app okr] in *; [eapply okr_nonneg, H|].
  destruct (N.eqb c 10); [split; [tauto|apply IH; tauto]|]. apply IH, H.
Qed.
Lemma zlen_app a b : zlen (a ++ b) = zlen a + zlen b.
Proof. unfold zlen. rewrite app_length. lia. Qed.
Lemma zlen_cons c s : zlen (c :: s) = 1 + zlen s.
Proof. unfold zlen. cbn [length]. lia. Qed.
Lemma zlen_spaces n : zlen (spaces n) = Z.of_nat n.
Proof. unfold zlen, spaces. now rewrite repeat_length. Qed.
Lemma zlen_nonneg s : 0 <= zlen s.
Proof. unfold zlen. lia. Qed.
Lemma P_spaces (P : N -> Prop) n : P 32%N -> Forall P (spaces n).
Proof. intros H. apply Forall_forall. intros c Hc. apply repeat_spec in Hc. now subst. Qed.
Lemma no_nl_spaces n : no_nl (spaces n).
Proof. now apply P_spaces. Qed.
Lemma no_nl_app a b : no_nl a -> no_nl b -> no_nl (a ++ b).
Proof. intros. apply Forall_app. auto. Qed.

Lemma okr_nonl_app b l s : no_nl l -> forall b1, okr b1 b (l ++ s) <-> okr (b1 - zlen l) b s.
Proof.
  induction 1 as [|c l Hc Hl IH]; intros b1; cbn [app].
  - unfold zlen. cbn [length]. now rewrite Z.sub_0_r.
  - cbn [okr]. apply N.eqb_neq in Hc. rewrite Hc, IH, zlen_cons. now replace (b1 - 1 - zlen l) with (b1 - (1 + zlen l)) by lia.
Qed.
Lemma okr_nonl b l b1 : no_nl l -> zlen l <= b1 -> okr b1 b l.
Proof. intros Hl Hb. rewrite <- (app_nil_r l). apply okr_nonl_app; [exact Hl|]. cbn [okr]. lia. Qed.
Lemma okr_app_nl b q p : forall b1, okr b1 b p -> okr b b q -> okr b1 b (p ++ 10%N :: q).
Proof.
  induction p as [|c r IH]; intros b1 Hp Hq; cbn [app okr] in *; [cbn [N.eqb Pos.eqb]; auto|].
  destruct (N.eqb c 10); [split; [tauto|apply IH; tauto]|]. apply IH; assumption.
Qed.

Lemma okr_join prefix b wl : no_nl prefix -> zlen prefix + wl <= b -> 0 <= wl ->
  forall lines b1, Forall no_nl lines -> Forall (fun l => zlen l <= wl) lines -> wl <= b1 -> okr b1 b (join_lines prefix lines).
Proof.
  intros Hp Hb Hwl. induction lines as [|l r IH]; intros b1 Hn Hl Hb1; [cbn; lia|].
  inversion Hn as [|? ? Hn1 Hn2]; subst. inversion Hl as [|? ? Hl1 Hl2]; subst.
  destruct r as [|l2 r].
  - cbn [join_lines]. apply okr_nonl; [exact Hn1|lia].
  - change (join_lines prefix (l :: l2 :: r)) with (l ++ 10%N :: prefix ++ join_lines prefix (l2 :: r)).
    apply okr_nonl_app; [exact Hn1|]. cbn [okr N.eqb Pos.eqb]. split; [lia|].
    apply okr_nonl_app; [exact Hp|]. apply IH; [exact Hn2|exact Hl2|lia].
Qed.

Lemma okr_split b s : forall b1, okr b1 b s ->
  zlen (hd [] (split_on 10%N s)) <= b1 /\ Forall (fun l => zlen l <= b) (tl (split_on 10%N s)).
Proof.
  induction s as [|c r IH]; intros b1 H; cbn [okr split_on] in *.
  - cbn. split; [exact H|constructor].
  - destruct (N.eqb c 10).
    + destruct H as [H0 H]. apply IH in H. cbn [hd tl]. split; [exact H0|].
      destruct (split_on 10%N r) as [|x xs]; [constructor|]. cbn [hd tl] in H. constructor; tauto.
    + apply IH in H. destruct (split_on 10%N r) as [|x xs]; cbn [hd tl] in *.
      * split; [|constructor]. unfold zlen in *. cbn [length] in *. lia.
      * rewrite zlen_cons. split; [lia|tauto].
Qed.
Lemma okr_of_lines b s : forall b1, zlen (hd [] (split_on 10%N s)) <= b1 -> Forall (fun l => zlen l <= b) (tl (split_on 10%N s)) ->
  okr b1 b s.
Proof.
  induction s as [|c r IH]; intros b1 H1 H2; [exact H1|]. cbn [okr]. destruct (N.eqb c 10) eqn:E.
  - cbn [split_on] in H1, H2. rewrite E in H1, H2. cbn [hd tl] in H1, H2. split; [exact H1|].
    destruct (split_on 10%N r) as [|l ls] eqn:Er; [destruct (split_on_nonempty _ _ Er)|]. inversion H2; subst.
    apply IH; rewrite ?Er; cbn [hd tl]; assumption.
  - destruct (split_on_cons 10%N c r E) as (l & ls & Er & Ec). rewrite Ec in H1, H2. cbn [hd tl] in H1, H2.
    apply IH; rewrite ?Er; cbn [hd tl]; [rewrite zlen_cons in H1; lia|exact H2].
Qed.
Lemma okr_lines b s : okr b b s -> Forall (fun l => zlen l <= b) (split_on 10%N s).
Proof.
  intros H. apply okr_split in H. destruct (split_on 10%N s) as [|x xs]; [constructor|]. cbn [hd tl] in H. constructor; tauto.
Qed.

Lemma rstrip_rev_suffix_space r : exists t, r = t ++ rstrip_rev r /\ Forall (fun c => is_space c = true) t.
Proof.
  induction r as [|c r (t & IH & Ht)]; [exists []; split; [reflexivity|constructor]|]. cbn [rstrip_rev].
  destruct (is_space c) eqn:E; [|exists []; split; [reflexivity|constructor]].
  exists (c :: t). split; [cbn; now rewrite <- IH|constructor; assumption].
Qed.
Lemma rstrip_prefix_space s : exists t, s = rstrip s ++ t /\ Forall (fun c => is_space c = true) t.
Proof.
  unfold rstrip. destruct (rstrip_rev_suffix_space (rev s)) as (t & Ht & Hs). exists (rev t). split.
  - rewrite <- rev_app_distr, <- Ht. symmetry. apply rev_involutive.
  - apply Forall_forall. intros c Hc. apply in_rev in Hc. rewrite Forall_forall in Hs. auto.
Qed.

Definition first_bound (W vis : Z) (e : elem) : Z :=
  match e with ELab label _ _ _ => W - 1 + (zlen label - vis) | _ => W - 1 end.
Definition wrap_width (W off : Z) (ind : nat) (vis : Z) (e : elem) : Z :=
  match e with
  | ELab label text padding aligned => W - 1 - Z.max (if aligned then off - Z.of_nat ind else 0) (vis + Z.of_nat padding) - Z.of_nat ind
  | _ => W - 1 - Z.of_nat ind
  end.

Lemma wrap_ok_facts text w ls : wrap text w = Ok ls ->
  1 <= w /\ Forall no_nl ls /\ Forall (fun l => zlen l <= w) ls.
Proof.
  intros H. split; [apply wrap_ok_chunks in H; tauto|]. split; [apply (wrap_lines_no_newline_lemma _ _ _ H)|].
  apply (wrap_lines_fit_lemma _ _ _ H).
Qed.

(* the column, counted from the indentation, at which the text of an element starts, and what stands in front of the text *)
Definition text_col (off : Z) (ind : nat) (vis : Z) (e : elem) : Z :=
  match e with
  | ELab _ _ padding aligned => Z.max (if aligned then off - Z.of_nat ind else 0) (vis + Z.of_nat padding)
  | _ => 0
  end.
Definition lead (off : Z) (ind : nat) (vis : Z) (e : elem) : str :=
  match e with ELab label _ _ _ => label ++ spaces (Z.to_nat (text_col off ind vis e - vis)) | _ => [] end.
Lemma wrap_width_text_col W off ind vis e : wrap_width W off ind vis e = W - 1 - text_col off ind vis e - Z.of_nat ind.
Proof. destruct e; cbn [wrap_width text_col]; lia. Qed.

(* The text of an element is `body` and a line break.  With the blanks t stripped from its end put back, body is: the
   indentation, the label filled with blanks up to the text column, the wrapped lines of the text, each further line
   behind blanks up to that column. *)
Lemma elem_raw_shape W off ind vis e raw : elem_raw W off ind vis e = Ok raw ->
  (e = EEmpty /\ raw = [10%N]) \/
  exists lines body t, wrap (elem_text e) (wrap_width W off ind vis e) = Ok lines /\ raw = body ++ [10%N] /\
    Forall (fun c => is_space c = true) t /\
    body ++ t = spaces ind ++ lead off ind vis e ++ join_lines (spaces ind ++ spaces (Z.to_nat (text_col off ind vis e))) lines.
Proof.
  intros H. destruct e as [t0|label text padding aligned|]; cbn [elem_raw elem_text wrap_width text_col lead] in *;
    [right|right|left; split; [reflexivity|congruence]].
  - bind_inv H lines Hw. injection H as <-.
    destruct (rstrip_prefix_space (join_lines (spaces ind) lines)) as (t & Ht & Hs).
    exists lines, (spaces ind ++ rstrip (join_lines (spaces ind) lines)), t.
    split; [exact Hw|]. split; [now rewrite <- app_assoc|]. split; [exact Hs|].
    change (spaces (Z.to_nat 0)) with (@nil N). now rewrite app_nil_r, <- app_assoc, <- Ht.
  - cbv zeta in H. set (to := Z.max (if aligned then off - Z.of_nat ind else 0) (vis + Z.of_nat padding)) in *.
    bind_inv H lines Hw. injection H as <-.
    set (J := join_lines (spaces ind ++ spaces (Z.to_nat to)) lines).
    destruct (rstrip_prefix_space (spaces ind ++ ljust label (to + (zlen label - vis)) ++ rstrip J)) as (t1 & H1 & S1).
    destruct (rstrip_prefix_space J) as (t2 & H2 & S2).
    eexists lines, _, (t1 ++ t2). split; [exact Hw|]. split; [reflexivity|]. split; [apply Forall_app; auto|].
    rewrite app_assoc, <- H1. unfold ljust. replace (to + (zlen label - vis) - zlen label) with (to - vis) by lia.
    rewrite <- !app_assoc. now rewrite <- H2.
Qed.

Lemma elem_raw_nl W off ind vis e raw : elem_raw W off ind vis e = Ok raw -> exists body, raw = body ++ [10%N].
Proof. intros H. destruct (elem_raw_shape _ _ _ _ _ _ H) as [[_ ->]|(lines & body & t & _ & -> & _)]; [now exists []|eauto]. Qed.
Lemma elem_raw_fits W off ind vis e raw :
  elem_raw W off ind vis e = Ok raw -> 1 <= W -> 0 <= vis -> no_nl (elem_label e) ->
  exists body, raw = body ++ [10%N] /\ okr (first_bound W vis e) (W - 1) body.
Proof.
  intros H HW Hvis Hlab. destruct (elem_raw_shape _ _ _ _ _ _ H) as [[-> ->]|(lines & body & t & Hw & -> & _ & E)].
  { exists []. split; [reflexivity|]. cbn. lia. }
  exists body. split; [reflexivity|]. apply (okr_prefix _ t). rewrite E.
  apply wrap_ok_facts in Hw. destruct Hw as (Hw & Hnl & Hfit).
  assert (no_nl (lead off ind vis e) /\ 0 <= text_col off ind vis e /\
          first_bound W vis e - zlen (lead off ind vis e) = W - 1 - text_col off ind vis e) as (Hl & Hc & Eb).
  { destruct e as [t0|label text padding aligned|]; cbn [lead text_col first_bound elem_label] in *.
    - repeat split; try constructor; lia.
    - split; [apply no_nl_app; [exact Hlab|apply no_nl_spaces]|]. rewrite zlen_app, zlen_spaces. repeat split; lia.
    - repeat split; try constructor; lia. }
  pose proof (wrap_width_text_col W off ind vis e) as Ew.
  apply okr_nonl_app; [apply no_nl_spaces|]. apply okr_nonl_app; [exact Hl|]. rewrite zlen_spaces.
  apply (okr_join _ _ (wrap_width W off ind vis e)); [apply no_nl_app; apply no_nl_spaces| |lia|exact Hnl|exact Hfit|lia].
  rewrite zlen_app, !zlen_spaces. lia.
Qed.

Lemma elem_raw_ok W off ind vis e : (match e with EEmpty => True | _ => 1 <= wrap_width W off ind vis e end) ->
  exists raw, elem_raw W off ind vis e = Ok raw.
Proof.
  intros H. destruct e as [t|label text padding aligned|]; cbn [elem_raw wrap_width] in *; [| |eauto].
  - destruct (wrap_total_lemma t _ H) as [ls ->]. cbn [bind]. eauto.
  - cbv zeta. destruct (wrap_total_lemma text _ H) as [ls ->]. cbn [bind]. eauto.
Qed.
Lemma elem_raw_vis W off ind v v' e : (match e with ELab _ _ _ _ => False | _ => True end) -> elem_raw W off ind v e = elem_raw W off ind v' e.
Proof. destruct e; [reflexivity|contradiction|reflexivity]. Qed.

Lemma render_elem_ok_lemma W off f ind e :
  match e with
  | ELab label _ _ _ => forall x, remove_format f label = Ok x -> 1 <= wrap_width W off ind (zlen (snd x)) e ->
      exists raw, elem_raw W off ind (zlen (snd x)) e = Ok raw /\ render_elem W off f ind e = emit (fst x) raw
  | _ => (match e with EEmpty => True | _ => 1 <= wrap_width W off ind 0 e end) ->
      exists raw, elem_raw W off ind 0 e = Ok raw /\ render_elem W off f ind e = emit f raw
  end.
Proof.
  destruct e as [t|label text padding aligned|].
  - intros H. destruct (elem_raw_ok W off ind 0 (EPara t) H) as [raw Hr]. exists raw. split; [exact Hr|].
    unfold render_elem. now rewrite Hr.
  - intros x Hx H. destruct (elem_raw_ok W off ind (zlen (snd x)) (ELab label text padding aligned) H) as [raw Hr].
    exists raw. split; [exact Hr|]. unfold render_elem. rewrite Hx. cbn [bind]. now rewrite Hr.
  - intros _. exists [10%N]. split; reflexivity.
Qed.

(* where it succeeds: the formatter first measures the label (v: what it leaves of it), then takes the text of the element *)
Lemma render_elem_inv W off f ind e x : render_elem W off f ind e = Ok x ->
  exists f1 v raw, match e with ELab label _ _ _ => remove_format f label = Ok (f1, v) | _ => f1 = f /\ v = [] end
    /\ elem_raw W off ind (zlen v) e = Ok raw /\ emit f1 raw = Ok x.
Proof.
  intros H. destruct e as [t|label text padding aligned|]; unfold render_elem in H.
  - bind_inv H raw Hr. exists f, [], raw. auto.
  - bind_inv H y Hy. bind_inv H raw Hr. destruct y as [f1 v]. exists f1, v, raw. auto.
  - bind_inv H raw Hr. exists f, [], raw. auto.
Qed.

Lemma remove_format_null f s : f_kind f = FNull -> remove_format f s = Ok (f, s).
Proof. intros H. unfold remove_format. now rewrite H. Qed.
Lemma emit_null f s : f_kind f = FNull -> emit f s = Ok (f, s).
Proof. intros H. unfold emit. rewrite H. now apply remove_format_null. Qed.
Lemma render_elem_null W off f ind e : f_kind f = FNull ->
  render_elem W off f ind e = do raw <- elem_raw W off ind (zlen (elem_label e)) e; Ok (f, raw).
Proof.
  intros H. destruct e as [t|label text padding aligned|]; unfold render_elem.
  - rewrite (elem_raw_vis _ _ _ 0 (zlen (elem_label (EPara t)))) by exact I.
    destruct (elem_raw _ _ _ _ _); cbn [bind]; [now apply emit_null|reflexivity].
  - rewrite (remove_format_null _ _ H). cbn [bind fst snd elem_label].
    destruct (elem_raw _ _ _ _ _); cbn [bind]; [now apply emit_null|reflexivity].
  - cbn [elem_raw bind]. now apply emit_null.
Qed.

Fixpoint align_off (l : layout) (acc : Z) : Z :=
  match l with
  | [] => acc
  | (ind, ELab label _ padding true) :: r => align_off r (Z.max acc (Z.of_nat ind + zlen label + Z.of_nat padding))
  | _ :: r => align_off r acc
  end.
Lemma align_null f : f_kind f = FNull -> forall l acc, align f l acc = Ok (f, align_off l acc).
Proof.
  intros H. induction l as [|[ind e] r IH]; intros acc; [reflexivity|]. cbn [align align_off].
  destruct e as [t|label text padding aligned|]; [apply IH| |apply IH].
  destruct aligned; [|apply IH]. rewrite (remove_format_null _ _ H). cbn [bind fst snd]. apply IH.
Qed.

Definition one_line_labels (l : layout) : Prop := Forall (fun x => no_nl (elem_label (snd x))) l.
(* out is empty or a sequence of lines, each within b and ended by a newline *)
Definition lines_within (b : Z) (out : str) : Prop := out = [] \/ exists p, out = p ++ [10%N] /\ okr b b p.

Lemma lines_within_snoc b out body : lines_within b out -> okr b b body -> lines_within b (out ++ body ++ [10%N]).
Proof.
  intros [->|(p & -> & Hp)] Hb; right; [exists body; auto|].
  exists (p ++ 10%N :: body). split; [now rewrite <- !app_assoc|]. now apply okr_app_nl.
Qed.
(* a kind K of formatter that stays of its kind and writes every element as lines within W - 1 writes the page so *)
Lemma render_all_fits W off (K : formatter -> Prop) :
  (forall f i e x, K f -> no_nl (elem_label e) -> render_elem W off f i e = Ok x ->
     K (fst x) /\ exists p, snd x = p ++ [10%N] /\ okr (W - 1) (W - 1) p) ->
  forall l f out x, K f -> one_line_labels l -> render_all W off f l out = Ok x ->
  lines_within (W - 1) out -> lines_within (W - 1) (snd x).
Proof.
  intros Helem. induction l as [|[ind e] r IH]; intros f out x Hk Hl H Hout; cbn [render_all] in H.
  - injection H as <-. exact Hout.
  - inversion Hl as [|? ? Hl1 Hl2]; subst. bind_inv H y Hy.
    destruct (Helem _ _ _ _ Hk Hl1 Hy) as (Hk' & body & Ey & Hb).
    apply IH in H; [exact H|exact Hk'|exact Hl2|]. rewrite Ey. now apply lines_within_snoc.
Qed.
Lemma render_elem_null_fits W off f ind e x : 1 <= W -> f_kind f = FNull -> no_nl (elem_label e) -> render_elem W off f ind e = Ok x ->
  f_kind (fst x) = FNull /\ exists p, snd x = p ++ [10%N] /\ okr (W - 1) (W - 1) p.
Proof.
  intros HW Hf Hl H. rewrite (render_elem_null _ _ _ _ _ Hf) in H. bind_inv H raw Er. injection H as <-. split; [exact Hf|].
  destruct (elem_raw_fits _ _ _ _ _ _ Er HW (zlen_nonneg _) Hl) as (body & -> & Hb). exists body. split; [reflexivity|].
  eapply okr_mono; [|exact Hb]. destruct e; cbn [first_bound elem_label]; lia.
Qed.
Lemma lines_within_split b out : 0 <= b -> lines_within b out -> Forall (fun l => zlen l <= b) (split_on 10%N out).
Proof.
  intros Hb [->|(p & -> & Hp)]; [cbn; constructor; [cbn; lia|constructor]|].
  apply okr_lines. apply okr_app_nl; [exact Hp|cbn; lia].
Qed.

(* every element ends its line: a page has more lines than elements (shown for the identity formatter, which writes the raw text) *)
Lemma render_all_null_lines W off f : f_kind f = FNull -> forall l out x, render_all W off f l out = Ok x ->
  (length l + length (split_on 10%N out) <= length (split_on 10%N (snd x)))%nat.
Proof.
  intros Hf. induction l as [|[ind e] r IH]; intros out x H; cbn [render_all] in H; [injection H as <-; reflexivity|].
  rewrite (render_elem_null _ _ _ _ _ Hf) in H.
  destruct (elem_raw W off ind (zlen (elem_label e)) e) as [raw|k] eqn:Er; [|discriminate]. cbn [bind fst snd] in H.
  destruct (elem_raw_nl _ _ _ _ _ _ Er) as (body & ->). apply IH in H.
  rewrite !split_on_length, !filter_app, !app_length in *. cbn [filter N.eqb Pos.eqb length] in H. cbn [length]. lia.
Qed.
Lemma null_page_lines W f l s : f_kind f = FNull -> render_page W f l = Ok s -> (length l < length (split_on 10%N s))%nat.
Proof.
  intros Hf H. unfold render_page in H. rewrite (align_null _ Hf) in H. cbn [bind fst snd] in H.
  destruct (render_all W (align_off l 0) f l []) as [x|k] eqn:E; [|discriminate]. injection H as <-.
  apply (render_all_null_lines _ _ _ Hf) in E. cbn [split_on length] in E. lia.
Qed.

(* the width a layout needs: room for one character of text behind every indentation and label *)
Definition elem_width (off : Z) (ind : nat) (e : elem) : Z :=
  match e with
  | ELab label _ padding aligned =>
    Z.of_nat ind + Z.max (if aligned then off - Z.of_nat ind else 0) (zlen label + Z.of_nat padding) + 2
  | EPara _ => Z.of_nat ind + 2
  | EEmpty => 1
  end.
Definition needed_width (l : layout) : Z :=
  fold_right (fun x m => Z.max (elem_width (align_off l 0) (fst x) (snd x)) m) 1 l.
Lemma fold_max_bound {X} (g : X -> Z) l W : fold_right (fun x m => Z.max (g x) m) 1 l <= W -> Forall (fun x => g x <= W) l.
Proof. induction l as [|x l IH]; cbn [fold_right]; intros H; constructor; [lia|apply IH; lia]. Qed.
Lemma render_all_null_ok W off f : f_kind f = FNull ->
  forall l out, Forall (fun x => elem_width off (fst x) (snd x) <= W) l -> exists y, render_all W off f l out = Ok y.
Proof.
  intros Hf. induction l as [|[ind e] r IH]; intros out Hl; cbn [render_all]; [eauto|].
  inversion Hl as [|? ? H1 H2]; subst. cbn [fst snd] in H1. rewrite (render_elem_null _ _ _ _ _ Hf).
  destruct (elem_raw_ok W off ind (zlen (elem_label e)) e) as [raw ->].
  { destruct e; cbn [wrap_width elem_width elem_label] in *; [lia|lia|exact I]. }
  cbn [bind fst snd]. apply IH, H2.
Qed.
Lemma needed_width_pos l : 1 <= needed_width l.
Proof. unfold needed_width. generalize (align_off l 0). intros off. induction l; cbn [fold_right]; lia. Qed.

(* render_page fails with ValueError only: markup the formatter refuses, or no room to wrap *)
Definition only_ve {X} (r : res X) : Prop := match r with Err k => k = ValueError | Ok _ => True end.
Lemma bind_ve {X Y} (r : res X) (g : X -> res Y) : only_ve r -> (forall x, only_ve (g x)) -> only_ve (bind r g).
Proof. destruct r; cbn; auto. Qed.
Lemma set_fg_ve st n : only_ve (set_fg st n).
Proof. unfold set_fg. destruct (fg_code n); cbn; auto. Qed.
Lemma set_bg_ve st n : only_ve (set_bg st n).
Proof. unfold set_bg. destruct (bg_code n); cbn; auto. Qed.
Lemma inline_style_ve ms : forall st, only_ve (inline_style ms st).
Proof.
  induction ms as [|[k v] r IH]; intros st; cbn [inline_style]; [exact I|].
  destruct (str_eqb k s_fg); [apply bind_ve; [apply set_fg_ve|intros; apply IH]|].
  destruct (str_eqb k s_bg); [apply bind_ve; [apply set_bg_ve|intros; apply IH]|].
  destruct (set_opts st (split_on COMMA v)); [apply IH|exact I].
Qed.
Lemma resolve_ve sty name : only_ve (resolve sty name).
Proof. unfold resolve. destruct (aget str_eqb name sty); [exact I|]. destruct (kv_matches name); [exact I|apply inline_style_ve]. Qed.
Lemma pop_style_ve st sk : only_ve (pop_style st sk).
Proof. unfold pop_style. destruct sk; [exact I|]. destruct (cut_rev st _); cbn; auto. Qed.
Lemma do_tag_ve sty colored esc t sk : only_ve (do_tag sty colored esc t sk).
Proof.
  destruct t as [raw cl nm]. cbn [do_tag]. destruct esc; [exact I|].
  destruct (cl && _); [exact I|]. apply bind_ve; [apply resolve_ve|]. intros [st|]; [|exact I].
  destruct cl; [|exact I]. apply bind_ve; [apply pop_style_ve|]. intros; exact I.
Qed.
Lemma run_segs_ve sty colored a0 : forall segs first sk out le, only_ve (run_segs sty colored a0 first segs sk out le).
Proof.
  induction segs as [|[pre t] r IH]; intros first sk out le; cbn [run_segs]; [exact I|].
  apply bind_ve; [apply do_tag_ve|]. intros x. apply IH.
Qed.
Lemma colorize_ve sty colored sk m : only_ve (colorize sty colored sk m).
Proof.
  unfold colorize. destruct (lex m) as [segs tail]. destruct segs as [|sg segs]; [exact I|].
  apply bind_ve; [apply run_segs_ve|]. intros [[sk' out] le]. exact I.
Qed.
Lemma remove_format_ve f m : only_ve (remove_format f m).
Proof. unfold remove_format. destruct (f_kind f); try exact I; (apply bind_ve; [apply colorize_ve|intros; exact I]). Qed.
Lemma emit_ve f m : only_ve (emit f m).
Proof.
  unfold emit. destruct (f_kind f) eqn:E; try apply remove_format_ve.
  unfold format. rewrite E. apply bind_ve; [apply colorize_ve|intros; exact I].
Qed.
Lemma wrap_ve text w : only_ve (wrap text w).
Proof.
  destruct (Z_le_gt_dec w 0) as [H|H].
  - apply wrap_value_error_lemma with (text := text) in H. now rewrite H.
  - destruct (wrap_total_lemma text w ltac:(lia)) as [ls ->]. exact I.
Qed.
Lemma elem_raw_ve W off ind vis e : only_ve (elem_raw W off ind vis e).
Proof. destruct e; cbn [elem_raw]; [| |exact I]; (apply bind_ve; [apply wrap_ve|intros; exact I]). Qed.
Lemma render_elem_ve W off f ind e : only_ve (render_elem W off f ind e).
Proof.
  destruct e; unfold render_elem.
  - apply bind_ve; [apply elem_raw_ve|intros; apply emit_ve].
  - apply bind_ve; [apply remove_format_ve|]. intros x. apply bind_ve; [apply elem_raw_ve|intros; apply emit_ve].
  - apply bind_ve; [apply elem_raw_ve|intros; apply emit_ve].
Qed.
Lemma render_all_ve W off : forall l f out, only_ve (render_all W off f l out).
Proof. induction l as [|[ind e] r IH]; intros f out; cbn [render_all]; [exact I|]. apply bind_ve; [apply render_elem_ve|intros; apply IH]. Qed.
Lemma align_ve : forall l f acc, only_ve (align f l acc).
Proof.
  induction l as [|[ind e] r IH]; intros f acc; cbn [align]; [exact I|].
  destruct e as [t|label text padding aligned|]; [apply IH| |apply IH]. destruct aligned; [|apply IH].
  apply bind_ve; [apply remove_format_ve|intros; apply IH].
Qed.

Definition opt_one_line (h : hopt) : Prop :=
  no_nl (o_long (h_o h)) /\ match o_short (h_o h) with Some s => no_nl s | None => True end.
Definition arg_one_line (a : harg) : Prop := no_nl (a_name (h_a a)).
Definition sub_one_line (s : sub) : Prop := no_nl (sb_name s) /\ Forall arg_one_line (sb_args s) /\ Forall opt_one_line (sb_opts s).
Definition lab_ok (x : nat * elem) : Prop := no_nl (elem_label (snd x)).

Ltac nl_char := let E := fresh in intros E; vm_compute in E; discriminate E.
Ltac nl_solve :=
  unfold no_nl in *;
  repeat first [ assumption | apply Forall_nil | apply Forall_app; split | apply Forall_cons; [nl_char|] ].

Lemma render_option_one_line h : opt_one_line h -> no_nl (elem_label (render_option h)).
Proof.
  intros [H1 H2]. rewrite render_option_names_lemma. unfold C1, C1E.
  destruct (bit (o_flags (h_o h)) 0); destruct (o_short (h_o h)); nl_solve.
Qed.
Lemma render_argument_one_line a : arg_one_line a -> no_nl (elem_label (render_argument a)).
Proof. intros H. unfold arg_one_line in H. rewrite render_argument_name_lemma. unfold C1, C1E. nl_solve. Qed.

Lemma join_with_closed (Q : str -> Prop) sep : Q [] -> (forall a b, Q a -> Q b -> Q (a ++ b)) -> Q [sep] ->
  forall l, Forall Q l -> Q (join_with sep l).
Proof.
  intros Hnil Happ Hsep. induction 1 as [|x r Hx Hr IH]; [exact Hnil|]. destruct r as [|y r]; [exact Hx|].
  change (join_with sep (x :: y :: r)) with (x ++ [sep] ++ join_with sep (y :: r)). auto.
Qed.
Lemma synopsis_label_P (Q : str -> Prop) sty app_name names opts args prefix lo :
  Q [] -> (forall a b, Q a -> Q b -> Q (a ++ b)) -> Q [32%N] -> Q [91%N] -> Q [93%N] -> Q prefix ->
  Forall Q (u_tag (match app_name with Some (c :: r) => c :: r | _ => [99;111;110;115;111;108;101]%N end) :: map u_tag names) ->
  Q (elem_label (synopsis sty app_name names opts args prefix lo)).
Proof.
  intros Hnil Happ Hsp Hl Hr Hp Hparts. unfold synopsis. cbv zeta. cbn [elem_label].
  apply Happ; [exact Hp|]. apply join_with_closed; try assumption. destruct lo; [|exact Hparts].
  destruct (removelast_last_P Q _ [] Hparts Hnil) as [H1 H2]. apply Forall_app. split; [exact H1|]. constructor; [|constructor]. auto.
Qed.
Lemma synopsis_one_line sty app_name names opts args prefix lo :
  (match app_name with Some n => no_nl n | None => True end) -> Forall no_nl names -> no_nl prefix ->
  no_nl (elem_label (synopsis sty app_name names opts args prefix lo)).
Proof.
  intros Ha Hn Hp. apply (synopsis_label_P no_nl); [constructor|exact no_nl_app|nl_solve|nl_solve|nl_solve|exact Hp|]. constructor.
  - unfold u_tag. destruct app_name as [[|c r]|]; nl_solve.
  - apply Forall_map. eapply Forall_impl; [|exact Hn]. intros n H. unfold u_tag. nl_solve.
Qed.

Lemma sub_block_one_line s : sub_one_line s -> one_line_labels (sub_block s).
Proof.
  intros (_ & Ha & Ho). apply (sub_block_all (fun e => no_nl (elem_label e))); try constructor.
  - eapply Forall_impl; [|exact Ha]. exact render_argument_one_line.
  - eapply Forall_impl; [|exact Ho]. exact render_option_one_line.
Qed.
Lemma description_block_one_line help : one_line_labels (description_block help).
Proof. apply (description_block_all (fun e => no_nl (elem_label e))); try constructor. apply Forall_forall. constructor. Qed.

Lemma command_page_one_line sty app_name ch aliases help subs :
  (match app_name with Some n => no_nl n | None => True end) -> Forall no_nl (chain_names ch) ->
  Forall arg_one_line (chain_args ch) -> Forall opt_one_line (own_opts ch) -> Forall opt_one_line (base_opts ch) ->
  Forall sub_one_line subs ->
  one_line_labels (command_page sty app_name ch aliases help subs).
Proof.
  intros Ha Hc Hargs Hown Hbase Hsubs. apply (command_page_all (fun e => no_nl (elem_label e))).
  - constructor.
  - repeat constructor.
  - apply (usage_section_all _ no_nl opt_one_line arg_one_line); try assumption; try nl_solve.
    + intros. now apply synopsis_one_line.
    + eapply Forall_impl; [|exact Hsubs]. intros s (S1 & S2 & S3). auto.
  - constructor.
  - eapply Forall_impl; [|exact Hargs]. exact render_argument_one_line.
  - eapply Forall_impl; [|exact Hown]. exact render_option_one_line.
  - eapply Forall_impl; [|exact Hbase]. exact render_option_one_line.
  - eapply Forall_impl; [|exact Hsubs]. exact sub_block_one_line.
  - apply description_block_one_line.
Qed.

Lemma application_page_one_line sty app_name display version gopts cmds help :
  (match app_name with Some n => no_nl n | None => True end) -> Forall opt_one_line gopts ->
  Forall (fun c => no_nl (ac_name c)) cmds ->
  one_line_labels (application_page sty app_name display version gopts cmds help).
Proof.
  intros Ha Hg Hc. apply (application_page_all (fun e => no_nl (elem_label e))).
  - constructor.
  - repeat constructor.
  - unfold name_version. destruct (nonempty_opt display), (nonempty_opt version); constructor.
  - apply synopsis_one_line; [exact Ha|constructor|constructor].
  - repeat constructor; nl_char.
  - eapply Forall_impl; [|exact Hg]. exact render_option_one_line.
  - eapply Forall_impl; [|exact Hc]. intros c H. unfold cmd_line, C1, C1E. cbn [snd elem_label]. nl_solve.
  - apply description_block_one_line.
Qed.
