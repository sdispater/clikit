(* "help <path>" and "<path> --help" resolve to the same help target (Model/Switches.v help_target), hence print the
   same page: both walk the names of <path>; what differs is only the token list handed to the lenient parse. *)
From Clikit Require Import Base.Prelude Base.Res Model.Conv Model.Format Model.Parser Model.Resolver Model.Switches
     Proofs.StrLemmas Proofs.ResolverLemmas.

(* the line does not start with the word "help" *)
Definition not_help_word (toks : list str) : Prop := match toks with t :: _ => str_eqb t S_help = false | [] => True end.
(* the line help_target works on: a leading "help" word is dropped *)
Definition skip_help_word (toks : list str) : list str :=
  match toks with t :: r => if str_eqb t S_help then r else toks | [] => [] end.
Lemma skip_help_word_id toks : not_help_word toks -> skip_help_word toks = toks.
Proof. destruct toks as [|t r]; [reflexivity|]. cbn [skip_help_word not_help_word]. now intros ->. Qed.

Lemma help_word_dropped a toks :
  (match toks with t :: _ => str_eqb t S_help = false | [] => True end) ->
  help_target a (S_help :: toks) = help_target a toks.
Proof.
  intros H. unfold help_target. fold (skip_help_word (S_help :: toks)) (skip_help_word toks).
  rewrite (skip_help_word_id toks H). cbn [skip_help_word]. now rewrite str_eqb_refl.
Qed.

(* the help resolver's probe passes over a default that raises a value error as well *)
Definition is_unfit (k : ekind) : bool := match k with CannotParse | ValueError => true | _ => false end.
Lemma help_pick_gpick : forall ds toks first, help_pick_default ds toks first = gpick is_unfit ds toks first.
Proof.
  induction ds as [|d r IH]; intros toks first; cbn [help_pick_default gpick]; [reflexivity|].
  destruct (parse (b_fmt d) (b_lenient d) toks) as [a|[]]; cbn [is_unfit]; auto.
Qed.

(* the whole of help_target behind the walk, as resolve_walk: the first default sub-command of the command reached
   that parses the line (under its own leniency), else the first one, else the command itself - parsed LENIENTLY in the end *)
Lemma help_target_walk a toks b p : not_help_word toks ->
  walk (named_of (ap_cmds a)) None (leading toks) = Ok (Some (b, p)) ->
  help_target a toks =
    (do d <- help_pick_default (defaults_of (b_subs b)) toks None;
     match d with
     | Some (dc, _) => do _ <- help_lenient (b_fmt dc) toks; Ok (p ++ [b_name dc])
     | None => do _ <- help_lenient (b_fmt b) toks; Ok p
     end).
Proof.
  intros Hh Hw. unfold help_target. fold (skip_help_word toks). rewrite (skip_help_word_id toks Hh), Hw. cbn [bind].
  destruct (help_pick_default (defaults_of (b_subs b)) toks None) as [[[dc r]|]|k]; reflexivity.
Qed.
(* a command without default sub-commands whose lenient parse succeeds: the path walked *)
Lemma help_target_plain a toks b p x : not_help_word toks ->
  walk (named_of (ap_cmds a)) None (leading toks) = Ok (Some (b, p)) ->
  defaults_of (b_subs b) = [] -> parse (b_fmt b) true toks = Ok x -> help_target a toks = Ok p.
Proof.
  intros Hh Hw Hd Hp. rewrite (help_target_walk a toks b p Hh Hw), Hd. cbn [help_pick_default bind].
  unfold help_lenient. now rewrite Hp.
Qed.

(* a command without default sub-commands: both spellings give the path walked *)
Lemma help_same_target a path o r b p x1 x2 :
  forallb lead_ok path = true ->
  (match path with t :: _ => str_eqb t S_help = false | [] => True end) ->
  starts_dash o = true ->
  walk (named_of (ap_cmds a)) None path = Ok (Some (b, p)) ->
  defaults_of (b_subs b) = [] ->
  parse (b_fmt b) true path = Ok x1 -> parse (b_fmt b) true (path ++ o :: r) = Ok x2 ->
  help_target a (S_help :: path) = Ok p /\ help_target a (path ++ o :: r) = Ok p.
Proof.
  intros Hl Hh Ho Hw Hd Hp1 Hp2. split.
  - rewrite help_word_dropped by exact Hh. apply (help_target_plain a path b p x1 Hh); [|exact Hd|exact Hp1].
    now rewrite (leading_all _ Hl).
  - apply (help_target_plain a _ b p x2); [|now rewrite (leading_cut _ o r Hl (option_is_stopper _ Ho))|exact Hd|exact Hp2].
    destruct path as [|t path']; [cbn in Hw; discriminate|exact Hh].
Qed.
