(* Proofs about Model/Parser.v (C02, C05; C01 builds on them). *)
From Coq Require Import Lia.
From Clikit Require Import Base.Prelude Base.Res Model.Conv Model.Flags Model.Format Model.Parser
     Proofs.StrLemmas Proofs.ListLemmas Proofs.DictLemmas Proofs.FlagsLemmas Proofs.FormatLemmas.


(* has_option and get_option look a name up in the same places in the same order - own long names, own short names,
   then the base format - so each answers for the other *)
Lemma has_option_get f n : has_option_all f n = true -> exists o, get_option_all f n = Ok o.
Proof.
  induction f as [cn co cs ar os oss hm ho|bf cn co cs ar os oss hm ho IH] using fmt_ind';
    cbn [has_option_all get_option_all]; rewrite !shas_sget;
    destruct (sget n os); try (eexists; reflexivity); destruct (sget n oss); try (eexists; reflexivity); cbn.
  - discriminate.
  - exact IH.
Qed.
Lemma get_option_has f n o : get_option f n true = Ok o -> has_option f n true = true.
Proof.
  induction f as [cn co cs ar os oss hm ho|bf cn co cs ar os oss hm ho IH] using fmt_ind';
    cbn [has_option get_option has_option_all get_option_all] in *; rewrite !shas_sget;
    destruct (sget n os); try reflexivity; destruct (sget n oss); try reflexivity; cbn.
  - discriminate.
  - exact IH.
Qed.
Lemma has_arg_get f r incl : has_argument f r incl = true -> exists a, get_argument f r incl = Ok a.
Proof.
  unfold has_argument, get_argument. destruct r as [n|i].
  - rewrite shas_sget. destruct (sget n (get_arguments f incl)); [eauto|discriminate].
  - intros H. apply andb_prop in H as [H0 H1]. apply Z.leb_le in H0. apply Z.ltb_lt in H1.
    destruct (Z.leb_spec (Z.of_nat (length (get_arguments f incl))) i); [lia|].
    destruct (Z.ltb_spec i 0); [lia|].
    destruct (nth_error (get_arguments f incl) (Z.to_nat i)) as [[k a]|] eqn:E; [eauto|].
    apply nth_error_None in E. lia.
Qed.
Lemma get_arg_has f r incl a : get_argument f r incl = Ok a -> has_argument f r incl = true.
Proof.
  unfold has_argument, get_argument. destruct r as [n|i].
  - rewrite shas_sget. destruct (sget n (get_arguments f incl)); [reflexivity|discriminate].
  - destruct (Z.leb_spec (Z.of_nat (length (get_arguments f incl))) i); [discriminate|].
    destruct (Z.ltb_spec i 0); [discriminate|]. intros _.
    apply andb_true_intro. split; [apply Z.leb_le; lia|apply Z.ltb_lt; lia].
Qed.

(* the kinds of error the token loop can produce *)
Definition loop_error (k : ekind) : Prop := k = CannotParse \/ k = NoSuchOption.
Definition opts_ok (f : fmt) : Prop :=
  forall n o, get_option f n true = Ok o ->
    (o_multi o = true -> o_required o = true) /\ conv_input (o_default o) = true.
(* every default the option scratch map holds is one the typed conversion takes *)
Definition st_defaults_ok (st : pstate) : Prop :=
  forall n d, In (n, ODefault d) (ps_opts st) -> conv_input d = true.

Lemma st_defaults_ok_set st n v :
  st_defaults_ok st -> (forall d, v = ODefault d -> conv_input d = true) ->
  st_defaults_ok {| ps_args := ps_args st; ps_opts := sset n v (ps_opts st) |}.
Proof.
  intros Hp Hv m d. cbn. intros H. apply in_sset in H as [[_ H]|H]; [apply Hv; auto|eapply Hp; eauto].
Qed.
Lemma st_defaults_ok_empty : st_defaults_ok ps_empty.
Proof. intros n d []. Qed.

(* _parse_argument: whether an argument slot takes the token, and the state after it has, do not depend
   on the mode; a token that no slot takes is dropped in lenient mode and an error in strict mode *)
Lemma parse_argument_slot f st tok : exists r : option pstate,
  (forall len, parse_argument f len st tok =
               match r with Some st' => Ok st' | None => if len then Ok st else Err CannotParse end) /\
  forall st', r = Some st' -> ps_opts st' = ps_opts st.
Proof.
  unfold parse_argument.
  destruct (has_argument f (APos (Z.of_nat (length (ps_args st)))) true) eqn:H1.
  - destruct (has_arg_get f _ _ H1) as [a ->]. cbn [bind].
    destruct (a_multi a); eexists (Some _); (split; [reflexivity|]); intros st' [= <-]; reflexivity.
  - destruct (has_argument f (APos (Z.of_nat (length (ps_args st)) - 1)) true) eqn:H2;
      [|exists None; split; [reflexivity|discriminate]].
    destruct (has_arg_get f _ _ H2) as [a ->]. cbn [bind].
    destruct (a_multi a); [eexists (Some _)|exists None]; (split; [reflexivity|]); [|discriminate].
    intros st' [= <-]. reflexivity.
Qed.

Lemma parse_argument_spec f len st tok :
  st_defaults_ok st ->
  match parse_argument f len st tok with
  | Ok st' => st_defaults_ok st'
  | Err k => k = CannotParse
  end.
Proof.
  intros Hp. destruct (parse_argument_slot f st tok) as (r & -> & Ho).
  destruct r as [st'|]; [unfold st_defaults_ok; rewrite (Ho st' eq_refl); exact Hp|]. destruct len; [exact Hp|reflexivity].
Qed.

Lemma starts_dash_skipn tok : starts_dash tok = true -> str_eqb tok [DASH] = false -> skipn 1 tok <> [].
Proof.
  destruct tok as [|c [|d r]]; cbn; try discriminate.
  intros H. apply N.eqb_eq in H. subst c. rewrite N.eqb_refl. discriminate.
Qed.

(* re-alignment against omitted command names *)
Lemma copy_values_err vals : forall ars len fixed k, copy_values vals ars len fixed = Err k -> k = CannotParse /\ len = false.
Proof.
  induction vals as [|v r IH]; intros ars len fixed k; cbn [copy_values]; [discriminate|].
  destruct ars as [|[n a] ars'].
  - destruct len; [discriminate|]. intros H. inversion H. auto.
  - destruct (a_multi a); apply IH.
Qed.
Lemma insert_missing_spec arguments cns len st :
  match insert_missing arguments cns len st with
  | Ok st' => ps_opts st' = ps_opts st
  | Err k => k = CannotParse /\ len = false
  end.
Proof.
  unfold insert_missing. destruct (skip_names (flatten (ps_args st)) cns 0) as [[vals' cns'] k].
  destruct (copy_values vals' _ len _) eqn:E; cbn [bind]; [reflexivity|]. eapply copy_values_err; eauto.
Qed.

(* storing into Args: only ValueError *)
Lemma parse_typed_str t nl s : forall k, parse_typed t nl (VStr s) = Err k -> k = ValueError.
Proof.
  intros k H. pose proof (conv_typed_lemma t nl (VStr s) eq_refl) as Hc. rewrite H in Hc. exact Hc.
Qed.
Lemma parse_each_err t nl l : forall k, parse_each t nl l = Err k -> k = ValueError.
Proof.
  induction l as [|s r IH]; intros k; cbn [parse_each]; [discriminate|]. intros H.
  apply bind_err in H as [H|(v & _ & H)]; [eapply parse_typed_str; eauto|].
  apply bind_err in H as [H|(vs & _ & H)]; [now apply IH|discriminate].
Qed.
Lemma parse_odd_err t s : forall k, parse_odd t s = Err k -> k = ValueError.
Proof. destruct t; cbn; intros k H; inversion H; reflexivity. Qed.
Lemma parse_raw_arg_err t nl v : forall k, parse_raw_arg t nl v = Err k -> k = ValueError.
Proof.
  destruct v; cbn [parse_raw_arg]; intros k H; [eapply parse_typed_str|eapply parse_odd_err|eapply parse_odd_err]; eauto.
Qed.
(* a stored default is converted as it is: the caller says what that conversion can fail with *)
Lemma parse_raw_opt_err t nl v : (forall d k, v = ODefault d -> parse_typed t nl d = Err k -> k = ValueError) ->
  forall k, parse_raw_opt t nl v = Err k -> k = ValueError.
Proof.
  intros Hd. destruct v as [s| |d|l]; cbn [parse_raw_opt]; intros k H.
  - eapply parse_typed_str; eauto.
  - pose proof (conv_typed_lemma t nl (VBool true) eq_refl) as Hc. rewrite H in Hc. exact Hc.
  - exact (Hd d k eq_refl H).
  - eapply parse_odd_err; eauto.
Qed.

Lemma set_argument_err f a n v k : has_argument f (AName n) true = true -> set_argument f a n v = Err k -> k = ValueError.
Proof.
  intros Hh. destruct (has_arg_get f _ _ Hh) as [ar Har]. unfold set_argument. rewrite Har. cbn [bind]. intros H.
  apply bind_err in H as [H|(pv & _ & H)]; [|discriminate].
  destruct (a_multi ar); [|eapply parse_raw_arg_err; eauto].
  destruct v as [s|l|c]; apply bind_err in H as [H|(x & _ & H)]; try discriminate;
    [eapply parse_raw_arg_err|eapply parse_each_err|eapply parse_raw_arg_err]; eauto.
Qed.
Lemma set_arguments_err f : forall l a k, set_arguments f a l = Err k -> k = ValueError.
Proof.
  induction l as [|[n v] r IH]; intros a k; cbn [set_arguments]; [discriminate|].
  destruct (has_argument f (AName n) true) eqn:Hh; [|apply IH]. intros H.
  apply bind_err in H as [H|(a' & _ & H)]; [eapply set_argument_err|eapply IH]; eauto.
Qed.

Lemma set_option_err f a n v k : has_option f n true = true ->
  (forall o d k', get_option f n true = Ok o -> v = ODefault d ->
     parse_typed (o_type o) (o_nullable o) d = Err k' -> k' = ValueError) ->
  set_option f a n v = Err k -> k = ValueError.
Proof.
  intros Hh Hv. destruct (has_option_get f n Hh) as [o Ho]. unfold set_option. cbn [get_option]. rewrite Ho. cbn [bind].
  pose proof (fun d k' => Hv o d k' Ho) as Hd.
  intros H. apply bind_err in H as [H|(pv & _ & H)]; [|discriminate].
  destruct (o_multi o); [|destruct (o_accepts o); [eapply parse_raw_opt_err; eauto|discriminate]].
  destruct v as [s| |d|l]; apply bind_err in H as [H|(x & _ & H)]; try discriminate;
    [eapply parse_raw_opt_err|eapply parse_raw_opt_err|eapply parse_raw_opt_err|eapply parse_each_err]; eauto.
Qed.
(* Args.set_option over the option scratch map fails with ValueError only, if the conversion of the defaults it holds
   does *)
Lemma set_options_err_gen f : forall l a k,
  (forall n d o k', In (n, ODefault d) l -> get_option f n true = Ok o ->
     parse_typed (o_type o) (o_nullable o) d = Err k' -> k' = ValueError) ->
  set_options f a l = Err k -> k = ValueError.
Proof.
  induction l as [|[n v] r IH]; intros a k Hd; cbn [set_options]; [discriminate|].
  assert (forall n d o k', In (n, ODefault d) r -> get_option f n true = Ok o ->
            parse_typed (o_type o) (o_nullable o) d = Err k' -> k' = ValueError) as Hd' by (intros; eapply Hd; [right|..]; eauto).
  destruct (has_option f n true) eqn:Hh; [|apply IH; assumption]. intros H.
  apply bind_err in H as [H|(a' & _ & H)]; [|eapply IH; eauto].
  eapply set_option_err; [exact Hh| |exact H]. intros o d k' Ho ->. eapply Hd; [left; reflexivity|exact Ho].
Qed.
Lemma set_options_err f : forall l a k,
  (forall n d, In (n, ODefault d) l -> conv_input d = true) ->
  set_options f a l = Err k -> k = ValueError.
Proof.
  intros l a k Hd. apply set_options_err_gen. intros n d o k' Hin _ Hk'.
  pose proof (conv_typed_lemma (o_type o) (o_nullable o) d (Hd n d Hin)) as Hc. rewrite Hk' in Hc. exact Hc.
Qed.

(* C02: the kinds of error a parse can end in *)
Definition allowed (k : ekind) : Prop := k = CannotParse \/ k = NoSuchOption \/ k = ValueError.

(* what DefaultArgsParser.parse does with the pair (state reached, error) that the token loop returns *)
Definition finish_parse (f : fmt) (ar : list (str * arg)) (cns : list (str * cname)) (len : bool)
           (st1 : pstate) (e : option ekind) : res args :=
  match (match e with Some CannotParse | Some NoSuchOption => if len then None else e | _ => e end) with
  | Some k => Err k
  | None =>
      match insert_missing ar cns len st1 with
      | Err k => Err k
      | Ok st2 =>
          if missing_required ar st2 && negb len then Err CannotParse
          else do a1 <- set_arguments f {| ar_opts := []; ar_args := [] |} (ps_args st2);
               set_options f a1 (ps_opts st2)
      end
  end.
Lemma parse_eq f f' ar cns len toks : aug_format f = Ok (f', ar, cns) ->
  parse f len toks = finish_parse f ar cns len (fst (loop (S (length toks)) f' len true ps_empty toks))
                                                 (snd (loop (S (length toks)) f' len true ps_empty toks)).
Proof.
  intros Ha. unfold parse, parse_on, finish_parse. rewrite Ha.
  destruct (loop (S (length toks)) f' len true ps_empty toks) as [st1 e]. cbn [fst snd].
  destruct (match e with Some CannotParse | Some NoSuchOption => if len then None else e | _ => e end); [reflexivity|].
  destruct (insert_missing ar cns len st1) as [st2|k]; [|reflexivity].
  destruct (missing_required ar st2 && negb len); reflexivity.
Qed.

(* a parse error of the loop gets through in strict mode only; what comes after the loop adds CannotParse, in
   strict mode only, and ValueError *)
Lemma finish_parse_err f ar cns len st1 e k :
  st_defaults_ok st1 -> (forall k', e = Some k' -> loop_error k') ->
  finish_parse f ar cns len st1 e = Err k -> loop_error k /\ len = false \/ k = ValueError.
Proof.
  intros Hp He. unfold finish_parse.
  assert (match insert_missing ar cns len st1 with
          | Err k0 => Err k0
          | Ok st2 => if missing_required ar st2 && negb len then Err CannotParse
                      else do a1 <- set_arguments f {| ar_opts := []; ar_args := [] |} (ps_args st2);
                           set_options f a1 (ps_opts st2)
          end = Err k -> loop_error k /\ len = false \/ k = ValueError) as Hrest.
  { pose proof (insert_missing_spec ar cns len st1) as Hi.
    destruct (insert_missing ar cns len st1) as [st2|k2]; [|intros [= <-]; left; split; [left|]; apply Hi].
    destruct (missing_required ar st2 && negb len) eqn:Hm.
    { intros [= <-]. left. split; [left; reflexivity|]. apply andb_prop in Hm as [_ Hm]. now apply negb_true_iff in Hm. }
    intros H. right. apply bind_err in H as [H|(a1 & _ & H)]; [eapply set_arguments_err; eauto|].
    eapply set_options_err; [|exact H]. intros n d Hin. rewrite Hi in Hin. eapply Hp; eauto. }
  destruct e as [k1|]; [|exact Hrest].
  destruct (He k1 eq_refl) as [->| ->]; (destruct len; [exact Hrest|]); intros [= <-]; left; split; unfold loop_error; auto.
Qed.

(* C02: lenient parsing returns what strict parsing returns whenever the latter succeeds *)
Lemma loop_mono f : forall fuel p st toks st',
  loop fuel f false p st toks = (st', None) -> loop fuel f true p st toks = (st', None).
Proof.
  induction fuel as [|fuel IH]; intros p st toks st'; cbn [loop]; [discriminate|].
  destruct toks as [|tok rest]; [auto|].
  destruct (parse_argument_slot f st tok) as (r & E & _). rewrite !E.
  destruct (p && negb (nonempty tok)); [destruct r; [apply IH|discriminate]|].
  destruct (p && is_dd tok); [apply IH|].
  destruct (p && starts_dd tok).
  { destruct (parse_long_option f st tok rest) as [[st0 rest']|k]; [apply IH|auto]. }
  destruct (p && starts_dash tok && negb (str_eqb tok [DASH])); [|destruct r; [apply IH|discriminate]].
  destruct (parse_short_option f st tok rest) as [[[st0 rest']|k] st2]; [apply IH|auto].
Qed.

Lemma copy_values_mono vals : forall ars fixed r,
  copy_values vals ars false fixed = Ok r -> copy_values vals ars true fixed = Ok r.
Proof.
  induction vals as [|v vs IH]; intros ars fixed r; cbn [copy_values]; [auto|].
  destruct ars as [|[n a] ars']; [discriminate|]. destruct (a_multi a); apply IH.
Qed.
Lemma insert_missing_mono arguments cns st st' :
  insert_missing arguments cns false st = Ok st' -> insert_missing arguments cns true st = Ok st'.
Proof.
  unfold insert_missing. destruct (skip_names (flatten (ps_args st)) cns 0) as [[vals' cns'] k].
  destruct (copy_values vals' _ false _) as [fx|] eqn:E; cbn [bind]; [|discriminate].
  rewrite (copy_values_mono _ _ _ _ E). auto.
Qed.

Lemma lenient_extends_strict_lemma f toks r : parse f false toks = Ok r -> parse f true toks = Ok r.
Proof.
  destruct (aug_format f) as [[[f' ar] cns]|] eqn:Ha; [|unfold parse, parse_on; rewrite Ha; discriminate].
  rewrite !(parse_eq f f' ar cns _ toks Ha).
  destruct (loop (S (length toks)) f' false true ps_empty toks) as [st1 [k|]] eqn:El; [destruct k; discriminate|].
  rewrite (loop_mono _ _ _ _ _ _ El). unfold finish_parse. cbn [fst snd].
  destruct (insert_missing ar cns false st1) as [st2|] eqn:Ei; [|discriminate].
  rewrite (insert_missing_mono _ _ _ _ Ei).
  destruct (missing_required ar st2); cbn [andb negb]; [discriminate|auto].
Qed.

(* C05: a parse does not depend on the parser object's scratch state *)
Lemma parse_on_ignores_scratch st0 f len toks : snd (parse_on st0 f len toks) = parse f len toks.
Proof. reflexivity. Qed.

Definition request := (fmt * bool * list str)%type.
Fixpoint run_history (st : pstate) (reqs : list request) : list (res args) :=
  match reqs with
  | [] => []
  | (f, len, toks) :: r => let '(st', res) := parse_on st f len toks in res :: run_history st' r
  end.
Lemma run_history_fresh reqs : forall st, run_history st reqs = fresh_results reqs.
Proof.
  unfold fresh_results. induction reqs as [|[[f len] toks] r IH]; intros st; cbn [run_history map]; [reflexivity|].
  pose proof (parse_on_ignores_scratch st f len toks) as H.
  destruct (parse_on st f len toks) as [st' res]. cbn [snd] in H. rewrite H, IH. reflexivity.
Qed.

(* C01: the read side of Args *)
Lemma option_access_agrees f a n m o :
  get_option f n true = Ok o -> get_option f m true = Ok o ->
  args_option f a n = args_option f a m.
Proof. intros Hn Hm. unfold args_option. rewrite Hn, Hm. reflexivity. Qed.

Lemma option_set_agrees f a n m o :
  has_option f n true = true -> has_option f m true = true ->
  get_option f n true = Ok o -> get_option f m true = Ok o ->
  args_is_option_set f a n = args_is_option_set f a m.
Proof. intros H1 H2 Hn Hm. unfold args_is_option_set. rewrite H1, H2, Hn, Hm. reflexivity. Qed.

Lemma argument_access_agrees f a r1 r2 ar :
  get_argument f r1 true = Ok ar -> get_argument f r2 true = Ok ar ->
  args_argument f a r1 = args_argument f a r2.
Proof. intros H1 H2. unfold args_argument. rewrite H1, H2. reflexivity. Qed.

Lemma argument_set_agrees f a r1 r2 ar :
  has_argument f r1 true = true -> has_argument f r2 true = true ->
  get_argument f r1 true = Ok ar -> get_argument f r2 true = Ok ar ->
  args_is_argument_set f a r1 = args_is_argument_set f a r2.
Proof. intros G1 G2 H1 H2. unfold args_is_argument_set. rewrite G1, G2, H1, H2. reflexivity. Qed.

Lemma unset_option_default f a n o :
  get_option f n true = Ok o -> sget (o_long o) (ar_opts a) = None ->
  args_option f a n = Ok (if o_accepts o then o_default o else VBool false).
Proof. intros H1 H2. unfold args_option. rewrite H1. cbn [bind]. rewrite H2. reflexivity. Qed.
Lemma unset_argument_default f a r ar :
  get_argument f r true = Ok ar -> sget (a_name ar) (ar_args a) = None ->
  args_argument f a r = Ok (a_default ar).
Proof. intros H1 H2. unfold args_argument. rewrite H1. cbn [bind]. rewrite H2. reflexivity. Qed.

(* after the "--" separator every token goes to _parse_argument, which leaves the option scratch map alone *)
Lemma loop_after_dd_keeps_options f len : forall fuel st toks,
  ps_opts (fst (loop fuel f len false st toks)) = ps_opts st.
Proof.
  induction fuel as [|fuel IH]; intros st toks; cbn [loop]; [reflexivity|].
  destruct toks as [|tok rest]; [reflexivity|]. cbn [andb].
  destruct (parse_argument_slot f st tok) as (r & -> & Ho).
  destruct r as [st'|]; [rewrite IH; auto|]. destruct len; [apply IH|reflexivity].
Qed.
