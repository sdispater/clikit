(* C17: restores_effective (Proofs/AppStateLemmas.v) holds of EVERY application.

   The override the help resolver's restore records is keyed by the POSITION of the command object it was handed
   (Model/AppState.v: help_pick / help_target_pos), apply_cmd applies it to the command at that position and to no
   other, eff reads the command at that position.  A position holds one command, so recording the effective value
   again changes nothing - whatever the names of the siblings are.  (Keyed by the path of NAMES, two sub-commands of
   one name would share the key.)

   Second part: the position is the right one.  help_target (Model/Switches.v) is help_pick followed by the lenient
   parse (help_target_is_pick); the position help_pick reports always exists, holds exactly the command that the
   collections resolved (walk: the LAST non-anonymous sibling of that name, level by level; then, if any, the LAST
   default sibling of the picked name), and the names along it are the reported path (help_pick_position). *)
From Coq Require Import Lia.
From Clikit Require Import Base.Prelude Base.Res Model.Conv Model.Format Model.Parser Model.Resolver Model.Run
     Model.Tokenizer Model.Switches Model.AppState Proofs.StrLemmas Proofs.ListLemmas Proofs.DictLemmas Proofs.ResolverLemmas Proofs.ResolverAliasLemmas
     Proofs.HelpTargetLemmas Proofs.AppStateLemmas.

Lemma bcmd_ind' (P : bcmd -> Prop) :
  (forall n al d an len f subs, Forall P subs -> P (BCmd n al d an len f subs)) -> forall c, P c.
Proof.
  intros H. fix IH 1. intros [n al d an len f subs]. apply H.
  induction subs as [|s r IHr]; constructor; [apply IH|exact IHr].
Qed.

Lemma apply_cmd_name st p c : b_name (apply_cmd st p c) = b_name c.
Proof. destruct c. rewrite apply_cmd_eq. reflexivity. Qed.
Lemma apply_cmd_aliases st p c : b_aliases (apply_cmd st p c) = b_aliases c.
Proof. destruct c. rewrite apply_cmd_eq. reflexivity. Qed.
Lemma apply_cmd_default st p c : b_default (apply_cmd st p c) = b_default c.
Proof. destruct c. rewrite apply_cmd_eq. reflexivity. Qed.
Lemma apply_cmd_anonymous st p c : b_anonymous (apply_cmd st p c) = b_anonymous c.
Proof. destruct c. rewrite apply_cmd_eq. reflexivity. Qed.
Lemma apply_cmd_fmt st p c : b_fmt (apply_cmd st p c) = b_fmt c.
Proof. destruct c. rewrite apply_cmd_eq. reflexivity. Qed.
Lemma apply_cmd_subs st p c : b_subs (apply_cmd st p c) = apply_forest st p 0 (b_subs c).
Proof. destruct c. rewrite apply_cmd_eq. reflexivity. Qed.

(* the leniency the command c at position p has in state st *)
Definition efflen (st : overrides) (p : pos) (c : bcmd) : bool :=
  match lookup st p with Some x => x | None => b_lenient c end.
Lemma apply_cmd_lenient st p c : b_lenient (apply_cmd st p c) = efflen st p c.
Proof. destruct c. rewrite apply_cmd_eq. reflexivity. Qed.

(* below c: r = [] is c itself *)
Definition cmd_below (c : bcmd) (r : pos) : option bcmd := match r with [] => Some c | _ => cmd_at (b_subs c) r end.
Lemma cmd_at_cons cs j r : cmd_at cs (j :: r) = match nth_error cs j with None => None | Some c => cmd_below c r end.
Proof. reflexivity. Qed.

Lemma nth_apply_forest st q : forall l i j,
  nth_error (apply_forest st q i l) j = option_map (apply_cmd st (q ++ [i + j])) (nth_error l j).
Proof.
  induction l as [|s r IH]; intros i [|j]; cbn [apply_forest nth_error option_map]; try reflexivity.
  - now rewrite Nat.add_0_r.
  - rewrite IH. now rewrite Nat.add_succ_r.
Qed.

(* apply_state keeps the shape: the command at a position of the application in state st is the command at that
   position of the application as built, with the override of that very position *)
Lemma cmd_at_apply st : forall p q cs,
  cmd_at (apply_forest st q 0 cs) p = option_map (apply_cmd st (q ++ p)) (cmd_at cs p).
Proof.
  induction p as [|j r IH]; intros q cs; [reflexivity|]. rewrite !cmd_at_cons, nth_apply_forest. cbn [Nat.add].
  destruct (nth_error cs j) as [c|]; cbn [option_map]; [|reflexivity]. destruct r as [|k r']; cbn [cmd_below]; [reflexivity|].
  now rewrite apply_cmd_subs, IH, <- app_assoc.
Qed.

(* eff reads the command at that position and its own override *)
Lemma eff_spec st a p : eff st a p = option_map (efflen st p) (cmd_at (ap_cmds a) p).
Proof.
  unfold eff, apply_state. cbn [ap_cmds]. rewrite cmd_at_apply.
  destruct (cmd_at (ap_cmds a) p); cbn; [now rewrite apply_cmd_lenient|reflexivity].
Qed.

(* with no override recorded the application is the one that was built *)
Lemma apply_state_nil a : apply_state [] a = a.
Proof.
  assert (forall c p, apply_cmd [] p c = c) as Hc.
  { induction c as [n al d an len f subs IH] using bcmd_ind'. intros p. rewrite apply_cmd_eq. cbn [lookup]. f_equal.
    generalize 0. induction IH as [|s r Hs Hr IHr]; intros i; cbn [apply_forest]; [reflexivity|]. now rewrite Hs, IHr. }
  destruct a as [g cs]. unfold apply_state. cbn [ap_global ap_cmds]. f_equal.
  generalize 0. induction cs as [|c r IH]; intros i; cbn [apply_forest]; [reflexivity|]. now rewrite Hc, IH.
Qed.

(* cmd_eff_ok asks for the value b at the one place below c, if any, whose position is p *)
Lemma forest_eff_ok_nth st q p b : forall l i0,
  (forall j s, nth_error l j = Some s -> cmd_eff_ok st (q ++ [i0 + j]) p b s) -> forest_eff_ok st q p b i0 l.
Proof.
  induction l as [|s r IH]; intros i0 H; cbn [forest_eff_ok]; [exact I|]. split.
  - specialize (H 0 s eq_refl). now rewrite Nat.add_0_r in H.
  - apply IH. intros j s' Hs. specialize (H (S j) s' Hs). now rewrite Nat.add_succ_r in H.
Qed.
Lemma cmd_eff_ok_desc st p b : forall c q,
  (forall r c0, cmd_below c r = Some c0 -> q ++ r = p -> efflen st p c0 = b) -> cmd_eff_ok st q p b c.
Proof.
  induction c as [n al d an len f subs IH] using bcmd_ind'. intros q H. rewrite cmd_eff_ok_eq. split.
  - intros E. apply (H [] (BCmd n al d an len f subs)); [reflexivity|now rewrite app_nil_r].
  - apply forest_eff_ok_nth. cbn [Nat.add]. intros j s Hs. rewrite Forall_forall in IH.
    apply (IH s (nth_error_In _ _ Hs)). intros r c0 Hd E.
    apply (H (j :: r) c0); [|now rewrite <- E, <- app_assoc]. cbn [cmd_below]. rewrite cmd_at_cons. cbn [b_subs]. now rewrite Hs.
Qed.

(* the command at position p has the effective leniency b: recording (p, b) is harmless *)
Lemma app_eff_ok_at st a p c : cmd_at (ap_cmds a) p = Some c -> app_eff_ok st a p (efflen st p c).
Proof.
  intros Hc. unfold app_eff_ok. apply forest_eff_ok_nth. cbn [Nat.add app]. intros j s Hs.
  apply cmd_eff_ok_desc. intros r c0 Hd E. cbn [app] in E. subst p. rewrite cmd_at_cons, Hs in Hc. congruence.
Qed.

Lemma restores_effective_holds st a toks : restores_effective st a toks.
Proof.
  unfold restores_effective. destruct (help_resolver_ran _); [|exact I].
  destruct (help_target_pos (apply_state st a) toks) as [p|]; [|exact I]. rewrite eff_spec.
  destruct (cmd_at (ap_cmds a) p) as [c|] eqn:E; cbn [option_map]; [|exact I]. now apply app_eff_ok_at.
Qed.

Lemma run_on_state_holds st a toks : apply_state (fst (run_on st a toks)) a = apply_state st a.
Proof. apply run_on_state, restores_effective_holds. Qed.

(* The position is that of the command the resolver was handed.
   Collections: under a name, the LAST sibling added under it. *)
Lemma last_named_spec keep m : forall l i, last_named keep m l = Some i ->
  exists c, nth_error l i = Some c /\ keep c = true /\ b_name c = m.
Proof.
  induction l as [|c r IH]; intros i; cbn [last_named]; [discriminate|].
  destruct (last_named keep m r) as [j|].
  - intros E. injection E as <-. destruct (IH j eq_refl) as (c' & H1 & H2 & H3). exists c'. now repeat split.
  - destruct (keep c) eqn:Hk; cbn [andb]; [|discriminate]. destruct (str_eqb_spec (b_name c) m) as [Hn|]; [|discriminate].
    intros E. injection E as <-. exists c. now repeat split.
Qed.
(* ... and no later kept sibling has that name *)
Lemma last_named_last keep m : forall l i, last_named keep m l = Some i ->
  forall j c, i < j -> nth_error l j = Some c -> keep c && str_eqb (b_name c) m = false.
Proof.
  induction l as [|c r IH]; intros i; cbn [last_named]; [discriminate|].
  destruct (last_named keep m r) as [k|] eqn:E.
  - intros E'. injection E' as <-. intros [|j] c' Hj; [lia|]. cbn [nth_error]. apply (IH k eq_refl). lia.
  - destruct (keep c && str_eqb (b_name c) m); [|discriminate]. intros E'. injection E' as <-.
    intros [|j] c' Hj; [lia|]. cbn [nth_error]. clear IH Hj. revert j. induction r as [|c1 r1 IHr]; intros j; [destruct j; discriminate|].
    cbn [last_named] in E. destruct (last_named keep m r1); [discriminate|].
    destruct (keep c1 && str_eqb (b_name c1) m) eqn:E1; [discriminate|]. destruct j as [|j]; cbn [nth_error].
    + intros H. injection H as <-. exact E1.
    + now apply IHr.
Qed.

Lemma find_app {X} (p : X -> bool) l1 l2 :
  find p (l1 ++ l2) = match find p l1 with Some x => Some x | None => find p l2 end.
Proof. induction l1 as [|x l1 IH]; [reflexivity|]. cbn [app find]. now destruct (p x). Qed.
(* last_named is the position, among all siblings, of what the collection of the kept ones holds under m *)
Lemma last_named_find keep m : forall l,
  find (by_name m) (rev (filter keep l)) = match last_named keep m l with Some i => nth_error l i | None => None end.
Proof.
  induction l as [|c r IH]; cbn [filter last_named]; [reflexivity|].
  destruct (keep c); cbn [rev andb]; [rewrite find_app|]; rewrite IH; destruct (last_named keep m r) as [i|] eqn:E; try reflexivity.
  - cbn [nth_error]. now destruct (last_named_spec _ _ _ _ E) as (c' & -> & _).
  - cbn [find]. unfold by_name. rewrite str_eqb_sym. now destruct (str_eqb (b_name c) m).
Qed.
Lemma find_name_pos keep l b : find (by_name (b_name b)) (rev (filter keep l)) = Some b ->
  exists i, last_named keep (b_name b) l = Some i /\ nth_error l i = Some b.
Proof. rewrite last_named_find. destruct (last_named keep (b_name b) l) as [i|]; [eauto|discriminate]. Qed.
Lemma coll_get_pos keep l n b : coll_get (coll_of (filter keep l)) n = Ok b ->
  exists i, last_named keep (b_name b) l = Some i /\ nth_error l i = Some b.
Proof. intros H. exact (find_name_pos keep l b (coll_get_find _ n b H)). Qed.
Lemma defaults_of_pos l dc : In dc (defaults_of l) ->
  exists i, last_named b_default (b_name dc) l = Some i /\ nth_error l i = Some dc.
Proof.
  unfold defaults_of. intros H. apply in_map_iff in H as ([m b] & E & Hin). cbn [snd] in E. subst b.
  apply find_name_pos. exact (find_name_self _ m dc (coll_of_in _ m dc Hin)).
Qed.

(* the default command picked is one of the collection *)
Lemma help_pick_default_in toks ds dc r : help_pick_default ds toks None = Ok (Some (dc, r)) -> In dc ds.
Proof. rewrite help_pick_gpick. intros E. apply gpick_in in E as [Hin|[k Hk]]; [exact Hin|discriminate]. Qed.

Fixpoint names_at (cs : list bcmd) (p : pos) : option path :=
  match p with
  | [] => Some []
  | i :: r => match nth_error cs i with None => None | Some c => option_map (cons (b_name c)) (names_at (b_subs c) r) end
  end.
Lemma locate_named_names : forall q cs p, locate_named cs q = Some p -> names_at cs p = Some q.
Proof.
  induction q as [|n r IH]; intros cs p; cbn [locate_named].
  - intros E. injection E as <-. reflexivity.
  - destruct (last_named is_named n cs) as [i|] eqn:El; [|discriminate].
    destruct (last_named_spec _ _ _ _ El) as (c & Hc & _ & Hn). rewrite Hc.
    destruct (locate_named (b_subs c) r) as [p'|] eqn:E'; cbn [option_map]; [|discriminate].
    intros E. injection E as <-. cbn [names_at]. rewrite Hc, (IH _ _ E'), Hn. reflexivity.
Qed.
(* one level further down *)
Lemma cmd_at_snoc : forall p cs c i, cmd_at cs p = Some c -> cmd_at cs (p ++ [i]) = nth_error (b_subs c) i.
Proof.
  induction p as [|j r IH]; intros cs c i; [discriminate|]. cbn [app]. rewrite !cmd_at_cons.
  destruct (nth_error cs j) as [c1|]; [|discriminate]. destruct r as [|k r']; cbn [cmd_below app].
  - intros E. injection E as <-. rewrite cmd_at_cons. destruct (nth_error (b_subs c1) i); reflexivity.
  - intros E. exact (IH _ _ i E).
Qed.
Lemma names_at_snoc : forall p cs q c i d, names_at cs p = Some q -> cmd_at cs p = Some c -> nth_error (b_subs c) i = Some d ->
  names_at cs (p ++ [i]) = Some (q ++ [b_name d]).
Proof.
  induction p as [|j r IH]; intros cs q c i d; [discriminate|]. cbn [app names_at]. rewrite cmd_at_cons.
  destruct (nth_error cs j) as [c1|]; [|discriminate].
  destruct (names_at (b_subs c1) r) as [q'|] eqn:Eq; cbn [option_map]; [|discriminate]. intros E. injection E as <-.
  destruct r as [|k r']; cbn [cmd_below app].
  - intros E Hd. injection E as <-. cbn [names_at] in *. injection Eq as <-. rewrite Hd. reflexivity.
  - intros E Hd. change (k :: r' ++ [i]) with ((k :: r') ++ [i]). rewrite (IH _ _ _ _ _ Eq E Hd). reflexivity.
Qed.

(* walk: the command reached sits at the position located along the recorded names *)
Lemma walk_locate : forall names cs cur b pth, walk (named_of cs) cur names = Ok (Some (b, pth)) ->
  cur = Some (b, pth) \/
  exists q p, pth = cur_path cur ++ q /\ locate_named cs q = Some p /\ cmd_at cs p = Some b.
Proof.
  induction names as [|n r IH]; intros cs cur b pth H; [injection H as ->; now left|].
  apply walk_cons_inv in H as [[_ ->]|(b1 & _ & Eg & H)]; [now left|]. right.
  unfold named_of in Eg. apply coll_get_pos in Eg as (i & Hi & Hn).
  apply IH in H as [E|(q & p & -> & Hq & Hp)].
  - injection E as <- <-. exists [b_name b1], [i]. repeat split.
    + cbn [locate_named]. unfold is_named. rewrite Hi, Hn. reflexivity.
    + rewrite cmd_at_cons, Hn. reflexivity.
  - cbn [cur_path]. exists (b_name b1 :: q), (i :: p). repeat split.
    + now rewrite <- app_assoc.
    + cbn [locate_named]. unfold is_named. rewrite Hi, Hn, Hq. reflexivity.
    + rewrite cmd_at_cons, Hn. destruct p; [discriminate|exact Hp].
Qed.

(* help_target is help_pick followed by the lenient parse *)
Definition strip_help (toks : list str) : list str :=
  match toks with t :: r => if str_eqb t S_help then r else toks | [] => [] end.
Lemma help_target_is_pick a toks :
  help_target a toks =
  (do t <- help_pick a toks; let '(c, pth, _) := t in do x <- help_lenient (b_fmt c) (strip_help toks); Ok pth).
Proof.
  unfold help_target, help_pick. fold (strip_help toks).
  destruct (walk (named_of (ap_cmds a)) None (leading (strip_help toks))) as [[[b pth]|]|k]; cbn [bind]; [| |reflexivity].
  - destruct (help_pick_default (defaults_of (b_subs b)) (strip_help toks) None) as [[[dc r]|]|k]; reflexivity.
  - destruct (leading (strip_help toks)); [|reflexivity].
    destruct (help_pick_default (defaults_of (ap_cmds a)) (strip_help toks) None) as [[[dc r]|]|k]; reflexivity.
Qed.

(* the position help_pick reports exists, holds exactly the command picked, and its names are the reported path *)
Lemma help_pick_position a toks c pth o : help_pick a toks = Ok (c, pth, o) ->
  exists p, o = Some p /\ cmd_at (ap_cmds a) p = Some c /\ names_at (ap_cmds a) p = Some pth.
Proof.
  unfold help_pick. fold (strip_help toks).
  destruct (walk (named_of (ap_cmds a)) None (leading (strip_help toks))) as [[[b pb]|]|k] eqn:Ew; cbn [bind]; [| |discriminate].
  - apply walk_locate in Ew as [Ew|(q & p & -> & Hq & Hp)]; [discriminate|]. cbn [cur_path app].
    destruct (help_pick_default (defaults_of (b_subs b)) (strip_help toks) None) as [[[dc r]|]|k] eqn:Ed; cbn [bind]; [| |discriminate].
    + intros E. injection E as <- <- <-. apply help_pick_default_in, defaults_of_pos in Ed as (i & Hi & Hn). rewrite Hq, Hi. exists (p ++ [i]). repeat split.
      * now rewrite (cmd_at_snoc _ _ _ i Hp).
      * apply (names_at_snoc p _ q b i dc); [now apply locate_named_names|exact Hp|exact Hn].
    + intros E. injection E as <- <- <-. exists p. repeat split; [exact Hq|exact Hp|now apply locate_named_names].
  - destruct (leading (strip_help toks)); [|discriminate].
    destruct (help_pick_default (defaults_of (ap_cmds a)) (strip_help toks) None) as [[[dc r]|]|k] eqn:Ed; cbn [bind]; [| |discriminate]; [|discriminate].
    intros E. injection E as <- <- <-. apply help_pick_default_in, defaults_of_pos in Ed as (i & Hi & Hn). rewrite Hi. exists [i]. cbn [option_map]. repeat split.
    + rewrite cmd_at_cons, Hn. reflexivity.
    + cbn [names_at]. rewrite Hn. reflexivity.
Qed.

(* so whenever the help resolver reports a page (or fails in its lenient parse), the override written is on the command
   it was handed, and the value is the leniency that command had when the run began *)
Lemma help_target_has_position a toks pth : help_target a toks = Ok pth ->
  exists c p, help_pick a toks = Ok (c, pth, Some p) /\ help_target_pos a toks = Some p /\
              cmd_at (ap_cmds a) p = Some c /\ names_at (ap_cmds a) p = Some pth.
Proof.
  rewrite help_target_is_pick. unfold help_target_pos. destruct (help_pick a toks) as [[[c q] o]|k] eqn:E; cbn [bind]; [|discriminate].
  destruct (help_lenient (b_fmt c) (strip_help toks)); cbn [bind]; [|discriminate]. intros H. injection H as <-.
  destruct (help_pick_position _ _ _ _ _ E) as (p & -> & Hc & Hn). now exists c, p.
Qed.
Lemma run_on_records st a toks c pth o : help_pick (apply_state st a) toks = Ok (c, pth, o) ->
  exists p, help_target_pos (apply_state st a) toks = Some p /\ eff st a p = Some (b_lenient c).
Proof.
  intros E. unfold help_target_pos. rewrite E. destruct (help_pick_position _ _ _ _ _ E) as (p & -> & Hc & _).
  exists p. split; [reflexivity|]. unfold eff. now rewrite Hc.
Qed.
