(* C20: the style table of the formatters clikit builds: pastel's own four styles and the styles of the style set - with
   DefaultStyleSet (what PlainFormatter() / AnsiFormatter() / DefaultApplicationConfig use) "error" and "b" resolve, so
   the theorems about the report hold for these formatters without a premise on the style table. *)
From Coq Require Import Lia.
From Clikit Require Import Base.Prelude Base.Res Model.Conv Model.Markup Model.OutputM Model.Trace
  Proofs.StrLemmas Proofs.ListLemmas Proofs.MarkupLemmas Proofs.OutputLemmas Proofs.TraceLemmas Proofs.LiteralLemmas Proofs.TraceRenderLemmas
  Proofs.TraceSolutionLemmas.

Lemma style_set_keeps n : forall l acc ss, style_set l acc = Ok ss ->
  (exists w, aget str_eqb n acc = Some w) -> exists w, aget str_eqb n ss = Some w.
Proof.
  induction l as [|c r IH]; intros acc ss H Hn; cbn [style_set] in H; [injection H as <-; exact Hn|].
  destruct (c_tag c) as [[|ch t]|]; try discriminate. apply (IH _ _ H). apply (aset_keeps _ StrLemmas.str_eqb_spec), Hn.
Qed.
Lemma style_set_has n : forall l acc ss c, style_set l acc = Ok ss -> In c l -> c_tag c = Some n ->
  exists w, aget str_eqb n ss = Some w.
Proof.
  induction l as [|c0 r IH]; intros acc ss c H Hin Ht; [destruct Hin|]. cbn [style_set] in H.
  destruct Hin as [->|Hin].
  - rewrite Ht in H. destruct n as [|ch t]; [discriminate|]. apply (style_set_keeps _ _ _ _ H).
    rewrite (aget_aset _ str_eqb_spec), str_eqb_refl. eauto.
  - destruct (c_tag c0) as [[|ch t]|]; try discriminate. apply (IH _ _ c H Hin Ht).
Qed.
Lemma register_has n : forall l sty sty', register l sty = Ok sty' -> (exists w, aget str_eqb n l = Some w) ->
  exists w, aget str_eqb n sty' = Some w.
Proof.
  induction l as [|[t c] r IH]; intros sty sty' H (w & Hn); [discriminate|]. cbn [register] in H.
  destruct (convert c) as [p|e]; cbn [bind] in H; [|discriminate]. cbn [aget] in Hn.
  destruct (str_eqb_spec n t) as [->|Hne].
  - apply (register_keeps t r _ _ H). rewrite (aget_aset _ str_eqb_spec), str_eqb_refl. eauto.
  - apply (IH _ _ H). eauto.
Qed.

(* a formatter built over a style set that has a style tagged t resolves t (t in lower case, as all of clikit's are) *)
Theorem new_formatter_resolves k set f c t : new_formatter k set = Ok f -> k <> FNull -> In c set -> c_tag c = Some t ->
  py_lower t = t -> resolvable (f_styles f) t.
Proof.
  intros H Hk Hin Ht Hl. destruct (new_formatter_inv k set f H Hk) as (ss & ES & ER & _). apply registered_resolvable; [exact Hl|].
  apply (register_has t ss pastel_defaults _ ER), (style_set_has t set [] ss c ES Hin Ht).
Qed.
Corollary new_formatter_b k set f c : new_formatter k set = Ok f -> k <> FNull -> In c set -> c_tag c = Some st_b ->
  resolvable (f_styles f) st_b.
Proof. intros H Hk Hin Ht. apply (new_formatter_resolves k set f c st_b H Hk Hin Ht). reflexivity. Qed.

(* clikit.formatter.DefaultStyleSet *)
Definition mk_style (tag : str) (fg : option str) (bold underlined : bool) : cstyle :=
  {| c_tag := Some tag; c_fg := fg; c_bg := None; c_bold := bold; c_italic := false; c_dark := false;
     c_underlined := underlined; c_blinking := false; c_inverse := false; c_hidden := false |}.
Definition default_style_set : list cstyle :=
  [mk_style [105;110;102;111]%N (Some [103;114;101;101;110]%N) false false;                  (* info: green *)
   mk_style [99;111;109;109;101;110;116]%N (Some [99;121;97;110]%N) false false;             (* comment: cyan *)
   mk_style [113;117;101;115;116;105;111;110]%N (Some [98;108;117;101]%N) false false;       (* question: blue *)
   mk_style st_error (Some [114;101;100]%N) true false;                                      (* error: red, bold *)
   mk_style st_b None true false;                                                            (* b: bold *)
   mk_style [117]%N None false true;                                                         (* u: underlined *)
   mk_style [99;49]%N (Some [99;121;97;110]%N) false false;                                  (* c1: cyan *)
   mk_style [99;50]%N (Some [121;101;108;108;111;119]%N) false false].                       (* c2: yellow *)

(* every formatter over a style set that contains DefaultStyleSet's styles *)
Definition clikit_formatter (f : formatter) : Prop :=
  exists k set, k <> FNull /\ incl default_style_set set /\ new_formatter k set = Ok f.
Lemma clikit_formatter_styles f : clikit_formatter f -> resolvable (f_styles f) st_error /\ resolvable (f_styles f) st_b.
Proof.
  intros (k & set & Hk & Hin & H). split; [apply (new_formatter_error k set f H Hk)|].
  apply (new_formatter_b k set f (mk_style st_b None true false) H Hk); [|reflexivity].
  apply Hin. do 4 right. left. reflexivity.
Qed.
Lemma clikit_formatter_kind f : clikit_formatter f -> f_kind f <> FNull /\ f_stack f = [].
Proof.
  intros (k & set & Hk & _ & H). destruct (new_formatter_inv k set f H Hk) as (ss & _ & _ & -> & ->). split; [exact Hk|reflexivity].
Qed.
(* an ordinary output (not a section) that writes through such a formatter *)
Definition clikit_output (o : outp) : Prop := o_sec o = false /\ clikit_formatter (o_fmt o).
Lemma clikit_output_ok o : clikit_output o ->
  out_ok (f_styles (o_fmt o)) o /\ resolvable (f_styles (o_fmt o)) st_error /\ resolvable (f_styles (o_fmt o)) st_b.
Proof.
  intros (Hs & Hf). destruct (clikit_formatter_kind _ Hf) as [Hk Hst]. destruct (clikit_formatter_styles _ Hf) as [He Hb].
  split; [|auto]. unfold out_ok. auto.
Qed.

(* the closed instances: the plain and the two ANSI formatters over DefaultStyleSet itself build, and resolve both *)
Definition default_formatter (k : fkind) : formatter :=
  match new_formatter k default_style_set with Ok f => f | Err _ => {| f_kind := FNull; f_styles := []; f_stack := [] |} end.
Example default_formatters_build :
  new_formatter FPlain default_style_set = Ok (default_formatter FPlain) /\
  new_formatter (FAnsi false) default_style_set = Ok (default_formatter (FAnsi false)) /\
  new_formatter (FAnsi true) default_style_set = Ok (default_formatter (FAnsi true)).
Proof. vm_compute. repeat split. Qed.
Example default_formatters_are_clikit k : k <> FNull -> clikit_formatter (default_formatter k).
Proof.
  intros Hk. exists k, default_style_set. split; [exact Hk|]. split; [apply incl_refl|].
  destruct default_formatters_build as (H1 & H2 & H3). destruct k as [[|]| |]; [exact H3|exact H2|exact H1|congruence].
Qed.
Example default_styles_resolve k : k <> FNull ->
  resolvable (f_styles (default_formatter k)) st_error /\ resolvable (f_styles (default_formatter k)) st_b.
Proof. intros Hk. apply clikit_formatter_styles, default_formatters_are_clikit, Hk. Qed.
(* what "error" and "b" resolve to there: clikit's red bold (not pastel's white on red), and bold *)
Example default_styles_values :
  resolve (f_styles (default_formatter FPlain)) st_error = Ok (Some {| p_fg := Some 31%N; p_bg := None; p_opts := [1%N] |}) /\
  resolve (f_styles (default_formatter FPlain)) st_b = Ok (Some {| p_fg := None; p_bg := None; p_opts := [1%N] |}).
Proof. vm_compute. split; reflexivity. Qed.

Theorem render_sol_never_fails_clikit c simple o x sols : clikit_output o -> exists bytes, render_sol c simple o x sols = Ok bytes.
Proof. intros H. destruct (clikit_output_ok o H) as (Ho & He & Hb). exact (render_sol_never_fails_any _ c simple o x sols Ho He Hb). Qed.
Theorem render_lines_good_clikit o c simple ind x ls : clikit_output o -> render_lines c simple ind x = Ok ls ->
  Forall (fun wl => good_line (f_styles (o_fmt o)) (snd wl)) ls.
Proof. intros H. destruct (clikit_output_ok o H) as (Ho & He & Hb). exact (render_lines_good _ He Hb c simple ind x ls). Qed.
