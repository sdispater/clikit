(* C13: a page the model reports in the region (in_region, Model/HelpRegion.v: the flag the check compares) renders, so its text
   is a text_of with no "if it renders"; and what a word found in COMMANDS / AVAILABLE COMMANDS is a word of. *)
From Coq Require Import Lia.
From Clikit Require Import Base.Prelude Base.Res Model.Conv Model.Flags Model.Format Model.Markup Model.Wrap Model.Help Model.HelpRegion.
From Clikit Require Import Proofs.WrapLemmas Proofs.HelpLemmas Proofs.MarkupLemmas Proofs.LiteralLemmas Proofs.MarkupShrinkLemmas
  Proofs.HelpPlainLemmas Proofs.HelpCleanLemmas Proofs.HelpRenderLemmas Proofs.HelpRegionLemmas Proofs.HelpBytesLemmas Proofs.HelpBytesRegionLemmas.

Lemma plain_not_null f : f_kind f = FPlain -> f_kind f <> FNull. Proof. congruence. Qed.

Lemma region_text_of W f l : f_kind f = FPlain -> in_region (f_styles f) W l = true ->
  exists s, render_page W f l = Ok s /\ text_of (f_styles f) W l s.
Proof.
  intros Hk Hr. destruct (in_region_renders_lemma W f l (plain_not_null f Hk) Hr) as [s Hs]. exists s.
  split; [exact Hs|exact (page_text_of W f l s Hk Hs)].
Qed.

(* what a word found in the COMMANDS section is a word of *)
Definition commands_word (sty : styles) (subs : list sub) (n : str) : Prop :=
  infix_of n (vis sty H_COMMANDS)
  \/ exists sv x, In sv subs /\ visible sv = true /\ In x (sub_block sv) /\ infix_of n (elem_vis sty (snd x)).
Definition available_word (sty : styles) (cmds : list appcmd) (n : str) : Prop :=
  infix_of n (vis sty H_AVAILABLE)
  \/ exists c, In c cmds /\ cmd_visible c = true /\ infix_of n (elem_vis sty (snd (cmd_line c))).

(* decided (for concrete configurations: vm_compute) *)
Definition commands_wordb (sty : styles) (subs : list sub) (n : str) : bool :=
  infixb n (vis sty H_COMMANDS)
  || existsb (fun sv => visible sv && existsb (fun x => infixb n (elem_vis sty (snd x))) (sub_block sv)) subs.
Definition available_wordb (sty : styles) (cmds : list appcmd) (n : str) : bool :=
  infixb n (vis sty H_AVAILABLE)
  || existsb (fun c => cmd_visible c && infixb n (elem_vis sty (snd (cmd_line c)))) cmds.
Lemma available_word_decided sty cmds n : available_word sty cmds n -> available_wordb sty cmds n = true.
Proof.
  unfold available_wordb. intros [H|(c & H1 & H2 & H3)]; apply orb_true_iff; [left; now apply infixb_spec|right].
  apply existsb_exists. exists c. split; [exact H1|]. rewrite H2. cbn [andb]. now apply infixb_spec.
Qed.
