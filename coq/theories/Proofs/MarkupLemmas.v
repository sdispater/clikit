(* Proofs about Model/Markup.v (C11): the scanner, the removal of SGR sequences, unescape, and colorize as a list of
   spans (codes in force, text) from which both renderings are read off; then the SGR codes convert gives a style, a
   style around a text by each of the three routes (per call, registered at construction, added later), and the
   undecorated calls of a formatter as colorize without colours. *)
From Coq Require Import Lia.
From Clikit Require Import Base.Prelude Base.Res Model.Conv Model.Markup Proofs.ListLemmas Proofs.StrLemmas.

(* split_on and join_with: the pieces of a string are never none, one more than there are separators, and made of its characters *)
Lemma split_on_nonempty sep s : split_on sep s <> [].
Proof. destruct s as [|c r]; cbn; [discriminate|]. destruct (N.eqb c sep); [discriminate|]. destruct (split_on sep r); discriminate. Qed.
Lemma split_on_cons sep c r : N.eqb c sep = false ->
  exists l ls, split_on sep r = l :: ls /\ split_on sep (c :: r) = (c :: l) :: ls.
Proof.
  intros E. cbn [split_on]. rewrite E. destruct (split_on sep r) as [|l ls] eqn:Er; [destruct (split_on_nonempty _ _ Er)|].
  exists l, ls. split; reflexivity.
Qed.
Lemma split_on_length sep s : length (split_on sep s) = S (length (filter (fun c => N.eqb c sep) s)).
Proof.
  induction s as [|c s IH]; [reflexivity|]. cbn [filter split_on]. destruct (N.eqb c sep); cbn [length]; [now rewrite IH|].
  destruct (split_on sep s); [discriminate IH|exact IH].
Qed.
Lemma split_no_sep sep c : ~ In sep c -> split_on sep c = [c].
Proof.
  induction c as [|x c IH]; [reflexivity|]. intros H. cbn [split_on]. destruct (N.eqb_spec x sep) as [->|_]; [exfalso; apply H; left; reflexivity|].
  rewrite IH; [reflexivity|]. intros Hin. apply H. right. exact Hin.
Qed.
Lemma split_on_P (P : N -> Prop) sep s : Forall P s -> Forall (Forall P) (split_on sep s).
Proof.
  induction 1 as [|c s Hc Hs IH]; cbn [split_on]; [repeat constructor|]. destruct (N.eqb c sep); [constructor; [constructor|exact IH]|].
  destruct (split_on sep s) as [|l ls]; [repeat constructor; exact Hc|]. inversion IH; subst. constructor; [constructor; assumption|assumption].
Qed.
Lemma join_with_P (P : N -> Prop) sep l : P sep -> Forall (Forall P) l -> Forall P (join_with sep l).
Proof.
  intros Hs. induction 1 as [|x r Hx Hr IH]; [constructor|]. cbn [join_with]. destruct r as [|y r]; [exact Hx|].
  apply Forall_app. split; [exact Hx|]. constructor; assumption.
Qed.
Lemma join_with_cons sep x r : join_with sep (x :: r) = x ++ flat_map (fun y => sep :: y) r.
Proof.
  revert x. induction r as [|y r IH]; intros x; [cbn [join_with flat_map]; now rewrite app_nil_r|].
  change (join_with sep (x :: y :: r)) with (x ++ sep :: join_with sep (y :: r)). rewrite (IH y). reflexivity.
Qed.

Definition raw_text (t : tag) : str := match t with Tag raw _ _ => raw end.
(* the scanner is lossless: the pieces, in order, are the message *)
Definition content (st : lexst) : str :=
  flat_map (fun sg => fst sg ++ raw_text (snd sg)) (l_done st) ++ l_cur st ++ raw_of (l_cand st).
Lemma lex_step_content st c : content (lex_step st c) = content st ++ [c].
Proof.
  unfold lex_step, content.
  destruct (N.eqb_spec c LT) as [->|Hlt]; cbn [l_done l_cur l_cand raw_of].
  { now rewrite <- ?app_assoc, ?app_nil_r. }
  destruct (l_cand st) as [| | |cl nm] eqn:Ek; cbn [l_done l_cur l_cand raw_of].
  - now rewrite <- ?app_assoc, ?app_nil_r.
  - destruct (N.eqb_spec c SLASH) as [->|]; cbn [l_done l_cur l_cand raw_of]; [now rewrite <- ?app_assoc|].
    destruct (tag_start c); cbn [l_done l_cur l_cand raw_of app]; now rewrite <- ?app_assoc, ?app_nil_r.
  - destruct (N.eqb_spec c GT) as [->|]; cbn [l_done l_cur l_cand raw_of].
    + rewrite flat_map_app. cbn [flat_map fst snd raw_text]. now rewrite <- ?app_assoc, ?app_nil_r.
    + destruct (tag_start c); cbn [l_done l_cur l_cand raw_of app]; now rewrite <- ?app_assoc, ?app_nil_r.
  - destruct (N.eqb_spec c GT) as [->|]; cbn [l_done l_cur l_cand raw_of].
    + rewrite flat_map_app. cbn [flat_map fst snd raw_text]. now rewrite <- ?app_assoc, ?app_nil_r.
    + destruct (tag_char c); cbn [l_done l_cur l_cand raw_of app]; rewrite <- ?app_assoc, ?app_nil_r; cbn [app]; now rewrite <- ?app_assoc.
Qed.
Lemma lex_lossless m : flat_map (fun sg => fst sg ++ raw_text (snd sg)) (fst (lex m)) ++ snd (lex m) = m.
Proof.
  unfold lex, lex_end. cbn [fst snd].
  assert (forall st, content (fold_left lex_step m st) = content st ++ m) as H.
  { induction m as [|c r IH]; intros st; cbn [fold_left]; [now rewrite app_nil_r|]. rewrite IH, lex_step_content, <- app_assoc. reflexivity. }
  specialize (H lex_init). unfold content in H at 1. rewrite H. reflexivity.
Qed.

(* hence whatever holds of every character of the message holds of every character of its pieces *)
Definition tagP (P : N -> Prop) (t : tag) : Prop := match t with Tag raw _ _ => Forall P raw end.
Definition segP (P : N -> Prop) (sg : str * tag) : Prop := Forall P (fst sg) /\ tagP P (snd sg).
Lemma lex_P (P : N -> Prop) m : Forall P m -> Forall (segP P) (fst (lex m)) /\ Forall P (snd (lex m)).
Proof.
  intros H. rewrite <- (lex_lossless m) in H. apply Forall_app in H as [H1 H2]. split; [|exact H2].
  apply Forall_flat_map in H1. eapply Forall_impl; [|exact H1].
  intros [pre [raw cl nm]] Hx. apply Forall_app in Hx. exact Hx.
Qed.

Lemma lastchar_P (P : N -> Prop) (l : str) : Forall P l -> Forall P (match rev l with c :: _ => [c] | [] => [] end).
Proof.
  intros H. destruct (rev l) as [|c r] eqn:E; [constructor|]. constructor; [|constructor].
  rewrite Forall_forall in H. apply H, in_rev. rewrite E. left. reflexivity.
Qed.
Lemma removelast_lastchar (l : str) : removelast l ++ (match rev l with c :: _ => [c] | [] => [] end) = l.
Proof.
  destruct l as [|x l] using rev_ind; [reflexivity|]. rewrite removelast_last, rev_app_distr. reflexivity.
Qed.

Lemma tag_start_not c : tag_start c = true -> c <> LT /\ c <> SLASH /\ c <> GT.
Proof. intros H. repeat split; intros ->; vm_compute in H; discriminate. Qed.
Lemma tag_char_not c : tag_char c = true -> c <> LT /\ c <> GT.
Proof. intros H. repeat split; intros ->; vm_compute in H; discriminate. Qed.
Definition tag_name (nm : str) : Prop :=
  match nm with c :: r => tag_start c = true /\ Forall (fun x => tag_char x = true) r | [] => False end.
Definition no_lt (t : str) : Prop := Forall (fun c => c <> LT) t.
Lemma unescape_no_lt s : no_lt s -> unescape s = s.
Proof.
  induction 1 as [|c s Hc Hs IH]; [reflexivity|]. cbn [unescape]. destruct s as [|d s']; [reflexivity|].
  inversion Hs as [|? ? Hd _]; subst. destruct (N.eqb_spec d LT); [contradiction|]. rewrite Bool.andb_false_r. now rewrite IH.
Qed.

Lemma lex_text t : no_lt t -> forall done cur,
  fold_left lex_step t {| l_done := done; l_cur := cur; l_cand := CText |} = {| l_done := done; l_cur := cur ++ t; l_cand := CText |}.
Proof.
  induction 1 as [|c t Hc Ht IH]; intros done cur; cbn [fold_left]; [now rewrite app_nil_r|].
  unfold lex_step at 2. cbn [l_done l_cur l_cand raw_of]. destruct (N.eqb_spec c LT); [contradiction|].
  rewrite IH. cbn [app]. now rewrite <- app_assoc.
Qed.
Lemma lex_name_chars r : Forall (fun x => tag_char x = true) r -> forall done cur cl nm,
  fold_left lex_step r {| l_done := done; l_cur := cur; l_cand := CName cl nm |}
  = {| l_done := done; l_cur := cur; l_cand := CName cl (nm ++ r) |}.
Proof.
  induction 1 as [|c r Hc Hr IH]; intros done cur cl nm; cbn [fold_left]; [now rewrite app_nil_r|].
  unfold lex_step at 2. cbn [l_done l_cur l_cand]. destruct (tag_char_not c Hc) as [H1 H2].
  destruct (N.eqb_spec c LT); [contradiction|]. destruct (N.eqb_spec c GT); [contradiction|]. rewrite Hc.
  rewrite IH, <- app_assoc. reflexivity.
Qed.
Lemma step_text_lt done cur :
  lex_step {| l_done := done; l_cur := cur; l_cand := CText |} LT = {| l_done := done; l_cur := cur; l_cand := COpen |}.
Proof. unfold lex_step. cbn. now rewrite app_nil_r. Qed.
Lemma step_open_slash done cur :
  lex_step {| l_done := done; l_cur := cur; l_cand := COpen |} SLASH = {| l_done := done; l_cur := cur; l_cand := CSlash |}.
Proof. reflexivity. Qed.
(* the first character of a name, behind "<" (cl = false) or "</" (cl = true) *)
Lemma step_start (cl : bool) done cur c : tag_start c = true ->
  lex_step {| l_done := done; l_cur := cur; l_cand := if cl then CSlash else COpen |} c
  = {| l_done := done; l_cur := cur; l_cand := CName cl [c] |}.
Proof.
  intros Hc. destruct (tag_start_not c Hc) as (H1 & H2 & H3). unfold lex_step. destruct cl; cbn [l_done l_cur l_cand];
    destruct (N.eqb_spec c LT); try contradiction; [destruct (N.eqb_spec c GT)|destruct (N.eqb_spec c SLASH)]; try contradiction;
    now rewrite Hc.
Qed.
Lemma step_name_gt done cur cl nm :
  lex_step {| l_done := done; l_cur := cur; l_cand := CName cl nm |} GT
  = {| l_done := done ++ [(cur, Tag (raw_of (CName cl nm) ++ [GT]) cl nm)]; l_cur := []; l_cand := CText |}.
Proof. reflexivity. Qed.

Lemma lex_tag (cl : bool) nm : tag_name nm -> forall done cur,
  fold_left lex_step (LT :: (if cl then [SLASH] else []) ++ nm ++ [GT]) {| l_done := done; l_cur := cur; l_cand := CText |}
  = {| l_done := done ++ [(cur, Tag (LT :: (if cl then [SLASH] else []) ++ nm ++ [GT]) cl nm)]; l_cur := []; l_cand := CText |}.
Proof.
  destruct nm as [|c r]; [contradiction|]. cbn [tag_name]. intros [Hc Hr] done cur.
  cbn [fold_left]. rewrite step_text_lt.
  assert (fold_left lex_step ((if cl then [SLASH] else []) ++ [c]) {| l_done := done; l_cur := cur; l_cand := COpen |}
          = {| l_done := done; l_cur := cur; l_cand := CName cl [c] |}) as E.
  { destruct cl; cbn [app fold_left]; [rewrite step_open_slash; exact (step_start true done cur c Hc)|exact (step_start false done cur c Hc)]. }
  change (c :: r) with ([c] ++ r). rewrite <- app_assoc, app_assoc, fold_left_app, E, fold_left_app, (lex_name_chars r Hr).
  cbn [fold_left]. rewrite step_name_gt. cbn [raw_of app]. now rewrite <- !app_assoc.
Qed.

Definition open_tag (nm : str) : str := LT :: nm ++ [GT].
Definition close_tag (nm : str) : str := LT :: SLASH :: nm ++ [GT].
Lemma lex_wrapped nm text : tag_name nm -> no_lt text ->
  lex (open_tag nm ++ text ++ close_tag nm)
  = ([([], Tag (open_tag nm) false nm); (text, Tag (close_tag nm) true nm)], []).
Proof.
  intros Hn Ht. unfold lex, lex_init. rewrite !fold_left_app.
  pose proof (lex_tag false nm Hn [] []) as H1. cbn [app] in H1. unfold open_tag. rewrite H1.
  rewrite (lex_text text Ht). pose proof (lex_tag true nm Hn) as H2. cbn [app] in H2. unfold close_tag. rewrite H2.
  reflexivity.
Qed.
(* a text without tags *)
Lemma lex_no_tag text : no_lt text -> lex text = ([], text).
Proof. intros Ht. unfold lex, lex_init. rewrite (lex_text text Ht). unfold lex_end. cbn. now rewrite app_nil_r. Qed.

(* o2 is o1 without its SGR sequences, and o1 leaves none unfinished *)
Definition strips (o1 o2 : str) : Prop := fold_left strip_step o1 ([], GNone) = (o2, GNone).

Lemma strip_step_out out g c :
  strip_step (out, g) c = (out ++ fst (strip_step ([], g) c), snd (strip_step ([], g) c)).
Proof.
  unfold strip_step. destruct g as [| |p]; cbn [pending_of app fst snd].
  - destruct (N.eqb c ESC); cbn; now rewrite ?app_nil_r.
  - destruct (N.eqb c 91); [cbn; now rewrite app_nil_r|]. destruct (N.eqb c ESC); cbn; reflexivity.
  - destruct (is_digit c || N.eqb c SEMI); [cbn; now rewrite app_nil_r|].
    destruct (N.eqb c 109); [cbn; now rewrite app_nil_r|]. destruct (N.eqb c ESC); cbn; reflexivity.
Qed.
Lemma strip_fold_out s : forall out g,
  fold_left strip_step s (out, g) = (out ++ fst (fold_left strip_step s ([], g)), snd (fold_left strip_step s ([], g))).
Proof.
  induction s as [|c s IH]; intros out g; cbn [fold_left]; [cbn; now rewrite app_nil_r|].
  rewrite strip_step_out. destruct (strip_step ([], g) c) as [d g']. cbn [fst snd].
  rewrite IH. rewrite (IH d). cbn [fst snd]. now rewrite app_assoc.
Qed.
Lemma strips_app a a' b b' : strips a a' -> strips b b' -> strips (a ++ b) (a' ++ b').
Proof.
  unfold strips. intros Ha Hb. rewrite fold_left_app, Ha, strip_fold_out, Hb. reflexivity.
Qed.
Lemma strips_nil : strips [] []. Proof. reflexivity. Qed.
Definition no_esc (s : str) : Prop := Forall (fun c => c <> ESC) s.
Lemma strips_text t : no_esc t -> strips t t.
Proof.
  induction 1 as [|c t Hc Ht IH]; [reflexivity|].
  change (c :: t) with ([c] ++ t). apply (strips_app [c] [c] t t); [|exact IH].
  unfold strips. cbn. destruct (N.eqb_spec c ESC); [contradiction|reflexivity].
Qed.
Lemma strips_sgr_strip o1 o2 : strips o1 o2 -> strip_sgr o1 = o2.
Proof. unfold strips, strip_sgr, strip_end. intros ->. cbn. apply app_nil_r. Qed.
(* removing SGR sequences acts line by line: a line break ends every sequence begun *)
Lemma strip_step_nl out g : strip_step (out, g) NL = (out ++ pending_of g ++ [NL], GNone).
Proof. destruct g; reflexivity. Qed.
Lemma strip_sgr_nl a b : strip_sgr (a ++ NL :: b) = strip_sgr a ++ NL :: strip_sgr b.
Proof.
  unfold strip_sgr, strip_end. rewrite fold_left_app. cbn [fold_left].
  destruct (fold_left strip_step a ([], GNone)) as [oa ga]. rewrite strip_step_nl, strip_fold_out. cbn [fst snd].
  now rewrite <- !app_assoc.
Qed.
Lemma strip_step_P (P : N -> Prop) out g c : P c -> Forall P out -> Forall P (pending_of g) ->
  Forall P (fst (strip_step (out, g) c)) /\ Forall P (pending_of (snd (strip_step (out, g) c))).
Proof.
  intros Hc Ho Hg. assert (Hc1 : Forall P [c]) by (constructor; [exact Hc|constructor]).
  assert (Hflush : Forall P (fst (if N.eqb c ESC then (out ++ pending_of g, GEsc) else (out ++ pending_of g ++ [c], GNone)))
                   /\ Forall P (pending_of (snd (if N.eqb c ESC then (out ++ pending_of g, GEsc) else (out ++ pending_of g ++ [c], GNone))))).
  { destruct (N.eqb_spec c ESC) as [->|]; cbn [fst snd pending_of]; split; auto; repeat (apply Forall_app; split); auto. }
  unfold strip_step. destruct g as [| |p]; [exact Hflush| |].
  - destruct (N.eqb_spec c 91) as [->|]; [|exact Hflush]. cbn [fst snd pending_of] in *. split; [exact Ho|].
    inversion Hg; subst. constructor; [assumption|exact Hc1].
  - destruct (is_digit c || N.eqb c SEMI).
    + cbn [fst snd pending_of] in *. split; [exact Ho|]. inversion Hg as [|? ? H1 H2]; subst. inversion H2; subst.
      constructor; [assumption|]. constructor; [assumption|]. apply Forall_app. split; assumption.
    + destruct (N.eqb c 109); [cbn [fst snd pending_of]; split; [exact Ho|constructor]|exact Hflush].
Qed.
Lemma strip_sgr_P (P : N -> Prop) s : Forall P s -> Forall P (strip_sgr s).
Proof.
  intros Hs. unfold strip_sgr, strip_end.
  assert (H : forall acc, Forall P (fst acc) -> Forall P (pending_of (snd acc)) ->
            Forall P (fst (fold_left strip_step s acc)) /\ Forall P (pending_of (snd (fold_left strip_step s acc)))).
  { induction Hs as [|c s Hc Hs IH]; intros [out g] H1 H2; cbn [fold_left]; [auto|].
    destruct (strip_step_P P out g c Hc H1 H2) as [H3 H4]. apply IH; assumption. }
  destruct (H ([], GNone)) as [H1 H2]; [constructor|constructor|]. apply Forall_app. auto.
Qed.
Lemma strip_sgr_join : forall ls, strip_sgr (join_with NL ls) = join_with NL (map strip_sgr ls).
Proof.
  induction ls as [|l ls IH]; [reflexivity|]. destruct ls as [|l2 ls]; [reflexivity|].
  change (join_with NL (l :: l2 :: ls)) with (l ++ NL :: join_with NL (l2 :: ls)). rewrite strip_sgr_nl, IH. reflexivity.
Qed.

Definition param_char (c : N) : Prop := is_digit c || N.eqb c SEMI = true.
Lemma params_fold p : Forall param_char p -> forall q, fold_left strip_step p ([], GParams q) = ([], GParams (q ++ p)).
Proof.
  induction 1 as [|c p Hc Hp IH]; intros q; cbn [fold_left]; [now rewrite app_nil_r|].
  unfold strip_step at 2. unfold param_char in Hc. rewrite Hc. rewrite IH, <- app_assoc. reflexivity.
Qed.
Lemma chars_of_uint_digits u : Forall param_char (chars_of_uint u).
Proof. induction u; cbn [chars_of_uint]; constructor; auto; reflexivity. Qed.
Lemma dec_text_digits (c : N) : Forall param_char (dec_text (Z.of_N c)).
Proof. unfold dec_text. destruct c as [|p]; cbn; [repeat constructor|apply chars_of_uint_digits]. Qed.
Lemma join_params (l : list N) : Forall param_char (join_with SEMI (map (fun c => dec_text (Z.of_N c)) l)).
Proof.
  induction l as [|c l IH]; cbn [map join_with]; [constructor|].
  destruct l as [|d l]; [apply dec_text_digits|].
  apply Forall_app. split; [apply dec_text_digits|]. constructor; [reflexivity|exact IH].
Qed.
Lemma strips_open codes : strips (sgr_open codes) [].
Proof.
  unfold strips, sgr_open. cbn [fold_left]. change (strip_step ([], GNone) ESC) with (@nil N, GEsc).
  change (strip_step ([], GEsc) 91%N) with (@nil N, GParams []).
  rewrite fold_left_app, (params_fold _ (join_params codes)). cbn. reflexivity.
Qed.
Lemma strips_close : strips sgr_close []. Proof. reflexivity. Qed.
Lemma strips_wrap codes t : no_esc t -> strips (sgr_wrap codes t) t.
Proof.
  intros Ht. unfold sgr_wrap. destruct codes as [|c l]; [apply strips_text, Ht|].
  replace t with ([] ++ t ++ []) at 2 by (cbn; now rewrite app_nil_r).
  apply strips_app; [apply strips_open|]. apply strips_app; [apply strips_text, Ht|apply strips_close].
Qed.

Definition no_bsl (s : str) : Prop := Forall (fun c => c <> BSL) s.
Definition good (c : N) : Prop := c <> ESC /\ c <> BSL.
Lemma good_no_esc s : Forall good s -> no_esc s. Proof. intros H. eapply Forall_impl; [|exact H]. intros c [? ?]; auto. Qed.
Lemma good_no_bsl s : Forall good s -> no_bsl s. Proof. intros H. eapply Forall_impl; [|exact H]. intros c [? ?]; auto. Qed.

Lemma ends_app a b : ends_with_bsl (a ++ b) = match b with [] => ends_with_bsl a | _ => ends_with_bsl b end.
Proof.
  destruct b as [|c b]; [now rewrite app_nil_r|]. unfold ends_with_bsl. rewrite rev_app_distr.
  destruct (rev (c :: b)) as [|e r] eqn:E; [|reflexivity].
  apply (f_equal (@rev N)) in E. rewrite rev_involutive in E. discriminate.
Qed.
Lemma ends_cons c x : x <> [] -> ends_with_bsl (c :: x) = ends_with_bsl x.
Proof. intros Hx. change (c :: x) with ([c] ++ x). rewrite ends_app. destruct x; [contradiction|reflexivity]. Qed.
Lemma ends_snoc x c : ends_with_bsl (x ++ [c]) = N.eqb c BSL.
Proof. now rewrite ends_app. Qed.
Lemma ends_app_false a b : ends_with_bsl a = false -> ends_with_bsl b = false -> ends_with_bsl (a ++ b) = false.
Proof. intros Ha Hb. rewrite ends_app. destruct b; assumption. Qed.
Lemma no_bsl_ends s : no_bsl s -> ends_with_bsl s = false.
Proof.
  intros H. destruct s as [|c s] using rev_ind; [reflexivity|]. rewrite ends_snoc.
  apply Forall_app in H as [_ H]. inversion H; subst. now apply N.eqb_neq.
Qed.
Lemma escaped_false (first : bool) (pre : str) : no_bsl pre ->
  (match pre with [] => first && false | _ :: _ => ends_with_bsl pre end) = false.
Proof. intros H. destruct pre; [apply Bool.andb_false_r|apply no_bsl_ends, H]. Qed.

Lemma unescape_cons2 c d r :
  unescape (c :: d :: r) = if N.eqb c BSL && N.eqb d LT then LT :: unescape r else c :: unescape (d :: r).
Proof. reflexivity. Qed.
Lemma unescape_head c r : c <> BSL -> unescape (c :: r) = c :: unescape r.
Proof.
  intros Hc. destruct r as [|d r]; [reflexivity|]. rewrite unescape_cons2.
  destruct (N.eqb_spec c BSL); [contradiction|reflexivity].
Qed.
Lemma unescape_id s : no_bsl s -> unescape s = s.
Proof. induction 1 as [|c s Hc Hs IH]; [reflexivity|]. now rewrite (unescape_head c s Hc), IH. Qed.
Lemma unescape_P (P : N -> Prop) : forall s, Forall P s -> Forall P (unescape s).
Proof.
  induction s as [|c|c d r IHr IHd] using list_ind2; intros H; [constructor|exact H|].
  rewrite unescape_cons2. inversion H as [|? ? Hc Hdr]; subst. inversion Hdr as [|? ? Hd Hr]; subst.
  destruct (N.eqb_spec c BSL), (N.eqb_spec d LT); subst; cbn [andb]; constructor; auto.
Qed.
(* unescape over a concatenation: the only interaction is a backslash at the end of the left part before a '<' at the
   start of the right part *)
Lemma unescape_app_l : forall a b, ends_with_bsl a = false -> unescape (a ++ b) = unescape a ++ unescape b.
Proof.
  induction a as [|c|c d r IHr IHd] using list_ind2; intros b Ha; [reflexivity| |].
  - cbn [app]. rewrite unescape_head; [reflexivity|]. intros ->. discriminate.
  - rewrite ends_cons in Ha by discriminate. cbn [app]. rewrite !unescape_cons2.
    destruct (N.eqb c BSL && N.eqb d LT) eqn:E.
    + cbn [app]. f_equal. apply IHr. destruct r as [|e r']; [reflexivity|]. rewrite ends_cons in Ha by discriminate. exact Ha.
    + cbn [app]. f_equal. apply (IHd b Ha).
Qed.
Definition no_lt_start (b : str) : Prop := match b with c :: _ => c <> LT | [] => True end.
Lemma unescape_app_r : forall a b, no_lt_start b -> unescape (a ++ b) = unescape a ++ unescape b.
Proof.
  induction a as [|c|c d r IHr IHd] using list_ind2; intros b Hb; [reflexivity| |].
  - cbn [app]. destruct b as [|d b]; [reflexivity|]. cbn [no_lt_start] in Hb. rewrite unescape_cons2.
    destruct (N.eqb_spec d LT); [contradiction|]. rewrite Bool.andb_false_r. reflexivity.
  - cbn [app]. rewrite !unescape_cons2. destruct (N.eqb c BSL && N.eqb d LT).
    + cbn [app]. f_equal. apply IHr, Hb.
    + cbn [app]. f_equal. apply (IHd b Hb).
Qed.
Lemma unescape_app a b : ends_with_bsl a = false \/ no_lt_start b -> unescape (a ++ b) = unescape a ++ unescape b.
Proof. intros [H|H]; [apply unescape_app_l|apply unescape_app_r]; exact H. Qed.

(* the SGR wrapper holds no backslash, and its closing sequence does not start with '<': it commutes with unescape *)
Lemma param_no_bsl p : Forall param_char p -> no_bsl p.
Proof.
  intros H. eapply Forall_impl; [|exact H]. intros c Hc ->. vm_compute in Hc. discriminate.
Qed.
Lemma sgr_open_no_bsl codes : no_bsl (sgr_open codes).
Proof.
  unfold sgr_open, no_bsl. constructor; [discriminate|]. constructor; [discriminate|].
  apply Forall_app; split; [apply param_no_bsl, join_params|]. constructor; [discriminate|constructor].
Qed.
Lemma sgr_wrap_no_bsl codes t : no_bsl t -> no_bsl (sgr_wrap codes t).
Proof.
  intros Ht. unfold sgr_wrap. destruct codes as [|c l]; [exact Ht|].
  apply Forall_app; split; [apply sgr_open_no_bsl|]. apply Forall_app; split; [exact Ht|]. repeat constructor; discriminate.
Qed.
Lemma unescape_wrap codes x : unescape (sgr_wrap codes x) = sgr_wrap codes (unescape x).
Proof.
  unfold sgr_wrap. destruct codes as [|c l]; [reflexivity|].
  rewrite (unescape_app_l _ _ (no_bsl_ends _ (sgr_open_no_bsl (c :: l)))), (unescape_id _ (sgr_open_no_bsl (c :: l))).
  rewrite unescape_app_r; [reflexivity|]. cbn. discriminate.
Qed.
Lemma sgr_wrap_ends codes x : ends_with_bsl x = false -> ends_with_bsl (sgr_wrap codes x) = false.
Proof. intros Hx. unfold sgr_wrap. destruct codes as [|c l]; [exact Hx|]. now rewrite app_assoc, ends_app. Qed.

(* a span: the SGR codes in force and a text.  Decorated, each non-empty text is wrapped in its codes; undecorated, the
   texts are written as they are *)
Definition span : Type := (list N * str)%type.
Definition dec_span (x : span) : str := match snd x with [] => [] | _ => sgr_wrap (fst x) (snd x) end.
Definition dec (ps : list span) : str := flat_map dec_span ps.
Definition und (ps : list span) : str := flat_map (@snd (list N) str) ps.
Definition spans_out (colored : bool) (ps : list span) : str := if colored then dec ps else und ps.
Lemma dec_app a b : dec (a ++ b) = dec a ++ dec b. Proof. apply flat_map_app. Qed.
Lemma und_app a b : und (a ++ b) = und a ++ und b. Proof. apply flat_map_app. Qed.
Lemma spans_out_app col a b : spans_out col (a ++ b) = spans_out col a ++ spans_out col b.
Proof. destruct col; [apply dec_app|apply und_app]. Qed.
Lemma apply_cur_false sk t : apply_cur false sk t = t.
Proof. destruct t; reflexivity. Qed.
Lemma apply_cur_span col sk x : apply_cur col sk x = spans_out col [(codes_of (current sk), x)].
Proof. destruct col, x; cbn [spans_out dec und flat_map dec_span fst snd apply_cur]; now rewrite app_nil_r. Qed.

(* a message without '<' is written as it is, in both modes *)
Lemma colorize_no_lt sty colored sk m : no_lt m -> colorize sty colored sk m = Ok (sk, m).
Proof. intros H. unfold colorize. rewrite (lex_no_tag m H), (unescape_no_lt m H). reflexivity. Qed.

(* the tag-stripped text: every recognised tag removed, everything else kept *)
Definition recognised (sty : styles) (t : tag) : bool :=
  match t with Tag _ cl nm =>
    (cl && match nm with [] => true | _ => false end) ||
    match resolve sty (py_lower nm) with Ok (Some _) => true | _ => false end
  end.
Definition strip_tags (sty : styles) (m : str) : str :=
  flat_map (fun sg => fst sg ++ (if recognised sty (snd sg) then [] else raw_text (snd sg))) (fst (lex m)) ++ snd (lex m).

(* one tag: stack and failure do not depend on the mode; the tag itself is written, in the style in force, when it is
   escaped or not recognised *)
Lemma do_tag_col sty col e t sk :
  do_tag sty col e t sk = do x <- do_tag sty false e t sk; Ok (fst x, apply_cur col sk (snd x)).
Proof.
  destruct t as [raw cl nm]. unfold do_tag. destruct e; [cbn [bind fst snd]; now rewrite apply_cur_false|].
  destruct (cl && _); [reflexivity|].
  destruct (resolve sty (py_lower nm)) as [[st|]|k]; cbn [bind fst snd]; [|now rewrite apply_cur_false|reflexivity].
  destruct cl; [|reflexivity]. destruct (pop_style st sk); reflexivity.
Qed.
Lemma do_tag_plain sty e t sk sk' o :
  do_tag sty false e t sk = Ok (sk', o) -> o = if e || negb (recognised sty t) then raw_text t else [].
Proof.
  destruct t as [raw cl nm]. unfold do_tag, recognised, raw_text. destruct e; cbn [orb].
  { intros H. injection H as _ <-. apply apply_cur_false. }
  destruct (cl && match nm with [] => true | _ => false end); cbn [orb negb].
  { intros H. injection H as _ <-. reflexivity. }
  destruct (resolve sty (py_lower nm)) as [[st|]|k]; cbn [bind negb]; [| |discriminate].
  - destruct cl.
    + destruct (pop_style st sk); cbn [bind]; [|discriminate]. intros H. injection H as _ <-. reflexivity.
    + intros H. injection H as _ <-. reflexivity.
  - intros H. injection H as _ <-. apply apply_cur_false.
Qed.

(* the run over the tags without its output: the stack, the spans written, the flag *)
Fixpoint segs_spans (sty : styles) (a0 first : bool) (segs : list (str * tag)) (sk : stack) (le : bool)
  : res (stack * list span * bool) :=
  match segs with
  | [] => Ok (sk, [], le)
  | (pre, t) :: r =>
    let escaped := match pre with [] => first && a0 | _ => ends_with_bsl pre end in
    do x <- do_tag sty false escaped t sk;
    do y <- segs_spans sty a0 false r (fst x) escaped;
    Ok (fst (fst y), (codes_of (current sk), pre) :: (codes_of (current sk), snd x) :: snd (fst y), snd y)
  end.
Lemma run_segs_spans sty col a0 : forall segs sk out first le,
  run_segs sty col a0 first segs sk out le
  = do y <- segs_spans sty a0 first segs sk le; Ok (fst (fst y), out ++ spans_out col (snd (fst y)), snd y).
Proof.
  induction segs as [|[pre t] r IH]; intros sk out first le; cbn [run_segs segs_spans bind fst snd]; [destruct col; cbn [spans_out dec und flat_map]; now rewrite app_nil_r|].
  rewrite do_tag_col. destruct (do_tag sty false _ t sk) as [[sk1 o]|k]; cbn [bind fst snd]; [|reflexivity].
  rewrite IH. destruct (segs_spans sty a0 false r sk1 _) as [[[sk2 ps] le2]|k]; cbn [bind fst snd]; [|reflexivity].
  rewrite !apply_cur_span, <- !spans_out_app, <- app_assoc, <- spans_out_app. reflexivity.
Qed.

(* the spans of a message.  Without a tag pastel returns the message as it is; otherwise the tail behind the last tag
   is written as message[offset:-1] and the last character *)
Definition tail_spans (sk : stack) (le : bool) (tail : str) : list span :=
  if le then [(codes_of (current sk), tail)]
  else [(codes_of (current sk), removelast tail); (codes_of (current sk), match rev tail with c :: _ => [c] | [] => [] end)].
Definition msg_spans (sty : styles) (sk : stack) (m : str) : res (stack * list span) :=
  match fst (lex m) with
  | [] => Ok (sk, [([], m)])
  | segs => do y <- segs_spans sty (ends_with_bsl m) true segs sk false;
            Ok (fst (fst y), snd (fst y) ++ tail_spans (fst (fst y)) (snd y) (snd (lex m)))
  end.
Lemma spans_out_nocode col m : spans_out col [([], m)] = m.
Proof. destruct col, m; cbn [spans_out dec und flat_map dec_span sgr_wrap fst snd]; now rewrite ?app_nil_r. Qed.
(* under an empty style stack the tail is written as it is, in both modes *)
Lemma spans_out_tail_empty col le t : spans_out col (tail_spans [] le t) = t.
Proof.
  assert (forall x, spans_out col [(codes_of (current []), x)] = x) as E by (intros x; rewrite <- apply_cur_span; now destruct col, x).
  unfold tail_spans. destruct le; [apply E|].
  rewrite (spans_out_app col [(_, removelast t)] [(_, _)] : spans_out col [_; _] = _), !E. apply removelast_lastchar.
Qed.
(* both renderings are read off the same spans: in particular they fail alike and leave the same stack *)
Theorem colorize_spans sty col sk m :
  colorize sty col sk m = do x <- msg_spans sty sk m; Ok (fst x, unescape (spans_out col (snd x))).
Proof.
  unfold colorize, msg_spans. destruct (lex m) as [segs tail]. cbn [fst snd]. destruct segs as [|sg segs'].
  - cbn [bind fst snd]. now rewrite spans_out_nocode.
  - rewrite run_segs_spans. destruct (segs_spans sty _ true (sg :: segs') sk false) as [[[sk' ps] le]|k]; cbn [bind fst snd app]; [|reflexivity].
    rewrite spans_out_app. unfold tail_spans. destruct le; rewrite !apply_cur_span, <- ?spans_out_app; reflexivity.
Qed.

(* what holds of the texts between the tags and of the tags holds of every span *)
Lemma segs_spans_Q (Q : str -> Prop) sty a0 : Q [] -> forall segs first sk le y,
  Forall (fun sg => Q (fst sg) /\ Q (raw_text (snd sg))) segs -> segs_spans sty a0 first segs sk le = Ok y ->
  Forall (fun x : span => Q (snd x)) (snd (fst y)).
Proof.
  intros Q0. induction segs as [|[pre t] r IH]; intros first sk le y Hs H; cbn [segs_spans] in H.
  - injection H as <-. constructor.
  - inversion Hs as [|? ? [Hp Hr] Hs']; subst. bind_inv H x Hx. bind_inv H z Hz. injection H as <-. destruct x as [sk1 o].
    cbn [fst snd] in *. constructor; [exact Hp|]. constructor; [|exact (IH _ _ _ _ Hs' Hz)].
    cbn [snd]. rewrite (do_tag_plain _ _ _ _ _ _ Hx). destruct (_ || _); assumption.
Qed.
Lemma msg_spans_P (P : N -> Prop) sty sk m x :
  Forall P m -> msg_spans sty sk m = Ok x -> Forall (fun s : span => Forall P (snd s)) (snd x).
Proof.
  intros Hm H. destruct (lex_P P m Hm) as [Hs Ht]. unfold msg_spans in H. destruct (fst (lex m)) as [|sg segs'] eqn:E.
  - injection H as <-. repeat constructor. exact Hm.
  - rewrite <- E in *. bind_inv H y Hy. injection H as <-. cbn [snd]. apply Forall_app; split.
    + apply (segs_spans_Q (Forall P) _ _ (Forall_nil P) _ _ _ _ _) with (2 := Hy).
      eapply Forall_impl; [|exact Hs]. intros [pre [raw cl nm]] Hx. exact Hx.
    + unfold tail_spans. destruct (snd y); repeat constructor; cbn [snd]; [exact Ht|apply removelast_P, Ht|apply lastchar_P, Ht].
Qed.

(* the undecorated output consists of characters of the message *)
Lemma colorize_plain_P (P : N -> Prop) sty sk m sk' out : Forall P m -> colorize sty false sk m = Ok (sk', out) -> Forall P out.
Proof.
  intros Hm. rewrite colorize_spans. intros H. bind_inv H x Hx. injection H as _ <-.
  apply unescape_P, Forall_flat_map, (msg_spans_P _ _ _ _ _ Hm Hx).
Qed.

(* two outputs in lockstep: neither ends with a backslash, and after unescape they differ by SGR sequences only *)
Definition lock (o1 o2 : str) : Prop :=
  ends_with_bsl o1 = false /\ ends_with_bsl o2 = false /\ strips (unescape o1) (unescape o2).
Lemma lock_nil : lock [] []. Proof. repeat split. Qed.
Lemma lock_app a a' b b' : lock a a' -> lock b b' -> lock (a ++ b) (a' ++ b').
Proof.
  intros (A1 & A2 & A3) (B1 & B2 & B3). repeat split; [now apply ends_app_false ..|].
  rewrite (unescape_app_l a _ A1), (unescape_app_l a' _ A2). now apply strips_app.
Qed.
(* a text that may hold backslashes but does not end with one, and holds no ESC: the span is in lockstep with it *)
Definition fine (s : str) : Prop := no_esc s /\ ends_with_bsl s = false.
Lemma good_fine s : Forall good s -> fine s.
Proof. intros H. split; [apply good_no_esc, H|apply no_bsl_ends, good_no_bsl, H]. Qed.
Lemma lock_dec ps : Forall (fun x : span => fine (snd x)) ps -> lock (dec ps) (und ps).
Proof.
  induction 1 as [|[cs x] ps [Hx Ex] _ IH]; [exact lock_nil|]. apply (lock_app (dec_span (cs, x)) x); [|exact IH].
  unfold dec_span. cbn [fst snd] in *. destruct x as [|c x']; [exact lock_nil|]. split; [apply sgr_wrap_ends, Ex|]. split; [exact Ex|].
  rewrite unescape_wrap. apply strips_wrap, unescape_P, Hx.
Qed.

(* without the position-0 rule and with no text before a tag ending in a backslash no tag is escaped: the undecorated
   text is the message with exactly its recognised tags removed *)
Lemma segs_spans_unescaped sty : forall segs first sk le y, Forall (fun sg => ends_with_bsl (fst sg) = false) segs ->
  segs_spans sty false first segs sk le = Ok y ->
  snd y = match segs with [] => le | _ => false end /\
  und (snd (fst y)) = flat_map (fun sg => fst sg ++ (if recognised sty (snd sg) then [] else raw_text (snd sg))) segs.
Proof.
  induction segs as [|[pre t] r IH]; intros first sk le y Hs H; cbn [segs_spans] in H; [injection H as <-; now split|].
  inversion Hs as [|? ? Hp Hr]; subst. cbn [fst] in Hp.
  assert ((match pre with [] => first && false | _ :: _ => ends_with_bsl pre end) = false) as E
    by (destruct pre; [apply Bool.andb_false_r|exact Hp]).
  rewrite E in H. bind_inv H x Hx. bind_inv H z Hz. injection H as <-. destruct x as [sk1 o].
  apply do_tag_plain in Hx. destruct (IH _ _ _ _ Hr Hz) as [F U]. cbn [fst snd orb] in *. split; [rewrite F; now destruct r|].
  unfold und. cbn [flat_map fst snd]. fold (und (snd (fst z))). rewrite U, Hx.
  destruct (recognised sty t); cbn [negb]; now rewrite <- app_assoc.
Qed.
Theorem colorize_plain_strip_tags sty sk m sk' out :
  no_bsl m -> colorize sty false sk m = Ok (sk', out) -> out = strip_tags sty m.
Proof.
  intros Hm. rewrite colorize_spans. intros H. bind_inv H x Hx. injection H as _ <-. cbn [spans_out].
  rewrite unescape_id by (apply Forall_flat_map, (msg_spans_P _ _ _ _ _ Hm Hx)).
  destruct (lex_P _ m Hm) as [Hs _]. pose proof (lex_lossless m) as HL. unfold msg_spans in Hx. unfold strip_tags.
  destruct (fst (lex m)) as [|sg segs'] eqn:E.
  - injection Hx as <-. cbn [flat_map app] in *. cbn [snd und flat_map]. now rewrite app_nil_r.
  - rewrite <- E in *. rewrite (no_bsl_ends m Hm) in Hx. bind_inv Hx y Hy. injection Hx as <-. cbn [snd]. rewrite und_app.
    apply segs_spans_unescaped in Hy as [_ ->]; [|eapply Forall_impl; [|exact Hs]; intros sg' [Hp _]; apply no_bsl_ends, Hp].
    f_equal. unfold tail_spans.
    destruct (snd y); cbn [und flat_map snd]; rewrite ?app_nil_r; [reflexivity|apply removelast_lastchar].
Qed.

Definition attr_codes (c : cstyle) : list N :=
  (if c_bold c then [1%N] else []) ++ (if c_italic c then [3%N] else []) ++ (if c_dark c then [2%N] else []) ++
  (if c_underlined c then [4%N] else []) ++ (if c_blinking c then [5%N] else []) ++ (if c_inverse c then [7%N] else []) ++
  (if c_hidden c then [8%N] else []).
(* the colour given (None / empty: no colour) and its code *)
Definition colour_code (table : str -> option N) (o : option str) (code : option N) : Prop :=
  match nonempty o with None => code = None | Some n => table n = code /\ code <> None end.
Definition opt_list (o : option N) : list N := match o with Some c => [c] | None => [] end.

Lemma set_opts_app st a b : set_opts st (a ++ b) = do st' <- set_opts st a; set_opts st' b.
Proof.
  revert st. induction a as [|n a IH]; intros st; cbn [app set_opts bind]; [reflexivity|].
  destruct (set_opt st n); cbn [bind]; [apply IH|reflexivity].
Qed.
(* one attribute: when the flag is set its code, not among the options yet, is appended *)
Lemma set_opts_flag st name code (b : bool) : opt_code name = Some code -> existsb (N.eqb code) (p_opts st) = false ->
  set_opts st (s_of name b) = Ok {| p_fg := p_fg st; p_bg := p_bg st; p_opts := p_opts st ++ (if b then [code] else []) |}.
Proof.
  intros Hc He. destruct b; cbn [s_of set_opts]; [|rewrite app_nil_r; now destruct st].
  unfold set_opt, add_opt. rewrite Hc, He. reflexivity.
Qed.
Lemma existsb_flag c (b : bool) d : N.eqb c d = false -> existsb (N.eqb c) (if b then [d] else []) = false.
Proof. intros E. destruct b; cbn [existsb]; [now rewrite E|reflexivity]. Qed.
(* the option names convert hands to pastel, set one after the other on a style without options: seven different codes *)
Definition attr_names (c : cstyle) : list str :=
  s_of ([98;111;108;100]%N) (c_bold c) ++ s_of ([105;116;97;108;105;99]%N) (c_italic c) ++ s_of ([100;97;114;107]%N) (c_dark c)
  ++ s_of ([117;110;100;101;114;108;105;110;101]%N) (c_underlined c) ++ s_of ([98;108;105;110;107]%N) (c_blinking c)
  ++ s_of ([114;101;118;101;114;115;101]%N) (c_inverse c) ++ s_of ([99;111;110;99;101;97;108]%N) (c_hidden c).
Lemma set_opts_attr f b c :
  set_opts {| p_fg := f; p_bg := b; p_opts := [] |} (attr_names c) = Ok {| p_fg := f; p_bg := b; p_opts := attr_codes c |}.
Proof.
  unfold attr_names, attr_codes.
  do 6 (rewrite set_opts_app; erewrite set_opts_flag;
        [cbn [bind p_fg p_bg p_opts]|reflexivity|cbn [p_opts app]; now rewrite ?existsb_app, ?existsb_flag by reflexivity]).
  erewrite set_opts_flag; [cbn [p_fg p_bg p_opts]|reflexivity|cbn [p_opts app]; now rewrite ?existsb_app, ?existsb_flag by reflexivity].
  now rewrite <- !app_assoc.
Qed.
Lemma convert_codes c cf cb :
  colour_code fg_code (c_fg c) cf -> colour_code bg_code (c_bg c) cb ->
  exists p, convert c = Ok p /\ codes_of p = opt_list cf ++ opt_list cb ++ attr_codes c.
Proof.
  unfold colour_code, convert, mk_pstyle. fold (attr_names c). intros Hf Hb.
  exists {| p_fg := cf; p_bg := cb; p_opts := attr_codes c |}. split; [|destruct cf, cb; reflexivity].
  destruct (nonempty (c_fg c)) as [nf|]; [destruct Hf as [Hf Hf']; destruct cf as [cf|]; [|congruence]|subst cf];
  (destruct (nonempty (c_bg c)) as [nb|]; [destruct Hb as [Hb Hb']; destruct cb as [cb|]; [|congruence]|subst cb]);
  unfold set_fg, set_bg; rewrite ?Hf, ?Hb; cbn [bind empty_style p_fg p_bg p_opts]; apply set_opts_attr.
Qed.

Lemma optN_eqb_refl a : optN_eqb a a = true. Proof. destruct a; cbn; [apply N.eqb_refl|reflexivity]. Qed.
Lemma listN_eqb_refl a : listN_eqb a a = true. Proof. induction a; cbn; [reflexivity|]. now rewrite N.eqb_refl. Qed.
Lemma pstyle_eqb_refl p : pstyle_eqb p p = true.
Proof. unfold pstyle_eqb. now rewrite !optN_eqb_refl, listN_eqb_refl. Qed.

Lemma apply_cur_nonempty sk t : t <> [] -> apply_cur true sk t = apply_style (current sk) t.
Proof. destruct t; [congruence|reflexivity]. Qed.

(* a registered style around a text: exactly the wrapper of its codes *)
Lemma colorize_wrapped sty nm text p :
  tag_name nm -> Forall good text -> no_lt text -> text <> [] ->
  resolve sty (py_lower nm) = Ok (Some p) ->
  colorize sty true [] (open_tag nm ++ text ++ close_tag nm) = Ok ([], sgr_wrap (codes_of p) text).
Proof.
  intros Hn Hg Ht Hne Hr. unfold colorize. rewrite (lex_wrapped nm text Hn Ht).
  assert (ends_with_bsl (open_tag nm ++ text ++ close_tag nm) = false) as ->.
  { unfold close_tag. change (LT :: SLASH :: nm ++ [GT]) with ((LT :: SLASH :: nm) ++ [GT]). now rewrite !app_assoc, ends_snoc. }
  assert (nm <> []) as Hnm by (destruct nm; [contradiction|discriminate]).
  cbn [run_segs andb].
  assert ((match text with [] => false | _ :: _ => ends_with_bsl text end) = false) as ->
    by (destruct text; [reflexivity|apply no_bsl_ends, good_no_bsl, Hg]).
  unfold do_tag. assert ((match nm with [] => true | _ :: _ => false end) = false) as -> by (destruct nm; [congruence|reflexivity]).
  cbn [andb]. rewrite Hr. cbn [bind fst snd app].
  unfold pop_style. cbn [app rev cut_rev]. rewrite pstyle_eqb_refl. cbn [bind fst snd rev run_segs app removelast].
  rewrite (apply_cur_nonempty [p] text Hne). unfold apply_cur at 1 2 3. cbn [app]. rewrite !app_nil_r.
  unfold current. cbn [last]. unfold apply_style.
  rewrite unescape_id; [reflexivity|]. apply sgr_wrap_no_bsl, good_no_bsl, Hg.
Qed.

Definition is_ansi (f : formatter) : Prop := match f_kind f with FAnsi _ => True | _ => False end.

(* a style passed for one call around a text without tags *)
Lemma format_percall f c p text :
  is_ansi f -> f_stack f = [] -> convert c = Ok p -> Forall good text -> no_lt text -> text <> [] ->
  exists f', format f text (Some c) = Ok (f', sgr_wrap (codes_of p) text) /\ f_stack f' = [] /\ f_styles f' = f_styles f.
Proof.
  intros Hk Hs Hc Hg Ht Hne. unfold format, is_ansi in *. destruct (f_kind f); try contradiction.
  rewrite Hc, Hs. cbn [bind app]. unfold colorize, has_tag. rewrite (lex_no_tag text Ht). cbn [bind fst snd].
  rewrite (unescape_id text (good_no_bsl text Hg)), (apply_cur_nonempty [p] text Hne).
  eexists. split; [reflexivity|]. split; reflexivity.
Qed.

Lemma format_registered f nm p text :
  is_ansi f -> f_stack f = [] -> aget str_eqb (py_lower nm) (f_styles f) = Some p ->
  tag_name nm -> Forall good text -> no_lt text -> text <> [] ->
  exists f', format f (open_tag nm ++ text ++ close_tag nm) None = Ok (f', sgr_wrap (codes_of p) text) /\ f_stack f' = [] /\ f_styles f' = f_styles f.
Proof.
  intros Hk Hs Hr Hn Hg Ht Hne. unfold format, is_ansi in *. destruct (f_kind f); try contradiction.
  rewrite Hs, (colorize_wrapped (f_styles f) nm text p Hn Hg Ht Hne); [|unfold resolve; now rewrite Hr].
  cbn [bind fst snd]. eexists. split; [reflexivity|]. split; reflexivity.
Qed.

(* registered at construction (a style set with this one style) ... *)
Lemma new_formatter_registers b c t p :
  c_tag c = Some t -> t <> [] -> convert c = Ok p ->
  exists f, new_formatter (FAnsi b) [c] = Ok f /\ is_ansi f /\ f_stack f = [] /\ aget str_eqb t (f_styles f) = Some p.
Proof.
  intros Ht Hne Hc. unfold new_formatter. cbn [style_set]. rewrite Ht. destruct t as [|t0 tr]; [congruence|].
  cbn [aset bind register]. rewrite Hc. cbn [bind]. eexists. split; [reflexivity|]. repeat split.
  cbn [f_styles]. rewrite (aget_aset _ str_eqb_spec), str_eqb_refl. reflexivity.
Qed.
(* ... or added later *)
Lemma add_style_registers f c t p :
  is_ansi f -> c_tag c = Some t -> convert c = Ok p ->
  exists f', add_style f c = Ok f' /\ is_ansi f' /\ f_stack f' = f_stack f /\ aget str_eqb t (f_styles f') = Some p.
Proof.
  intros Hk Ht Hc. unfold add_style, is_ansi in *. destruct (f_kind f) eqn:Ek; try contradiction.
  rewrite Hc, Ht. cbn [bind]. eexists. split; [reflexivity|]. cbn [f_kind f_stack f_styles]. rewrite ?Ek. repeat split.
  rewrite (aget_aset _ str_eqb_spec), str_eqb_refl. reflexivity.
Qed.

(* the undecorated calls of a formatter are colorize without colours on its style table and stack *)
Lemma remove_format_eq f m : f_kind f <> FNull ->
  remove_format f m = do x <- colorize (f_styles f) false (f_stack f) m;
                      Ok ({| f_kind := f_kind f; f_styles := f_styles f; f_stack := fst x |}, snd x).
Proof. intros Hk. unfold remove_format. destruct (f_kind f); try reflexivity. congruence. Qed.
Lemma remove_format_colorize f m f' out : f_kind f <> FNull -> remove_format f m = Ok (f', out) ->
  colorize (f_styles f) false (f_stack f) m = Ok (f_stack f', out) /\ f_kind f' = f_kind f /\ f_styles f' = f_styles f.
Proof.
  intros Hk H. rewrite (remove_format_eq f m Hk) in H. bind_inv H x Hx. injection H as <- <-. destruct x. cbn [f_stack f_kind f_styles fst snd]. auto.
Qed.
Lemma format_plain_colorize f m style f' out : f_kind f = FPlain -> format f m style = Ok (f', out) ->
  colorize (f_styles f) false (f_stack f) m = Ok (f_stack f', out) /\ f_kind f' = FPlain /\ f_styles f' = f_styles f.
Proof.
  intros Hk H. unfold format in H. rewrite Hk in H. bind_inv H x Hx. injection H as <- <-. destruct x.
  cbn [f_stack f_kind f_styles fst snd]. auto.
Qed.
