(* C04 composed with C20, for the outputs clikit itself builds: an ordinary (non-section) output over a plain or ANSI
   formatter built from a style set that contains DefaultStyleSet (clikit_output, Proofs/TraceEscLemmas.v).  For those the
   renderer returns for EVERY exception case, solutions and report mode - no premise on the style table ("error" and "b"
   resolve: clikit_formatter_styles) and none on ESC bytes in the texts (success does not depend on decoration) - so the
   rendered forms of the C04 theorems (Props/C04.v, "..._on_clikit_outputs") hold with "clikit_output o" as their only
   hypothesis on the output. *)
From Clikit Require Import Base.Prelude Base.Res Model.Markup Model.OutputM Model.Trace
  Proofs.TraceEscLemmas Proofs.RunTraceLemmas.

Lemma report_ok_clikit c o x sols simple : clikit_output o -> report_ok c o x sols simple = true.
Proof.
  intros Ho. unfold report_ok. destruct (render_sol_never_fails_clikit c simple o x sols Ho) as [bytes ->]. reflexivity.
Qed.
