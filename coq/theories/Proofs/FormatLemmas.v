(* C06, the builder of Model/Format.v: what a name denotes across a format and its bases (denot) and that the additions keep it
   unique (names_wf); the invariant of the argument tables (args_inv, order_ok); what a successful add_* returned
   (add_*_ok); a property kept by the four additions is kept by every run of builder operations (builder_invariant,
   brun_preserves), so wf is; what build_format leaves as it is. *)
From Coq Require Import Lia.
From Clikit Require Import Base.Prelude Base.Res Model.Conv Model.Flags Model.Format Proofs.StrLemmas Proofs.ListLemmas Proofs.DictLemmas.

(* everything the name n finds in f and its bases: in the long and short tables of the options and of the command options *)
Definition olist {X} (o : option X) : list X := match o with Some x => [x] | None => [] end.
Fixpoint denot (f : fmt) (n : str) : list (opt + copt) :=
  match f with Fmt b _ co cs _ os oss _ _ =>
    map inl (olist (sget n os)) ++ map inl (olist (sget n oss)) ++
    map inr (olist (sget n co)) ++ map inr (olist (sget n cs)) ++
    match b with Some bf => denot bf n | None => [] end end.

(* every long name, short name and alias identifies at most one option across the format and its bases *)
Definition names_wf (f : fmt) : Prop := forall n x y, In x (denot f n) -> In y (denot f n) -> x = y.

(* structural induction over the base chain *)
Lemma fmt_ind' (P : fmt -> Prop) :
  (forall cn co cs ar os oss hm ho, P (Fmt None cn co cs ar os oss hm ho)) ->
  (forall bf cn co cs ar os oss hm ho, P bf -> P (Fmt (Some bf) cn co cs ar os oss hm ho)) ->
  forall f, P f.
Proof.
  intros H0 H1. fix F 1. intros [[bf|] cn co cs ar os oss hm ho].
  - apply H1. apply F.
  - apply H0.
Qed.

Lemma taken_denot f n : opt_name_taken f n = false <-> denot f n = [].
Proof.
  unfold opt_name_taken. induction f as [cn co cs ar os oss hm ho|bf cn co cs ar os oss hm ho IH] using fmt_ind';
    cbn [has_option_all has_command_option_all denot]; rewrite !shas_sget.
  (* a hit in one of the four tables decides both sides; when all four miss, the base does *)
  - destruct (sget n os), (sget n oss), (sget n co), (sget n cs); cbn; split; intros H; try discriminate; reflexivity.
  - destruct (sget n os), (sget n oss), (sget n co), (sget n cs); cbn; try (split; intros H; discriminate);
      try (rewrite orb_true_r; split; intros H; discriminate).
    exact IH.
Qed.

(* the table after a write finds, besides what it found, the value written under the key written *)
Lemma olist_sget_set {V} n k (v : V) d y :
  In y (olist (sget n (sset k v d))) -> (n = k /\ y = v) \/ In y (olist (sget n d)).
Proof. rewrite sget_set. destruct (str_eqb_spec n k) as [->|]; [intros [<-|[]]; now left|now right]. Qed.
Lemma olist_sget_fold_set {V} n ks (v : V) : forall d y,
  In y (olist (sget n (fold_left (fun d a => sset a v d) ks d))) -> (In n ks /\ y = v) \/ In y (olist (sget n d)).
Proof.
  induction ks as [|a r IH]; intros d y H; cbn [fold_left] in H; [now right|].
  apply IH in H as [[Hin ->]|H]; [left; split; [now right|reflexivity]|].
  apply olist_sget_set in H as [[-> ->]|H]; [left; split; [now left|reflexivity]|now right].
Qed.

(* names_wf survives an addition under which a name finds what it found, or the one new element x if the name was free *)
Lemma names_wf_extend f f' x :
  (forall n y, In y (denot f' n) -> In y (denot f n) \/ (y = x /\ opt_name_taken f n = false)) ->
  names_wf f -> names_wf f'.
Proof.
  intros Hext Hwf n y z Hy Hz.
  destruct (Hext n y Hy) as [Hy'|[-> Hn]], (Hext n z Hz) as [Hz'|[-> Hn']]; try reflexivity.
  - exact (Hwf n y z Hy' Hz').
  - apply taken_denot in Hn'. rewrite Hn' in Hy'. contradiction.
  - apply taken_denot in Hn. rewrite Hn in Hz'. contradiction.
Qed.

Lemma add_option_keeps_wf f o f' : names_wf f -> add_option f o = Ok f' -> names_wf f'.
Proof.
  intros Hwf H. apply (names_wf_extend f f' (inl o)); [|exact Hwf]. intros n y.
  unfold add_option in H. destruct (opt_name_taken f (o_long o)) eqn:Hl; [discriminate|].
  destruct (optname_taken f (o_short o)) eqn:Hs; [discriminate|].
  destruct f as [b cn co cs ar os oss hm ho]. injection H as <-. cbn [denot]. rewrite !in_app_iff.
  intros [Hy|[Hy|Hy]]; [| |tauto]; apply in_map_iff in Hy as [v [<- Hv]].
  - apply olist_sget_set in Hv as [[-> ->]|Hv]; [now right|]. left. left. now apply in_map.
  - destruct (o_short o) as [s|]; [apply olist_sget_set in Hv as [[-> ->]|Hv]; [now right|]|]; left; right; left; now apply in_map.
Qed.

(* a rejected add returns no new state: the builder is the old one (bstep keeps f) *)
Lemma bstep_add_option_rejects_or_keeps f o :
  names_wf f ->
  (exists k, bstep f (AddOption o) = (f, Some k)) \/
  (exists f', bstep f (AddOption o) = (f', None) /\ names_wf f').
Proof.
  intros Hwf. cbn [bstep]. destruct (add_option f o) as [f'|k] eqn:E; cbn [lift].
  - right. exists f'. split; [reflexivity|]. eapply add_option_keeps_wf; eauto.
  - left. eauto.
Qed.

Lemma add_copt_keeps_wf f c f' : names_wf f -> add_command_option f c = Ok f' -> names_wf f'.
Proof.
  intros Hwf H. apply (names_wf_extend f f' (inr c)); [|exact Hwf]. intros n y.
  unfold add_command_option in H. destruct (opt_name_taken f (co_long c)) eqn:Hl; [discriminate|].
  destruct (existsb (opt_name_taken f) (co_lals c)) eqn:Hla; [discriminate|].
  destruct (optname_taken f (co_short c)) eqn:Hs; [discriminate|].
  destruct (existsb (opt_name_taken f) (co_sals c)) eqn:Hsa; [discriminate|].
  destruct f as [b cn co cs ar os oss hm ho]. injection H as <-. cbn [denot]. rewrite !in_app_iff.
  intros [Hy|[Hy|[Hy|[Hy|Hy]]]]; [tauto|tauto| | |tauto]; apply in_map_iff in Hy as [v [<- Hv]];
    apply olist_sget_fold_set in Hv as [[Hin ->]|Hv].
  - right. split; [reflexivity|exact (existsb_false_in _ _ _ Hla Hin)].
  - apply olist_sget_set in Hv as [[-> ->]|Hv]; [now right|]. left. right. right. left. now apply in_map.
  - right. split; [reflexivity|exact (existsb_false_in _ _ _ Hsa Hin)].
  - destruct (co_short c) as [s|]; [apply olist_sget_set in Hv as [[-> ->]|Hv]; [now right|]|];
      left; right; right; right; left; now apply in_map.
Qed.

Definition arg_valid (a : arg) : bool := xorb (a_required a) (a_optional a).
Definition args_of (f : fmt) : list arg := map snd (get_arguments_all f).
(* at most one multi-valued argument and it is last; no required argument after an optional one *)
Fixpoint order_ok (l : list arg) : bool :=
  match l with
  | [] => true
  | a :: r => (if a_multi a then match r with [] => true | _ => false end else true) &&
              (if a_required a then true else forallb (fun b => negb (a_required b)) r) && order_ok r
  end.

Fixpoint args_inv (f : fmt) : Prop :=
  match f with Fmt b _ _ _ ar _ _ hm ho =>
    hm = existsb a_multi (map snd ar) /\ ho = existsb a_optional (map snd ar) /\
    NoDup (map fst ar) /\ forallb arg_valid (map snd ar) = true /\
    match b with
    | None => True
    | Some bf => args_inv bf /\ (forall k, In k (map fst ar) -> sget k (get_arguments_all bf) = None)
    end end.
Definition args_wf (f : fmt) : Prop := args_inv f /\ order_ok (args_of f) = true.


Lemma args_all_app f : args_inv f ->
  get_arguments_all f = match f_base f with Some bf => get_arguments_all bf | None => [] end ++ f_args f.
Proof.
  destruct f as [[bf|] cn co cs ar os oss hm ho]; cbn; [|reflexivity].
  intros (_ & _ & Hnd & _ & _ & Hfr). now apply supdate_fresh.
Qed.

Lemma has_multi_all_spec f : args_inv f -> has_multi_all f = existsb a_multi (args_of f).
Proof.
  induction f as [cn co cs ar os oss hm ho|bf cn co cs ar os oss hm ho IH] using fmt_ind'; intros Hi.
  - destruct Hi as (-> & _). cbn. now rewrite orb_false_r.
  - unfold args_of. rewrite (args_all_app _ Hi). cbn [f_base f_args has_multi_all].
    destruct Hi as (-> & _ & _ & _ & Hb & _). rewrite map_app, existsb_app, (IH Hb). apply orb_comm.
Qed.
Lemma has_optional_all_spec f : args_inv f -> has_optional_all f = existsb a_optional (args_of f).
Proof.
  induction f as [cn co cs ar os oss hm ho|bf cn co cs ar os oss hm ho IH] using fmt_ind'; intros Hi.
  - destruct Hi as (_ & -> & _). cbn. now rewrite orb_false_r.
  - unfold args_of. rewrite (args_all_app _ Hi). cbn [f_base f_args has_optional_all].
    destruct Hi as (_ & -> & _ & _ & Hb & _). rewrite map_app, existsb_app, (IH Hb). apply orb_comm.
Qed.
Lemma args_valid_all f : args_inv f -> forallb arg_valid (args_of f) = true.
Proof.
  induction f as [cn co cs ar os oss hm ho|bf cn co cs ar os oss hm ho IH] using fmt_ind'; intros Hi.
  - destruct Hi as (_ & _ & _ & H & _). exact H.
  - unfold args_of. rewrite (args_all_app _ Hi). cbn [f_base f_args].
    destruct Hi as (_ & _ & _ & H & Hb & _). rewrite map_app, forallb_app, H. fold (args_of bf). now rewrite (IH Hb).
Qed.

Lemma order_ok_snoc l a :
  order_ok l = true -> existsb a_multi l = false ->
  (a_required a = true -> forallb a_required l = true) -> order_ok (l ++ [a]) = true.
Proof.
  induction l as [|x r IH]; intros Ho Hm Hr; cbn.
  - destruct (a_multi a), (a_required a); reflexivity.
  - cbn in Ho, Hm. apply orb_false_elim in Hm as [Hx Hmr].
    apply andb_prop in Ho as [Ho Hor]. apply andb_prop in Ho as [_ Hreq].
    rewrite Hx. cbn [andb].
    assert (a_required a = true -> a_required x = true /\ forallb a_required r = true) as Hr'.
    { intros H. specialize (Hr H). cbn in Hr. now apply andb_prop in Hr. }
    rewrite IH; auto; [|intros H; apply Hr', H]. rewrite andb_true_r.
    destruct (a_required x) eqn:Ex; [reflexivity|].
    rewrite forallb_app, Hreq. cbn. rewrite andb_true_r.
    destruct (a_required a) eqn:Ea; [|reflexivity]. destruct (Hr' eq_refl) as [H _]. congruence.
Qed.
Lemma order_ok_prefix l1 l2 : order_ok (l1 ++ l2) = true -> order_ok l1 = true.
Proof.
  induction l1 as [|x r IH]; cbn; [reflexivity|]. intros H.
  apply andb_prop in H as [H Hr]. apply andb_prop in H as [Hm Hq]. rewrite (IH Hr), andb_true_r.
  apply andb_true_intro; split.
  - destruct (a_multi x); [|reflexivity]. destruct r; [reflexivity|discriminate].
  - destruct (a_required x); [reflexivity|]. rewrite forallb_app in Hq. now apply andb_prop in Hq as [Hq _].
Qed.

Lemma no_optional_all_required l :
  forallb arg_valid l = true -> existsb a_optional l = false -> forallb a_required l = true.
Proof.
  induction l as [|x r IH]; cbn; [reflexivity|]. intros Hv Ho.
  apply andb_prop in Hv as [Hx Hr]. apply orb_false_elim in Ho as [Hox Hor].
  unfold arg_valid in Hx. rewrite Hox in Hx. destruct (a_required x); [|discriminate]. cbn. auto.
Qed.


Lemma add_argument_keeps_wf f a f' :
  args_wf f -> arg_valid a = true -> add_argument f a = Ok f' -> args_wf f'.
Proof.
  intros [Hi Ho] Hv. unfold add_argument. cbn [has_argument get_arguments].
  destruct (shas (a_name a) (get_arguments_all f)) eqn:Hname; [discriminate|].
  destruct (has_multi_all f) eqn:Hm; [discriminate|].
  destruct (a_required a && has_optional_all f) eqn:Hreq; [discriminate|].
  rewrite has_multi_all_spec in Hm by assumption. rewrite has_optional_all_spec in Hreq by assumption.
  assert (sget (a_name a) (get_arguments_all f) = None) as Hnone.
  { rewrite shas_sget in Hname. destruct (sget (a_name a) (get_arguments_all f)); [discriminate|reflexivity]. }
  destruct f as [b cn co cs ar os oss hm ho]. intros H. inversion H; subst. clear H.
  assert (sget (a_name a) ar = None) as Hown.
  { destruct b as [bf|]; [|exact Hnone]. cbn in Hnone. eapply sget_supdate_own; eauto. }
  assert (sset (a_name a) a ar = ar ++ [(a_name a, a)]) as Hset by (now apply sset_new).
  assert (args_inv (Fmt b cn co cs (sset (a_name a) a ar) os oss (hm || a_multi a) (ho || a_optional a))) as Hi'.
  { cbn [args_inv] in *. destruct Hi as (-> & -> & Hnd & Hval & Hb). rewrite Hset, !map_app, !existsb_app. cbn.
    rewrite !orb_false_r. repeat split; auto.
    - apply NoDup_snoc; [assumption | now apply sget_none_iff].
    - rewrite forallb_app, Hval. cbn. now rewrite Hv.
    - destruct b as [bf|]; [|exact I]. destruct Hb as [Hb Hfr]. split; [assumption|].
      intros k Hk. apply in_app_or in Hk as [Hk|[<-|[]]]; [now apply Hfr|].
      cbn in Hnone. rewrite supdate_fresh in Hnone by assumption.
      rewrite sget_concat in Hnone. now destruct (sget (a_name a) (get_arguments_all bf)). }
  split; [exact Hi'|].
  unfold args_of in *. rewrite (args_all_app _ Hi'). rewrite (args_all_app _ Hi) in Ho, Hm, Hreq.
  cbn [f_base f_args] in *. rewrite Hset, app_assoc, map_app. cbn [map snd].
  apply order_ok_snoc; auto.
  intros Hr. rewrite Hr in Hreq. cbn in Hreq.
  apply no_optional_all_required; [|exact Hreq].
  pose proof (args_valid_all _ Hi) as Hva. unfold args_of in Hva. rewrite (args_all_app _ Hi) in Hva. exact Hva.
Qed.

Lemma add_option_ok f o f' : add_option f o = Ok f' ->
  opt_name_taken f (o_long o) = false /\ optname_taken f (o_short o) = false /\
  f' = let '(Fmt b cn co cs ar os oss hm ho) := f in
       Fmt b cn co cs ar (sset (o_long o) o os) (match o_short o with Some s => sset s o oss | None => oss end) hm ho.
Proof.
  unfold add_option. destruct (opt_name_taken f (o_long o)); [discriminate|].
  destruct (optname_taken f (o_short o)); [discriminate|]. destruct f. intros [= <-]. auto.
Qed.
Lemma add_copt_ok f c f' : add_command_option f c = Ok f' ->
  opt_name_taken f (co_long c) = false /\ existsb (opt_name_taken f) (co_lals c) = false /\
  optname_taken f (co_short c) = false /\ existsb (opt_name_taken f) (co_sals c) = false /\
  f' = let '(Fmt b cn co cs ar os oss hm ho) := f in
       Fmt b cn (fold_left (fun d a => sset a c d) (co_lals c) (sset (co_long c) c co))
           (fold_left (fun d a => sset a c d) (co_sals c) (match co_short c with Some s => sset s c cs | None => cs end))
           ar os oss hm ho.
Proof.
  unfold add_command_option. destruct (opt_name_taken f (co_long c)); [discriminate|].
  destruct (existsb (opt_name_taken f) (co_lals c)); [discriminate|].
  destruct (optname_taken f (co_short c)); [discriminate|].
  destruct (existsb (opt_name_taken f) (co_sals c)); [discriminate|]. destruct f. intros [= <-]. auto.
Qed.
Lemma add_argument_ok f a f' : add_argument f a = Ok f' ->
  shas (a_name a) (get_arguments_all f) = false /\ has_multi_all f = false /\ a_required a && has_optional_all f = false /\
  f' = let '(Fmt b cn co cs ar os oss hm ho) := f in
       Fmt b cn co cs (sset (a_name a) a ar) os oss (hm || a_multi a) (ho || a_optional a).
Proof.
  unfold add_argument. cbn [has_argument get_arguments]. destruct (shas (a_name a) (get_arguments_all f)); [discriminate|].
  destruct (has_multi_all f); [discriminate|]. destruct (a_required a && has_optional_all f); [discriminate|].
  destruct f. intros [= <-]. auto.
Qed.

Definition wf (f : fmt) : Prop := names_wf f /\ args_wf f.

Definition bop_valid (o : bop) : bool :=
  match o with
  | AddArgument a => arg_valid a
  | SetArguments l => forallb arg_valid l
  | _ => true
  end.

Fixpoint brun (f : fmt) (ops : list bop) : fmt :=
  match ops with [] => f | o :: r => brun (fst (bstep f o)) r end.

Lemma args_wf_same b cn co cs ar os oss hm ho cn' co' cs' os' oss' :
  args_wf (Fmt b cn co cs ar os oss hm ho) -> args_wf (Fmt b cn' co' cs' ar os' oss' hm ho).
Proof. intros H. exact H. Qed.
Lemma names_wf_same b cn co cs ar os oss hm ho cn' ar' hm' ho' :
  names_wf (Fmt b cn co cs ar os oss hm ho) -> names_wf (Fmt b cn' co cs ar' os oss hm' ho').
Proof. intros H. exact H. Qed.

(* The four additions keep the property (for arguments that satisfy ok), and so does emptying one of the collections,
   which is how the set_* operations begin; a rejected addition leaves the state as it was. *)
Record builder_invariant (ok : arg -> bool) (P : fmt -> Prop) : Prop := {
  bi_option : forall f o f', P f -> add_option f o = Ok f' -> P f';
  bi_copt : forall f c f', P f -> add_command_option f c = Ok f' -> P f';
  bi_argument : forall f a f', P f -> ok a = true -> add_argument f a = Ok f' -> P f';
  bi_cname : forall f c f', P f -> add_command_name f c = Ok f' -> P f';
  bi_no_opts : forall b cn co cs ar os oss hm ho, P (Fmt b cn co cs ar os oss hm ho) -> P (Fmt b cn co cs ar [] [] hm ho);
  bi_no_copts : forall b cn co cs ar os oss hm ho, P (Fmt b cn co cs ar os oss hm ho) -> P (Fmt b cn [] [] ar os oss hm ho);
  bi_no_args : forall b cn co cs ar os oss hm ho, P (Fmt b cn co cs ar os oss hm ho) -> P (Fmt b cn co cs [] os oss false false);
  bi_no_cnames : forall b cn co cs ar os oss hm ho, P (Fmt b cn co cs ar os oss hm ho) -> P (Fmt b [] co cs ar os oss hm ho)
}.


(* bop_valid is ops_ok arg_valid *)
Definition ops_ok (ok : arg -> bool) (o : bop) : bool :=
  match o with AddArgument a => ok a | SetArguments l => forallb ok l | _ => true end.
Lemma ops_ok_any o : ops_ok (fun _ => true) o = true.
Proof. destruct o; try reflexivity. apply forallb_const_true. Qed.
Lemma ops_ok_all ops : forallb (ops_ok (fun _ => true)) ops = true.
Proof. apply forallb_forall. intros o _. apply ops_ok_any. Qed.

Section Builder.
  Context {ok : arg -> bool} {P : fmt -> Prop} (HP : builder_invariant ok P).

  Lemma add_all_preserves {X} (add : fmt -> X -> res fmt) (okx : X -> bool) :
    (forall f x f', P f -> okx x = true -> add f x = Ok f' -> P f') ->
    forall xs f, P f -> forallb okx xs = true -> P (fst (add_all add f xs)).
  Proof.
    intros Hadd. induction xs as [|x r IH]; intros f Hf Hok; cbn [add_all]; [exact Hf|].
    cbn [forallb] in Hok. apply andb_prop in Hok as [Hx Hr].
    destruct (add f x) as [f'|k] eqn:E; [|exact Hf]. apply IH; [eapply Hadd; eauto|exact Hr].
  Qed.

  Lemma bstep_preserves f o : P f -> ops_ok ok o = true -> P (fst (bstep f o)).
  Proof.
    intros Hf Hv. destruct o as [o|c|a|c|l|l|l|l]; cbn [bstep ops_ok] in *.
    - destruct (add_option f o) eqn:E; cbn [lift fst]; [eapply bi_option; eauto|exact Hf].
    - destruct (add_command_option f c) eqn:E; cbn [lift fst]; [eapply bi_copt; eauto|exact Hf].
    - destruct (add_argument f a) eqn:E; cbn [lift fst]; [eapply bi_argument; eauto|exact Hf].
    - destruct (add_command_name f c) eqn:E; cbn [lift fst]; [eapply bi_cname; eauto|exact Hf].
    - destruct f. apply (add_all_preserves add_option (fun _ => true));
        [intros; eapply bi_option; eauto|eapply bi_no_opts; eauto|apply forallb_const_true].
    - destruct f. apply (add_all_preserves add_command_option (fun _ => true));
        [intros; eapply bi_copt; eauto|eapply bi_no_copts; eauto|apply forallb_const_true].
    - destruct f. apply (add_all_preserves add_argument ok);
        [intros; eapply bi_argument; eauto|eapply bi_no_args; eauto|exact Hv].
    - destruct f. apply (add_all_preserves add_command_name (fun _ => true));
        [intros; eapply bi_cname; eauto|eapply bi_no_cnames; eauto|apply forallb_const_true].
  Qed.

  Lemma brun_preserves ops : forall f, P f -> forallb (ops_ok ok) ops = true -> P (brun f ops).
  Proof.
    induction ops as [|o r IH]; intros f Hf Hv; cbn [brun]; [exact Hf|].
    cbn [forallb] in Hv. apply andb_prop in Hv as [Ho Hr]. apply IH; [now apply bstep_preserves|exact Hr].
  Qed.

  (* ArgsFormat(elements, base) goes through the same additions *)
  Lemma add_elements_preserves es : forall f f', P f ->
    forallb (fun e => match e with EArg a => ok a | _ => true end) es = true -> add_elements f es = Ok f' -> P f'.
  Proof.
    induction es as [|e r IH]; intros f f' Hf Hv H; cbn [add_elements forallb] in *; [now inversion H; subst|].
    apply andb_prop in Hv as [He Hr]. apply bind_ok in H as (f1 & E & H). apply (IH f1 f'); [|exact Hr|exact H].
    destruct e; [eapply bi_option|eapply bi_copt|eapply bi_argument|eapply bi_cname]; eauto.
  Qed.
End Builder.

(* no builder operation touches the base *)
Lemma base_invariant b : builder_invariant (fun _ => true) (fun f => f_base f = b).
Proof.
  split; try (intros ? ? ? ? ? ? ? ? ? H; exact H).
  - intros f o f' Hf H. apply add_option_ok in H as (_ & _ & ->). destruct f. exact Hf.
  - intros f c f' Hf H. apply add_copt_ok in H as (_ & _ & _ & _ & ->). destruct f. exact Hf.
  - intros f a f' Hf _ H. apply add_argument_ok in H as (_ & _ & _ & ->). destruct f. exact Hf.
  - intros [] c f' Hf [= <-]. exact Hf.
Qed.
Lemma brun_base ops f : f_base (brun f ops) = f_base f.
Proof. exact (brun_preserves (base_invariant (f_base f)) ops f eq_refl (ops_ok_all ops)). Qed.

Lemma add_argument_wf f a f' : wf f -> arg_valid a = true -> add_argument f a = Ok f' -> wf f'.
Proof.
  intros [Hn Ha] Hv H. split; [|eapply add_argument_keeps_wf; eauto].
  apply add_argument_ok in H as (_ & _ & _ & ->). destruct f. exact Hn.
Qed.

Lemma denot_reset_opts_in b cn co cs ar os oss hm ho n x :
  In x (denot (Fmt b cn co cs ar [] [] hm ho) n) -> In x (denot (Fmt b cn co cs ar os oss hm ho) n).
Proof. cbn [denot]. cbn. intros H. apply in_or_app. right. apply in_or_app. right. exact H. Qed.
Lemma denot_reset_copts_in b cn co cs ar os oss hm ho n x :
  In x (denot (Fmt b cn [] [] ar os oss hm ho) n) -> In x (denot (Fmt b cn co cs ar os oss hm ho) n).
Proof.
  cbn [denot]. cbn. intros H. apply in_app_or in H as [H|H]; [apply in_or_app; now left|].
  apply in_app_or in H as [H|H]; apply in_or_app; right; apply in_or_app; [now left|right].
  apply in_or_app. right. apply in_or_app. now right.
Qed.

Lemma reset_args_wf b cn co cs ar os oss hm ho :
  args_wf (Fmt b cn co cs ar os oss hm ho) -> args_wf (Fmt b cn co cs [] os oss false false).
Proof.
  intros [Hi Ho]. split.
  - cbn [args_inv] in *. destruct Hi as (_ & _ & _ & _ & Hb). repeat split; auto; try constructor.
    destruct b as [bf|]; [|exact I]. destruct Hb as [Hb _]. split; [exact Hb|]. intros k [].
  - unfold args_of in *. rewrite (args_all_app _ Hi) in Ho. cbn [f_base f_args] in Ho.
    rewrite map_app in Ho. apply order_ok_prefix in Ho.
    destruct b as [bf|]; cbn; [|reflexivity]. exact Ho.
Qed.

Lemma wf_invariant : builder_invariant arg_valid wf.
Proof.
  split.
  - intros f o f' [Hn Ha] H. split; [eapply add_option_keeps_wf; eauto|].
    apply add_option_ok in H as (_ & _ & ->). destruct f. exact Ha.
  - intros f c f' [Hn Ha] H. split; [eapply add_copt_keeps_wf; eauto|].
    apply add_copt_ok in H as (_ & _ & _ & _ & ->). destruct f. exact Ha.
  - exact add_argument_wf.
  - intros f c f' Hw H. destruct f. cbn in H. inversion H; subst. exact Hw.
  - intros b cn co cs ar os oss hm ho [Hn Ha]. split; [|exact Ha]. intros n x y Hx Hy.
    apply denot_reset_opts_in with (os := os) (oss := oss) in Hx, Hy. eapply Hn; eauto.
  - intros b cn co cs ar os oss hm ho [Hn Ha]. split; [|exact Ha]. intros n x y Hx Hy.
    apply denot_reset_copts_in with (co := co) (cs := cs) in Hx, Hy. eapply Hn; eauto.
  - intros b cn co cs ar os oss hm ho [Hn Ha]. split; [exact Hn|]. eapply reset_args_wf; eauto.
  - intros b cn co cs ar os oss hm ho Hw. exact Hw.
Qed.

(* an empty builder over a well-formed base format is well-formed; so is the empty builder without base *)
Lemma empty_builder_wf_none : wf (empty_builder None).
Proof.
  split; [intros n x y Hx; cbn in Hx; contradiction|]. split; cbn; repeat split; auto; constructor.
Qed.
Lemma empty_builder_wf_some bf : wf bf -> wf (empty_builder (Some bf)).
Proof.
  intros [Hn [Hi Ho]]. split; [intros n x y Hx Hy; cbn in Hx, Hy; eapply Hn; eauto|].
  split.
  - cbn. repeat split; auto; try constructor. intros k [].
  - unfold args_of. cbn. exact Ho.
Qed.

(* the built format keeps base, arguments, options, command names and flags of the builder verbatim *)
Lemma build_format_same f :
  f_base (build_format f) = f_base f /\ f_cnames (build_format f) = f_cnames f /\ f_args (build_format f) = f_args f /\
  f_opts (build_format f) = f_opts f /\ f_has_multi (build_format f) = f_has_multi f /\ f_has_opt (build_format f) = f_has_opt f.
Proof.
  destruct f as [b cn co cs ar os oss hm ho]. unfold build_format.
  destruct (index_copts (map snd co)). cbn. repeat split; reflexivity.
Qed.
Lemma build_format_args_wf f : args_wf f -> args_wf (build_format f).
Proof.
  destruct f as [b cn co cs ar os oss hm ho]. unfold build_format.
  destruct (index_copts (map snd co)). intros H. exact H.
Qed.
Lemma build_format_arg_queries f r incl :
  has_argument (build_format f) r incl = has_argument f r incl /\
  get_argument (build_format f) r incl = get_argument f r incl /\
  get_arguments (build_format f) incl = get_arguments f incl /\
  has_multi (build_format f) incl = has_multi f incl /\ has_optional (build_format f) incl = has_optional f incl /\
  has_required (build_format f) incl = has_required f incl /\
  get_command_names (build_format f) incl = get_command_names f incl /\
  get_options (build_format f) incl = get_options f incl.
Proof.
  destruct f as [b cn co cs ar os oss hm ho]. unfold build_format.
  destruct (index_copts (map snd co)). repeat split; reflexivity.
Qed.
