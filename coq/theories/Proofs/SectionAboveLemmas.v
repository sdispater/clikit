(* C15, rows ABOVE the sections: the step lemmas of Proofs/SectionLemmas.v speak of a terminal that already shows complete
   rows P above the cursor - the rows stay what they were and the sections are stacked below them.  (A cursor movement
   beyond the first section's first row is invisible on an empty terminal: the oracle of harness/props/C15.py replays the
   bytes below three rows; Props/C15.v rows_above_are_kept is the theorem behind that clause.) *)
From Clikit Require Import Base.Prelude Base.Term Proofs.SectionLemmas.

(* the terminal that shows the complete rows P, the cursor at the start of the row below them *)
Definition below (P : list (list N)) : term := scr P.
