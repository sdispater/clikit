(* Proofs about the textwrap model (Model/Wrap.v): the greedy loop terminates within the model's fuel, every line fits
   the width, no line is empty (wrap_chunks_ne; the statement about wrap: Props/C13.v wrap_lines_nonempty), and wrapping only ever drops white space. *)
From Coq Require Import Lia ZifyBool.
From Clikit Require Import Base.Prelude Base.Res Model.Wrap.

Lemma take_while_app p : forall s a b, take_while p s = (a, b) -> a ++ b = s.
Proof.
  induction s as [|c r IH]; intros a b H; cbn [take_while] in H.
  - injection H as <- <-. reflexivity.
  - destruct (p c).
    + destruct (take_while p r) as [a' b'] eqn:E. injection H as <- <-. cbn [app]. f_equal. now apply IH.
    + injection H as <- <-. reflexivity.
Qed.

Lemma word_chunk_app : forall fuel before acc s w r, word_chunk fuel before acc s = (w, r) -> w ++ r = acc ++ s.
Proof.
  induction fuel as [|f IH]; intros before acc s w r H; cbn [word_chunk] in H.
  - injection H as <- <-. now rewrite app_nil_r.
  - destruct s as [|c s'].
    + injection H as <- <-. reflexivity.
    + destruct acc as [|a0 acc'].
      * apply IH in H. exact H.
      * remember (a0 :: acc') as acc eqn:Ea. clear Ea.
        destruct (N.eqb c HY && behind_hyphen_ok before && ahead_hyphen_ok s').
        { injection H as <- <-. now rewrite <- app_assoc. }
        destruct (is_sp c). { injection H as <- <-. reflexivity. }
        destruct ((match before with p :: _ => tw_punct p | [] => false end) && ahead_emdash (c :: s')).
        { injection H as <- <-. reflexivity. }
        apply IH in H. rewrite H, <- app_assoc. reflexivity.
Qed.

Lemma chunks_aux_concat : forall fuel before s, concat (chunks_aux fuel before s) = s.
Proof.
  induction fuel as [|f IH]; intros before s; cbn [chunks_aux].
  - cbn. apply app_nil_r.
  - destruct s as [|c s']; [reflexivity|].
    destruct (is_sp c).
    { destruct (take_while is_sp (c :: s')) as [w r] eqn:E. cbn [concat]. rewrite IH. eapply take_while_app, E. }
    destruct (N.eqb c HY && (match before with p :: _ => tw_punct p | [] => false end) && ahead_emdash (c :: s')).
    { destruct (take_while (N.eqb HY) (c :: s')) as [w r] eqn:E. cbn [concat]. rewrite IH. eapply take_while_app, E. }
    destruct (word_chunk (S (length (c :: s'))) before [] (c :: s')) as [w r] eqn:E. cbn [concat]. rewrite IH.
    apply word_chunk_app in E. exact E.
Qed.

Definition ne (c : str) : Prop := c <> [].
Definition nonempty_b (c : str) : bool := match c with [] => false | _ => true end.
Lemma concat_filter_ne (l : list str) : concat (filter nonempty_b l) = concat l.
Proof. induction l as [|c r IH]; [reflexivity|]. destruct c; cbn; [exact IH|]. now rewrite IH. Qed.
Lemma chunks_concat s : concat (chunks s) = s.
Proof. unfold chunks. change (fun c : str => match c with [] => false | _ => true end) with nonempty_b.
  rewrite concat_filter_ne. apply chunks_aux_concat. Qed.
Lemma chunks_ne s : Forall ne (chunks s).
Proof. unfold chunks. apply Forall_forall. intros c Hc. apply filter_In in Hc. destruct Hc as [_ Hc]. destruct c; [discriminate|]. discriminate. Qed.

(* the termination measure: characters plus chunks *)
Definition chunks_measure (cs : list str) : nat := length (concat cs) + length cs.
Lemma ne_count (cs : list str) : Forall ne cs -> length cs <= length (concat cs).
Proof. induction 1 as [|c r Hc _ IH]; [cbn; lia|]. cbn [concat length]. rewrite app_length. destruct c; [now elim Hc|]. cbn [length]. lia. Qed.
Lemma chunks_measure_bound s : chunks_measure (chunks s) <= 2 * length s.
Proof. unfold chunks_measure. pose proof (ne_count _ (chunks_ne s)) as H. rewrite chunks_concat in *. lia. Qed.

Lemma fill_line_spec width : forall cs cur cur_len,
  exists taken rest, fill_line width cur cur_len cs = (cur ++ taken, cur_len + length (concat taken), rest)
    /\ cs = taken ++ rest
    /\ (cur_len <= width -> cur_len + length (concat taken) <= width)
    /\ match rest with c :: _ => width < cur_len + length (concat taken) + length c | [] => True end.
Proof.
  induction cs as [|c r IH]; intros cur cur_len; cbn [fill_line].
  - exists [], []. cbn. rewrite app_nil_r, Nat.add_0_r. auto.
  - destruct (Nat.leb (cur_len + length c) width) eqn:E.
    + destruct (IH (cur ++ [c]) (cur_len + length c)) as (t & rest & H1 & H2 & H3 & H4).
      exists (c :: t), rest. rewrite H1. cbn [concat]. rewrite app_length, <- app_assoc. cbn [app].
      apply Nat.leb_le in E.
      split; [f_equal; f_equal; lia|]. split; [now rewrite H2|]. split; [intros; lia|]. destruct rest; [auto|lia].
    + exists [], (c :: r). cbn. rewrite app_nil_r, Nat.add_0_r. apply Nat.leb_gt in E. repeat split; auto; lia.
Qed.

Lemma rfind_hy_bound : forall s n i best h, rfind_hy s n i best = Some h -> best = Some h \/ (i <= h < i + n).
Proof.
  induction s as [|a s IH]; intros n i best h H; destruct n; cbn [rfind_hy] in H; auto.
  apply IH in H. destruct H as [H|H]; [|right; lia]. destruct (N.eqb a HY); [injection H as <-; right; lia | auto].
Qed.
Lemma break_at_le c sl : break_at c sl <= sl.
Proof.
  unfold break_at. destruct (Nat.ltb sl (length c)); [|lia]. destruct (rfind_hy c sl 0 None) eqn:E; [|lia].
  apply rfind_hy_bound in E. destruct E as [E|E]; [discriminate|]. destruct (_ && _); lia.
Qed.
Lemma break_at_pos c sl : 1 <= sl -> 1 <= break_at c sl.
Proof.
  intros H. unfold break_at. destruct (Nat.ltb sl (length c)); [|lia]. destruct (rfind_hy c sl 0 None); [|lia].
  destruct (_ && _); lia.
Qed.

(* white space in the sense of chunk.strip() *)
Definition nsp (c : N) : bool := negb (is_space c).
Lemma blank_spaces c : blank c = true -> Forall (fun x => is_space x = true) c.
Proof. intros H. apply Forall_forall, forallb_forall, H. Qed.
Lemma filter_nsp_blank s : Forall (fun x => is_space x = true) s -> filter nsp s = [].
Proof. unfold nsp. induction 1 as [|x r Hx _ IH]; [reflexivity|]. cbn [filter]. now rewrite Hx. Qed.
Lemma filter_concat_app (a b : list str) : filter nsp (concat (a ++ b)) = filter nsp (concat a) ++ filter nsp (concat b).
Proof. now rewrite concat_app, filter_app. Qed.

Definition dropblank (cur2 : list str) : list str :=
  match rev cur2 with l :: _ => if blank l then removelast cur2 else cur2 | [] => cur2 end.
Lemma dropblank_blank cur2 : exists B, cur2 = dropblank cur2 ++ B /\ Forall (fun c => is_space c = true) (concat B).
Proof.
  unfold dropblank. destruct cur2 as [|x l _] using rev_ind; [exists []; split; [reflexivity|constructor]|].
  rewrite rev_app_distr. cbn [rev app]. destruct (blank x) eqn:E.
  - rewrite removelast_last. exists [x]. split; [reflexivity|]. cbn [concat]. rewrite app_nil_r. now apply blank_spaces.
  - exists []. split; [now rewrite app_nil_r|constructor].
Qed.
Lemma dropblank_text cur2 : filter nsp (concat (dropblank cur2)) = filter nsp (concat cur2).
Proof.
  destruct (dropblank_blank cur2) as (B & HB & HBb). rewrite HB at 2. rewrite filter_concat_app, (filter_nsp_blank _ HBb). now rewrite app_nil_r.
Qed.
Lemma dropblank_snoc taken x : Forall ne taken -> Forall ne (dropblank (taken ++ [x])).
Proof.
  intros H. unfold dropblank. rewrite rev_app_distr. cbn [rev app]. destruct (blank x) eqn:E.
  - now rewrite removelast_last.
  - apply Forall_app. split; [exact H|]. constructor; [|constructor]. intros ->. discriminate.
Qed.
Lemma dropblank_ne taken : Forall ne taken -> Forall ne (dropblank taken).
Proof. intros H. destruct (dropblank_blank taken) as (B & HB & _). rewrite HB in H. apply Forall_app in H. tauto. Qed.
Lemma dropblank_len cur2 : length (concat (dropblank cur2)) <= length (concat cur2).
Proof. destruct (dropblank_blank cur2) as (B & HB & _). rewrite HB at 2. rewrite concat_app, app_length. lia. Qed.
Lemma dropblank_chars (P : N -> Prop) cur2 : Forall P (concat cur2) -> Forall P (concat (dropblank cur2)).
Proof. destruct (dropblank_blank cur2) as (B & HB & _). rewrite HB at 1. rewrite concat_app. intros H. apply Forall_app in H. tauto. Qed.
Lemma concat_ne (l : list str) : Forall ne l -> l <> [] -> concat l <> [].
Proof. intros H Hl. destruct H as [|c r Hc _]; [now elim Hl|]. destruct c; [now elim Hc|]. discriminate. Qed.

Definition wstep (width : nat) (c0 : str) (r0 lines : list str) : list str * list str :=
  let cs1 := if blank c0 && (match lines with [] => false | _ => true end) then r0 else c0 :: r0 in
  let '(cur, cur_len, rest) := fill_line width [] 0 cs1 in
  let '(cur2, rest2) :=
    match rest with
    | c :: r => if Nat.ltb width (length c)
                then let e := break_at c (width - cur_len) in (cur ++ [firstn e c], skipn e c :: r)
                else (cur, rest)
    | [] => (cur, rest)
    end in
  (dropblank cur2, rest2).
Definition add_line (lines line : list str) : list str := match line with [] => lines | _ => lines ++ [concat line] end.
Lemma wrap_chunks_S f width c0 r0 lines :
  wrap_chunks (S f) width (c0 :: r0) lines =
  wrap_chunks f width (snd (wstep width c0 r0 lines))
              (match fst (wstep width c0 r0 lines) with [] => lines | _ => lines ++ [concat (fst (wstep width c0 r0 lines))] end).
Proof.
  unfold wstep. cbn [wrap_chunks].
  destruct (fill_line width [] 0 _) as [[cur cur_len] rest].
  destruct rest as [|c r]; [reflexivity|]. destruct (Nat.ltb width (length c)); reflexivity.
Qed.

(* What one iteration does with the chunks c0 :: r0: a blank chunk D is dropped in front (not on the first line), the chunks
   `taken` fill the line; then either the line is `taken`, or the next chunk is longer than a whole line and its first e
   characters go on this line too.  The line loses a blank chunk at its end. *)
Lemma wstep_cases width (c0 : str) (r0 lines : list str) :
  exists D taken rest : list str, c0 :: r0 = D ++ taken ++ rest
    /\ Forall (fun c => is_space c = true) (concat D) /\ (D <> [] -> lines <> [])
    /\ length (concat taken) <= width
    /\ ((wstep width c0 r0 lines = (dropblank taken, rest) /\ (D = [] -> taken <> [])
         /\ match rest with c :: _ => length c <= width | [] => True end)
        \/ exists c r e, rest = c :: r /\ width < length c /\ e <= width - length (concat taken)
             /\ (1 <= width - length (concat taken) -> 1 <= e)
             /\ wstep width c0 r0 lines = (dropblank (taken ++ [firstn e c]), skipn e c :: r)).
Proof.
  set (cs1 := if blank c0 && (match lines with [] => false | _ => true end) then r0 else c0 :: r0).
  assert (exists D, c0 :: r0 = D ++ cs1 /\ Forall (fun c => is_space c = true) (concat D) /\ (D <> [] -> lines <> []) /\
                    (D = [] -> cs1 = c0 :: r0)) as (D & HD & HDb & HDl & HD0).
  { subst cs1. destruct (blank c0) eqn:Eb; [destruct lines as [|l0 ls0]|]; cbn [andb].
    - exists []. repeat split; auto. constructor.
    - exists [c0]. repeat split; try discriminate. cbn [concat]. rewrite app_nil_r. now apply blank_spaces.
    - exists []. repeat split; auto. constructor. }
  destruct (fill_line_spec width cs1 [] 0) as (taken & rest & H1 & H2 & H3 & H4).
  cbn [app Nat.add] in H1, H3, H4. specialize (H3 (Nat.le_0_l _)).
  unfold wstep. cbv zeta. change (fill_line width [] 0 _) with (fill_line width [] 0 cs1). rewrite H1.
  exists D, taken, rest. split; [now rewrite HD, H2|]. split; [exact HDb|]. split; [exact HDl|]. split; [exact H3|].
  assert (D = [] -> taken = [] -> rest = c0 :: r0) as Hall by (intros HDe ->; now rewrite <- (HD0 HDe), H2).
  destruct rest as [|c r]; [left; split; [reflexivity|]; split; [intros HDe Ht; discriminate (Hall HDe Ht)|exact I]|].
  destruct (Nat.ltb_spec width (length c)) as [Hc|Hc].
  - right. exists c, r, (break_at c (width - length (concat taken))).
    split; [reflexivity|]. split; [exact Hc|]. split; [apply break_at_le|]. split; [apply break_at_pos|reflexivity].
  - left. split; [reflexivity|]. split; [|exact Hc]. intros HDe Ht. subst taken. cbn in H4. lia.
Qed.

Lemma chunks_measure_app a b : chunks_measure (a ++ b) = chunks_measure a + chunks_measure b.
Proof. unfold chunks_measure. rewrite concat_app, !app_length. lia. Qed.
Lemma chunks_measure_pos c r : 1 <= chunks_measure (c :: r).
Proof. unfold chunks_measure. cbn [length]. lia. Qed.

Lemma wstep_len width (c0 : str) (r0 lines : list str) : length (concat (fst (wstep width c0 r0 lines))) <= width.
Proof.
  destruct (wstep_cases width c0 r0 lines) as (D & taken & rest & _ & _ & _ & Ht & [(-> & _)|(c & r & e & _ & _ & He & _ & ->)]); cbn [fst].
  - pose proof (dropblank_len taken). lia.
  - pose proof (dropblank_len (taken ++ [firstn e c])) as Hl. rewrite concat_app, app_length in Hl. cbn [concat] in Hl.
    rewrite app_nil_r, firstn_length in Hl. lia.
Qed.
(* something is consumed: a chunk, or at least one character of a chunk longer than the line *)
Lemma wstep_measure width (c0 : str) (r0 lines : list str) : 1 <= width -> chunks_measure (snd (wstep width c0 r0 lines)) < chunks_measure (c0 :: r0).
Proof.
  intros Hw. destruct (wstep_cases width c0 r0 lines) as (D & taken & rest & -> & _ & _ & _ & Hcase). rewrite !chunks_measure_app.
  destruct Hcase as [(-> & Hne & _)|(c & r & e & -> & Hc & He & He1 & ->)]; cbn [snd].
  - destruct D as [|d D']; [destruct taken as [|t taken']; [now elim Hne|pose proof (chunks_measure_pos t taken')]|pose proof (chunks_measure_pos d D')]; lia.
  - assert (chunks_measure (skipn e c :: r) + e = chunks_measure (c :: r)) as Hs by (unfold chunks_measure; cbn [concat length]; rewrite !app_length, skipn_length; lia).
    destruct D as [|d D']; [destruct taken as [|t taken']; [change (chunks_measure []) with 0; cbn in He1|pose proof (chunks_measure_pos t taken')]|pose proof (chunks_measure_pos d D')]; lia.
Qed.
Lemma wstep_chars (P : N -> Prop) width (c0 : str) (r0 lines : list str) :
  Forall P (concat (c0 :: r0)) -> Forall P (concat (fst (wstep width c0 r0 lines))) /\ Forall P (concat (snd (wstep width c0 r0 lines))).
Proof.
  destruct (wstep_cases width c0 r0 lines) as (D & taken & rest & -> & _ & _ & _ & Hcase).
  rewrite !concat_app, !Forall_app. intros (_ & Ht & Hr).
  destruct Hcase as [(-> & _)|(c & r & e & -> & _ & _ & _ & ->)]; cbn [fst snd].
  - split; [now apply dropblank_chars|exact Hr].
  - cbn [concat] in *. rewrite <- (firstn_skipn e c), !Forall_app in Hr. destruct Hr as ((Hc1 & Hc2) & Hr).
    split; [apply dropblank_chars; rewrite concat_app; cbn [concat]; rewrite app_nil_r|]; apply Forall_app; auto.
Qed.
Lemma wstep_text width (c0 : str) (r0 lines : list str) :
  filter nsp (concat (c0 :: r0)) = filter nsp (concat (fst (wstep width c0 r0 lines))) ++ filter nsp (concat (snd (wstep width c0 r0 lines))).
Proof.
  destruct (wstep_cases width c0 r0 lines) as (D & taken & rest & -> & HD & _ & _ & Hcase).
  destruct Hcase as [(-> & _)|(c & r & e & -> & _ & _ & _ & ->)]; cbn [fst snd];
    rewrite dropblank_text, !filter_concat_app, (filter_nsp_blank _ HD).
  - reflexivity.
  - cbn [concat app]. rewrite app_nil_r, <- app_assoc. f_equal. rewrite <- (firstn_skipn e c) at 1. now rewrite <- app_assoc, !filter_app.
Qed.
Lemma wstep_ne width (c0 : str) (r0 lines : list str) : Forall ne (c0 :: r0) ->
  Forall ne (fst (wstep width c0 r0 lines)) /\ Forall ne (snd (wstep width c0 r0 lines)).
Proof.
  destruct (wstep_cases width c0 r0 lines) as (D & taken & rest & -> & _ & _ & _ & Hcase).
  rewrite !Forall_app. intros (_ & Ht & Hr).
  destruct Hcase as [(-> & _)|(c & r & e & -> & Hc & He & _ & ->)]; cbn [fst snd].
  - split; [now apply dropblank_ne|exact Hr].
  - split; [now apply dropblank_snoc|]. inversion Hr as [|? ? _ Hr']; subst. constructor; [|exact Hr'].
    (* width < length c and e <= width: something of c is left *)
    intros Hs. apply (f_equal (@length N)) in Hs. rewrite skipn_length in Hs. cbn in Hs. lia.
Qed.

(* a property of (chunks left, lines written) that every iteration keeps holds at the end *)
Lemma wrap_chunks_inv width (I : list str -> list str -> Prop) :
  (forall c0 r0 lines, I (c0 :: r0) lines -> I (snd (wstep width c0 r0 lines)) (add_line lines (fst (wstep width c0 r0 lines)))) ->
  forall f cs lines ls, wrap_chunks f width cs lines = Some ls -> I cs lines -> I [] ls.
Proof.
  intros Hstep. induction f as [|f IH]; intros cs lines ls H Hi; [discriminate|].
  destruct cs as [|c0 r0]; [cbn in H; injection H as <-; exact Hi|].
  rewrite wrap_chunks_S in H. exact (IH _ _ _ H (Hstep _ _ _ Hi)).
Qed.
Lemma concat_add_line lines line : concat (add_line lines line) = concat lines ++ concat line.
Proof. destruct line; [now rewrite app_nil_r|]. unfold add_line. rewrite concat_app. cbn [concat]. now rewrite app_nil_r. Qed.
Lemma Forall_add_line (Q : str -> Prop) lines line : Forall Q lines -> (line <> [] -> Q (concat line)) -> Forall Q (add_line lines line).
Proof. intros Hl Hq. destruct line; [exact Hl|]. apply Forall_app. split; [exact Hl|]. constructor; [apply Hq; discriminate|constructor]. Qed.

Lemma wrap_chunks_fit width f cs lines ls : wrap_chunks f width cs lines = Some ls ->
  Forall (fun l => length l <= width) lines -> Forall (fun l => length l <= width) ls.
Proof.
  apply (wrap_chunks_inv width (fun _ lines => Forall (fun l => length l <= width) lines)). intros c0 r0 lines0 H.
  apply Forall_add_line; [exact H|]. intros _. apply wstep_len.
Qed.
Lemma wrap_chunks_chars (P : N -> Prop) width f cs lines ls : wrap_chunks f width cs lines = Some ls ->
  Forall P (concat cs) -> Forall P (concat lines) -> Forall P (concat ls).
Proof.
  intros H Hc Hl. apply (wrap_chunks_inv width (fun cs lines => Forall P (concat cs) /\ Forall P (concat lines)) ) in H; [tauto| |tauto].
  intros c0 r0 lines0 [H1 H2]. rewrite concat_add_line, Forall_app. pose proof (wstep_chars P width c0 r0 lines0 H1). tauto.
Qed.
Lemma wrap_chunks_text width f cs lines ls : wrap_chunks f width cs lines = Some ls ->
  filter nsp (concat ls) = filter nsp (concat lines) ++ filter nsp (concat cs).
Proof.
  intros H. set (t := filter nsp (concat lines) ++ filter nsp (concat cs)).
  apply (wrap_chunks_inv width (fun cs lines => filter nsp (concat lines) ++ filter nsp (concat cs) = t)) in H; [|intros c0 r0 lines0 <-|reflexivity].
  - cbn in H. now rewrite app_nil_r in H.
  - now rewrite concat_add_line, filter_app, <- app_assoc, <- wstep_text.
Qed.
Lemma wrap_chunks_ne width f cs lines ls : wrap_chunks f width cs lines = Some ls ->
  Forall ne cs -> Forall ne lines -> Forall ne ls.
Proof.
  intros H Hc Hl. apply (wrap_chunks_inv width (fun cs lines => Forall ne cs /\ Forall ne lines)) in H; [tauto| |tauto].
  intros c0 r0 lines0 [H1 H2]. destruct (wstep_ne width c0 r0 lines0 H1) as [H3 H4]. split; [exact H4|].
  apply Forall_add_line; [exact H2|]. now apply concat_ne.
Qed.
(* the loop ends within the fuel: every iteration lowers the measure *)
Lemma wrap_chunks_total width : 1 <= width -> forall f cs lines, chunks_measure cs < f -> exists ls, wrap_chunks f width cs lines = Some ls.
Proof.
  intros Hw. induction f as [|f IH]; intros cs lines Hm; [lia|].
  destruct cs as [|c0 r0]; [cbn; eauto|].
  rewrite wrap_chunks_S. apply IH. pose proof (wstep_measure width c0 r0 lines Hw). lia.
Qed.

Lemma wrap_total_lemma : forall text w, (1 <= w)%Z -> exists ls, wrap text w = Ok ls.
Proof.
  intros text w Hw. unfold wrap. destruct (Z.leb_spec w 0) as [H|_]; [lia|].
  destruct (wrap_chunks_total (Z.to_nat w) ltac:(lia) (2 * length text + 2) (chunks (munge text)) []) as [ls Hls].
  - pose proof (chunks_measure_bound (munge text)) as Hm. unfold munge in Hm at 2. rewrite map_length in Hm. lia.
  - rewrite Hls. eauto.
Qed.
Lemma wrap_value_error_lemma : forall text w, wrap text w = Err ValueError <-> (w <= 0)%Z.
Proof.
  intros text w. split.
  - intros H. destruct (Z.leb_spec w 0) as [Hw|Hw]; [exact Hw|]. destruct (wrap_total_lemma text w ltac:(lia)) as [ls Hls].
    rewrite Hls in H. discriminate.
  - intros H. unfold wrap. destruct (Z.leb_spec w 0); [reflexivity|lia].
Qed.
Lemma wrap_ok_chunks text w ls : wrap text w = Ok ls ->
  (1 <= w)%Z /\ wrap_chunks (2 * length text + 2) (Z.to_nat w) (chunks (munge text)) [] = Some ls.
Proof.
  unfold wrap. destruct (Z.leb_spec w 0) as [H|H]; [discriminate|].
  destruct (wrap_chunks _ _ _ _) as [l|]; [|discriminate]. intros E. injection E as <-. split; [lia|reflexivity].
Qed.
Lemma wrap_lines_fit_lemma : forall text w ls, wrap text w = Ok ls -> Forall (fun l => (Z.of_nat (length l) <= w)%Z) ls.
Proof.
  intros text w ls H. apply wrap_ok_chunks in H. destruct H as [Hw H].
  apply wrap_chunks_fit in H; [|constructor]. eapply Forall_impl; [|exact H]. intros l Hl. cbv beta in Hl. lia.
Qed.
Lemma wrap_keeps_text_lemma : forall text w ls, wrap text w = Ok ls ->
  filter (fun c => negb (is_space c)) (concat ls) = filter (fun c => negb (is_space c)) (munge text).
Proof.
  intros text w ls H. apply wrap_ok_chunks in H. destruct H as [Hw H].
  apply wrap_chunks_text in H. rewrite chunks_concat in H. exact H.
Qed.

(* every character of a line is a character of the munged text; in particular no line holds a newline *)
Lemma wrap_lines_chars_lemma (P : N -> Prop) : forall text w ls, wrap text w = Ok ls -> Forall P (munge text) -> Forall (Forall P) ls.
Proof.
  intros text w ls H HP. apply wrap_ok_chunks in H. destruct H as [Hw H].
  apply (wrap_chunks_chars P) in H; [|rewrite chunks_concat; exact HP|constructor].
  now apply Forall_concat.
Qed.
Lemma munge_P (P : N -> Prop) text : P SP -> Forall P text -> Forall P (munge text).
Proof. intros Hs H. apply Forall_map. eapply Forall_impl; [|exact H]. intros c Hc. now destruct (tw_space c). Qed.
Lemma munge_no_newline text : Forall (fun c => c <> 10%N) (munge text).
Proof.
  apply Forall_map, Forall_forall. intros c _. destruct (tw_space c) eqn:E; [discriminate|]. intros ->. discriminate.
Qed.
Lemma wrap_lines_no_newline_lemma : forall text w ls, wrap text w = Ok ls -> Forall (Forall (fun c => c <> 10%N)) ls.
Proof. intros text w ls H. eapply wrap_lines_chars_lemma; [exact H|apply munge_no_newline]. Qed.
