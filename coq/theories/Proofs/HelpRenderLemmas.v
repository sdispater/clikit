(* C13: the plain and the ANSI formatter RENDER a page (success, not only "if it renders it fits").

   render_page fails only where the formatter refuses a text or there is no room to wrap (render_error_kind).  The formatter
   (pastel's colorize) refuses an inline style with an unknown colour, and a closing tag of a known style that is not on a
   non-empty style stack; whether it does depends on the tags the scanner finds and on the stack, not on the decoration
   (effect below).  What it sees is one message per element: indentation, label, padding and the text wrapped by textwrap.
   textwrap breaks a word longer than the line, and a word that holds a tag can be cut inside the tag: the tag is then
   ordinary text, its partner stays, and rendering well-nested markup can FAIL at some widths (page_renders_refuted in
   Props/C13.v; confirmed on the Python code).  The theorems below are for layouts whose tagged texts need no word broken
   at the width at hand; texts without any "<" are never a problem.

   In this file, in this order:
   - the effect of a message on the style stack (effect: what colorize does to the stack, whatever the decoration), and how
     it composes over separators, white space and the lines of an element (raw_effect);
   - sim: scanner states that differ only in pending text that the tags and escapes to come cannot see;
   - textwrap's chunk boundaries (bnd) and how the lines of a wrapped text lie in the text when no word is broken (laid,
     wrap_laid) - facts about Model/Wrap.v alone - and from them wrap_effect;
   - page_renders for layouts that are layout_ok at the width at hand, and the boolean tests that decide it (text_okb,
     elem_okb, layout_okb);
   - the help pages: calm pieces compose (calm_app, calm_pair, calm_join), so the pages of a configuration with plain
     names are page_fine, at every width.

   The adjectives:
     neutral sty a0 m    colorize takes m and leaves every stack as it was
     quiet a             behind a no tag is pending and the pending text does not end with a backslash
     calm sty a          quiet, neutral, no hyphen inside a tag name: what composes by ++
     plain n             a name without "<" and backslash (not: the plain formatter)
     simple_nm nm        a tag name without "-" and "=": resolve only looks it up in the style table
     ph_name nm          no white space in nm, and "<nm>" is a tag with a simple name or no tag at all
     markup_fine sty t   t holds no "<", or munge t is neutral with no hyphen inside a tag name; elem_fine, page_fine: every
                         text so, every label calm - independent of the width
     text_ok sty w t     markup_fine, and the words of a text with "<" fit the wrap width w; elem_ok, layout_ok likewise *)
From Coq Require Import Lia.
From Clikit Require Import Proofs.ListLemmas.
From Clikit Require Import Base.Prelude Base.Res Model.Conv Model.Flags Model.Format Model.Markup Model.Wrap Model.Help.
From Clikit Require Import Proofs.WrapLemmas Proofs.HelpLemmas Proofs.MarkupLemmas Proofs.LiteralLemmas Proofs.MarkupShrinkLemmas Proofs.HelpPlainLemmas Proofs.HelpCleanLemmas.

(* do_tag, the stack only *)
Definition tag_stack (sty : styles) (escaped : bool) (t : tag) (sk : stack) : res stack :=
  let 'Tag raw cl nm := t in
  if escaped then Ok sk
  else if cl && (match nm with [] => true | _ => false end) then Ok (pop_any sk)
  else do r <- resolve sty (py_lower nm);
       match r with
       | None => Ok sk
       | Some st => if cl then pop_style st sk else Ok (sk ++ [st])
       end.
Lemma do_tag_stack sty colored esc t sk :
  match do_tag sty colored esc t sk with
  | Ok x => tag_stack sty esc t sk = Ok (fst x)
  | Err k => tag_stack sty esc t sk = Err k
  end.
Proof.
  destruct t as [raw cl nm]. unfold do_tag, tag_stack. destruct esc; [reflexivity|].
  destruct (cl && match nm with [] => true | _ => false end); [reflexivity|].
  destruct (resolve sty (py_lower nm)) as [[st|]|k]; cbn [bind]; [|reflexivity|reflexivity].
  destruct cl; [|reflexivity]. destruct (pop_style st sk); reflexivity.
Qed.

Fixpoint segs_stack (sty : styles) (a0 first : bool) (segs : list (str * tag)) (sk : stack) : res stack :=
  match segs with
  | [] => Ok sk
  | (pre, t) :: r => do sk1 <- tag_stack sty (esc_of a0 first pre) t sk; segs_stack sty a0 false r sk1
  end.
Lemma run_segs_stack sty colored a0 : forall segs sk out first le,
  match run_segs sty colored a0 first segs sk out le with
  | Ok x => segs_stack sty a0 first segs sk = Ok (fst (fst x))
  | Err k => segs_stack sty a0 first segs sk = Err k
  end.
Proof.
  induction segs as [|[pre t] r IH]; intros sk out first le; cbn [run_segs segs_stack]; [reflexivity|].
  fold (esc_of a0 first pre). pose proof (do_tag_stack sty colored (esc_of a0 first pre) t sk) as Hd.
  destruct (do_tag sty colored (esc_of a0 first pre) t sk) as [x|k]; rewrite Hd; cbn [bind]; [apply IH|reflexivity].
Qed.

(* the stack after the message m, started on sk; a0: what a tag at position 0 takes for "escaped" *)
Definition effect (sty : styles) (a0 : bool) (m : str) (sk : stack) : res stack :=
  segs_stack sty a0 true (l_done (fold_left lex_step m lex_init)) sk.

Theorem colorize_effect sty colored sk m :
  match colorize sty colored sk m with
  | Ok x => effect sty (ends_with_bsl m) m sk = Ok (fst x)
  | Err k => effect sty (ends_with_bsl m) m sk = Err k
  end.
Proof.
  unfold colorize, effect, lex, lex_end. set (st := fold_left lex_step m lex_init).
  destruct (l_done st) as [|sg segs] eqn:Ed; [reflexivity|]. rewrite <- Ed.
  pose proof (run_segs_stack sty colored (ends_with_bsl m) (l_done st) sk [] true false) as H.
  destruct (run_segs sty colored (ends_with_bsl m) true (l_done st) sk [] false) as [[[sk1 o] le]|k]; cbn [bind fst] in *; exact H.
Qed.
Lemma colorize_of_effect sty colored sk m sk' : effect sty (ends_with_bsl m) m sk = Ok sk' ->
  exists o, colorize sty colored sk m = Ok (sk', o).
Proof.
  intros H. pose proof (colorize_effect sty colored sk m) as Hc. destruct (colorize sty colored sk m) as [[s1 o1]|k]; cbn [fst] in Hc.
  - exists o1. congruence.
  - congruence.
Qed.

Definition neutral (sty : styles) (a0 : bool) (m : str) : Prop := forall sk, effect sty a0 m sk = Ok sk.

Lemma same_formatter f : {| f_kind := f_kind f; f_styles := f_styles f; f_stack := f_stack f |} = f.
Proof. destruct f. reflexivity. Qed.
Lemma remove_format_neutral f m : f_kind f <> FNull -> neutral (f_styles f) (ends_with_bsl m) m ->
  exists o, remove_format f m = Ok (f, o).
Proof.
  intros Hk Hn. unfold remove_format.
  destruct (colorize_of_effect (f_styles f) false (f_stack f) m _ (Hn (f_stack f))) as [o Ho].
  destruct (f_kind f) eqn:E; [| |congruence]; rewrite Ho; cbn [bind fst snd]; rewrite <- E, same_formatter; eauto.
Qed.
Lemma emit_neutral f m : f_kind f <> FNull -> neutral (f_styles f) (ends_with_bsl m) m -> exists o, emit f m = Ok (f, o).
Proof.
  intros Hk Hn. unfold emit. destruct (f_kind f) eqn:E; [|rewrite <- E in Hk; now apply remove_format_neutral|congruence].
  unfold format. rewrite E.
  destruct (colorize_of_effect (f_styles f) true (f_stack f) m _ (Hn (f_stack f))) as [o ->]. cbn [bind fst snd].
  rewrite <- E, same_formatter. eauto.
Qed.

Local Open Scope Z_scope.
(* the visible width of a label: what remove_format leaves of it *)
Definition vis_of (sty : styles) (label : str) : Z := zlen (plain_of sty (ends_with_bsl label) label).
Lemma vis_of_le sty label : 0 <= vis_of sty label <= zlen label.
Proof. unfold vis_of, zlen. pose proof (plain_of_le sty (ends_with_bsl label) label). lia. Qed.
(* LabelAlignment.align, on the visible widths *)
Fixpoint align_vis (sty : styles) (l : layout) (acc : Z) : Z :=
  match l with
  | [] => acc
  | (ind, ELab label _ padding true) :: r => align_vis sty r (Z.max acc (Z.of_nat ind + vis_of sty label + Z.of_nat padding))
  | _ :: r => align_vis sty r acc
  end.
Definition label_neutral (sty : styles) (e : elem) : Prop := neutral sty (ends_with_bsl (elem_label e)) (elem_label e).
Definition labels_neutral (sty : styles) (l : layout) : Prop := Forall (fun x => label_neutral sty (snd x)) l.

Lemma remove_format_label f label : f_kind f <> FNull -> neutral (f_styles f) (ends_with_bsl label) label ->
  remove_format f label = Ok (f, plain_of (f_styles f) (ends_with_bsl label) label).
Proof.
  intros Hk Hn. destruct (remove_format_neutral f label Hk Hn) as [o Ho]. rewrite Ho.
  apply remove_format_plain_of in Ho; [|exact Hk]. cbn [fst snd] in Ho. destruct Ho as (-> & _). reflexivity.
Qed.
Lemma align_neutral f : f_kind f <> FNull -> forall l acc, labels_neutral (f_styles f) l ->
  align f l acc = Ok (f, align_vis (f_styles f) l acc).
Proof.
  intros Hk. induction l as [|[ind e] r IH]; intros acc Hl; [reflexivity|]. inversion Hl as [|? ? H1 H2]; subst.
  cbn [align align_vis]. destruct e as [t|label text padding aligned|]; [now apply IH| |now apply IH].
  destruct aligned; [|now apply IH]. cbn [snd] in H1. unfold label_neutral in H1. cbn [elem_label] in H1.
  rewrite (remove_format_label f label Hk H1). cbn [bind fst snd]. now apply IH.
Qed.

Lemma elem_raw_ends W off ind vis e raw : elem_raw W off ind vis e = Ok raw -> ends_with_bsl raw = false.
Proof.
  intros H. destruct (elem_raw_shape _ _ _ _ _ _ H) as [[_ ->]|(lines & body & t & _ & -> & _)]; [reflexivity|now rewrite ends_snoc].
Qed.

(* what is asked of one element: the text it hands to the formatter is neutral *)
Definition raw_neutral (sty : styles) (W off : Z) (ind : nat) (e : elem) : Prop :=
  forall raw, elem_raw W off ind (vis_of sty (elem_label e)) e = Ok raw -> neutral sty false raw.
Definition elem_width_vis (sty : styles) (off : Z) (ind : nat) (e : elem) : Z :=
  match e with
  | ELab label _ padding aligned =>
    Z.of_nat ind + Z.max (if aligned then off - Z.of_nat ind else 0) (vis_of sty label + Z.of_nat padding) + 2
  | EPara _ => Z.of_nat ind + 2
  | EEmpty => 1
  end.

Lemma render_elem_neutral W off f ind e : f_kind f <> FNull -> label_neutral (f_styles f) e ->
  elem_width_vis (f_styles f) off ind e <= W -> raw_neutral (f_styles f) W off ind e ->
  exists o, render_elem W off f ind e = Ok (f, o).
Proof.
  intros Hk Hl HW Hr. pose proof (render_elem_ok_lemma W off f ind e) as H. unfold raw_neutral in Hr.
  destruct e as [t|label text padding aligned|]; cbn [elem_label elem_width_vis] in *.
  - destruct H as (raw & Er & ->); [cbn [wrap_width]; lia|].
    assert (vis_of (f_styles f) [] = 0) as Ev by reflexivity. rewrite Ev in Hr.
    pose proof (elem_raw_ends _ _ _ _ _ _ Er) as Ee. apply emit_neutral; [exact Hk|]. rewrite Ee. now apply Hr.
  - unfold label_neutral in Hl. cbn [elem_label] in Hl. pose proof (remove_format_label f label Hk Hl) as Erf.
    destruct (H _ Erf) as (raw & Er & ->); [cbn [wrap_width fst snd]; fold (vis_of (f_styles f) label); lia|].
    cbn [fst snd] in *. fold (vis_of (f_styles f) label) in Er.
    pose proof (elem_raw_ends _ _ _ _ _ _ Er) as Ee. apply emit_neutral; [exact Hk|]. rewrite Ee. now apply Hr.
  - destruct H as (raw & Er & ->); [exact I|]. inversion Er; subst. apply emit_neutral; [exact Hk|]. intros sk. reflexivity.
Qed.

Lemma render_all_neutral W off f : f_kind f <> FNull -> forall l out,
  Forall (fun x => label_neutral (f_styles f) (snd x) /\ elem_width_vis (f_styles f) off (fst x) (snd x) <= W /\
                   raw_neutral (f_styles f) W off (fst x) (snd x)) l ->
  exists y, render_all W off f l out = Ok y.
Proof.
  intros Hk. induction l as [|[ind e] r IH]; intros out Hl; cbn [render_all]; [eauto|].
  inversion Hl as [|? ? (H1 & H2 & H3) Hr]; subst. cbn [fst snd] in *.
  destruct (render_elem_neutral W off f ind e Hk H1 H2 H3) as [o ->]. cbn [bind fst snd]. now apply IH.
Qed.

(* the width a layout needs on this formatter: room for one character of text behind every indentation and (visible) label *)
Definition needed_width_for (sty : styles) (l : layout) : Z :=
  fold_right (fun x m => Z.max (elem_width_vis sty (align_vis sty l 0) (fst x) (snd x)) m) 1 l.

Theorem page_renders_neutral W f l : f_kind f <> FNull -> labels_neutral (f_styles f) l ->
  needed_width_for (f_styles f) l <= W ->
  Forall (fun x => raw_neutral (f_styles f) W (align_vis (f_styles f) l 0) (fst x) (snd x)) l ->
  exists s, render_page W f l = Ok s.
Proof.
  intros Hk Hl HW Hr. unfold render_page. rewrite (align_neutral f Hk l 0 Hl). cbn [bind fst snd].
  destruct (render_all_neutral W (align_vis (f_styles f) l 0) f Hk l []) as [y ->]; [|cbn [bind]; eauto].
  apply fold_max_bound in HW. unfold labels_neutral in Hl. rewrite Forall_forall in *. intros x Hx. repeat split; auto.
Qed.

Lemma align_vis_le sty : forall l a b, a <= b -> align_vis sty l a <= align_off l b.
Proof.
  induction l as [|[ind e] r IH]; intros a b Hab; cbn [align_vis align_off]; [exact Hab|].
  destruct e as [t|label text padding aligned|]; [now apply IH| |now apply IH]. destruct aligned; [|now apply IH].
  apply IH. pose proof (vis_of_le sty label). lia.
Qed.

Definition seq_eff (e1 e2 : stack -> res stack) (sk : stack) : res stack := do s1 <- e1 sk; e2 s1.
Lemma segs_stack_app sty a0 : forall a b first sk,
  segs_stack sty a0 first (a ++ b) sk =
  (do s1 <- segs_stack sty a0 first a sk; segs_stack sty a0 (match a with [] => first | _ => false end) b s1).
Proof.
  induction a as [|[pre t] a IH]; intros b first sk; cbn [app segs_stack]; [reflexivity|].
  destruct (tag_stack sty (esc_of a0 first pre) t sk) as [s1|k]; cbn [bind]; [|reflexivity].
  rewrite IH. destruct a; reflexivity.
Qed.
Lemma segs_stack_later sty a0 a0' : forall r sk, segs_stack sty a0 false r sk = segs_stack sty a0' false r sk.
Proof.
  induction r as [|[pre t] r IH]; intros sk; cbn [segs_stack]; [reflexivity|].
  assert (esc_of a0 false pre = esc_of a0' false pre) as -> by (destruct pre; reflexivity).
  destruct (tag_stack sty (esc_of a0' false pre) t sk); cbn [bind]; [apply IH|reflexivity].
Qed.

(* the scanner started behind finished tags d and pending text c that is not empty and does not end with a backslash *)
Lemma effect_glue sty a0 d c st sk : c <> [] -> ends_with_bsl c = false ->
  segs_stack sty a0 true (l_done (glue d c st)) sk =
  (do s1 <- segs_stack sty a0 true d sk; segs_stack sty false true (l_done st) s1).
Proof.
  intros Hc Ec. unfold glue, mk. destruct (l_done st) as [|[p t] r]; cbn [l_done].
  - cbn [segs_stack]. destruct (segs_stack sty a0 true d sk); reflexivity.
  - rewrite segs_stack_app. destruct (segs_stack sty a0 true d sk) as [s1|k]; cbn [bind]; [|reflexivity].
    cbn [segs_stack].
    assert (E : forall first, esc_of a0 first (c ++ p) = esc_of false true p).
    { intros first. unfold esc_of. destruct (c ++ p) as [|x y] eqn:Ecp; [destruct c; [contradiction|discriminate]|].
      rewrite <- Ecp, ends_app. destruct p; [exact Ec|reflexivity]. }
    rewrite E. destruct (tag_stack sty (esc_of false true p) t s1); cbn [bind]; [apply segs_stack_later|reflexivity].
Qed.

Theorem effect_sep sty a0 a sep b sk : inert sep ->
  effect sty a0 (a ++ sep :: b) sk = (do s1 <- effect sty a0 a sk; effect sty false b s1).
Proof.
  intros Hs. unfold effect. rewrite fold_left_app. cbn [fold_left]. set (sa := fold_left lex_step a lex_init).
  rewrite (inert_step sa sep Hs), <- glue_init, glue_fold. apply effect_glue.
  - destruct (l_cur sa); [destruct (raw_of (l_cand sa))|]; discriminate.
  - rewrite app_assoc, ends_snoc. destruct Hs as (_ & _ & _ & Hb & _). now apply N.eqb_neq.
Qed.
Lemma effect_nil sty a0 sk : effect sty a0 [] sk = Ok sk.
Proof. reflexivity. Qed.
Lemma effect_snoc sty a0 a sep sk : inert sep -> effect sty a0 (a ++ [sep]) sk = effect sty a0 a sk.
Proof. intros Hs. rewrite effect_sep by exact Hs. destruct (effect sty a0 a sk); reflexivity. Qed.
Lemma effect_cons sty sep b sk : inert sep -> effect sty false (sep :: b) sk = effect sty false b sk.
Proof. intros Hs. change (sep :: b) with ([] ++ sep :: b). now rewrite effect_sep. Qed.
Lemma effect_inert_suffix sty a0 a : forall t sk, Forall inert t -> effect sty a0 (a ++ t) sk = effect sty a0 a sk.
Proof.
  induction t as [|c t IH] using rev_ind; intros sk Ht; [now rewrite app_nil_r|].
  apply Forall_app in Ht as [Ht Hc]. inversion Hc; subst. rewrite app_assoc, effect_snoc by assumption. now apply IH.
Qed.
Lemma effect_inert_prefix sty : forall t b sk, Forall inert t -> effect sty false (t ++ b) sk = effect sty false b sk.
Proof.
  induction t as [|c t IH]; intros b sk Ht; [reflexivity|]. inversion Ht; subst. cbn [app].
  rewrite effect_cons by assumption. now apply IH.
Qed.
Lemma effect_no_lt sty a0 m sk : no_lt m -> effect sty a0 m sk = Ok sk.
Proof. intros H. unfold effect. pose proof (lex_no_tag m H) as E. unfold lex, lex_end in E. apply (f_equal fst) in E. cbn [fst] in E. now rewrite E. Qed.

(* the lines of a wrapped text behind their prefix: the effects of the lines, one after the other *)
Fixpoint effects (sty : styles) (ls : list str) (sk : stack) : res stack :=
  match ls with [] => Ok sk | l :: r => do s1 <- effect sty false l sk; effects sty r s1 end.
Lemma effect_join sty prefix : Forall inert prefix -> forall ls sk,
  effect sty false (join_lines prefix ls) sk = effects sty ls sk.
Proof.
  intros Hp. induction ls as [|l r IH]; intros sk; [reflexivity|]. destruct r as [|l2 r'].
  - cbn [join_lines effects]. destruct (effect sty false l sk); reflexivity.
  - change (join_lines prefix (l :: l2 :: r')) with (l ++ 10%N :: prefix ++ join_lines prefix (l2 :: r')).
    rewrite effect_sep by exact inert_nl. cbn [effects]. destruct (effect sty false l sk) as [s1|k]; cbn [bind]; [|reflexivity].
    rewrite effect_inert_prefix by exact Hp. apply IH.
Qed.

Lemma raw_effect sty W off ind vis e raw sk : elem_raw W off ind vis e = Ok raw ->
  (match e with ELab _ _ padding _ => (1 <= padding)%nat | _ => True end) ->
  e = EEmpty \/ exists ls, wrap (elem_text e) (wrap_width W off ind vis e) = Ok ls /\
    effect sty false raw sk = (do s1 <- effect sty false (elem_label e) sk; effects sty ls s1).
Proof.
  intros H Hp. destruct (elem_raw_shape _ _ _ _ _ _ H) as [[-> ->]|(ls & body & t & Hw & -> & Ht & E)]; [now left|right].
  exists ls. split; [exact Hw|]. rewrite effect_snoc by exact inert_nl.
  rewrite <- (effect_inert_suffix sty false body t sk (inert_blank _ Ht)), E, effect_inert_prefix by apply inert_spaces.
  assert (Forall inert (spaces ind ++ spaces (Z.to_nat (text_col off ind vis e)))) as Hpre by (apply Forall_app; split; apply inert_spaces).
  destruct e as [t0|label text padding aligned|]; cbn [lead elem_label text_col] in *; [now apply effect_join| |now apply effect_join].
  assert (exists k, Z.to_nat (Z.max (if aligned then off - Z.of_nat ind else 0) (vis + Z.of_nat padding) - vis) = S k) as [k ->].
  { exists (Z.to_nat (Z.max (if aligned then off - Z.of_nat ind else 0) (vis + Z.of_nat padding) - vis) - 1)%nat. lia. }
  cbn [spaces repeat]. rewrite <- app_assoc. cbn [app]. rewrite effect_sep by (apply inert_space; reflexivity).
  destruct (effect sty false label sk) as [s1|k0]; cbn [bind]; [|reflexivity].
  change (repeat 32%N k) with (spaces k). rewrite effect_inert_prefix by apply inert_spaces. now apply effect_join.
Qed.

(* the same tags, each behind a text that ends with a backslash or not alike; the same candidate; pending text alike *)
Definition seg_sim (x y : str * tag) : Prop := snd x = snd y /\ ends_with_bsl (fst x) = ends_with_bsl (fst y).
Definition sim (s1 s2 : lexst) : Prop :=
  Forall2 seg_sim (l_done s1) (l_done s2) /\ ends_with_bsl (l_cur s1) = ends_with_bsl (l_cur s2) /\ l_cand s1 = l_cand s2.
Lemma sim_refl s : sim s s.
Proof. split; [|auto]. induction (l_done s); constructor; [split; reflexivity|assumption]. Qed.
Lemma sim_sym s1 s2 : sim s1 s2 -> sim s2 s1.
Proof.
  intros (H1 & H2 & H3). split; [|auto]. clear H2 H3. induction H1; constructor; [|assumption]. destruct H; split; auto.
Qed.
Lemma sim_trans s1 s2 s3 : sim s1 s2 -> sim s2 s3 -> sim s1 s3.
Proof.
  intros (H1 & H2 & H3) (K1 & K2 & K3). split; [|split; congruence]. clear H2 H3 K2 K3.
  revert K1. generalize (l_done s3). induction H1; intros l3 K; inversion K; subst; constructor; [|auto].
  destruct H, H3. split; congruence.
Qed.
Lemma ends_app_cong a a' b : ends_with_bsl a = ends_with_bsl a' -> ends_with_bsl (a ++ b) = ends_with_bsl (a' ++ b).
Proof. intros H. rewrite !ends_app. destruct b; auto. Qed.
Lemma sim_step s1 s2 c : sim s1 s2 -> sim (lex_step s1 c) (lex_step s2 c).
Proof.
  intros (H1 & H2 & H3). unfold lex_step. rewrite <- H3.
  assert (Hfail : forall X k, sim {| l_done := l_done s1; l_cur := l_cur s1 ++ X; l_cand := k |}
                                  {| l_done := l_done s2; l_cur := l_cur s2 ++ X; l_cand := k |}).
  { intros X k. split; [exact H1|]. split; [now apply ends_app_cong|reflexivity]. }
  assert (Hgo : forall k, sim {| l_done := l_done s1; l_cur := l_cur s1; l_cand := k |}
                              {| l_done := l_done s2; l_cur := l_cur s2; l_cand := k |}).
  { intros k. split; [exact H1|]. split; [exact H2|reflexivity]. }
  assert (Hemit : forall T, sim {| l_done := l_done s1 ++ [(l_cur s1, T)]; l_cur := []; l_cand := CText |}
                                {| l_done := l_done s2 ++ [(l_cur s2, T)]; l_cur := []; l_cand := CText |}).
  { intros T. split; [|split; reflexivity]. cbn [l_done]. apply Forall2_app; [exact H1|]. constructor; [split; [reflexivity|exact H2]|constructor]. }
  destruct (N.eqb c LT); [apply Hfail|]. destruct (l_cand s1) as [| | |cl nm].
  - apply Hfail.
  - destruct (N.eqb c SLASH); [apply Hgo|]. destruct (tag_start c); [apply Hgo|apply Hfail].
  - destruct (N.eqb c GT); [apply Hemit|]. destruct (tag_start c); [apply Hgo|apply Hfail].
  - destruct (N.eqb c GT); [apply Hemit|]. destruct (tag_char c); [apply Hgo|apply Hfail].
Qed.
Lemma sim_fold m : forall s1 s2, sim s1 s2 -> sim (fold_left lex_step m s1) (fold_left lex_step m s2).
Proof. induction m as [|c r IH]; intros s1 s2 H; cbn [fold_left]; [exact H|]. apply IH, sim_step, H. Qed.
Lemma esc_of_false first pre : esc_of false first pre = ends_with_bsl pre.
Proof. unfold esc_of. destruct pre; [now rewrite andb_false_r|reflexivity]. Qed.
Lemma sim_segs sty : forall d1 d2, Forall2 seg_sim d1 d2 -> forall first first' sk,
  segs_stack sty false first d1 sk = segs_stack sty false first' d2 sk.
Proof.
  induction 1 as [|[p1 t1] [p2 t2] r1 r2 [Ht Hp] Hr IH]; intros first first' sk; cbn [segs_stack]; [reflexivity|].
  cbn [fst snd] in Ht, Hp. subst t2. rewrite !esc_of_false, Hp.
  destruct (tag_stack sty (ends_with_bsl p2) t1 sk); cbn [bind]; [apply IH|reflexivity].
Qed.
Lemma sim_effect sty a b sk : sim (fold_left lex_step a lex_init) (fold_left lex_step b lex_init) ->
  effect sty false a sk = effect sty false b sk.
Proof. intros (H & _). unfold effect. now apply sim_segs. Qed.

Lemma inert_fold st : forall r, Forall inert r -> r <> [] ->
  exists x, fold_left lex_step r st = mk (l_done st) (l_cur st ++ raw_of (l_cand st) ++ x) CText /\ ends_with_bsl x = false /\ x <> [].
Proof.
  induction r as [|c r IH] using rev_ind; intros Hr Hne; [congruence|].
  apply Forall_app in Hr as [Hr Hc]. inversion Hc as [|? ? Hci _]; subst. rewrite fold_left_app. cbn [fold_left].
  destruct r as [|c0 r0].
  - cbn [fold_left]. rewrite (inert_step st c Hci). exists [c]. split; [reflexivity|]. split; [|discriminate].
    change [c] with ([] ++ [c]). rewrite ends_snoc. destruct Hci as (_ & _ & _ & Hb & _). now apply N.eqb_neq.
  - destruct (IH Hr ltac:(discriminate)) as (x & -> & _ & _). rewrite inert_step by exact Hci.
    cbn [l_done l_cur l_cand raw_of mk]. exists (x ++ [c]). rewrite !app_nil_l, <- !app_assoc. split; [reflexivity|].
    split; [|destruct x; discriminate]. rewrite ends_snoc. destruct Hci as (_ & _ & _ & Hb & _). now apply N.eqb_neq.
Qed.
Lemma ends_false_app a x : ends_with_bsl x = false -> x <> [] -> ends_with_bsl (a ++ x) = false.
Proof. intros H Hx. rewrite ends_app. destruct x; [congruence|exact H]. Qed.
Lemma sim_blanks s1 s2 r1 r2 : sim s1 s2 -> Forall inert r1 -> r1 <> [] -> Forall inert r2 -> r2 <> [] ->
  sim (fold_left lex_step r1 s1) (fold_left lex_step r2 s2).
Proof.
  intros (H1 & H2 & H3) I1 N1 I2 N2. destruct (inert_fold s1 r1 I1 N1) as (x1 & -> & E1 & X1).
  destruct (inert_fold s2 r2 I2 N2) as (x2 & -> & E2 & X2). split; [exact H1|]. split; [|reflexivity].
  cbn [l_cur mk]. rewrite !app_assoc, !ends_false_app; auto.
Qed.

(* the character y0 read on the state st neither continues a pending tag, nor is it a "<" directly behind a backslash *)
Definition continues (k : cand) (c : N) : bool :=
  match k with
  | CText => false
  | COpen => N.eqb c SLASH || tag_start c
  | CSlash => N.eqb c GT || tag_start c
  | CName _ _ => N.eqb c GT || tag_char c
  end.
Definition safe_cut (st : lexst) (y0 : N) : bool :=
  negb (continues (l_cand st) y0) &&
  negb (N.eqb y0 LT && match l_cand st with CText => ends_with_bsl (l_cur st) | _ => false end).
Lemma tagish_not_bsl c : tagish c -> c <> BSL.
Proof. intros [->|[->|[->|H]]]; try discriminate. intros ->. vm_compute in H. discriminate. Qed.
Lemma raw_ends st : lex_tagish st -> ends_with_bsl (raw_of (l_cand st)) = false.
Proof.
  intros [_ H]. destruct (raw_of (l_cand st)) as [|c r] using rev_ind; [reflexivity|].
  rewrite ends_snoc. apply Forall_app in H as [_ H]. inversion H; subst. apply N.eqb_neq. now apply tagish_not_bsl.
Qed.
Lemma raw_nonempty k : k <> CText -> raw_of k <> [].
Proof. destruct k; [congruence|discriminate|discriminate|discriminate]. Qed.

(* a character that does not continue the pending candidate is read as at the start of a message, behind the text pending *)
Lemma step_init y0 : y0 <> LT -> lex_step lex_init y0 = mk [] [y0] CText.
Proof. intros H. unfold lex_step, mk. apply N.eqb_neq in H. now rewrite H. Qed.
Lemma cut_step st y0 : continues (l_cand st) y0 = false ->
  lex_step st y0 = glue (l_done st) (l_cur st ++ raw_of (l_cand st)) (lex_step lex_init y0).
Proof.
  intros Hc. destruct (N.eqb_spec y0 LT) as [->|Hne].
  - unfold lex_step, glue, mk. change (N.eqb LT LT) with true. cbn [lex_init l_done l_cur l_cand raw_of app]. now rewrite !app_nil_r.
  - rewrite (step_init y0 Hne). unfold glue, mk. cbn [l_done l_cur l_cand]. rewrite <- app_assoc.
    unfold lex_step. apply N.eqb_neq in Hne. rewrite Hne.
    destruct (l_cand st); cbn [continues] in Hc; [reflexivity| | |]; apply orb_false_elim in Hc as [-> ->]; reflexivity.
Qed.

(* s2 has read what s1 has and then the blanks r (the line break and indentation the wrapping puts in).  On s1, y0 does not
   continue the pending candidate (safe_cut): the candidate's raw text joins the pending text and y0 is read as at the start
   of a message (cut_step).  On s2 the blanks have done the same already.  The pending texts differ, but neither ends with a
   backslash that y0 = "<" would take for an escape. *)
Lemma sim_cut s1 s2 y0 r : sim s1 s2 -> lex_tagish s1 -> safe_cut s1 y0 = true -> Forall inert r ->
  sim (lex_step s1 y0) (lex_step (fold_left lex_step r s2) y0).
Proof.
  intros Hs Ht Hsafe Hr. destruct r as [|c0 r0]; [now apply sim_step|].
  destruct (inert_fold s2 (c0 :: r0) Hr ltac:(discriminate)) as (x & -> & Ex & Xne).
  destruct Hs as (H1 & H2 & H3). unfold safe_cut in Hsafe. apply andb_prop in Hsafe as [Hc Hl].
  apply negb_true_iff in Hc. apply negb_true_iff in Hl. pose proof (raw_ends s1 Ht) as Hraw.
  rewrite (cut_step s1 y0 Hc), (cut_step (mk _ _ CText) y0 eq_refl). cbn [mk l_done l_cur l_cand raw_of]. rewrite app_nil_r.
  destruct (N.eqb_spec y0 LT) as [->|Hne].
  - change (lex_step lex_init LT) with (mk [] [] COpen). unfold glue, mk. cbn [l_done l_cur l_cand].
    split; [exact H1|]. split; [|reflexivity]. cbn [l_cur]. rewrite !app_nil_r.
    rewrite (app_assoc (l_cur s2)), (ends_false_app _ x Ex Xne).
    change (N.eqb LT LT) with true in Hl. cbn [andb] in Hl.
    destruct (l_cand s1) eqn:Ek; [cbn [raw_of]; rewrite app_nil_r; exact Hl| | |];
      (apply ends_false_app; [exact Hraw|discriminate]).
  - rewrite (step_init y0 Hne). unfold glue, mk. cbn [l_done l_cur l_cand].
    split; [exact H1|]. split; [|reflexivity]. cbn [l_cur]. now rewrite !app_assoc, !ends_snoc.
Qed.

Local Close Scope Z_scope.
Definition sphy (c : N) : bool := N.eqb c SP || N.eqb c HY.
(* the chunk c, followed by the chunks r: the boundary behind c has a blank or a hyphen on one side *)
Definition bnd (c : str) (r : list str) : Prop :=
  c = [] \/ concat r = [] \/ sphy (last c 0%N) = true \/ sphy (hd 0%N (concat r)) = true.
Fixpoint all_bnd (cs : list str) : Prop := match cs with [] => True | c :: r => bnd c r /\ all_bnd r end.

Lemma take_while_all p : forall s a b, take_while p s = (a, b) -> Forall (fun c => p c = true) a.
Proof.
  induction s as [|c r IH]; intros a b H; cbn [take_while] in H; [injection H as <- <-; constructor|].
  destruct (p c) eqn:E; [|injection H as <- <-; constructor].
  destruct (take_while p r) as [a' b'] eqn:E'. injection H as <- <-. constructor; [exact E|]. eapply IH; eauto.
Qed.
Lemma take_while_first p c s a b : p c = true -> take_while p (c :: s) = (a, b) -> a <> [].
Proof. intros Hp. cbn [take_while]. rewrite Hp. destruct (take_while p s). intros H. injection H as <- _. discriminate. Qed.
(* a run of blanks or of hyphens is a chunk with a blank or a hyphen at its end *)
Lemma take_while_bnd p c s w r rest : (forall x, p x = true -> sphy x = true) -> p c = true -> take_while p (c :: s) = (w, r) -> bnd w rest.
Proof.
  intros Hp Hc E. right. right. left. apply (Forall_last (fun x => sphy x = true) w 0%N); [|exact (take_while_first _ _ _ _ _ Hc E)].
  eapply Forall_impl; [exact Hp|exact (take_while_all _ _ _ _ E)].
Qed.

Lemma ahead_emdash_hd s : ahead_emdash s = true -> sphy (hd 0%N s) = true.
Proof.
  unfold ahead_emdash. destruct s as [|c r]; [cbn; discriminate|]. cbn [take_while hd].
  destruct (N.eqb HY c) eqn:E; [|cbn; discriminate]. intros _. apply N.eqb_eq in E. subst c. reflexivity.
Qed.
Lemma word_chunk_end : forall fuel before acc s w r, word_chunk fuel before acc s = (w, r) ->
  r = [] \/ (w <> [] /\ sphy (last w 0%N) = true) \/ sphy (hd 0%N r) = true.
Proof.
  induction fuel as [|f IH]; intros before acc s w r H; cbn [word_chunk] in H; [injection H as <- <-; now left|].
  destruct s as [|c s']; [injection H as <- <-; now left|].
  destruct acc as [|a0 acc']; [eapply IH; eauto|].
  remember (a0 :: acc') as acc eqn:Ea.
  destruct (N.eqb c HY && behind_hyphen_ok before && ahead_hyphen_ok s') eqn:E1.
  { injection H as <- <-. right. left. split; [destruct acc; discriminate|]. rewrite last_last.
    apply andb_prop in E1 as [E1 _]. apply andb_prop in E1 as [E1 _]. unfold sphy. now rewrite E1, orb_true_r. }
  destruct (is_sp c) eqn:E2. { injection H as <- <-. right. right. cbn [hd]. unfold sphy. unfold is_sp in E2. now rewrite E2. }
  destruct ((match before with p :: _ => tw_punct p | [] => false end) && ahead_emdash (c :: s')) eqn:E3.
  { injection H as <- <-. right. right. apply andb_prop in E3 as [_ E3]. now apply ahead_emdash_hd. }
  eapply IH; eauto.
Qed.

Lemma chunks_aux_bnd : forall fuel before s, all_bnd (chunks_aux fuel before s).
Proof.
  induction fuel as [|f IH]; intros before s; cbn [chunks_aux]; [cbn; split; [right; left; reflexivity|exact I]|].
  destruct s as [|c s']; [exact I|].
  destruct (is_sp c) eqn:Esp.
  { destruct (take_while is_sp (c :: s')) as [w r] eqn:E. cbn [all_bnd]. split; [|apply IH].
    apply (take_while_bnd is_sp c s' w r); [|exact Esp|exact E]. intros x Hx. unfold sphy. unfold is_sp in Hx. now rewrite Hx. }
  destruct (N.eqb c HY && (match before with p :: _ => tw_punct p | [] => false end) && ahead_emdash (c :: s')) eqn:Eem.
  { destruct (take_while (N.eqb HY) (c :: s')) as [w r] eqn:E. cbn [all_bnd]. split; [|apply IH].
    apply andb_prop in Eem as [Eem _]. apply andb_prop in Eem as [Eem _]. rewrite N.eqb_sym in Eem.
    apply (take_while_bnd (N.eqb HY) c s' w r); [|exact Eem|exact E]. intros x Hx. unfold sphy. rewrite N.eqb_sym in Hx. now rewrite Hx, orb_true_r. }
  destruct (word_chunk (S (length (c :: s'))) before [] (c :: s')) as [w r] eqn:E. cbn [all_bnd]. split; [|apply IH].
  unfold bnd. rewrite chunks_aux_concat. apply word_chunk_end in E as [->|[[Hw Hl]|Hr]]; auto.
Qed.
Lemma all_bnd_filter : forall cs, all_bnd cs -> all_bnd (filter nonempty_b cs).
Proof.
  induction cs as [|c r IH]; intros H; [exact I|]. destruct H as [Hb Hr]. cbn [filter].
  destruct c as [|x c']; cbn [nonempty_b]; [now apply IH|]. cbn [all_bnd]. split; [|now apply IH].
  unfold bnd in *. now rewrite concat_filter_ne.
Qed.
Lemma chunks_bnd s : all_bnd (chunks s).
Proof. unfold chunks. change (fun c : str => match c with [] => false | _ => true end) with nonempty_b. apply all_bnd_filter, chunks_aux_bnd. Qed.

Lemma all_bnd_split : forall A b B, all_bnd (A ++ b :: B) -> Forall ne (A ++ b :: B) -> A <> [] ->
  sphy (last (concat A) 0%N) = true \/ sphy (hd 0%N b) = true.
Proof.
  induction A as [|a A' IH]; intros b B H Hne HA; [congruence|]. cbn [app all_bnd] in H. destruct H as [Hb Hr].
  inversion Hne as [|? ? Ha Hne']; subst. destruct A' as [|a2 A''].
  - cbn [app concat] in *. rewrite app_nil_r. inversion Hne' as [|? ? Hbne _]; subst.
    destruct Hb as [Hb|[Hb|[Hb|Hb]]]; [contradiction| |now left|].
    + destruct b; [now elim Hbne|discriminate].
    + right. destruct b; [now elim Hbne|exact Hb].
  - destruct (IH b B Hr Hne' ltac:(discriminate)) as [H|H]; [left|now right].
    cbn [concat]. rewrite last_app_ne; [exact H|]. inversion Hne' as [|? ? Ha2 _]; subst. cbn [concat].
    destruct a2; [now elim Ha2|discriminate].
Qed.

(* the text condition: wherever a line may be broken without a blank being there (next to a hyphen), the scanner is not inside
   a tag that the next character continues, and the next character is not a "<" behind a backslash *)
Definition cuts_ok (u : str) : Prop :=
  forall X y0 Y, u = X ++ y0 :: Y -> X <> [] -> sphy (last X 0%N) || sphy y0 = true ->
  safe_cut (fold_left lex_step X lex_init) y0 = true.
Fixpoint cuts_okb_from (st : lexst) (prev : option N) (u : str) : bool :=
  match u with
  | [] => true
  | y0 :: Y =>
    (match prev with
     | None => true
     | Some p => if sphy p || sphy y0 then safe_cut st y0 else true
     end) && cuts_okb_from (lex_step st y0) (Some y0) Y
  end.
Definition cuts_okb (u : str) : bool := cuts_okb_from lex_init None u.
Lemma cuts_okb_from_ok : forall u X, cuts_okb_from (fold_left lex_step X lex_init) (match X with [] => None | _ => Some (last X 0%N) end) u = true ->
  forall X' y0 Y, u = X' ++ y0 :: Y -> X ++ X' <> [] -> sphy (last (X ++ X') 0%N) || sphy y0 = true ->
  safe_cut (fold_left lex_step (X ++ X') lex_init) y0 = true.
Proof.
  induction u as [|c u IH]; intros X H X' y0 Y E Hne Hs; [destruct X'; discriminate|].
  cbn [cuts_okb_from] in H. apply andb_prop in H as [H1 H2].
  destruct X' as [|x X''].
  - cbn [app] in E. injection E as -> ->. rewrite app_nil_r in *. destruct X as [|x0 X0]; [congruence|].
    rewrite Hs in H1. exact H1.
  - cbn [app] in E. injection E as -> ->.
    replace (X ++ x :: X'') with ((X ++ [x]) ++ X'') in * by now rewrite <- app_assoc.
    apply (IH (X ++ [x])) with (Y := Y); auto.
    rewrite fold_left_app. cbn [fold_left]. rewrite last_last. destruct (X ++ [x]) eqn:Ex; [destruct X; discriminate|]. exact H2.
Qed.
Lemma cuts_okb_ok u : cuts_okb u = true -> cuts_ok u.
Proof. intros H X y0 Y E Hne Hs. apply (cuts_okb_from_ok u [] H X y0 Y E Hne Hs). Qed.

Lemma wstep_nobreak width (c0 : str) (r0 lines : list str) : Forall (fun c : str => length c <= width) (c0 :: r0) ->
  exists D taken rest : list str, c0 :: r0 = D ++ taken ++ rest /\ wstep width c0 r0 lines = (dropblank taken, rest) /\
    Forall (fun c => is_space c = true) (concat D) /\ (D <> [] -> lines <> []) /\ (D = [] -> taken <> []).
Proof.
  intros Hfit. destruct (wstep_cases width c0 r0 lines) as (D & taken & rest & E & HD & Hl & _ & [(Hw & Hne & _)|(c & r & e & -> & Hc & _)]).
  - exists D, taken, rest. auto.
  - rewrite E, !Forall_app in Hfit. destruct Hfit as (_ & _ & Hfit). inversion Hfit; subst. lia.
Qed.

Lemma join_lines_snoc p : forall ls l, ls <> [] -> join_lines p (ls ++ [l]) = join_lines p ls ++ 10%N :: p ++ l.
Proof.
  induction ls as [|x r IH]; intros l Hne; [congruence|]. destruct r as [|y r'].
  - reflexivity.
  - change ((x :: y :: r') ++ [l]) with (x :: (y :: r') ++ [l]).
    change (join_lines p (x :: (y :: r') ++ [l])) with (x ++ 10%N :: p ++ join_lines p ((y :: r') ++ [l])).
    rewrite IH by discriminate. change (join_lines p (x :: y :: r')) with (x ++ 10%N :: p ++ join_lines p (y :: r')).
    symmetry. rewrite <- app_assoc. cbn [app]. now rewrite <- app_assoc.
Qed.

(* How the lines of a wrapped text lie in the text when no word is broken.  O is the text up to the end of the last line.
   Blanks in front of the first line are dropped; between two lines either a run of blanks is dropped, or nothing is, and
   then the break stands at a chunk boundary: next to a blank or a hyphen. *)
Inductive laid : str -> list str -> Prop :=
| laid_nil : laid [] []
| laid_first R l : Forall (fun c => is_space c = true) R -> l <> [] -> laid (R ++ l) [l]
| laid_blank O ls R l : laid O ls -> ls <> [] -> Forall (fun c => is_space c = true) R -> R <> [] -> l <> [] ->
    laid (O ++ R ++ l) (ls ++ [l])
| laid_cut O ls y0 l : laid O ls -> ls <> [] -> sphy (last O 0%N) || sphy y0 = true -> laid (O ++ y0 :: l) (ls ++ [y0 :: l]).
Lemma laid_ne O ls : laid O ls -> ls <> [] -> O <> [].
Proof.
  intros H Hne E. destruct H as [|R l _ Hl|O ls R l _ _ _ _ Hl|O ls y0 l _ _ _]; [congruence| | |];
    repeat (apply app_eq_nil in E as [_ E]); congruence.
Qed.
Lemma laid_no_lines O ls : laid O ls -> ls = [] -> O = [].
Proof.
  intros H E. destruct H as [| |? ls' ? ? _ _ _ _ _|? ls' ? ? _ _ _]; [reflexivity|discriminate|destruct ls'; discriminate|destruct ls'; discriminate].
Qed.

Section WrapLoop.
  Variables (width : nat) (CS : list str).
  Hypothesis Hfit : Forall (fun c : str => length c <= width) CS.
  Hypothesis Hne : Forall ne CS.
  Hypothesis Hbnd : all_bnd CS.

  (* the chunks A are consumed, the lines written: the text consumed is O, laid out as the lines, followed by blanks T *)
  Definition loop_inv (A : list str) (lines : list str) : Prop :=
    exists O T, concat A = O ++ T /\ Forall (fun c => is_space c = true) T /\ laid O lines.

  Lemma loop_step (A : list str) (c0 : str) (r0 lines : list str) : CS = A ++ c0 :: r0 -> loop_inv A lines ->
    exists A', CS = A' ++ snd (wstep width c0 r0 lines) /\ loop_inv A' (add_line lines (fst (wstep width c0 r0 lines))).
  Proof.
    intros HCS (O & T & HO & HT & Hlaid).
    assert (Forall (fun c : str => length c <= width) (c0 :: r0)) as Hfit'.
    { rewrite HCS in Hfit. apply Forall_app in Hfit. tauto. }
    destruct (wstep_nobreak width c0 r0 lines Hfit') as (D & taken & rest & Hsplit & -> & HDb & HDl & HD0).
    cbn [fst snd]. destruct (dropblank_blank taken) as (B & HB & HBb). set (line := dropblank taken) in *.
    exists (A ++ D ++ taken). split; [rewrite HCS, Hsplit; now rewrite <- !app_assoc|].
    pose proof Hne as Hne'. rewrite HCS, Hsplit, HB, !Forall_app in Hne'. destruct Hne' as (_ & HneD & (Hnel & _) & _).
    assert (concat (A ++ D ++ taken) = O ++ (T ++ concat D) ++ concat line ++ concat B) as Econs.
    { rewrite !concat_app, HO, HB, concat_app. now rewrite <- !app_assoc. }
    set (R := T ++ concat D) in *. assert (Forall (fun c => is_space c = true) R) as HR by (apply Forall_app; split; assumption).
    destruct line as [|l0 line'] eqn:Eline; unfold add_line.
    { (* nothing but blanks: no line *)
      exists O, (R ++ concat B). split; [rewrite Econs; reflexivity|].
      split; [apply Forall_app; split; assumption|exact Hlaid]. }
    set (L := concat (l0 :: line')). assert (L <> []) as HL by (apply concat_ne; [exact Hnel|discriminate]).
    exists (O ++ R ++ L), (concat B). split; [rewrite Econs; now rewrite <- !app_assoc|]. split; [exact HBb|].
    destruct lines as [|x0 lines0]; [rewrite (laid_no_lines O _ Hlaid eq_refl); now apply (laid_first R L)|].
    destruct R as [|r1 R'] eqn:ER; [|apply laid_blank; try assumption; discriminate].
    (* no blank between the lines: the break is at the boundary between the chunks A and the chunk l0 *)
    assert (T = [] /\ concat D = []) as [ET ED] by (subst R; destruct T; [split; [reflexivity|exact ER]|discriminate]).
    assert (D = []) as ->.
    { destruct D as [|d D']; [reflexivity|]. inversion HneD as [|? ? Hd _]; subst. destruct d; [now elim Hd|discriminate]. }
    rewrite ET, app_nil_r in HO. pose proof (laid_ne O _ Hlaid ltac:(discriminate)) as HOne.
    assert (A <> []) as HA by (intros ->; cbn in HO; congruence).
    cbn [app]. destruct L as [|y0 L'] eqn:EL; [congruence|]. apply (laid_cut O (x0 :: lines0) y0 L'); [exact Hlaid|discriminate|].
    assert (CS = A ++ l0 :: (line' ++ B) ++ rest) as HCS' by (rewrite HCS, Hsplit, HB; cbn [app]; now rewrite <- app_assoc).
    assert (hd 0%N l0 = y0) as Ey0.
    { inversion Hnel as [|? ? Hl0 _]; subst. subst L. cbn [concat] in EL. destruct l0 as [|z l0']; [now elim Hl0|]. now injection EL as -> _. }
    pose proof Hne as Hne'. rewrite HCS' in Hne', Hbnd. destruct (all_bnd_split A l0 _ Hbnd Hne' HA) as [H|H].
    - rewrite <- HO. now rewrite H.
    - rewrite Ey0 in H. now rewrite H, orb_true_r.
  Qed.

  Lemma loop_all f A cs lines ls : CS = A ++ cs -> loop_inv A lines ->
    wrap_chunks f width cs lines = Some ls -> loop_inv CS ls.
  Proof.
    intros HCS Hinv H.
    apply (wrap_chunks_inv width (fun cs lines => exists A, CS = A ++ cs /\ loop_inv A lines)) in H; [|intros c0 r0 lines0 (A0 & HCS0 & Hinv0)|eauto].
    - destruct H as (A' & -> & H). now rewrite app_nil_r.
    - exact (loop_step A0 c0 r0 lines0 HCS0 Hinv0).
  Qed.
End WrapLoop.

Definition words_fit (w : Z) (t : str) : Prop := Forall (fun c => (Z.of_nat (length c) <= w)%Z) (chunks (munge t)).

Theorem wrap_laid t w ls : wrap t w = Ok ls -> words_fit w t ->
  exists O T, munge t = O ++ T /\ Forall (fun c => is_space c = true) T /\ laid O ls.
Proof.
  intros H Hfit. apply wrap_ok_chunks in H. destruct H as [Hw H]. rewrite <- (chunks_concat (munge t)).
  apply (loop_all (Z.to_nat w) (chunks (munge t))) with (f := 2 * length t + 2) (A := []) (cs := chunks (munge t)) (lines := []).
  - eapply Forall_impl; [|exact Hfit]. intros c Hc. cbv beta in Hc. lia.
  - apply chunks_ne.
  - apply chunks_bnd.
  - reflexivity.
  - exists [], []. split; [reflexivity|]. split; constructor.
  - exact H.
Qed.

(* scanning the text and scanning its lines joined by line breaks leave equivalent states, when every break that drops no
   blank is a safe cut *)
Lemma laid_sim u : cuts_ok u -> forall O ls, laid O ls -> forall rest, u = O ++ rest ->
  sim (fold_left lex_step O lex_init) (fold_left lex_step (join_lines [] ls) lex_init).
Proof.
  intros Hcuts O ls H. induction H as [|R l HR Hl|O ls R l H IH Hls HR HRne Hl|O ls y0 l H IH Hls Hs]; intros rest Hu.
  - apply sim_refl.
  - cbn [join_lines]. rewrite fold_left_app. apply sim_fold. destruct R as [|r1 R']; [apply sim_refl|].
    destruct (inert_fold lex_init (r1 :: R') (inert_blank _ HR) ltac:(discriminate)) as (x & -> & Ex & Xne).
    split; [constructor|]. split; [|reflexivity]. cbn [mk l_cur lex_init raw_of app]. now rewrite ends_false_app.
  - rewrite join_lines_snoc by exact Hls. cbn [app]. rewrite !fold_left_app. cbn [fold_left]. apply sim_fold.
    change (lex_step ?st 10%N) with (fold_left lex_step [10%N] st).
    apply sim_blanks; [apply (IH (R ++ l ++ rest)); now rewrite Hu, <- !app_assoc|now apply inert_blank|exact HRne| |discriminate].
    constructor; [exact inert_nl|constructor].
  - rewrite join_lines_snoc by exact Hls. cbn [app]. rewrite !fold_left_app. cbn [fold_left]. apply sim_fold.
    apply (sim_cut _ _ y0 [10%N]); [apply (IH (y0 :: l ++ rest)); now rewrite Hu, <- app_assoc|apply lex_fold_tagish, lex_init_tagish| |].
    + apply (Hcuts O y0 (l ++ rest)); [now rewrite Hu, <- app_assoc|exact (laid_ne O ls H Hls)|exact Hs].
    + constructor; [exact inert_nl|constructor].
Qed.

Theorem wrap_effect sty t w ls sk : wrap t w = Ok ls -> words_fit w t -> cuts_ok (munge t) ->
  effects sty ls sk = effect sty false (munge t) sk.
Proof.
  intros H Hfit Hcuts. destruct (wrap_laid t w ls H Hfit) as (O & T & HO & HT & Hlaid).
  rewrite HO, effect_inert_suffix by now apply inert_blank.
  rewrite (sim_effect sty _ _ sk (laid_sim _ Hcuts O ls Hlaid T HO)). symmetry. apply effect_join. constructor.
Qed.

Local Open Scope Z_scope.
(* (NH) no hyphen is read inside a tag name: then no line can be broken inside a tag *)
Definition no_hyphen_in_tags (u : str) : Prop :=
  forall X Y, u = X ++ HY :: Y -> match l_cand (fold_left lex_step X lex_init) with CName _ _ => False | _ => True end.
Lemma cur_last : forall X, l_cand (fold_left lex_step X lex_init) = CText -> l_cur (fold_left lex_step X lex_init) <> [] ->
  last (l_cur (fold_left lex_step X lex_init)) 0%N = last X 0%N.
Proof.
  intros X. destruct X as [|c X'] using rev_ind; [cbn; congruence|]. clear IHX'.
  rewrite fold_left_app. cbn [fold_left]. set (st := fold_left lex_step X' lex_init). intros Hk Hc. rewrite last_last.
  destruct (lex_step_shape st c) as [[_ E]|[[_ E]|[(k & _ & Ht & Er & E)|(cl & nm & _ & E)]]]; rewrite E in Hk, Hc |- *; cbn [mk l_cand l_cur] in *.
  - discriminate.
  - now rewrite !app_assoc, last_last.
  - subst k. cbn [raw_of] in Er. destruct (raw_of (l_cand st)); discriminate.
  - congruence.
Qed.
Lemma nh_cuts u : no_hyphen_in_tags u -> cuts_ok u.
Proof.
  intros Hnh X y0 Y E HX Hs. unfold safe_cut. set (st := fold_left lex_step X lex_init).
  assert (continues (l_cand st) y0 = false) as Hc.
  { apply orb_prop in Hs as [Hs|Hs].
    - (* behind a blank or a hyphen: no tag is pending *)
      destruct X as [|p X'] using rev_ind; [congruence|]. clear IHX'. rewrite last_last in Hs.
      subst st. rewrite fold_left_app. cbn [fold_left]. set (s0 := fold_left lex_step X' lex_init).
      assert (l_cand (lex_step s0 p) = CText) as ->; [|reflexivity].
      unfold sphy in Hs. apply orb_prop in Hs as [Hp|Hp]; apply N.eqb_eq in Hp; subst p.
      + now rewrite (inert_step s0 SP (inert_space SP eq_refl)).
      + specialize (Hnh X' (y0 :: Y)). rewrite <- app_assoc in E. specialize (Hnh E). fold s0 in Hnh.
        unfold lex_step. change (N.eqb HY LT) with false. cbv iota. destruct (l_cand s0); [reflexivity| | |contradiction].
        * change (N.eqb HY SLASH) with false. change (tag_start HY) with false. reflexivity.
        * change (N.eqb HY GT) with false. change (tag_start HY) with false. reflexivity.
    - unfold sphy in Hs. apply orb_prop in Hs as [Hp|Hp]; apply N.eqb_eq in Hp; subst y0.
      + destruct (l_cand st); reflexivity.
      + specialize (Hnh X Y E). fold st in Hnh. destruct (l_cand st); [reflexivity|reflexivity|reflexivity|contradiction]. }
  rewrite Hc. cbn [negb andb]. apply negb_true_iff.
  destruct (N.eqb_spec y0 LT) as [->|]; [|reflexivity]. cbn [andb].
  destruct (l_cand st) eqn:Ek; try reflexivity.
  destruct (l_cur st) as [|c0 r0] eqn:Ecur; [reflexivity|].
  (* the pending text ends with the blank or hyphen just read *)
  assert (last (l_cur st) 0%N = last X 0%N) as El by (apply cur_last; [exact Ek|change (l_cur st <> []); rewrite Ecur; discriminate]).
  change (sphy LT) with false in Hs. rewrite orb_false_r in Hs. rewrite <- El, Ecur in Hs.
  destruct (c0 :: r0) as [|z r] using rev_ind; [discriminate|]. rewrite last_last in Hs. rewrite ends_snoc.
  unfold sphy in Hs. apply orb_prop in Hs as [Hp|Hp]; apply N.eqb_eq in Hp; subst z; reflexivity.
Qed.

(* a text the formatter takes at the wrap width w: no "<" in it at all; or its words fit, no tag name holds a hyphen, and the
   text is neutral (munge: textwrap's view of the text, every white-space character a blank) *)
Definition text_ok (sty : styles) (w : Z) (t : str) : Prop :=
  no_lt t \/ (words_fit w t /\ no_hyphen_in_tags (munge t) /\ neutral sty false (munge t)).
Lemma effects_no_lt sty : forall ls sk, Forall no_lt ls -> effects sty ls sk = Ok sk.
Proof. induction ls as [|l r IH]; intros sk H; [reflexivity|]. inversion H; subst. cbn [effects]. rewrite effect_no_lt by assumption. now apply IH. Qed.
Lemma munge_no_lt t : no_lt t -> no_lt (munge t).
Proof. apply munge_P. discriminate. Qed.
Lemma text_ok_lines sty w t ls sk : wrap t w = Ok ls -> text_ok sty w t -> effects sty ls sk = Ok sk.
Proof.
  intros Hw [Hn|(Hf & Hnh & Hneu)].
  - apply effects_no_lt. apply (wrap_lines_chars_lemma (fun c => c <> LT) t w ls Hw). now apply munge_no_lt.
  - rewrite (wrap_effect sty t w ls sk Hw Hf (nh_cuts _ Hnh)). apply Hneu.
Qed.

(* an element the formatter takes: the label neutral, not ending with a backslash, at least one blank between label and text *)
Definition elem_ok (sty : styles) (W off : Z) (ind : nat) (e : elem) : Prop :=
  match e with
  | EEmpty => True
  | EPara t => text_ok sty (wrap_width W off ind 0 e) t
  | ELab label text padding aligned =>
    neutral sty false label /\ ends_with_bsl label = false /\ (1 <= padding)%nat /\
    text_ok sty (wrap_width W off ind (vis_of sty label) e) text
  end.
Lemma elem_ok_label sty W off ind e : elem_ok sty W off ind e -> label_neutral sty e.
Proof.
  destruct e as [t|label text padding aligned|]; unfold label_neutral; cbn [elem_label elem_ok]; try (intros _ sk; reflexivity).
  intros (H1 & H2 & _). now rewrite H2.
Qed.
Lemma elem_ok_raw sty W off ind e : elem_ok sty W off ind e -> raw_neutral sty W off ind e.
Proof.
  intros H raw Hr sk. destruct (raw_effect sty _ _ _ _ _ _ sk Hr) as [->|(ls & Hw & ->)].
  { destruct e; cbn [elem_ok] in H; tauto. }
  { inversion Hr. reflexivity. }
  destruct e as [t|label text padding aligned|]; cbn [elem_label elem_text elem_ok wrap_width] in *.
  - cbn [bind]. eapply text_ok_lines; eauto.
  - destruct H as (H1 & _ & _ & H4). rewrite H1. cbn [bind]. eapply text_ok_lines; eauto.
  - cbn [bind]. eapply text_ok_lines; [exact Hw|left; constructor].
Qed.
Definition layout_ok (sty : styles) (W : Z) (l : layout) : Prop :=
  Forall (fun x => elem_ok sty W (align_vis sty l 0) (fst x) (snd x)) l.

Theorem page_renders W f l : f_kind f <> FNull -> needed_width_for (f_styles f) l <= W -> layout_ok (f_styles f) W l ->
  exists s, render_page W f l = Ok s.
Proof.
  intros Hk HW Hl. unfold layout_ok in Hl. apply page_renders_neutral; [exact Hk| |exact HW|].
  - eapply Forall_impl; [|exact Hl]. intros x Hx. eapply elem_ok_label, Hx.
  - eapply Forall_impl; [|exact Hl]. intros x Hx. now apply elem_ok_raw.
Qed.

Definition no_ltb (t : str) : bool := forallb (fun c => negb (N.eqb c LT)) t.
Lemma no_ltb_ok t : no_ltb t = true -> no_lt t.
Proof. unfold no_ltb, no_lt. rewrite forallb_forall, Forall_forall. intros H c Hc E. specialize (H c Hc). subst c. discriminate. Qed.
Definition words_fitb (w : Z) (t : str) : bool := forallb (fun c => Z.of_nat (length c) <=? w) (chunks (munge t)).
Lemma words_fitb_ok w t : words_fitb w t = true -> words_fit w t.
Proof. unfold words_fitb, words_fit. rewrite forallb_forall, Forall_forall. intros H c Hc. apply Z.leb_le. now apply H. Qed.

Fixpoint nhb_from (st : lexst) (u : str) : bool :=
  match u with
  | [] => true
  | c :: r => (if N.eqb c HY then match l_cand st with CName _ _ => false | _ => true end else true) && nhb_from (lex_step st c) r
  end.
Definition nhb (u : str) : bool := nhb_from lex_init u.
Lemma nhb_from_ok : forall u X0, nhb_from (fold_left lex_step X0 lex_init) u = true ->
  forall X Y, u = X ++ HY :: Y -> match l_cand (fold_left lex_step (X0 ++ X) lex_init) with CName _ _ => False | _ => True end.
Proof.
  induction u as [|c u IH]; intros X0 H X Y E; [destruct X; discriminate|]. cbn [nhb_from] in H. apply andb_prop in H as [H1 H2].
  destruct X as [|x X'].
  - cbn [app] in E. injection E as -> ->. rewrite app_nil_r. change (N.eqb HY HY) with true in H1. cbv iota in H1.
    destruct (l_cand _); [exact I|exact I|exact I|discriminate].
  - cbn [app] in E. injection E as -> ->. replace (X0 ++ x :: X') with ((X0 ++ [x]) ++ X') by now rewrite <- app_assoc.
    apply (IH (X0 ++ [x])) with (Y := Y); [|reflexivity]. now rewrite fold_left_app.
Qed.
Lemma nhb_ok u : nhb u = true -> no_hyphen_in_tags u.
Proof. intros H X Y E. exact (nhb_from_ok u [] H X Y E). Qed.

(* balanced: every closing tag closes a style opened in the same text, nothing stays open; no unknown colour *)
Fixpoint bal (sty : styles) (segs : list (str * tag)) (pushed : list pstyle) : bool :=
  match segs with
  | [] => match pushed with [] => true | _ => false end
  | (pre, Tag raw cl nm) :: r =>
    if ends_with_bsl pre then bal sty r pushed
    else if cl && (match nm with [] => true | _ => false end)
         then match pushed with [] => false | _ => bal sty r (removelast pushed) end
    else match resolve sty (py_lower nm) with
         | Err _ => false
         | Ok None => bal sty r pushed
         | Ok (Some st) =>
           if cl then match cut_rev st (rev pushed) with Some r' => bal sty r (rev r') | None => false end
           else bal sty r (pushed ++ [st])
         end
  end.
Definition neutralb (sty : styles) (u : str) : bool := bal sty (l_done (fold_left lex_step u lex_init)) [].
Lemma cut_rev_app st : forall a b r, cut_rev st a = Some r -> cut_rev st (a ++ b) = Some (r ++ b).
Proof.
  induction a as [|x a IH]; intros b r H; [discriminate|]. cbn [cut_rev app] in *.
  destruct (pstyle_eqb st x); [now injection H as <-|now apply IH].
Qed.
(* the stack is sk ++ pushed: what the text has opened itself lies on top, and bal lets no closing tag reach below it *)
Lemma bal_ok sty : forall segs pushed first, bal sty segs pushed = true ->
  forall sk, segs_stack sty false first segs (sk ++ pushed) = Ok sk.
Proof.
  induction segs as [|[pre [raw cl nm]] r IH]; intros pushed first H sk; cbn [bal segs_stack] in *.
  - destruct pushed; [now rewrite app_nil_r|discriminate].
  - rewrite esc_of_false. unfold tag_stack. destruct (ends_with_bsl pre); cbn [bind]; [now apply IH|].
    destruct (cl && match nm with [] => true | _ => false end).
    { destruct pushed as [|p0 pushed']; [discriminate|]. cbn [bind]. unfold pop_any.
      rewrite removelast_app by discriminate. now apply IH. }
    destruct (resolve sty (py_lower nm)) as [[st|]|k]; cbn [bind]; [| |discriminate].
    + destruct cl.
      * destruct (cut_rev st (rev pushed)) as [r'|] eqn:Ec; [|discriminate]. unfold pop_style.
        destruct (sk ++ pushed) as [|z zs] eqn:Ez.
        { destruct pushed; [cbn in Ec; discriminate|destruct sk; discriminate]. }
        rewrite <- Ez, rev_app_distr, (cut_rev_app st _ (rev sk) _ Ec), rev_app_distr, rev_involutive. cbn [bind]. now apply IH.
      * rewrite <- app_assoc. now apply IH.
    + now apply IH.
Qed.
Lemma neutralb_ok sty u : neutralb sty u = true -> neutral sty false u.
Proof. intros H sk. unfold effect. rewrite <- (app_nil_r sk) at 1. now apply bal_ok. Qed.

Definition text_okb (sty : styles) (w : Z) (t : str) : bool :=
  no_ltb t || (words_fitb w t && nhb (munge t) && neutralb sty (munge t)).
Lemma text_okb_ok sty w t : text_okb sty w t = true -> text_ok sty w t.
Proof.
  unfold text_okb. intros H. apply orb_prop in H as [H|H]; [left; now apply no_ltb_ok|right].
  apply andb_prop in H as [H H3]. apply andb_prop in H as [H1 H2].
  split; [now apply words_fitb_ok|]. split; [now apply nhb_ok|now apply neutralb_ok].
Qed.
Definition elem_okb (sty : styles) (W off : Z) (ind : nat) (e : elem) : bool :=
  match e with
  | EEmpty => true
  | EPara t => text_okb sty (wrap_width W off ind 0 e) t
  | ELab label text padding aligned =>
    neutralb sty label && negb (ends_with_bsl label) && Nat.leb 1 padding &&
    text_okb sty (wrap_width W off ind (vis_of sty label) e) text
  end.
Definition layout_okb (sty : styles) (W : Z) (l : layout) : bool :=
  forallb (fun x => elem_okb sty W (align_vis sty l 0) (fst x) (snd x)) l.
Lemma layout_okb_ok sty W l : layout_okb sty W l = true -> layout_ok sty W l.
Proof.
  unfold layout_okb, layout_ok. rewrite forallb_forall, Forall_forall. intros H x Hx. specialize (H x Hx).
  destruct (snd x) as [t|label text padding aligned|]; cbn [elem_okb elem_ok] in *; [now apply text_okb_ok| |exact I].
  apply andb_prop in H as [H H4]. apply andb_prop in H as [H H3]. apply andb_prop in H as [H1 H2].
  split; [now apply neutralb_ok|]. split; [now apply negb_true_iff in H2|]. split; [now apply Nat.leb_le|now apply text_okb_ok].
Qed.

Lemma needed_width_for_pos sty l : 1 <= needed_width_for sty l.
Proof. unfold needed_width_for. generalize (align_vis sty l 0). intros off. induction l; cbn [fold_right]; lia. Qed.

Lemma emit_ok_iff f m : is_ansi f ->
  (exists x, emit f m = Ok x) <-> (exists x, emit (as_plain f) m = Ok x).
Proof.
  intros Hk. unfold is_ansi in Hk. unfold emit, as_plain. cbn [f_kind]. destruct (f_kind f) eqn:E; [|contradiction|contradiction].
  unfold format, remove_format. rewrite E. cbn [f_kind f_styles f_stack].
  pose proof (colorize_effect (f_styles f) true (f_stack f) m) as H1. pose proof (colorize_effect (f_styles f) false (f_stack f) m) as H2.
  destruct (colorize (f_styles f) true (f_stack f) m) as [x1|k1], (colorize (f_styles f) false (f_stack f) m) as [x2|k2]; cbn [bind];
    split; intros [x Hx]; try discriminate; eauto; congruence.
Qed.

Local Close Scope Z_scope.
Definition scan (a : str) : lexst := fold_left lex_step a lex_init.
(* behind the text a no tag is pending, and the pending text does not end with a backslash: what follows is read as at the start *)
Definition quiet (a : str) : Prop := l_cand (scan a) = CText /\ ends_with_bsl (l_cur (scan a)) = false.
Lemma scan_app a b : l_cand (scan a) = CText -> scan (a ++ b) = glue (l_done (scan a)) (l_cur (scan a)) (scan b).
Proof.
  intros H. unfold scan. rewrite fold_left_app. fold (scan a). destruct (scan a) as [d c k]. cbn [l_cand l_done l_cur] in *. subst k.
  change {| l_done := d; l_cur := c; l_cand := CText |} with (mk d c CText). now rewrite <- glue_init, glue_fold.
Qed.
Lemma glue_cur d c st : l_cur (glue d c st) = match l_done st with [] => c ++ l_cur st | _ => l_cur st end.
Proof. unfold glue. destruct (l_done st) as [|[p t] r]; reflexivity. Qed.
Lemma glue_done d c st : l_done (glue d c st) = match l_done st with [] => d | (p, t) :: r => d ++ (c ++ p, t) :: r end.
Proof. unfold glue. destruct (l_done st) as [|[p t] r]; reflexivity. Qed.
Lemma quiet_app a b : quiet a -> quiet b -> quiet (a ++ b).
Proof.
  intros [A1 A2] [B1 B2]. unfold quiet. rewrite (scan_app a b A1), glue_cand, glue_cur. split; [exact B1|].
  destruct (l_done (scan b)); [|exact B2]. rewrite ends_app. destruct (l_cur (scan b)); [exact A2|exact B2].
Qed.
Lemma effect_app sty a b sk : quiet a -> effect sty false (a ++ b) sk = (do s1 <- effect sty false a sk; effect sty false b s1).
Proof.
  intros [A1 A2]. unfold effect. fold (scan (a ++ b)) (scan a) (scan b). rewrite (scan_app a b A1), glue_done.
  destruct (l_done (scan b)) as [|[p t] r].
  - destruct (segs_stack sty false true (l_done (scan a)) sk); reflexivity.
  - rewrite segs_stack_app. destruct (segs_stack sty false true (l_done (scan a)) sk) as [s1|k]; cbn [bind]; [|reflexivity].
    cbn [segs_stack]. rewrite !esc_of_false, ends_app.
    assert ((match p with [] => ends_with_bsl (l_cur (scan a)) | _ :: _ => ends_with_bsl p end) = ends_with_bsl p) as ->
      by (destruct p; [exact A2|reflexivity]).
    destruct (tag_stack sty (ends_with_bsl p) t s1); reflexivity.
Qed.
Lemma nh_app a b : l_cand (scan a) = CText -> no_hyphen_in_tags a -> no_hyphen_in_tags b -> no_hyphen_in_tags (a ++ b).
Proof.
  intros Ha Na Nb X Y E. apply app_split in E as [(y' & -> & ->)|(x' & -> & ->)]; [now apply (Na X y')|].
  fold (scan (a ++ x')). rewrite (scan_app a x' Ha), glue_cand. now apply (Nb x' Y).
Qed.

Definition calm (sty : styles) (a : str) : Prop := quiet a /\ no_hyphen_in_tags a /\ neutral sty false a.
Lemma calm_nil sty : calm sty [].
Proof. split; [split; reflexivity|]. split; [intros X Y E; destruct X; discriminate|intros sk; reflexivity]. Qed.
Lemma calm_app sty a b : calm sty a -> calm sty b -> calm sty (a ++ b).
Proof.
  intros (A1 & A2 & A3) (B1 & B2 & B3). split; [now apply quiet_app|]. split; [apply nh_app; [apply A1|exact A2|exact B2]|].
  intros sk. rewrite effect_app by exact A1. rewrite A3. cbn [bind]. apply B3.
Qed.
Lemma scan_text t : no_lt t -> scan t = mk [] t CText.
Proof. intros H. unfold scan, lex_init. now rewrite (lex_text t H [] []). Qed.
Lemma nh_text t : no_lt t -> no_hyphen_in_tags t.
Proof.
  intros H X Y E. assert (no_lt X) as HX by (rewrite E in H; apply Forall_app in H; tauto).
  fold (scan X). now rewrite (scan_text X HX).
Qed.
Lemma calm_text sty t : no_lt t -> ends_with_bsl t = false -> calm sty t.
Proof.
  intros H E. split; [unfold quiet; rewrite (scan_text t H); split; [reflexivity|exact E]|]. split; [now apply nh_text|].
  intros sk. now apply effect_no_lt.
Qed.
Definition tag_str (cl : bool) (nm : str) : str := LT :: (if cl then [SLASH] else []) ++ nm ++ [GT].
Lemma scan_tag_from cl nm cur : tag_name nm -> no_lt cur ->
  scan (cur ++ tag_str cl nm) = mk [(cur, Tag (tag_str cl nm) cl nm)] [] CText.
Proof.
  intros Hn Hc. unfold scan. rewrite fold_left_app. fold (scan cur). rewrite (scan_text cur Hc). unfold tag_str, mk.
  now rewrite (lex_tag cl nm Hn [] cur).
Qed.
Lemma nh_tag_from cl nm cur : tag_name nm -> no_lt cur -> ~ In HY nm -> no_hyphen_in_tags (cur ++ tag_str cl nm).
Proof.
  intros Hn Hc Hh. apply nh_app; [now rewrite (scan_text cur Hc)|now apply nh_text|].
  intros X Y E. exfalso. assert (In HY (tag_str cl nm)) as Hin by (rewrite E; apply in_or_app; right; now left).
  unfold tag_str in Hin. destruct Hin as [Hin|Hin]; [discriminate|]. apply in_app_or in Hin as [Hin|Hin].
  - destruct cl; [destruct Hin as [Hin|[]]; discriminate|destruct Hin].
  - apply in_app_or in Hin as [Hin|[Hin|[]]]; [contradiction|discriminate].
Qed.
Lemma quiet_tag_from cl nm cur : tag_name nm -> no_lt cur -> quiet (cur ++ tag_str cl nm).
Proof. intros Hn Hc. unfold quiet. rewrite (scan_tag_from cl nm cur Hn Hc). split; reflexivity. Qed.
Lemma effect_tag_from sty cl nm cur sk : tag_name nm -> no_lt cur ->
  effect sty false (cur ++ tag_str cl nm) sk = tag_stack sty (ends_with_bsl cur) (Tag (tag_str cl nm) cl nm) sk.
Proof.
  intros Hn Hc. unfold effect. fold (scan (cur ++ tag_str cl nm)). rewrite (scan_tag_from cl nm cur Hn Hc). cbn [mk l_done segs_stack].
  rewrite esc_of_false. destruct (tag_stack sty (ends_with_bsl cur) _ sk); reflexivity.
Qed.
Lemma calm_escaped sty cl nm t : tag_name nm -> ~ In HY nm -> no_lt t -> ends_with_bsl t = true -> calm sty (t ++ tag_str cl nm).
Proof.
  intros Hn Hh Ht He. split; [now apply quiet_tag_from|]. split; [now apply nh_tag_from|].
  intros sk. rewrite (effect_tag_from sty cl nm t sk Hn Ht), He. reflexivity.
Qed.
(* a name that is no style: resolve answers None for it, and never raises, when it holds no "=" *)
Lemma kv_no_eq s : ~ In EQS s -> kv_matches s = [].
Proof.
  intros H. unfold kv_matches.
  assert (forall s k, ~ In EQS s -> fold_left kv_step s ([], KKey k) = ([], KKey (k ++ s))) as Hk.
  { clear. induction s as [|c r IH]; intros k H; cbn [fold_left]; [now rewrite app_nil_r|]. unfold kv_step at 2.
    destruct (N.eqb_spec c EQS) as [->|]; [exfalso; apply H; now left|]. rewrite IH by (intros Hin; apply H; now right).
    now rewrite <- app_assoc. }
  now rewrite (Hk s [] H).
Qed.
Definition style_of (sty : styles) (nm : str) : option pstyle := aget str_eqb (py_lower nm) sty.
Lemma resolve_no_eq sty nm : ~ In EQS (py_lower nm) -> resolve sty (py_lower nm) = Ok (style_of sty nm).
Proof. intros H. unfold resolve, style_of. destruct (aget str_eqb (py_lower nm) sty); [reflexivity|]. now rewrite (kv_no_eq _ H). Qed.
Lemma pop_pushed st sk : pop_style st (sk ++ [st]) = Ok sk.
Proof.
  unfold pop_style. destruct (sk ++ [st]) eqn:E; [destruct sk; discriminate|]. rewrite <- E, rev_app_distr. cbn [rev app cut_rev].
  now rewrite pstyle_eqb_refl, rev_involutive.
Qed.
(* a tag on its own: an opening tag pushes its style, if it is one; the closing tag takes it off again *)
Definition pushed (sty : styles) (nm : str) (sk : stack) : stack := match style_of sty nm with Some st => sk ++ [st] | None => sk end.
Lemma effect_tag sty cl nm sk : tag_name nm -> ~ In EQS (py_lower nm) ->
  effect sty false (tag_str cl nm) (if cl then pushed sty nm sk else sk) = Ok (if cl then sk else pushed sty nm sk).
Proof.
  intros Hn He. pose proof (effect_tag_from sty cl nm [] (if cl then pushed sty nm sk else sk) Hn ltac:(constructor)) as E. cbn [app] in E.
  rewrite E. unfold tag_stack, pushed. cbn [ends_with_bsl rev]. rewrite (resolve_no_eq sty nm He).
  assert ((match nm with [] => true | _ => false end) = false) as -> by (destruct nm; [contradiction|reflexivity]). rewrite andb_false_r.
  destruct cl, (style_of sty nm) as [st|]; cbn [bind]; [apply pop_pushed|reflexivity|reflexivity|reflexivity].
Qed.
Lemma calm_pair sty nm x : tag_name nm -> ~ In HY nm -> ~ In EQS (py_lower nm) -> calm sty x ->
  calm sty (tag_str false nm ++ x ++ tag_str true nm).
Proof.
  intros Hn Hh He (X1 & X2 & X3).
  pose proof (quiet_tag_from false nm [] Hn ltac:(constructor)) as Q1. pose proof (quiet_tag_from true nm [] Hn ltac:(constructor)) as Q2.
  pose proof (nh_tag_from false nm [] Hn ltac:(constructor) Hh) as N1. pose proof (nh_tag_from true nm [] Hn ltac:(constructor) Hh) as N2.
  cbn [app] in Q1, Q2, N1, N2.
  split; [apply quiet_app; [exact Q1|now apply quiet_app]|].
  split; [apply nh_app; [apply Q1|exact N1|apply nh_app; [apply X1|exact X2|exact N2]]|].
  intros sk. rewrite effect_app by exact Q1. rewrite (effect_tag sty false nm sk Hn He). cbn [bind].
  rewrite effect_app by exact X1. rewrite X3. cbn [bind]. exact (effect_tag sty true nm sk Hn He).
Qed.
Lemma calm_inert sty nm : tag_name nm -> ~ In HY nm -> ~ In EQS (py_lower nm) -> style_of sty nm = None -> calm sty (tag_str false nm).
Proof.
  intros Hn Hh He Hs. pose proof (quiet_tag_from false nm [] Hn ltac:(constructor)) as Q1.
  pose proof (nh_tag_from false nm [] Hn ltac:(constructor) Hh) as N1. cbn [app] in Q1, N1. split; [exact Q1|]. split; [exact N1|].
  intros sk. rewrite (effect_tag sty false nm sk Hn He). unfold pushed. now rewrite Hs.
Qed.
Lemma scan_raw t c r : no_lt t -> tag_start c = false -> c <> SLASH -> no_lt (c :: r) -> scan (t ++ LT :: c :: r) = mk [] (t ++ LT :: c :: r) CText.
Proof.
  intros Ht Hc Hs Hr. unfold scan. rewrite fold_left_app. fold (scan t). rewrite (scan_text t Ht). cbn [fold_left]. unfold mk.
  rewrite step_text_lt. inversion Hr as [|? ? Hc1 Hr']; subst.
  assert (lex_step {| l_done := []; l_cur := t; l_cand := COpen |} c = {| l_done := []; l_cur := t ++ [LT; c]; l_cand := CText |}) as ->.
  { unfold lex_step. cbn [l_done l_cur l_cand raw_of]. apply N.eqb_neq in Hc1, Hs. now rewrite Hc1, Hs, Hc. }
  rewrite (lex_text r Hr'). now rewrite <- app_assoc.
Qed.
Lemma calm_raw sty t c r : no_lt t -> tag_start c = false -> c <> SLASH -> no_lt (c :: r) -> ends_with_bsl (c :: r) = false ->
  calm sty (t ++ LT :: c :: r).
Proof.
  intros Ht Hc Hs Hr He.
  split; [unfold quiet; rewrite (scan_raw t c r Ht Hc Hs Hr); split; [reflexivity|]|].
  { cbn [mk l_cur]. change (t ++ LT :: c :: r) with (t ++ [LT] ++ c :: r). now rewrite app_assoc, ends_app. }
  split.
  - intros X Y E. change (t ++ LT :: c :: r) with (t ++ [LT] ++ (c :: r)) in E.
    apply app_split in E as [(y' & -> & _)|(x' & -> & E)].
    { apply Forall_app in Ht as [Ht _]. fold (scan X). now rewrite (scan_text X Ht). }
    apply app_split in E as [(y' & E & _)|(x'' & -> & E)].
    { destruct x' as [|z x']; [discriminate|]. destruct x'; discriminate. }
    cbn [app]. destruct x'' as [|z x''].
    + rewrite fold_left_app. fold (scan t). rewrite (scan_text t Ht).
      cbn [fold_left]. unfold mk. now rewrite step_text_lt.
    + cbn [app] in E. injection E as Ez E. subst z. assert (no_lt (c :: x'')) as Hzx.
      { rewrite E in Hr. inversion Hr as [|? ? Hc0 Hr0]; subst. constructor; [assumption|]. apply Forall_app in Hr0. tauto. }
      fold (scan (t ++ LT :: c :: x'')). now rewrite (scan_raw t c x'' Ht Hc Hs Hzx).
  - intros sk. unfold effect. fold (scan (t ++ LT :: c :: r)). now rewrite (scan_raw t c r Ht Hc Hs Hr).
Qed.

Lemma scan_ends a : l_cand (scan a) = CText -> ends_with_bsl a = ends_with_bsl (l_cur (scan a)).
Proof.
  destruct a as [|c a'] using rev_ind; [reflexivity|]. clear IHa'. unfold scan. rewrite fold_left_app. cbn [fold_left]. fold (scan a').
  destruct (lex_step_shape (scan a') c) as [[_ E]|[[_ E]|[(k & _ & Ht & Er & E)|(cl & nm & Ec & E)]]]; rewrite E; cbn [mk l_cand l_cur]; intros Hk.
  - discriminate.
  - now rewrite !app_assoc, !ends_snoc.
  - subst k. cbn [raw_of] in Er. destruct (raw_of (l_cand (scan a'))); discriminate.
  - subst c. now rewrite ends_snoc.
Qed.
Lemma quiet_ends a : quiet a -> ends_with_bsl a = false.
Proof. intros [H1 H2]. now rewrite (scan_ends a H1). Qed.
Lemma calm_join sty : forall l, Forall (calm sty) l -> calm sty (join_with 32%N l).
Proof. apply join_with_closed; [apply calm_nil|apply calm_app|]. apply calm_text; [repeat constructor; discriminate|reflexivity]. Qed.

Lemma munge_app a b : munge (a ++ b) = munge a ++ munge b.
Proof. apply map_app. Qed.
Lemma tw_space_not_bsl c : tw_space c = true -> c <> BSL.
Proof.
  unfold tw_space. intros H. apply existsb_exists in H as (x & Hin & E). apply N.eqb_eq in E. subst x.
  cbn [In] in Hin. repeat (destruct Hin as [<-|Hin]; [discriminate|]). contradiction.
Qed.
Lemma munge_ends t : ends_with_bsl (munge t) = ends_with_bsl t.
Proof.
  unfold ends_with_bsl, munge. rewrite <- map_rev. destruct (rev t) as [|c r]; [reflexivity|]. cbn [map].
  destruct (tw_space c) eqn:E; [|reflexivity]. apply tw_space_not_bsl, N.eqb_neq in E. now rewrite E.
Qed.
Definition spaceless (t : str) : Prop := Forall (fun c => tw_space c = false) t.
Lemma munge_id t : spaceless t -> munge t = t.
Proof. induction 1 as [|c r Hc Hr IH]; [reflexivity|]. cbn [munge map]. rewrite Hc. f_equal. exact IH. Qed.
Lemma munge_join : forall l, munge (join_with 32%N l) = join_with 32%N (map munge l).
Proof.
  induction l as [|x r IH]; [reflexivity|]. destruct r as [|y r]; [reflexivity|].
  change (join_with 32%N (x :: y :: r)) with (x ++ 32%N :: join_with 32%N (y :: r)). rewrite munge_app. cbn [munge map].
  fold (munge (join_with 32%N (y :: r))). rewrite IH. reflexivity.
Qed.
Lemma munge_no_bsl t : no_bsl t -> no_bsl (munge t).
Proof. apply munge_P. discriminate. Qed.

(* a name the help model wraps in tags: no "<", no backslash *)
Definition plain (n : str) : Prop := no_lt n /\ no_bsl n.
Lemma plain_munge n : plain n -> plain (munge n).
Proof. intros [H1 H2]. split; [now apply munge_no_lt|now apply munge_no_bsl]. Qed.
Lemma plain_calm sty n : plain n -> calm sty n.
Proof. intros [H1 H2]. apply calm_text; [exact H1|now apply no_bsl_ends]. Qed.
Lemma plain_app a b : plain a -> plain b -> plain (a ++ b).
Proof. intros [A1 A2] [B1 B2]. split; apply Forall_app; auto. Qed.
Ltac plain_const := split; repeat constructor; discriminate.
Definition NM_C1 : str := [99; 49]%N. Definition NM_B : str := [98]%N. Definition NM_U : str := [117]%N.
Definition simple_nm (nm : str) : Prop := tag_name nm /\ ~ In HY nm /\ ~ In EQS (py_lower nm).
Definition simple_nmb (nm : str) : bool :=
  match nm with c :: r => tag_start c && forallb tag_char r | [] => false end
  && (if in_dec N.eq_dec HY nm then false else true) && (if in_dec N.eq_dec EQS (py_lower nm) then false else true).
Lemma simple_nmb_ok nm : simple_nmb nm = true -> simple_nm nm.
Proof.
  unfold simple_nmb, simple_nm. destruct (in_dec N.eq_dec HY nm) as [|H2]; [now rewrite andb_false_r|].
  destruct (in_dec N.eq_dec EQS (py_lower nm)) as [|H3]; [now rewrite andb_false_r|]. rewrite !andb_true_r. intros H1.
  split; [|now split]. destruct nm as [|c r]; [discriminate|]. apply andb_prop in H1 as [Hc Hr].
  split; [exact Hc|]. apply Forall_forall. now apply forallb_forall.
Qed.
Lemma simple_c1 : simple_nm NM_C1.
Proof. now apply simple_nmb_ok. Qed.
Lemma simple_b : simple_nm NM_B.
Proof. now apply simple_nmb_ok. Qed.
Lemma simple_u : simple_nm NM_U.
Proof. now apply simple_nmb_ok. Qed.
Lemma calm_wrap sty nm x : simple_nm nm -> calm sty x -> calm sty (tag_str false nm ++ x ++ tag_str true nm).
Proof. intros (H1 & H2 & H3). now apply calm_pair. Qed.
Definition B_OPEN : str := tag_str false NM_B. Definition B_CLOSE : str := tag_str true NM_B.
Definition U_OPEN : str := tag_str false NM_U. Definition U_CLOSE : str := tag_str true NM_U.

Lemma dashes_plain n : plain n -> plain (DASH :: DASH :: n) /\ plain (DASH :: n).
Proof. intros [H1 H2]. split; split; repeat (constructor; [discriminate|]); assumption. Qed.
Lemma option_label_calm sty h : plain (o_long (h_o h)) -> (match o_short (h_o h) with Some s => plain s | None => True end) ->
  calm sty (elem_label (render_option h)).
Proof.
  intros Hl Hs. rewrite render_option_names_lemma. change C1 with (tag_str false NM_C1). change C1E with (tag_str true NM_C1).
  destruct (dashes_plain _ Hl) as [Hll _].
  destruct (bit (o_flags (h_o h)) 0).
  - rewrite app_assoc, app_assoc, <- (app_assoc (tag_str false NM_C1)). apply calm_app; [apply calm_wrap; [exact simple_c1|now apply plain_calm]|].
    destruct (o_short (h_o h)) as [s|]; [|apply calm_nil]. destruct (dashes_plain _ Hs) as [_ Hss]. apply plain_calm.
    apply plain_app; [plain_const|]. apply plain_app; [exact Hss|plain_const].
  - rewrite app_assoc, app_assoc, <- (app_assoc (tag_str false NM_C1)). apply calm_app.
    + apply calm_wrap; [exact simple_c1|]. destruct (o_short (h_o h)) as [s|]; [destruct (dashes_plain _ Hs) as [_ Hss]; now apply plain_calm|].
      apply plain_calm. plain_const.
    + apply plain_calm. apply plain_app; [plain_const|]. apply plain_app; [exact Hll|plain_const].
Qed.
(* <c1><</c1>: the "<" that opens the placeholder, kept apart from the name *)
Lemma lt_wrapped_calm sty : calm sty (C1 ++ [LT] ++ C1E).
Proof.
  assert (scan (C1 ++ [LT] ++ C1E) = mk [([], Tag C1 false NM_C1); ([LT], Tag C1E true NM_C1)] [] CText) as Es by (vm_compute; reflexivity).
  split; [unfold quiet; rewrite Es; split; reflexivity|]. split; [apply nhb_ok; vm_compute; reflexivity|].
  intros sk. unfold effect. fold (scan (C1 ++ [LT] ++ C1E)). rewrite Es. cbn [mk l_done segs_stack]. rewrite !esc_of_false.
  change (ends_with_bsl []) with false. change (ends_with_bsl [LT]) with false.
  destruct simple_c1 as (_ & _ & He). pose proof (resolve_no_eq sty NM_C1 He) as Hr. unfold tag_stack.
  change (match NM_C1 with [] => true | _ => false end) with false. cbn [andb]. rewrite Hr. cbn [bind].
  destruct (style_of sty NM_C1) as [st|]; cbn [bind]; [now rewrite pop_pushed|reflexivity].
Qed.
Lemma argument_label_calm sty a : plain (a_name (h_a a)) -> calm sty (elem_label (render_argument a)).
Proof.
  intros Hn. rewrite render_argument_name_lemma. rewrite app_assoc, app_assoc. apply calm_app.
  - rewrite <- app_assoc. apply lt_wrapped_calm.
  - rewrite (app_assoc (a_name (h_a a))). change C1 with (tag_str false NM_C1). change C1E with (tag_str true NM_C1).
    apply calm_wrap; [exact simple_c1|]. apply plain_calm. apply plain_app; [exact Hn|plain_const].
Qed.
Lemma command_label_calm sty n : plain n -> calm sty (C1 ++ n ++ C1E).
Proof. intros Hn. change C1 with (tag_str false NM_C1). change C1E with (tag_str true NM_C1). apply calm_wrap; [exact simple_c1|now apply plain_calm]. Qed.
Lemma u_tag_calm sty n : plain n -> calm sty (u_tag n).
Proof. intros Hn. unfold u_tag. change [60;117;62]%N with (tag_str false NM_U). change [60;47;117;62]%N with (tag_str true NM_U). apply calm_wrap; [exact simple_u|now apply plain_calm]. Qed.

Lemma synopsis_label_calm sty app_name names opts args prefix lo :
  (match app_name with Some n => plain n | None => True end) -> Forall plain names -> plain prefix ->
  calm sty (elem_label (synopsis sty app_name names opts args prefix lo)).
Proof.
  intros Ha Hn Hp.
  apply (synopsis_label_P (calm sty)); [apply calm_nil|apply calm_app|apply plain_calm; plain_const|apply plain_calm; plain_const|apply plain_calm; plain_const|now apply plain_calm|].
  constructor.
  - apply u_tag_calm. destruct app_name as [[|c r]|]; [plain_const|exact Ha|plain_const].
  - clear - Hn. induction Hn; cbn [map]; constructor; auto. now apply u_tag_calm.
Qed.

(* "<name>" in the synopsis: escaped when the name is a style; else it must be no style - a tag the formatter does not know, or no
   tag at all ("<...>") *)
Definition ph_name (nm : str) : Prop :=
  spaceless nm /\ (simple_nm nm \/ exists c r, nm = c :: r /\ tag_start c = false /\ c <> SLASH /\ no_lt nm).
(* is_tag renders the probe "<nm></nm>" undecorated on the empty stack and answers whether something else than the probe comes
   out.  The probe is a calm pair, so colorize takes it; nm is a style, so both tags are recognised and nothing is written. *)
Lemma is_tag_style sty nm st : simple_nm nm -> style_of sty nm = Some st -> is_tag sty nm = true.
Proof.
  intros (Hn & Hh & He) Hs. unfold is_tag. cbv zeta.
  set (probe := [60%N] ++ nm ++ [62; 60; 47]%N ++ nm ++ [62%N]).
  assert (probe = tag_str false nm ++ [] ++ tag_str true nm) as Ep.
  { subst probe. unfold tag_str. cbn [app]. now rewrite <- !app_assoc. }
  assert (ends_with_bsl probe = false) as Eb.
  { subst probe. rewrite !app_assoc. now rewrite ends_snoc. }
  pose proof (calm_pair sty nm [] Hn Hh He (calm_nil sty)) as (_ & _ & Hneu). rewrite <- Ep in Hneu.
  destruct (colorize sty false [] probe) as [[sk' out]|k] eqn:E.
  - apply colorize_plain_of in E. rewrite Eb in E. cbn [snd].
    assert (out = []) as ->; [|subst probe; reflexivity].
    rewrite E. unfold plain_of, wout. fold (scan probe). rewrite Ep.
    assert (scan (tag_str false nm ++ [] ++ tag_str true nm) =
            mk [([], Tag (tag_str false nm) false nm); ([], Tag (tag_str true nm) true nm)] [] CText) as ->.
    { cbn [app]. pose proof (lex_wrapped nm [] Hn ltac:(constructor)) as Hl. unfold lex, lex_end in Hl. unfold scan.
      unfold open_tag, close_tag in Hl. cbn [app] in Hl. unfold tag_str. cbn [app].
      destruct (fold_left lex_step _ lex_init) as [d c k]. cbn [l_done l_cur l_cand fst snd] in Hl. injection Hl as -> Hc.
      destruct c; [|discriminate]. destruct k; try discriminate. reflexivity. }
    cbn [mk l_done l_cur l_cand plain_segs raw_of app]. unfold kept, recognised. cbn [esc_of andb orb].
    assert ((match nm with [] => true | _ => false end) = false) as -> by (destruct nm; [contradiction|reflexivity]).
    rewrite (resolve_no_eq sty nm He), Hs. cbn [andb orb negb]. reflexivity.
  - exfalso. destruct (colorize_of_effect sty false [] probe [] ) as [o Ho]; [rewrite Eb; apply Hneu|congruence].
Qed.
Lemma placeholder_shape sty nm : placeholder sty nm = (if is_tag sty nm then [BSL] else []) ++ LT :: nm ++ [GT].
Proof. reflexivity. Qed.
Lemma placeholder_calm sty nm t : ph_name nm -> no_lt t -> ends_with_bsl t = false -> calm sty (t ++ placeholder sty nm).
Proof.
  intros [_ [Hs|(c & r & -> & Hc & Hsl & Hl)]] Ht Hb; rewrite placeholder_shape.
  - pose proof Hs as (Hn & Hh & He). change (LT :: nm ++ [GT]) with (tag_str false nm).
    destruct (is_tag sty nm) eqn:Ei.
    + rewrite app_assoc. apply calm_escaped; [exact Hn|exact Hh| |now rewrite ends_snoc].
      apply Forall_app. split; [exact Ht|repeat constructor; discriminate].
    + cbn [app]. apply calm_app; [now apply calm_text|]. apply calm_inert; [exact Hn|exact Hh|exact He|].
      destruct (style_of sty nm) as [st|] eqn:Es; [|reflexivity]. rewrite (is_tag_style sty nm st Hs Es) in Ei. discriminate.
  - assert (no_lt (c :: r ++ [GT])) as Hl'.
    { change (c :: r ++ [GT]) with ((c :: r) ++ [GT]). apply Forall_app. split; [exact Hl|repeat constructor; discriminate]. }
    assert (ends_with_bsl (c :: r ++ [GT]) = false) as He' by (change (c :: r ++ [GT]) with ((c :: r) ++ [GT]); now rewrite ends_snoc).
    destruct (is_tag sty (c :: r)).
    + rewrite app_assoc. cbn [app]. apply calm_raw; auto. apply Forall_app. split; [exact Ht|repeat constructor; discriminate].
    + cbn [app]. now apply calm_raw.
Qed.
Lemma placeholder_munge sty nm : spaceless nm -> munge (placeholder sty nm) = placeholder sty nm.
Proof.
  intros H. apply munge_id. rewrite placeholder_shape. apply Forall_app. split; [destruct (is_tag sty nm); repeat constructor|].
  constructor; [reflexivity|]. apply Forall_app. split; [exact H|repeat constructor].
Qed.
Lemma tag_char_no_space c : tag_char c = true -> tw_space c = false.
Proof.
  intros H. destruct (tw_space c) eqn:E; [|reflexivity]. exfalso.
  unfold tw_space in E. apply existsb_exists in E as (x & Hin & Ex). apply N.eqb_eq in Ex. subst x.
  cbn [In] in Hin. repeat (destruct Hin as [<-|Hin]; [discriminate H|]). contradiction.
Qed.
Lemma ph_name_snoc nm c : ph_name nm -> tag_char c = true -> c <> HY -> ~ In EQS (lower1 c) -> ph_name (nm ++ [c]).
Proof.
  intros [Hsp Hk] Hc Hh He. pose proof (tag_char_no_space c Hc) as Hw. destruct (tag_char_not c Hc) as [Hlt _]. split; [apply Forall_app; split; [exact Hsp|repeat constructor; exact Hw]|].
  destruct Hk as [(Hn & Hhy & Heq)|(c0 & r & -> & H1 & H2 & H3)].
  - left. split; [|split].
    + destruct nm as [|c0 r]; [contradiction|]. destruct Hn as [Hn1 Hn2]. split; [exact Hn1|]. apply Forall_app. split; [exact Hn2|repeat constructor; exact Hc].
    + intros Hin. apply in_app_or in Hin as [Hin|[Hin|[]]]; [contradiction|congruence].
    + unfold py_lower. rewrite flat_map_app. intros Hin. apply in_app_or in Hin as [Hin|Hin]; [contradiction|]. cbn [flat_map] in Hin.
      rewrite app_nil_r in Hin. contradiction.
  - right. exists c0, (r ++ [c]). repeat split; auto. change (c0 :: r ++ [c]) with ((c0 :: r) ++ [c]). apply Forall_app. split; [exact H3|repeat constructor; exact Hlt].
Qed.

Definition opt_fine (h : hopt) : Prop :=
  plain (o_long (h_o h)) /\ (match o_short (h_o h) with Some s => plain s | None => True end) /\
  no_lt (odesc (h_odesc h)) /\ ph_name (h_vname h) /\ no_lt (json (o_default (h_o h))).
Definition arg_fine (a : harg) : Prop :=
  plain (a_name (h_a a)) /\ ph_name (a_name (h_a a)) /\ no_lt (odesc (h_adesc a)) /\
  no_lt (json (a_default (h_a a))) /\ ends_with_bsl (json (a_default (h_a a))) = false.

Lemma preferred_plain h : opt_fine h -> plain (fst (opt_preferred (h_o h))).
Proof.
  intros (H1 & H2 & _). unfold opt_preferred. destruct (bit (o_flags (h_o h)) 0); cbn [fst]; [apply (dashes_plain _ H1)|].
  destruct (o_short (h_o h)) as [s|]; [apply (dashes_plain _ H2)|plain_const].
Qed.
Lemma plain_ends n : plain n -> ends_with_bsl n = false.
Proof. intros [_ H]. now apply no_bsl_ends. Qed.
Lemma syn_opt_part_calm sty h : opt_fine h -> calm sty (munge (syn_opt_part sty h)).
Proof.
  intros Hf. pose proof (plain_munge _ (preferred_plain h Hf)) as Hn. destruct Hf as (_ & _ & _ & Hv & _).
  pose proof (placeholder_munge sty (h_vname h) (proj1 Hv)) as Hm. unfold syn_opt_part. cbv zeta.
  set (nm := fst (opt_preferred (h_o h))) in *. set (ph := placeholder sty (h_vname h)) in *.
  destruct (o_required (h_o h)); [|destruct (o_optional (h_o h))].
  - rewrite !munge_app, Hm. change (munge [91%N]) with [91%N]. change (munge [93%N]) with [93%N]. change (munge [160%N]) with [160%N].
    replace ([91%N] ++ (munge nm ++ [160%N] ++ ph) ++ [93%N]) with ((([91%N] ++ munge nm ++ [160%N]) ++ ph) ++ [93%N]) by now rewrite <- !app_assoc.
    apply calm_app; [|apply plain_calm; plain_const]. apply placeholder_calm; [exact Hv| |].
    + apply Forall_app. split; [repeat constructor; discriminate|]. apply Forall_app. split; [apply Hn|repeat constructor; discriminate].
    + now rewrite !app_assoc, ends_snoc.
  - rewrite !munge_app, Hm. change (munge [91%N]) with [91%N]. change (munge [93%N]) with [93%N]. change (munge [160; 91]%N) with [160; 91]%N.
    replace ([91%N] ++ (munge nm ++ [160; 91]%N ++ ph ++ [93%N]) ++ [93%N]) with ((([91%N] ++ munge nm ++ [160; 91]%N) ++ ph) ++ [93; 93]%N)
      by now rewrite <- !app_assoc.
    apply calm_app; [|apply plain_calm; plain_const]. apply placeholder_calm; [exact Hv| |].
    + apply Forall_app. split; [repeat constructor; discriminate|]. apply Forall_app. split; [apply Hn|repeat constructor; discriminate].
    + change [160; 91]%N with ([160%N] ++ [91%N]). now rewrite !app_assoc, ends_snoc.
  - rewrite !munge_app. change (munge [91%N]) with [91%N]. change (munge [93%N]) with [93%N].
    apply plain_calm. apply plain_app; [plain_const|]. apply plain_app; [exact Hn|plain_const].
Qed.
Lemma ph_name_digit nm : ph_name nm -> ph_name (nm ++ [49%N]) /\ ph_name (nm ++ [78%N]).
Proof.
  intros H. split; apply ph_name_snoc; try exact H; try reflexivity; try discriminate; cbn; intros [E|[]]; discriminate.
Qed.
Lemma syn_arg_parts_calm sty a : arg_fine a -> Forall (calm sty) (map munge (syn_arg_parts sty a)).
Proof.
  intros (_ & Hp & _). destruct (ph_name_digit _ Hp) as [H1 HN]. unfold syn_arg_parts. cbv zeta.
  assert (ph_name (a_name (h_a a) ++ (if a_multi (h_a a) then [49%N] else []))) as Hn1.
  { destruct (a_multi (h_a a)); [exact H1|now rewrite app_nil_r]. }
  set (n1 := a_name (h_a a) ++ (if a_multi (h_a a) then [49%N] else [])) in *.
  cbn [map]. constructor.
  - destruct (a_required (h_a a)).
    + rewrite (placeholder_munge sty n1 (proj1 Hn1)). apply (placeholder_calm sty n1 [] Hn1); [constructor|reflexivity].
    + rewrite !munge_app, (placeholder_munge sty n1 (proj1 Hn1)). change (munge [91%N]) with [91%N]. change (munge [93%N]) with [93%N].
      rewrite app_assoc. apply calm_app; [|apply plain_calm; plain_const].
      apply placeholder_calm; [exact Hn1|repeat constructor; discriminate|reflexivity].
  - destruct (a_multi (h_a a)); cbn [map]; constructor; [|constructor].
    rewrite !munge_app, (placeholder_munge sty _ (proj1 HN)). change (munge [46; 46; 46; 32; 91]%N) with [46; 46; 46; 32; 91]%N.
    change (munge [93%N]) with [93%N]. rewrite app_assoc. apply calm_app; [|apply plain_calm; plain_const].
    apply placeholder_calm; [exact HN|repeat constructor; discriminate|reflexivity].
Qed.
Lemma synopsis_text_calm sty app_name names opts args prefix lo : Forall opt_fine opts -> Forall arg_fine args ->
  calm sty (munge (elem_text (synopsis sty app_name names opts args prefix lo))).
Proof.
  intros Ho Ha. rewrite synopsis_text, munge_join. apply calm_join. unfold syn_parts. rewrite map_app. apply Forall_app. split.
  - induction Ho; cbn [map]; constructor; [now apply syn_opt_part_calm|assumption].
  - induction Ha; cbn [flat_map map]; [constructor|]. rewrite map_app. apply Forall_app. split; [now apply syn_arg_parts_calm|assumption].
Qed.

Definition markup_fine (sty : styles) (t : str) : Prop := no_lt t \/ (no_hyphen_in_tags (munge t) /\ neutral sty false (munge t)).
Lemma calm_fine sty t : calm sty (munge t) -> markup_fine sty t.
Proof. intros (_ & H2 & H3). right. auto. Qed.
(* a description, a blank, and calm text: the blank keeps a backslash at the end of the description away from the tag *)
Lemma calm_behind_desc sty d rest : no_lt d -> calm sty (munge rest) -> calm sty (munge (d ++ 32%N :: rest)).
Proof.
  intros Hd Hr. rewrite munge_app. change (munge (32%N :: rest)) with (32%N :: munge rest).
  change (munge d ++ 32%N :: munge rest) with (munge d ++ [32%N] ++ munge rest). rewrite app_assoc. apply calm_app; [|exact Hr].
  apply calm_text; [apply Forall_app; split; [now apply munge_no_lt|repeat constructor; discriminate]|now rewrite ends_snoc].
Qed.
Lemma bold_calm sty x : no_lt x -> ends_with_bsl x = false -> calm sty (munge (B_OPEN ++ x ++ B_CLOSE)).
Proof.
  intros Hx He. rewrite !munge_app. change (munge B_OPEN) with B_OPEN. change (munge B_CLOSE) with B_CLOSE.
  apply calm_wrap; [exact simple_b|]. apply calm_text; [now apply munge_no_lt|now rewrite munge_ends].
Qed.
(* the text of an option: its description, then the default and the remark on multiple values, each in bold behind a blank *)
Definition DEFAULT_NOTE (j : str) : str := B_OPEN ++ [40;100;101;102;97;117;108;116;58;32]%N ++ j ++ [41%N] ++ B_CLOSE.
Definition MULTI_NOTE : str :=
  B_OPEN ++ [40;109;117;108;116;105;112;108;101;32;118;97;108;117;101;115;32;97;108;108;111;119;101;100;41]%N ++ B_CLOSE.
Lemma render_option_text h : elem_text (render_option h) =
  odesc (h_odesc h)
  ++ (if o_accepts (h_o h) && has_default (o_default (h_o h)) then 32%N :: DEFAULT_NOTE (json (o_default (h_o h))) else [])
  ++ (if o_multi (h_o h) then 32%N :: MULTI_NOTE else []).
Proof.
  unfold render_option, DEFAULT_NOTE, MULTI_NOTE, B_OPEN, B_CLOSE, tag_str, NM_B. destruct (opt_preferred (h_o h)) as [pref alt]. cbn [elem_text].
  destruct (o_accepts (h_o h) && has_default (o_default (h_o h))), (o_multi (h_o h));
    rewrite ?app_nil_r; repeat (progress (cbn [app]; rewrite <- ?app_assoc)); reflexivity.
Qed.
Lemma option_text_fine sty h : opt_fine h -> markup_fine sty (elem_text (render_option h)).
Proof.
  intros (_ & _ & Hd & _ & Hj). rewrite render_option_text.
  set (d := odesc (h_odesc h)) in *. set (DEF := DEFAULT_NOTE (json (o_default (h_o h)))).
  assert (calm sty (munge DEF)) as Cdef.
  { unfold DEF, DEFAULT_NOTE. rewrite (app_assoc _ (json _)), (app_assoc _ [41%N]). apply bold_calm; [|now rewrite ends_snoc].
    apply Forall_app. split; [apply Forall_app; split; [repeat constructor; discriminate|exact Hj]|repeat constructor; discriminate]. }
  assert (calm sty (munge MULTI_NOTE)) as Cmul by (apply bold_calm; [repeat constructor; discriminate|reflexivity]).
  destruct (o_accepts (h_o h) && has_default (o_default (h_o h))), (o_multi (h_o h)); cbn [app]; rewrite ?app_nil_r.
  - apply calm_fine, (calm_behind_desc sty d (DEF ++ 32%N :: MULTI_NOTE) Hd). rewrite munge_app. apply calm_app; [exact Cdef|].
    change (munge (32%N :: MULTI_NOTE)) with ([32%N] ++ munge MULTI_NOTE). apply calm_app; [apply plain_calm; plain_const|exact Cmul].
  - exact (calm_fine sty _ (calm_behind_desc sty d DEF Hd Cdef)).
  - exact (calm_fine sty _ (calm_behind_desc sty d MULTI_NOTE Hd Cmul)).
  - now left.
Qed.
Lemma argument_text_fine sty a : arg_fine a -> markup_fine sty (elem_text (render_argument a)).
Proof.
  intros (_ & _ & Hd & Hj & He). unfold render_argument. cbn [elem_text].
  destruct (has_default (a_default (h_a a))); [|now left]. apply calm_fine.
  replace (odesc (h_adesc a) ++ [32;60;98;62]%N ++ json (a_default (h_a a)) ++ [60;47;98;62]%N)
    with (odesc (h_adesc a) ++ 32%N :: (B_OPEN ++ json (a_default (h_a a)) ++ B_CLOSE)) by reflexivity.
  apply (calm_behind_desc sty (odesc (h_adesc a)) (B_OPEN ++ json (a_default (h_a a)) ++ B_CLOSE) Hd). now apply bold_calm.
Qed.

(* what does not depend on the width: labels calm, texts without "<" or calm *)
Definition elem_fine (sty : styles) (e : elem) : Prop :=
  match e with
  | EEmpty => True
  | EPara t => markup_fine sty t
  | ELab label text padding _ =>
    neutral sty false label /\ ends_with_bsl label = false /\ (1 <= padding)%nat /\ markup_fine sty text
  end.
Definition page_fine (sty : styles) (l : layout) : Prop := Forall (fun x => elem_fine sty (snd x)) l.
(* what does: the words of every text that holds a "<" fit the element's wrap width *)
Definition page_words_fit (sty : styles) (W : Z) (l : layout) : Prop :=
  Forall (fun x => no_lt (elem_text (snd x)) \/
                   words_fit (wrap_width W (align_vis sty l 0) (fst x) (vis_of sty (elem_label (snd x))) (snd x)) (elem_text (snd x))) l.
Lemma fine_ok sty W l : page_fine sty l -> page_words_fit sty W l -> layout_ok sty W l.
Proof.
  unfold page_fine, page_words_fit, layout_ok. rewrite !Forall_forall. intros Hf Hw x Hx. specialize (Hf x Hx). specialize (Hw x Hx).
  destruct x as [ind e]. cbn [fst snd] in *. destruct e as [t|label text padding aligned|]; cbn [elem_fine elem_ok elem_text elem_label] in *.
  - destruct Hw as [Hw|Hw]; [now left|]. destruct Hf as [Hf|[H1 H2]]; [now left|right]. repeat split; assumption.
  - destruct Hf as (H1 & H2 & H3 & Hf). repeat split; try assumption.
    destruct Hw as [Hw|Hw]; [now left|]. destruct Hf as [Hf|[H4 H5]]; [now left|right]. repeat split; assumption.
  - exact I.
Qed.

Lemma calm_label sty label : calm sty label -> neutral sty false label /\ ends_with_bsl label = false.
Proof. intros (H1 & _ & H3). split; [exact H3|now apply quiet_ends]. Qed.

Lemma heading_fine sty x : no_lt x -> ends_with_bsl x = false -> markup_fine sty (B_OPEN ++ x ++ B_CLOSE).
Proof. intros. apply calm_fine. now apply bold_calm. Qed.
Ltac heading := apply heading_fine; [repeat constructor; discriminate|reflexivity].
Lemma H_USAGE_fine sty : markup_fine sty H_USAGE.
Proof. change H_USAGE with (B_OPEN ++ [85;83;65;71;69]%N ++ B_CLOSE). heading. Qed.
Lemma H_ARGUMENTS_fine sty : markup_fine sty H_ARGUMENTS.
Proof. change H_ARGUMENTS with (B_OPEN ++ [65;82;71;85;77;69;78;84;83]%N ++ B_CLOSE). heading. Qed.
Lemma H_COMMANDS_fine sty : markup_fine sty H_COMMANDS.
Proof. change H_COMMANDS with (B_OPEN ++ [67;79;77;77;65;78;68;83]%N ++ B_CLOSE). heading. Qed.
Lemma H_OPTIONS_fine sty : markup_fine sty H_OPTIONS.
Proof. change H_OPTIONS with (B_OPEN ++ [79;80;84;73;79;78;83]%N ++ B_CLOSE). heading. Qed.
Lemma H_GLOBAL_fine sty : markup_fine sty H_GLOBAL.
Proof. change H_GLOBAL with (B_OPEN ++ [71;76;79;66;65;76;32;79;80;84;73;79;78;83]%N ++ B_CLOSE). heading. Qed.
Lemma H_AVAILABLE_fine sty : markup_fine sty H_AVAILABLE.
Proof. change H_AVAILABLE with (B_OPEN ++ [65;86;65;73;76;65;66;76;69;32;67;79;77;77;65;78;68;83]%N ++ B_CLOSE). heading. Qed.
Lemma H_DESCRIPTION_fine sty : markup_fine sty H_DESCRIPTION.
Proof. change H_DESCRIPTION with (B_OPEN ++ [68;69;83;67;82;73;80;84;73;79;78]%N ++ B_CLOSE). heading. Qed.

Lemma render_option_fine sty h : opt_fine h -> elem_fine sty (render_option h).
Proof.
  intros Hf. pose proof (option_text_fine sty h Hf) as Ht. pose proof Hf as (H1 & H2 & _).
  pose proof (calm_label sty _ (option_label_calm sty h H1 H2)) as [L1 L2]. revert Ht L1 L2.
  unfold render_option. destruct (opt_preferred (h_o h)) as [pref alt]. cbn [elem_text elem_label elem_fine]. intros Ht L1 L2.
  repeat split; auto.
Qed.
Lemma render_argument_fine sty a : arg_fine a -> elem_fine sty (render_argument a).
Proof.
  intros Hf. pose proof (argument_text_fine sty a Hf) as Ht. pose proof Hf as (H1 & _).
  pose proof (calm_label sty _ (argument_label_calm sty a H1)) as [L1 L2]. revert Ht L1 L2.
  unfold render_argument. cbn [elem_text elem_label elem_fine]. intros Ht L1 L2. repeat split; auto.
Qed.
Lemma synopsis_fine sty app_name names opts args prefix lo :
  (match app_name with Some n => plain n | None => True end) -> Forall plain names -> plain prefix ->
  Forall opt_fine opts -> Forall arg_fine args -> elem_fine sty (synopsis sty app_name names opts args prefix lo).
Proof.
  intros Ha Hn Hp Ho Hg. pose proof (calm_label sty _ (synopsis_label_calm sty app_name names opts args prefix lo Ha Hn Hp)) as [L1 L2].
  pose proof (calm_fine sty _ (synopsis_text_calm sty app_name names opts args prefix lo Ho Hg)) as Ht. revert L1 L2 Ht.
  unfold synopsis. cbv zeta. cbn [elem_label elem_text elem_fine]. intros L1 L2 Ht. repeat split; auto.
Qed.

Definition sub_fine (s : sub) : Prop :=
  plain (sb_name s) /\ no_lt (odesc (sb_desc s)) /\ no_lt (odesc (sb_help s)) /\ Forall arg_fine (sb_args s) /\ Forall opt_fine (sb_opts s).
Lemma u_tag_fine sty n : plain n -> markup_fine sty (u_tag n).
Proof.
  intros Hn. apply calm_fine. unfold u_tag. rewrite !munge_app. change (munge [60;117;62]%N) with [60;117;62]%N.
  change (munge [60;47;117;62]%N) with [60;47;117;62]%N. apply (u_tag_calm sty (munge n)). now apply plain_munge.
Qed.
Lemma sub_block_fine sty s : sub_fine s -> page_fine sty (sub_block s).
Proof.
  intros (H1 & H2 & H3 & Ha & Ho). apply (sub_block_all (elem_fine sty)); [exact I|now apply u_tag_fine|now left|now left| |].
  - eapply Forall_impl; [|exact Ha]. exact (render_argument_fine sty).
  - eapply Forall_impl; [|exact Ho]. exact (render_option_fine sty).
Qed.
Lemma description_block_fine sty help : no_lt (odesc help) -> page_fine sty (description_block help).
Proof.
  intros H. apply (description_block_all (elem_fine sty)); [exact I|apply H_DESCRIPTION_fine|].
  eapply Forall_impl; [|exact (split_on_P _ 10%N _ H)]. intros p Hp. now left.
Qed.

Theorem command_page_fine sty app_name ch aliases help subs :
  (match app_name with Some n => plain n | None => True end) -> Forall plain (chain_names ch) ->
  Forall arg_fine (chain_args ch) -> Forall opt_fine (own_opts ch) -> Forall opt_fine (base_opts ch) ->
  Forall sub_fine subs -> Forall no_lt aliases -> no_lt (odesc help) ->
  page_fine sty (command_page sty app_name ch aliases help subs).
Proof.
  intros Ha Hc Hargs Hown Hbase Hsubs Hal Hh. apply (command_page_all (elem_fine sty)).
  - exact I.
  - repeat apply Forall_cons; [apply H_USAGE_fine|apply H_ARGUMENTS_fine|apply H_COMMANDS_fine|apply H_OPTIONS_fine|apply H_GLOBAL_fine|constructor].
  - apply (usage_section_all _ plain opt_fine arg_fine); try assumption; try plain_const.
    + intros. now apply synopsis_fine.
    + eapply Forall_impl; [|exact Hsubs]. intros s (S1 & _ & _ & S4 & S5). auto.
  - left. apply Forall_app. split; [repeat constructor; discriminate|]. apply join_comma_P; [discriminate|discriminate|exact Hal].
  - eapply Forall_impl; [|exact Hargs]. exact (render_argument_fine sty).
  - eapply Forall_impl; [|exact Hown]. exact (render_option_fine sty).
  - eapply Forall_impl; [|exact Hbase]. exact (render_option_fine sty).
  - eapply Forall_impl; [|exact Hsubs]. exact (sub_block_fine sty).
  - now apply description_block_fine.
Qed.

Lemma builtin_args_fine : Forall arg_fine builtin_args.
Proof.
  repeat constructor; cbn [the_command_arg the_arg_arg h_a h_adesc a_name a_default odesc];
    try (repeat constructor; discriminate); try reflexivity;
    cbn; intros H; repeat (destruct H as [H|H]; [discriminate|]); exact H.
Qed.
Lemma name_version_fine sty display version : no_lt (odesc display) -> plain (odesc version) -> elem_fine sty (name_version display version).
Proof.
  intros Hd Hv. unfold name_version. destruct (nonempty_opt display) as [d|] eqn:E1; [|left; repeat constructor; discriminate].
  apply nonempty_odesc in E1. subst d. destruct (nonempty_opt version) as [v|] eqn:E2; [|now left].
  apply nonempty_odesc in E2. subst v. cbn [elem_fine]. apply calm_fine.
  set (d := odesc display) in *. set (v := odesc version) in *.
  change (d ++ [32;118;101;114;115;105;111;110;32]%N ++ [60;99;49;62]%N ++ v ++ [60;47;99;49;62]%N)
    with (d ++ 32%N :: ([118;101;114;115;105;111;110;32]%N ++ C1 ++ v ++ C1E)).
  apply (calm_behind_desc sty d _ Hd). rewrite !munge_app. change (munge C1) with C1. change (munge C1E) with C1E.
  change (munge [118;101;114;115;105;111;110;32]%N) with [118;101;114;115;105;111;110;32]%N.
  apply calm_app; [apply plain_calm; plain_const|]. apply command_label_calm. now apply plain_munge.
Qed.
Theorem application_page_fine sty app_name display version gopts cmds help :
  (match app_name with Some n => plain n | None => True end) ->
  no_lt (odesc display) -> plain (odesc version) -> Forall opt_fine gopts ->
  Forall (fun c => plain (ac_name c) /\ no_lt (ac_desc c)) cmds -> no_lt (odesc help) ->
  page_fine sty (application_page sty app_name display version gopts cmds help).
Proof.
  intros Ha Hd Hv Hg Hc Hh. apply (application_page_all (elem_fine sty)).
  - exact I.
  - repeat apply Forall_cons; [apply H_USAGE_fine|apply H_ARGUMENTS_fine|apply H_GLOBAL_fine|apply H_AVAILABLE_fine|constructor].
  - now apply name_version_fine.
  - apply synopsis_fine; [exact Ha|constructor|plain_const|exact Hg|exact builtin_args_fine].
  - eapply Forall_impl; [|exact builtin_args_fine]. exact (render_argument_fine sty).
  - eapply Forall_impl; [|exact Hg]. exact (render_option_fine sty).
  - eapply Forall_impl; [|exact Hc]. intros c [C1' C2']. unfold cmd_line. cbn [snd elem_fine].
    destruct (calm_label sty _ (command_label_calm sty _ C1')) as [L1 L2]. repeat split; auto. now left.
  - now apply description_block_fine.
Qed.

Definition page_words_fitb (sty : styles) (W : Z) (l : layout) : bool :=
  forallb (fun x => no_ltb (elem_text (snd x)) ||
                    words_fitb (wrap_width W (align_vis sty l 0) (fst x) (vis_of sty (elem_label (snd x))) (snd x)) (elem_text (snd x))) l.
Lemma page_words_fitb_ok sty W l : page_words_fitb sty W l = true -> page_words_fit sty W l.
Proof.
  unfold page_words_fitb, page_words_fit. rewrite forallb_forall, Forall_forall. intros H x Hx. specialize (H x Hx).
  apply orb_prop in H as [H|H]; [left; now apply no_ltb_ok|right; now apply words_fitb_ok].
Qed.

