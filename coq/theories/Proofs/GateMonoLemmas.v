(* C10: monotonicity at the level of the entry points (emits), not only of the gate function, and the section index of
   the composed model (Model/GatedSection.v): which section a call names (target, gate_asked), when it names an existing
   one (in_range; ops_in_range for a sequence), and that the settings list stays parallel to the sections (gstep_parallel).

   The index is an artefact of the model: in the code the target of a call is a SectionOutput OBJECT, so a call on a
   section that does not exist cannot be written down; the harness keeps the created sections in a Python list and only
   draws indexes below the number created so far (an index beyond it would be an IndexError of the harness's own list,
   raised before clikit is entered).  The model totalises: gate_of uses the `nth` default (a fresh gate: not quiet,
   NORMAL) and Section.v's steps return the state unchanged for an index without section - so the step is the identity
   and returns Ok whatever the gate says. *)
From Coq Require Import Lia.
From Clikit Require Import Base.Prelude Base.Res Base.Term Model.Conv Model.Markup Model.Gate Model.Section Model.GatedSection
     Proofs.ListLemmas Proofs.GateLemmas Proofs.MarkupLemmas Proofs.SectionLemmas Proofs.GatedSectionLemmas.

(* an entry point that emits at verbosity v (whatever quiet was: it must have been off) emits at every higher verbosity of
   a non-quiet output *)
Lemma emits_mono_unquiet : forall k a m q v v' f, (v <= v')%Z ->
  emits k a m q v f = true -> emits k a m false v' f = true.
Proof.
  intros k a m q v v' f Hv. unfold emits. destruct (path k a m) as [p|]; [|discriminate].
  induction p as [|s r IH]; cbn [forallb]; [reflexivity|]. intros H. apply andb_prop in H as [H1 H2].
  apply andb_true_intro. split; [|apply IH; assumption].
  destruct q; [discriminate H1|]. eapply may_write_monotone; eauto.
Qed.
(* quiet silences every entry point that writes text at all: no row of the table is empty *)
Lemma emits_quiet_false : forall k a m v f, emits k a m true v f = false.
Proof.
  intros k a m v f. unfold emits. destruct (path k a m) as [p|] eqn:E; [|reflexivity].
  destruct (path_shape _ _ _ _ E) as (r & -> & _). reflexivity.
Qed.

(* the section a call is made on *)
Definition target (o : gop) : option nat :=
  match o with
  | GCreate | GParentQuiet _ | GParentVerbosity _ | GParentIndent _ => None      (* section(); calls on the output itself *)
  | GWrite i _ _ _ | GOverwrite i _ | GClear i _ | GIndent i _ | GSetQuiet i _ | GSetVerbosity i _ | GAddContent i _ => Some i
  end.
(* the flags a call asks its section's gate with (None for overwrite / clear, which have no flags parameter) *)
Definition gate_asked (o : gop) : option (nat * option Z) :=
  match o with
  | GWrite i _ f _ => Some (i, f)
  | GOverwrite i _ | GClear i _ | GAddContent i _ => Some (i, None)
  | _ => None
  end.
(* the call names an existing section (GCreate names none) *)
Definition in_range (st : secs) (gs : gates) (o : gop) : Prop :=
  match target o with Some i => i < length st /\ i < length (g_secs gs) | None => True end.

(* the settings list stays parallel to the sections, so "in range" is one condition, and a run that starts with no
   section (as every run of the driver does) keeps them parallel *)
Lemma set_sec_length st i s x : nth_error st i = Some x -> length (set_sec st i s) = length st.
Proof. apply set_nth_length. Qed.
Lemma sstep_ansi_length w st f so st' f' es : sstep_ansi w st f so = Ok (st', f', es) ->
  length st' = length st + match so with SCreate _ => 1 | _ => 0 end.
Proof.
  destruct so as [ind|i text|i text nl|i text|i n|i n]; cbn [sstep_ansi]; unfold add_content_step; intros H.
  1: { injection H as <- _ _. rewrite app_length. cbn. lia. }
  3: { injection H as <- _ _. lia. }
  all: destruct (nth_error st i) as [s|] eqn:E; [|injection H as <- _ _; lia].
  - bind_inv H m Hm. injection H as <- _ _. rewrite (set_sec_length _ _ _ _ E). lia.
  - bind_inv H m Hm. bind_inv H x Hx. bind_inv H y Hy. injection H as <- _ _. rewrite (set_sec_length _ _ _ _ E). lia.
  - destruct (sc_content s); [injection H as <- _ _; lia|]. bind_inv H kr Hkr. destruct kr as [[keep rc] f1].
    bind_inv H y Hy. injection H as <- _ _. rewrite (set_sec_length _ _ _ _ E). lia.
  - injection H as <- _ _. rewrite (set_sec_length _ _ _ _ E). lia.
Qed.
Lemma sec_step_length ansi w st f so st' f' es : sec_step ansi w st f so = Ok (st', f', es) ->
  length st' = length st + match so with SCreate _ => 1 | _ => 0 end.
Proof.
  unfold sec_step. destruct ansi.
  - destruct so as [ind|i text|i text nl|i text|i n|i n]; try apply sstep_ansi_length.
    cbn [sstep]. intros H. bind_inv H a Ha. bind_inv H b Hb. injection H as <- _ _.
    destruct a as [[st1 f1] e1], b as [[st2 f2] e2]. apply sstep_ansi_length in Ha, Hb. cbn [fst] in *. lia.
  - destruct so as [ind|i text|i text nl|i text|i n|i n]; cbn [sstep_plain]; unfold add_content_step; intros H.
    1: { injection H as <- _ _. rewrite app_length. cbn. lia. }
    4: { injection H as <- _ _. lia. }
    all: destruct (nth_error st i) as [s|] eqn:E; [|injection H as <- _ _; lia].
    + bind_inv H m Hm. injection H as <- _ _. rewrite (set_sec_length _ _ _ _ E). lia.
    + bind_inv H x Hx. injection H as <- _ _. lia.
    + bind_inv H x Hx. injection H as <- _ _. lia.
    + injection H as <- _ _. rewrite (set_sec_length _ _ _ _ E). lia.
Qed.
Lemma gstep_parallel ansi w st gs f o st' gs' f' es :
  gstep ansi w st gs f o = Ok (st', gs', f', es) -> length (g_secs gs) = length st -> length (g_secs gs') = length st'.
Proof.
  unfold gstep. destruct (sop_of gs o) as [so|] eqn:Eso.
  - destruct (allowed gs o); [|intros H; inversion H; subst; auto].
    destruct (sec_step ansi w st f so) as [[[st1 f1] e1]|] eqn:E; cbn [bind fst snd]; [|discriminate].
    intros H Hl. inversion H; subst. rewrite gates_step_length, (sec_step_length _ _ _ _ _ _ _ _ E), Hl.
    destruct o; cbn in Eso; inversion Eso; subst; reflexivity.
  - intros H Hl. inversion H; subst. rewrite gates_step_length, Hl. destruct o; cbn in Eso; try discriminate; lia.
Qed.

(* the calls of a sequence all name sections that exist when they are made (sections are only ever added) *)
Fixpoint ops_in_range (n : nat) (ops : list gop) : bool :=
  match ops with
  | [] => true
  | o :: r => match target o with Some i => Nat.ltb i n | None => true end &&
              ops_in_range (n + match o with GCreate => 1 | _ => 0 end) r
  end.
