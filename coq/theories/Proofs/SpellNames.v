(* C01 (parse_spells_interleaved): command names anywhere among the option items.

   The generalised line descriptions [ld2] of Model/Spell.v let the command-name spellings stand behind option items
   and behind "--".  To the token loop a spelling is a positional token ([to_item]), so [loop_rendered] of SpellArgs gives
   the scratch state; [names_first] says that the positional tokens of the line are the spellings followed by the
   values; the re-alignment asks of the spellings only [names_match] (a spelling after "--" may start with a dash) and
   then sees exactly what it sees for the old grammar.  The old grammar embeds ([embed]): parse_spells is a corollary. *)
From Coq Require Import Lia String Ascii.
From Clikit Require Import Base.Prelude Base.Res Model.Conv Model.Flags Model.Format Model.Parser Model.Spell
     Proofs.StrLemmas Proofs.ListLemmas Proofs.FormatLemmas Proofs.ParserLemmas Proofs.SpellOpts Proofs.SpellArgs
     Proofs.SpellDenote Proofs.SpellLemmas.

(* the positional tokens of an item: to the token loop a spelling is one of them *)
Definition item2_allpos (x : item2) : list str := item2_name x ++ item2_pos x.
Definition tail2_toks (t : option (list str * list str)) : list str :=
  match t with Some (ns, vs) => ns ++ vs | None => [] end.
(* some spelling stands behind "--" (the second argument of names_first in wf_line2) *)
Definition later2 (d : ld2) : bool := match l2_tail d with Some (_ :: _, _) => true | _ => false end.

(* what an item2 contributes is what its item contributes *)
Lemma flat_map_to_item {X} (h : item -> list X) (h2 : item2 -> list X) l :
  (forall x, h (to_item x) = h2 x) -> flat_map h (map to_item l) = flat_map h2 l.
Proof. intros E. rewrite flat_map_map. exact (flat_map_ext _ _ E l). Qed.
Lemma render_to_item l : flat_map render_item (map to_item l) = flat_map render_item2 l.
Proof. apply flat_map_to_item. intros []; reflexivity. Qed.
Lemma events_to_item l : flat_map item_events (map to_item l) = flat_map item2_events l.
Proof. apply flat_map_to_item. intros []; reflexivity. Qed.
Lemma pos_to_item l : flat_map item_pos (map to_item l) = flat_map item2_allpos l.
Proof. apply flat_map_to_item. intros []; reflexivity. Qed.

Lemma no_names_nil r : existsb is_name2 r = false -> flat_map item2_name r = [].
Proof.
  induction r as [|x r IH]; cbn [existsb flat_map]; [reflexivity|]. intros H. apply orb_false_elim in H as [H1 H2].
  destruct x as [it|s]; [|discriminate]. cbn [item2_name app]. apply IH. exact H2.
Qed.

(* no value in front of a spelling: the positional tokens are the spellings, then the values *)
Lemma names_first_split later : forall l, names_first l later = true ->
  flat_map item2_allpos l = flat_map item2_name l ++ flat_map item2_pos l /\
  (later = true -> flat_map item2_pos l = []).
Proof.
  induction l as [|x r IH]; cbn [names_first flat_map]; [split; reflexivity|].
  intros H. apply andb_prop in H as [Hx Hr]. destruct (IH Hr) as [IH1 IH2]. rewrite IH1.
  destruct x as [it|s].
  - destruct (is_pos2 (I2 it)) eqn:Hp.
    + destruct it as [| | | |s]; try discriminate. apply andb_prop in Hx as [Hl Hn].
      apply negb_true_iff in Hl, Hn. rewrite (no_names_nil r Hn). subst later.
      unfold item2_allpos. cbn [item2_name item2_pos item_pos app]. split; [reflexivity|discriminate].
    + assert (item_pos it = []) as E by (destruct it; try reflexivity; discriminate).
      unfold item2_allpos. cbn [item2_name item2_pos app]. rewrite E. cbn [app]. split; [reflexivity|exact IH2].
  - unfold item2_allpos. cbn [item2_name item2_pos app]. split; [reflexivity|exact IH2].
Qed.

Lemma allpos_split d : names_first (l2_items d) (later2 d) = true ->
  flat_map item_pos (map to_item (l2_items d)) ++ tail2_toks (l2_tail d) = names2 d ++ values2 d.
Proof.
  intros H. rewrite pos_to_item.
  destruct (names_first_split _ _ H) as [E1 E2]. rewrite E1. unfold names2, values2, tail2_toks, later2 in *.
  destruct (l2_tail d) as [[ns vs]|].
  - destruct ns as [|n ns'].
    + cbn [app]. rewrite app_nil_r. rewrite <- app_assoc. reflexivity.
    + rewrite (E2 eq_refl). cbn [app]. rewrite app_nil_r. rewrite <- !app_assoc. reflexivity.
  - rewrite !app_nil_r. reflexivity.
Qed.

Section Finish2.
  Variables (f g : fmt) (A : list (str * arg)) (cns : list (str * cname)).
  Hypothesis FF : fmt_facts f g A cns.
  Variables (names V : list str).
  Hypothesis Hnames : names_match cns names = true.
  Hypothesis Hfit : fits (get_arguments_all f) V = true.
  Hypothesis Hclash : no_clash cns names V = true.
  Hypothesis Hreq : req_ok (get_arguments_all f) V = true.

  Lemma finish2 len po :
    exists st2,
      insert_missing A cns len {| ps_args := place A (names ++ V); ps_opts := po |} = Ok st2 /\
      ps_opts st2 = po /\ missing_required A st2 = false /\
      set_arguments f {| ar_opts := []; ar_args := [] |} (ps_args st2) =
      Ok {| ar_opts := []; ar_args := place_typed (get_arguments_all f) V |}.
  Proof. exact (finish_match f g A cns names V len po FF Hnames Hfit Hclash Hreq). Qed.
End Finish2.

Lemma loop2_line f g A cns len d :
  fmt_facts f g A cns -> items_ok f g (map to_item (l2_items d)) = true ->
  names_first (l2_items d) (later2 d) = true ->
  shape A (names2 d ++ values2 d) = true ->
  loop (S (length (render2 d))) g len true ps_empty (render2 d) =
  ({| ps_args := place A (names2 d ++ values2 d); ps_opts := fold_left raw_event (events2 d) [] |}, None).
Proof.
  intros FF Hit Hnf Hsh. rewrite <- (allpos_split d Hnf) in *.
  unfold render2, events2. rewrite <- render_to_item, <- events_to_item.
  assert (render_tail2 (l2_tail d) = render_tail (option_map (fun t => fst t ++ snd t) (l2_tail d))) as ->
    by (destruct (l2_tail d) as [[ns vs]|]; reflexivity).
  assert (tail2_toks (l2_tail d) = match option_map (fun t => fst t ++ snd t) (l2_tail d) with Some l => l | None => [] end) as E
    by (destruct (l2_tail d) as [[ns vs]|]; reflexivity).
  rewrite E in *.
  apply (loop_rendered f g A len (ff_args _ _ _ _ FF) (ff_names _ _ _ _ FF) (ff_nodup _ _ _ _ FF) text_ok text_ok_acc);
    [exact Hit|exact Hsh|lia].
Qed.

Lemma wf_line2_facts f g A cns d : fmt_facts f g A cns -> wf_line2 f d = true ->
  items_ok f g (map to_item (l2_items d)) = true /\ names_first (l2_items d) (later2 d) = true /\
  names_match cns (names2 d) = true /\ fits (get_arguments_all f) (values2 d) = true /\
  req_ok (get_arguments_all f) (values2 d) = true /\ no_clash cns (names2 d) (values2 d) = true.
Proof.
  intros FF H. unfold wf_line2 in H. rewrite (ff_aug _ _ _ _ FF) in H.
  apply andb_prop in H as [H Hclash]. apply andb_prop in H as [H Hreq]. apply andb_prop in H as [H Hfit].
  apply andb_prop in H as [H Hn]. apply andb_prop in H as [Hit Hnf]. repeat split; assumption.
Qed.
Lemma events2_ok f g d : items_ok f g (map to_item (l2_items d)) = true -> Forall (ev_ok f) (events2 d).
Proof.
  intros H. unfold events2. rewrite <- events_to_item. exact (items_events_ok text_ok f g _ H).
Qed.

Theorem parse_spells2_lemma f d : fmt_ok f = true -> wf_line2 f d = true ->
  forall lenient, parse f lenient (render2 d) = Ok (denote2 f d).
Proof.
  intros Hf Hwf len. destruct (fmt_ok_inv f Hf) as (g & A & cns & FF).
  destruct (wf_line2_facts f g A cns d FF Hwf) as (Hit & Hnf & Hn & Hfit & Hreq & Hclash).
  apply (parse_scanned f g A cns len (render2 d) (names2 d) (values2 d) (events2 d) FF);
    [|exact Hn|exact Hfit|exact Hclash|exact Hreq|exact (events2_ok f g d Hit)].
  exact (loop2_line f g A cns len d FF Hit Hnf (shape_names_values f g A cns FF _ _ Hn (fits_shape _ _ Hfit))).
Qed.

Definition spells2 (f : fmt) (asg : args) (line : list str) : Prop :=
  exists d, wf_line2 f d = true /\ render2 d = line /\ denote2 f d = asg.
Lemma flat_map_single {X} (l : list X) : flat_map (fun x => [x]) l = l.
Proof. induction l as [|x l IH]; cbn; [reflexivity|]. now rewrite IH. Qed.
Lemma flat_map_nil {X Y} (l : list X) : flat_map (fun _ => @nil Y) l = [].
Proof. induction l as [|x l IH]; [reflexivity|exact IH]. Qed.
(* over an embedded line a flat_map falls into the spellings' part and the items' part *)
Lemma flat_map_embed {X} (h2 : item2 -> list X) (h : item -> list X) (n : str -> list X) names items :
  (forall s, h2 (IName s) = n s) -> (forall it, h2 (I2 it) = h it) ->
  flat_map h2 (map IName names ++ map I2 items) = flat_map n names ++ flat_map h items.
Proof. intros En Ei. rewrite flat_map_app, !flat_map_map. now rewrite (flat_map_ext _ _ En), (flat_map_ext _ _ Ei). Qed.
Lemma to_item_embed names items : map to_item (map IName names ++ map I2 items) = map IPos names ++ items.
Proof. rewrite map_app, !map_map. cbn [to_item]. now rewrite map_id. Qed.

Lemma render2_embed d : render2 (embed d) = render d.
Proof.
  unfold render2, render, embed. cbn [l2_items l2_tail].
  rewrite (flat_map_embed render_item2 render_item (fun s => [s])), flat_map_single, <- app_assoc by reflexivity.
  destruct (ld_tail d); reflexivity.
Qed.
Lemma names2_embed d : names2 (embed d) = ld_names d.
Proof.
  unfold names2, embed. cbn [l2_items l2_tail].
  rewrite (flat_map_embed item2_name (fun _ => []) (fun s => [s])), flat_map_single, flat_map_nil by reflexivity.
  destruct (ld_tail d); now rewrite !app_nil_r.
Qed.
Lemma values2_embed d : values2 (embed d) = values d.
Proof.
  unfold values2, values, embed. cbn [l2_items l2_tail].
  rewrite (flat_map_embed item2_pos item_pos (fun _ => [])), flat_map_nil by reflexivity.
  destruct (ld_tail d); reflexivity.
Qed.
Lemma events2_embed d : events2 (embed d) = events d.
Proof.
  unfold events2, events, embed. cbn [l2_items].
  now rewrite (flat_map_embed item2_events item_events (fun _ => [])), flat_map_nil by reflexivity.
Qed.
Lemma denote2_embed f d : denote2 f (embed d) = denote f d.
Proof. unfold denote2, denote. rewrite events2_embed, values2_embed. reflexivity. Qed.

Lemma names_first_embed names items : names_first (map IName names ++ map I2 items) false = true.
Proof.
  induction names as [|s r IH]; cbn [map app names_first is_pos2]; [|exact IH].
  induction items as [|it l IH]; cbn [map names_first]; [reflexivity|]. rewrite IH, andb_true_r.
  assert (existsb is_name2 (map I2 l) = false) as E by (clear; induction l; cbn; auto).
  rewrite E. destruct (is_pos2 (I2 it)); reflexivity.
Qed.

Lemma wf_embed f d : wf_line f d = true -> wf_line2 f (embed d) = true.
Proof.
  unfold wf_line, wf_line2. destruct (aug_format f) as [[[g A] cns]|]; [|discriminate]. intros H.
  apply andb_prop in H as [H Hclash]. apply andb_prop in H as [H Hreq]. apply andb_prop in H as [H Hfit].
  apply andb_prop in H as [Hn Hit].
  rewrite names2_embed, values2_embed, Hfit, Hreq, Hclash, (names_ok_match _ _ Hn). rewrite !andb_true_r.
  destruct d as [names items tail]. unfold embed. cbn [l2_items l2_tail ld_names ld_items ld_tail] in *.
  rewrite to_item_embed.
  rewrite (items_ok_names text_ok f g names items (names_ok_plain _ _ Hn) Hit : items_ok f g _ = true). cbn [andb].
  assert (match (match tail with Some vs => Some (@nil str, vs) | None => None end) with
          | Some (_ :: _, _) => true | _ => false end = false) as -> by (destruct tail; reflexivity).
  apply names_first_embed.
Qed.

Lemma embed_facts f d :
  render2 (embed d) = render d /\ denote2 f (embed d) = denote f d /\ (wf_line f d = true -> wf_line2 f (embed d) = true).
Proof. exact (conj (render2_embed d) (conj (denote2_embed f d) (wf_embed f d))). Qed.

(* parse_spells_lemma again, through the embedding: the interleaved grammar covers the old one *)
Corollary parse_spells_from_interleaved f d : fmt_ok f = true -> wf_line f d = true ->
  forall lenient, parse f lenient (render d) = Ok (denote f d).
Proof.
  intros Hf Hwf len. rewrite <- render2_embed, <- denote2_embed.
  apply parse_spells2_lemma; [exact Hf|apply wf_embed; exact Hwf].
Qed.

(* dropping the spellings loses nothing of what is not a spelling *)
Lemma flat_map_is_I2 {X} (h : item -> list X) (h2 : item2 -> list X) l :
  (forall it, h2 (I2 it) = h it) -> (forall s, h2 (IName s) = []) -> flat_map h (flat_map is_I2 l) = flat_map h2 l.
Proof.
  intros E1 E2. rewrite flat_map_flat_map. apply flat_map_ext. intros [it|s]; cbn [is_I2 flat_map]; [|now rewrite E2].
  rewrite E1. apply app_nil_r.
Qed.
Lemma events_front d : events (names_to_front d) = events2 d.
Proof. apply flat_map_is_I2; reflexivity. Qed.
Lemma values_front d : values (names_to_front d) = values2 d.
Proof.
  unfold values, values2, names_to_front. cbn [ld_items ld_tail]. rewrite (flat_map_is_I2 item_pos item2_pos) by reflexivity.
  destruct (l2_tail d) as [[ns vs]|]; reflexivity.
Qed.
Lemma denote2_front f d : denote2 f d = denote f (names_to_front d).
Proof. unfold denote2, denote. rewrite events_front, values_front. reflexivity. Qed.

(* what the read side of Args needs of a well-formed line *)
Lemma wf_line2_inv f d : fmt_ok f = true -> wf_line2 f d = true ->
  NoDup (map fst (get_arguments_all f)) /\ fits (get_arguments_all f) (values2 d) = true /\
  Forall (ev_ok f) (events2 d).
Proof.
  intros Hf Hwf. destruct (fmt_ok_inv f Hf) as (g & A & cns & FF).
  destruct (wf_line2_facts f g A cns d FF Hwf) as (Hit & _ & _ & Hfit & _).
  exact (conj (real_nodup f g A cns FF) (conj Hfit (events2_ok f g d Hit))).
Qed.
Lemma wf_line_inv f d : fmt_ok f = true -> wf_line f d = true ->
  NoDup (map fst (get_arguments_all f)) /\ fits (get_arguments_all f) (values d) = true /\
  Forall (ev_ok f) (events d).
Proof. intros Hf Hwf. rewrite <- values2_embed, <- events2_embed. exact (wf_line2_inv f (embed d) Hf (wf_embed f d Hwf)). Qed.

Module SpellNamesExamples.
  Import SpellExamples.
  (* F1: command names server (alias srv) and add; arguments host (required), port (optional, integer), files
     (multi-valued); options -v -q (flags) -n (required integer) -t (multi-valued) -c (optional value) --level.
     Options before the first command name and between the two, every item form, a separated option value that equals
     the next command name ('--tag add add'), aliases, "--" tail. *)
  Definition E1 : ld2 := {|
    l2_items := [I2 (IFlag o_quiet false); I2 (IFlag o_verbose true); IName (s "srv");
                 I2 (IVal o_num LongEq (s "-5")); I2 (IVal o_tag LongSep (s "add")); I2 (IVal o_tag ShortGlued (s "x"));
                 I2 (IVal o_num ShortSep (s "12")); I2 (IGroup [o_verbose; o_quiet] (Some (o_tag, GSep (s "y"))));
                 IName (s "add");
                 I2 (IGroup [o_verbose; o_quiet] None); I2 (IPos (s "h1"));
                 I2 (IGroup [o_quiet; o_verbose] (Some (o_color, GGlued (s "red")))); I2 (IPos (s "8080"));
                 I2 (IBare o_color false); I2 (IBare o_level true); I2 (IGroup [o_verbose] (Some (o_color, GBare)))];
    l2_tail := Some ([], [s "-a"; s ""; s "b"]) |}.
  Example E1_tokens : render2 E1 =
    [s "-q"; s "--verbose"; s "srv"; s "--num=-5"; s "--tag"; s "add"; s "-tx"; s "-n"; s "12"; s "-vqt"; s "y"; s "add";
     s "-vq"; s "h1"; s "-qvcred"; s "8080"; s "-c"; s "--level"; s "-vc"; s "--"; s "-a"; s ""; s "b"].
  Proof. vm_compute. reflexivity. Qed.
  Example E1_wf : wf_line2 F1 E1 = true. Proof. vm_compute. reflexivity. Qed.
  Example E1_value : denote2 F1 E1 =
    {| ar_opts := [(s "quiet", VBool true); (s "verbose", VBool true); (s "num", VInt 12);
                   (s "tag", VList [VStr (s "add"); VStr (s "x"); VStr (s "y")]); (s "color", VStr (s "auto")); (s "level", VInt 3)];
       ar_args := [(s "host", VStr (s "h1")); (s "port", VInt 8080); (s "files", VList [VStr (s "-a"); VStr (s ""); VStr (s "b")])] |}.
  Proof. vm_compute. reflexivity. Qed.
  Example E1_parses : forall lenient, parse F1 lenient (render2 E1) = Ok (denote2 F1 E1).
  Proof. exact (parse_spells2_lemma F1 E1 F1_ok E1_wf). Qed.
  Example E1_over_base : wf_line2 F2 E1 = true /\ forall lenient, parse F2 lenient (render2 E1) = Ok (denote2 F2 E1).
  Proof. apply and_with; [vm_compute; reflexivity|exact (parse_spells2_lemma F2 E1 F2_ok)]. Qed.
  (* the spellings and the values of E1; no description of the old grammar renders to its tokens, which start with an option *)
  Example E1_names : names2 E1 = [s "srv"; s "add"] /\ values2 E1 = [s "h1"; s "8080"; s "-a"; s ""; s "b"].
  Proof. split; vm_compute; reflexivity. Qed.

  (* the second command name behind "--", then values (one of them "--", one equal to a command name) *)
  Definition E2 : ld2 := {|
    l2_items := [I2 (IFlag o_verbose false); IName (s "server"); I2 (IVal o_num ShortGlued (s "7"))];
    l2_tail := Some ([s "add"], [s "h2"; s "80"; s "--"; s "add"]) |}.
  Example E2_parses : wf_line2 F1 E2 = true /\ render2 E2 = [s "-v"; s "server"; s "-n7"; s "--"; s "add"; s "h2"; s "80"; s "--"; s "add"] /\
    forall lenient, parse F1 lenient (render2 E2) = Ok (denote2 F1 E2).
  Proof.
    apply and_with; [vm_compute; reflexivity|]. intros Hwf.
    split; [vm_compute; reflexivity|exact (parse_spells2_lemma F1 E2 F1_ok Hwf)].
  Qed.
  (* both command names behind "--" *)
  Definition E3 : ld2 := {| l2_items := [I2 (IFlag o_quiet false)]; l2_tail := Some ([s "srv"; s "add"], [s "h"]) |}.
  Example E3_parses : wf_line2 F1 E3 = true /\ forall lenient, parse F1 lenient (render2 E3) = Ok (denote2 F1 E3).
  Proof. apply and_with; [vm_compute; reflexivity|exact (parse_spells2_lemma F1 E3 F1_ok)]. Qed.
  (* the second command name omitted, options around the first; a value equal to the FIRST (given) name is fine *)
  Definition E4 : ld2 := {|
    l2_items := [I2 (IFlag o_verbose false); IName (s "server"); I2 (IVal o_num LongEq (s "3")); I2 (IPos (s "server"))];
    l2_tail := None |}.
  Example E4_parses : wf_line2 F1 E4 = true /\ forall lenient, parse F1 lenient (render2 E4) = Ok (denote2 F1 E4).
  Proof. apply and_with; [vm_compute; reflexivity|exact (parse_spells2_lemma F1 E4 F1_ok)]. Qed.
  Example D1_embedded : wf_line2 F1 (embed D1) = true /\ render2 (embed D1) = render D1 /\ denote2 F1 (embed D1) = denote F1 D1.
  Proof. exact (conj (wf_embed F1 D1 D1_wf) (conj (render2_embed D1) (denote2_embed F1 D1))). Qed.

  (* lines the side conditions exclude, and what the parser does with them *)
  (* an omitted optional value in front of a command name: the spelling is swallowed as the value *)
  Definition Y1 : ld2 := {| l2_items := [I2 (IBare o_color true); IName (s "server"); IName (s "add"); I2 (IPos (s "h"))]; l2_tail := None |}.
  Example Y1_excluded : wf_line2 F1 Y1 = false /\ forall lenient, parse F1 lenient (render2 Y1) <> Ok (denote2 F1 Y1).
  Proof. split; [vm_compute; reflexivity|intros []; vm_compute; discriminate]. Qed.
  (* a value in front of a command name: the value is tried as the command name *)
  Definition Y2 : ld2 := {| l2_items := [I2 (IPos (s "h")); IName (s "server"); IName (s "add")]; l2_tail := None |}.
  Example Y2_excluded : wf_line2 F1 Y2 = false /\ forall lenient, parse F1 lenient (render2 Y2) <> Ok (denote2 F1 Y2).
  Proof. split; [vm_compute; reflexivity|intros []; vm_compute; discriminate]. Qed.
  (* the same with the command names behind "--" *)
  Definition Y3 : ld2 := {| l2_items := [I2 (IPos (s "h"))]; l2_tail := Some ([s "server"; s "add"], []) |}.
  Example Y3_excluded : wf_line2 F1 Y3 = false /\ forall lenient, parse F1 lenient (render2 Y3) <> Ok (denote2 F1 Y3).
  Proof. split; [vm_compute; reflexivity|intros []; vm_compute; discriminate]. Qed.
  (* the second command name without the first: nothing is matched, 'add' is the host *)
  Definition Y4 : ld2 := {| l2_items := [I2 (IFlag o_verbose false); IName (s "add"); I2 (IPos (s "h"))]; l2_tail := None |}.
  Example Y4_excluded : wf_line2 F1 Y4 = false /\ forall lenient, parse F1 lenient (render2 Y4) <> Ok (denote2 F1 Y4).
  Proof. split; [vm_compute; reflexivity|intros []; vm_compute; discriminate]. Qed.
  (* an omitted command name in front of a value equal to it, options in between *)
  Definition Y5 : ld2 := {| l2_items := [IName (s "server"); I2 (IFlag o_verbose false); I2 (IPos (s "add"))]; l2_tail := None |}.
  Example Y5_excluded : wf_line2 F1 Y5 = false /\ parse F1 true (render2 Y5) <> Ok (denote2 F1 Y5).
  Proof. split; [vm_compute; reflexivity|vm_compute; discriminate]. Qed.
End SpellNamesExamples.
