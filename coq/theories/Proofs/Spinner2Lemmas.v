(* Proofs about Model/Spinner2.v (C19 at the granularity of shared-state accesses): for EVERY schedule of the two
   threads' accesses to the stop event, the shared fields, the stream, the clock and join. *)
From Coq Require Import Lia.
From Clikit Require Import Base.Prelude Base.Res Base.Term Model.Spinner Model.Spinner2 Proofs.TermLemmas Proofs.ListLemmas
  Proofs.SpinnerLemmas Proofs.SpinnerHistoryLemmas.

Ltac red2 := cbn [clock2 msg2 cur2 upd2 stop2 sp2 mp2 ph2 body2 writes2 skips2 set_st with_sp with_mp skipped] in *.

(* What every step keeps, whichever thread takes it, holds of the state the automatic mode ends in. *)
Section Invariant2.
Variable c : cfg.
Variable I : st2 -> Prop.
Hypothesis I_step : forall s b, I s -> I (step2 c s b).
Lemma run_schedule2_inv sched : forall s, I s -> I (run_schedule2 c s sched).
Proof. exact (fold_left_inv (step2 c) I I_step sched). Qed.
Lemma complete2_inv fuel : forall s, I s -> I (complete2 c fuel s).
Proof.
  induction fuel as [|f IH]; intros s H; cbn; [exact H|]. destruct (all_done2 s); [exact H|].
  apply IH. destruct (main_blocked2 s); [apply (I_step s true H)|apply (I_step s false H)].
Qed.
Lemma run_auto2_inv t0 sm acts sched : I (init2 c t0 sm acts) -> I (run_auto2 c t0 sm acts sched).
Proof. intros H. apply complete2_inv, run_schedule2_inv, H. Qed.
End Invariant2.

(* lits: what is left of the format is a suffix of it *)
Lemma lits_length acc rest : length (snd (lits acc rest)) <= length rest.
Proof. revert acc. induction rest as [|p r IH]; intros acc; cbn; [lia|]. destruct p; cbn; try lia. specialize (IH (acc ++ s)). lia. Qed.
Lemma lits_head acc rest : match snd (lits acc rest) with PLit _ :: _ => False | _ => True end.
Proof. revert acc. induction rest as [|p r IH]; intros acc; cbn; [exact I|]. destruct p; cbn; try exact I. apply IH. Qed.

(* one placeholder of a frame under construction: the field is read and its text added.  The proofs about a step rewrite
   with the two equations below in the case SFmt acc (p :: r) / MFmt acc (p :: r) - the `[..|rewrite (step_spinner2_fmt ...)| | |]`
   behind their case split - so that the three kinds of placeholder stay one case. *)
Definition piece_text (c : cfg) (s : st2) (p : piece) : str :=
  match p with PLit x => x | PInd => [indicator2 (c_values c) (cur2 s)] | PMsg => msg2 s end.
Lemma step_spinner2_fmt c s acc p r : sp2 s = SFmt acc (p :: r) ->
  step_spinner2 c s = with_sp s (sfmt_next (acc ++ piece_text c s p) r).
Proof. unfold step_spinner2. intros ->. destruct p; reflexivity. Qed.
Lemma step_main2_fmt c s acc p r : mp2 s = MFmt acc (p :: r) ->
  step_main2 c s = with_mp s (mfmt_next (acc ++ piece_text c s p) r) (ph2 s) (body2 s).
Proof. unfold step_main2. intros ->. destruct p; reflexivity. Qed.

(* Leaving the automatic mode always stops and joins the spinner *)
Definition fmt_len (c : cfg) : nat := length (c_fmt c).
Definition exit_rank (x : mexit) : nat := match x with XRaise => 1 | XNormal => 3 end.
Fixpoint brank (f : nat) (b : list action) : nat :=
  match b with
  | [] => 7
  | ASet _ :: r => f + 4 + brank f r
  | AWork _ :: r => 1 + brank f r
  | ARaise :: _ => 4
  end.
Definition aft (f : nat) (s : st2) : nat :=
  match ph2 s with HBody => brank f (body2 s) | HRaiseNl => 3 | HEndFrame => 1 | HFinalNl => 0 | HFinished _ => 0 end.
Definition rank_main2 (f : nat) (s : st2) : nat :=
  match mp2 s with
  | MWrMsg _ => f + 3 + aft f s
  | MFmt _ rest => length rest + 2 + aft f s
  | MWrite _ => 1 + aft f s
  | MSleep _ => 1 + brank f (body2 s)
  | MRdStarted => 4 + exit_rank XNormal
  | MRdThread true x => 3 + exit_rank x
  | MSet x => 2 + exit_rank x
  | MRdThread false x => 1 + exit_rank x
  | MJoin x => exit_rank x
  | MDone => 0
  end.
Definition rank_sp2 (f : nat) (s : st2) : nat :=
  match sp2 s with
  | SIsSet => 1 | SSleep => 2 | SWrite _ => 3 | SFmt _ rest => length rest + 4 | SWrCur _ => f + 5 | SRdCur => f + 6
  | SWrUpd _ => f + 7 | SRdUpd _ => f + 8 | SRdStarted => f + 9 | SDone => 0
  end.

(* which exit the caller is on agrees with its phase; once the stop event is set it stays set; after join the spinner is gone *)
Definition coherent (s : st2) : Prop :=
  match mp2 s with
  | MRdStarted | MRdThread _ XNormal | MSet XNormal | MJoin XNormal => ph2 s = HBody /\ body2 s = []
  | MRdThread _ XRaise | MSet XRaise | MJoin XRaise => ph2 s = HRaiseNl
  | MSleep _ | MWrMsg _ | MFmt _ _ => ph2 s = HBody
  | MWrite _ => match ph2 s with HFinished _ => False | _ => True end
  | MDone => exists r, ph2 s = HFinished r
  end.
Definition join_inv2 (s : st2) : Prop :=
  coherent s /\
  (match mp2 s with MRdThread false _ | MJoin _ => stop2 s = true | _ => True end) /\
  (match ph2 s with HEndFrame | HFinalNl | HFinished _ => sp2 s = SDone /\ stop2 s = true | _ => True end).

Lemma next_action_join_inv2 s : ph2 s = HBody -> join_inv2 (next_action s).
Proof.
  intros Hp. unfold next_action. destruct (body2 s) as [|[m|d|] r]; unfold join_inv2, coherent; red2; repeat split; auto.
Qed.
(* after some text was added, either thread stands before the stream write or before the next placeholder *)
Lemma fmt_next_cases acc rest :
  (exists t, sfmt_next acc rest = SWrite t /\ mfmt_next acc rest = MWrite (Some t)) \/
  (exists a r, sfmt_next acc rest = SFmt a r /\ mfmt_next acc rest = MFmt a r /\ length r <= length rest).
Proof.
  unfold sfmt_next, mfmt_next. pose proof (lits_length acc rest) as Hl. destruct (lits acc rest) as [a r]. cbn in Hl.
  destruct r; [left|right]; eauto 6.
Qed.

Lemma step_spinner2_join_inv2 c s : join_inv2 s -> join_inv2 (step_spinner2 c s).
Proof.
  intros (Hc & Hs & Hp). destruct (sp2 s) as [| |now|now| |k|acc [|p r]|t| |] eqn:E;
    [..|rewrite (step_spinner2_fmt c s acc p r E)| | |]; unfold step_spinner2; rewrite ?E; unfold join_inv2, coherent in *; red2; repeat split; auto;
    try (destruct (ph2 s); try exact I; destruct Hp as [Hp1 Hp2]; congruence).
  rewrite E. exact Hp.
Qed.

(* The caller's step keeps join_inv2.  Only three of its operations touch what join_inv2 speaks of beyond mp2: stop.set() sets the flag
   that the two operations after it rely on; join goes on only when the spinner has ended, with the flag set since then,
   which is what the phases after it claim; a stream write moves on within those phases.  Everything else stays within
   its phase, and the clauses about the flag and the spinner are the old ones. *)
Lemma step_main2_join_inv2 c s : join_inv2 s -> join_inv2 (step_main2 c s).
Proof.
  intros (Hc & Hs & Hp). unfold coherent in Hc.
  destruct (mp2 s) as [m|acc [|p r]|t|d| |[|] x|x|x|] eqn:E; [| |rewrite (step_main2_fmt c s acc p r E)|..];
    unfold step_main2; rewrite ?E.
  - destruct (fmt_next_cases [] (c_fmt c)) as [(t & _ & ->)|(a & r & _ & -> & _)];
      unfold join_inv2, coherent; red2; rewrite Hc in *; auto.
  - unfold join_inv2, coherent; red2; rewrite Hc in *; auto.
  - destruct (fmt_next_cases (acc ++ piece_text c s p) r) as [(t & _ & ->)|(a & r' & _ & -> & _)];
      unfold join_inv2, coherent; red2; rewrite Hc in *; auto.
  - (* MWrite *) unfold after_write; red2. destruct (ph2 s) eqn:Ep; try contradiction;
      [apply next_action_join_inv2; reflexivity|unfold join_inv2, coherent; red2; auto..].
    split; [eauto|]. auto.
  - (* MSleep *) apply next_action_join_inv2. exact Hc.
  - unfold join_inv2, coherent; red2; auto.
  - unfold join_inv2, coherent; red2. destruct x; auto.
  - unfold join_inv2, coherent; red2. destruct x; auto.
  - (* MSet *) unfold join_inv2, coherent; red2. destruct x; [destruct Hc as [Hc Hb]|]; rewrite Hc in *; auto.
  - (* MJoin: blocked, or the spinner has ended *)
    destruct (sp2 s) eqn:Es; [unfold join_inv2, coherent; red2; rewrite E, Es; auto..|].
    destruct x; unfold join_inv2, coherent; red2; rewrite ?Es; eauto.
  - unfold join_inv2, coherent; red2; rewrite E; auto.
Qed.

Lemma step2_join_inv2 c s b : join_inv2 s -> join_inv2 (step2 c s b).
Proof. destruct b; [apply step_spinner2_join_inv2|apply step_main2_join_inv2]. Qed.
Lemma init2_join_inv2 c t0 sm acts : join_inv2 (init2 c t0 sm acts).
Proof. unfold init2. apply next_action_join_inv2. reflexivity. Qed.

(* what is left of the format in a frame under construction is never longer than the format *)
Definition fmt_bound (c : cfg) (s : st2) : Prop :=
  (match mp2 s with MFmt _ r => length r <= fmt_len c | _ => True end) /\ (match sp2 s with SFmt _ r => length r <= fmt_len c | _ => True end).
Lemma next_action_fmt_bound c s : (match sp2 s with SFmt _ r => length r <= fmt_len c | _ => True end) -> fmt_bound c (next_action s).
Proof. intros H. unfold next_action, fmt_bound. destruct (body2 s) as [|[m|d|] r]; red2; split; auto. Qed.
Lemma step2_fmt_bound c s b : fmt_bound c s -> fmt_bound c (step2 c s b).
Proof.
  intros [Hm Hs]. destruct b; cbn [step2].
  - destruct (sp2 s) as [| |now|now| |k|acc [|p r]|t| |] eqn:E; [..|rewrite (step_spinner2_fmt c s acc p r E)| | |];
      unfold step_spinner2; rewrite ?E; unfold fmt_bound; red2; try rewrite E; try (split; auto; fail).
    + split; auto. destruct (stop2 s); exact I.
    + split; auto. destruct (now <? upd2 s)%Z; exact I.
    + destruct (fmt_next_cases [] (c_fmt c)) as [(t & -> & _)|(a & r & -> & _ & Hl)]; split; auto.
    + destruct (fmt_next_cases (acc ++ piece_text c s p) r) as [(t & -> & _)|(a & r' & -> & _ & Hl)]; split; auto. cbn in Hs. lia.
  - destruct (mp2 s) as [m|acc [|p r]|t|d| |[|] x|x|x|] eqn:E; [| |rewrite (step_main2_fmt c s acc p r E)|..];
      unfold step_main2; rewrite ?E; try (unfold fmt_bound; red2; try rewrite E; split; auto; fail).
    + unfold fmt_bound; red2. destruct (fmt_next_cases [] (c_fmt c)) as [(t & _ & ->)|(a & r & _ & -> & Hl)]; split; auto.
    + unfold fmt_bound; red2. destruct (fmt_next_cases (acc ++ piece_text c s p) r) as [(t & _ & ->)|(a & r' & _ & -> & Hl)]; split; auto. cbn in Hm. lia.
    + unfold after_write; red2. destruct (ph2 s); try (apply next_action_fmt_bound; red2; exact Hs); unfold fmt_bound; red2; split; auto.
    + apply next_action_fmt_bound; red2; exact Hs.
    + destruct (sp2 s) eqn:Es; try (unfold fmt_bound; red2; rewrite ?E, ?Es; split; auto; fail).
      destruct x; unfold fmt_bound; red2; rewrite ?Es; split; auto.
Qed.
Lemma init2_fmt_bound c t0 sm acts : fmt_bound c (init2 c t0 sm acts).
Proof. unfold init2. apply next_action_fmt_bound. exact I. Qed.

(* termination of the exit path: a measure that every step of the completion decreases *)
Lemma next_action_rank f s k : ph2 s = HBody -> 1 + brank f (body2 s) <= k -> rank_main2 f (next_action s) < k.
Proof.
  intros Hp Hk. unfold next_action. destruct (body2 s) as [|[m|d|] r]; unfold rank_main2, aft; red2; cbn [brank exit_rank] in *; lia.
Qed.
Lemma next_action_sp s : sp2 (next_action s) = sp2 s.
Proof. unfold next_action. destruct (body2 s) as [|[m|d|] r]; reflexivity. Qed.

Lemma step_main2_rank c s : join_inv2 s -> fmt_bound c s -> main_blocked2 s = false ->
  rank_main2 (fmt_len c) (step_main2 c s) < rank_main2 (fmt_len c) s /\ sp2 (step_main2 c s) = sp2 s.
Proof.
  intros HJ [Hb _] Hblk. unfold join_inv2, coherent in HJ. destruct HJ as (Hc & Hs & Hp). unfold main_blocked2 in *.
  destruct (mp2 s) as [m|acc [|p r]|t|d| |[|] x|x|x|] eqn:E; [| |rewrite (step_main2_fmt c s acc p r E)|..]; unfold step_main2; rewrite ?E.
  - destruct (fmt_next_cases [] (c_fmt c)) as [(t & _ & Ht)|(a & r & _ & Ht & Hl)]; rewrite Ht; unfold rank_main2, aft; red2; rewrite E; split; auto; fold (fmt_len c) in *; lia.
  - unfold rank_main2, aft; red2; rewrite E; split; auto; cbn; lia.
  - destruct (fmt_next_cases (acc ++ piece_text c s p) r) as [(t & _ & Ht)|(a & r' & _ & Ht & Hl)]; rewrite Ht; unfold rank_main2, aft; red2; rewrite E; split; auto; cbn [length]; lia.
  - (* MWrite *) unfold after_write; red2. destruct (ph2 s) eqn:Ep; try contradiction.
    + split; [|rewrite next_action_sp; reflexivity]. apply next_action_rank; [red2; first [reflexivity|assumption]|].
      unfold rank_main2, aft. rewrite E, Ep. red2. lia.
    + unfold rank_main2, aft; red2; rewrite E, Ep; cbn; split; auto.
    + unfold rank_main2, aft; red2; rewrite E, Ep; cbn; split; auto.
    + unfold rank_main2, aft; red2; rewrite E, Ep; cbn; split; auto.
  - (* MSleep *) split; [|rewrite next_action_sp; reflexivity]. apply next_action_rank; [red2; first [reflexivity|assumption]|].
    unfold rank_main2. rewrite E. red2. lia.
  - unfold rank_main2; red2; rewrite E; cbn; split; auto.
  - unfold rank_main2; red2; rewrite E; cbn; split; auto.
  - unfold rank_main2; red2; rewrite E; cbn; split; auto.
  - unfold rank_main2; red2; rewrite E; cbn; split; auto.
  - (* MJoin, not blocked: the spinner has ended *)
    destruct (sp2 s) eqn:Es; try discriminate. destruct x; unfold rank_main2, aft; red2; rewrite E; cbn; split; auto.
  - discriminate.
Qed.

Lemma step_spinner2_rank c s : join_inv2 s -> fmt_bound c s -> main_blocked2 s = true -> all_done2 s = false ->
  rank_sp2 (fmt_len c) (step_spinner2 c s) < rank_sp2 (fmt_len c) s /\
  mp2 (step_spinner2 c s) = mp2 s /\ ph2 (step_spinner2 c s) = ph2 s /\ body2 (step_spinner2 c s) = body2 s.
Proof.
  intros HJ [_ Hb] Hblk Hnd. unfold join_inv2, coherent in HJ. destruct HJ as (Hc & Hs & Hp).
  assert (Hstop : stop2 s = true /\ sp2 s <> SDone).
  { unfold main_blocked2, all_done2 in *. destruct (mp2 s) eqn:E; try discriminate.
    - split; [exact Hs|]. intros H. rewrite H in Hblk. discriminate.
    - destruct Hc as [r Hr]. rewrite Hr in Hp. destruct Hp as [Hp1 Hp2]. rewrite Hp1 in Hnd. discriminate. }
  destruct Hstop as [Hst Hne].
  destruct (sp2 s) as [| |now|now| |k|acc [|p r]|t| |] eqn:E; [..|rewrite (step_spinner2_fmt c s acc p r E)| | |];
    unfold step_spinner2; rewrite ?E; try congruence; unfold rank_sp2; red2; rewrite ?E.
  - rewrite Hst. red2. repeat split; auto.
  - repeat split; auto; lia.
  - destruct (now <? upd2 s)%Z; repeat split; auto; lia.
  - repeat split; auto; lia.
  - repeat split; auto; lia.
  - destruct (fmt_next_cases [] (c_fmt c)) as [(t & -> & _)|(a & r & -> & _ & Hl)]; repeat split; auto; fold (fmt_len c) in *; lia.
  - repeat split; auto; cbn; lia.
  - destruct (fmt_next_cases (acc ++ piece_text c s p) r) as [(t & -> & _)|(a & r' & -> & _ & Hl)]; repeat split; auto; cbn [length]; lia.
  - repeat split; auto.
  - repeat split; auto.
Qed.

Definition rank2 (c : cfg) (s : st2) : nat := rank_main2 (fmt_len c) s + rank_sp2 (fmt_len c) s.
Lemma rank_main2_indep f s s' : mp2 s' = mp2 s -> ph2 s' = ph2 s -> body2 s' = body2 s -> rank_main2 f s' = rank_main2 f s.
Proof. intros H1 H2 H3. unfold rank_main2, aft. rewrite H1, H2, H3. reflexivity. Qed.
Lemma rank_sp2_indep f s s' : sp2 s' = sp2 s -> rank_sp2 f s' = rank_sp2 f s.
Proof. intros H. unfold rank_sp2. rewrite H. reflexivity. Qed.

Lemma rank_main2_zero f s : rank_main2 f s = 0 -> mp2 s = MDone.
Proof. unfold rank_main2. destruct (mp2 s) as [| | | | |[|] x|x|x|]; try destruct x; cbn [exit_rank]; intros H; (reflexivity || lia). Qed.
Lemma rank_sp2_zero f s : rank_sp2 f s = 0 -> sp2 s = SDone.
Proof. unfold rank_sp2. destruct (sp2 s); intros H; (reflexivity || lia). Qed.
Lemma complete2_done c : forall fuel s, join_inv2 s -> fmt_bound c s -> rank2 c s <= fuel ->
  all_done2 (complete2 c fuel s) = true /\ join_inv2 (complete2 c fuel s).
Proof.
  induction fuel as [|fuel IH]; intros s HJ HB Hr.
  - cbn. split; [|exact HJ]. unfold rank2 in Hr. unfold all_done2.
    rewrite (rank_main2_zero (fmt_len c) s), (rank_sp2_zero (fmt_len c) s) by lia. reflexivity.
  - cbn [complete2]. destruct (all_done2 s) eqn:Ed; [split; assumption|].
    destruct (main_blocked2 s) eqn:Eb.
    + destruct (step_spinner2_rank c s HJ HB Eb Ed) as (H1 & H2 & H3 & H4).
      apply IH; [apply (step2_join_inv2 c s true HJ)|apply (step2_fmt_bound c s true HB)|].
      unfold rank2 in *. rewrite (rank_main2_indep _ _ _ H2 H3 H4). lia.
    + destruct (step_main2_rank c s HJ HB Eb) as (H1 & H2).
      apply IH; [apply (step2_join_inv2 c s false HJ)|apply (step2_fmt_bound c s false HB)|].
      unfold rank2 in *. rewrite (rank_sp2_indep _ _ _ H2). lia.
Qed.

Lemma brank_bound f b : brank f b <= (f + 4) * length b + 7.
Proof. induction b as [|[m|d|] r IH]; cbn [brank length]; nia. Qed.
Lemma rank2_bound c s : fmt_bound c s -> rank2 c s <= fuel2 c s.
Proof.
  intros [Hm Hs]. unfold rank2, fuel2. fold (fmt_len c).
  assert (H1 : rank_main2 (fmt_len c) s <= (fmt_len c + 4) * length (body2 s) + fmt_len c + 11).
  { pose proof (brank_bound (fmt_len c) (body2 s)) as Hb.
    assert (Ha : aft (fmt_len c) s <= brank (fmt_len c) (body2 s)).
    { assert (4 <= brank (fmt_len c) (body2 s)) by (induction (body2 s) as [|[m|d|] r IH]; cbn [brank]; lia).
      unfold aft. destruct (ph2 s); lia. }
    unfold rank_main2. destruct (mp2 s) as [| | | | |[|] x|x|x|]; try destruct x; cbn [exit_rank]; lia. }
  assert (H2 : rank_sp2 (fmt_len c) s <= fmt_len c + 9).
  { unfold rank_sp2. destruct (sp2 s); lia. }
  nia.
Qed.

(* whether the block is left by an exception is decided by the body alone *)
Definition raise_decided2 (hr : bool) (s : st2) : Prop :=
  match ph2 s with
  | HBody => has_raise (body2 s) = hr
  | HRaiseNl => hr = true
  | HEndFrame | HFinalNl => hr = false
  | HFinished r => r = hr
  end.
Lemma next_action_raise_decided2 hr s : ph2 s = HBody -> has_raise (body2 s) = hr -> raise_decided2 hr (next_action s).
Proof.
  intros Hp Hb. unfold next_action, raise_decided2. destruct (body2 s) as [|[m|d|] r]; red2; cbn in Hb; auto.
Qed.
Lemma step2_raise_decided2 c hr s b : join_inv2 s /\ raise_decided2 hr s -> join_inv2 (step2 c s b) /\ raise_decided2 hr (step2 c s b).
Proof.
  intros [HJ H]. split; [apply step2_join_inv2, HJ|]. unfold join_inv2, coherent in HJ. destruct HJ as (Hc & _ & _). destruct b; cbn [step2].
  - unfold step_spinner2, raise_decided2 in *. destruct (sp2 s) as [| |now|now| |k|acc [|[x| |] r]|t| |]; red2; exact H.
  - unfold step_main2. destruct (mp2 s) as [m|acc [|[x| |] r]|t|d| |[|] x|x|x|] eqn:E; try (unfold raise_decided2 in *; red2; exact H).
    + unfold after_write; red2. unfold raise_decided2 in H. destruct (ph2 s) eqn:Ep; try contradiction.
      * apply next_action_raise_decided2; red2; auto.
      * unfold raise_decided2; red2; exact H.
      * unfold raise_decided2; red2; exact H.
      * unfold raise_decided2; red2; auto.
    + unfold raise_decided2 in H. rewrite Hc in H. apply next_action_raise_decided2; red2; auto.
    + destruct (sp2 s); try (unfold raise_decided2 in *; red2; exact H).
      unfold raise_decided2 in *. destruct x; red2.
      * destruct Hc as [Hc1 Hc2]. rewrite Hc1, Hc2 in H. cbn in H. congruence.
      * rewrite Hc in H. congruence.
Qed.

Lemma auto2_always_stops c t0 sm acts sched :
  let f := run_auto2 c t0 sm acts sched in
  all_done2 f = true /\ stop2 f = true /\ sp2 f = SDone /\ ph2 f = HFinished (has_raise acts).
Proof.
  cbv zeta.
  assert (HR : raise_decided2 (has_raise acts) (run_auto2 c t0 sm acts sched)).
  { refine (proj2 (run_auto2_inv c (fun s => join_inv2 s /\ raise_decided2 (has_raise acts) s) (step2_raise_decided2 c _) _ _ _ _ _)).
    split; [apply init2_join_inv2|]. unfold init2. apply next_action_raise_decided2; reflexivity. }
  unfold run_auto2 in *. set (s := run_schedule2 c (init2 c t0 sm acts) sched) in *.
  assert (HJ : join_inv2 s) by (apply run_schedule2_inv; [apply step2_join_inv2|apply init2_join_inv2]).
  assert (HB : fmt_bound c s) by (apply run_schedule2_inv; [apply step2_fmt_bound|apply init2_fmt_bound]).
  destruct (complete2_done c (fuel2 c s) s HJ HB (rank2_bound c s HB)) as [Hd HJ'].
  unfold all_done2 in Hd. unfold join_inv2, coherent in HJ'. destruct HJ' as (Hc & _ & Hp).
  destruct (mp2 (complete2 c (fuel2 c s) s)) eqn:Em; try discriminate.
  destruct (sp2 (complete2 c (fuel2 c s) s)) eqn:Es; try discriminate.
  destruct Hc as [r Hr]. rewrite Hr in Hp. destruct Hp as [_ Hst]. unfold raise_decided2 in HR. rewrite Hr in HR. subst r.
  unfold all_done2. rewrite Em, Es. auto.
Qed.

(* Every write is a whole frame or a line break.
   A frame is the format with every {indicator} replaced by ONE OF THE INDICATOR VALUES and every {message} by a message
   (one of those with property P - the start message, the end message, the messages the body sets).  With the fields read
   one at a time the indicator and the message of one frame may come from different moments; text of two frames is never
   mixed, and nothing but a whole frame (or the line break) ever reaches the stream in one write. *)
Section Built.
Variable c : cfg.
Variable P : str -> Prop.
Fixpoint built (f : list piece) (t : str) : Prop :=
  match f with
  | [] => t = []
  | PLit s :: r => exists t', t = s ++ t' /\ built r t'
  | PInd :: r => exists k t', t = indicator2 (c_values c) k :: t' /\ built r t'
  | PMsg :: r => exists m t', P m /\ t = m ++ t' /\ built r t'
  end.
Definition frame_ok (t : str) : Prop := built (c_fmt c) t.
(* a frame under construction: whatever completes the rest of the format completes the frame *)
Definition partial (acc : str) (rest : list piece) : Prop := forall t', built rest t' -> frame_ok (acc ++ t').

Lemma fill_built k m : P m -> forall f, built f (fill_fmt (c_values c) k m f).
Proof. intros Hm. induction f as [|[s| |] r IH]; cbn; eauto. Qed.
Lemma partial_start : partial [] (c_fmt c).
Proof. intros t' H. exact H. Qed.
Lemma partial_lit acc s r : partial acc (PLit s :: r) -> partial (acc ++ s) r.
Proof. intros H t' Ht. rewrite <- app_assoc. apply H. cbn. eauto. Qed.
Lemma partial_piece s acc p r : P (msg2 s) -> partial acc (p :: r) -> partial (acc ++ piece_text c s p) r.
Proof. intros Hm H t' Ht. rewrite <- app_assoc. apply H. destruct p; cbn; eauto. Qed.
Lemma partial_done acc : partial acc [] -> frame_ok acc.
Proof. intros H. rewrite <- (app_nil_r acc). apply H. reflexivity. Qed.
Lemma lits_partial : forall rest acc, partial acc rest -> partial (fst (lits acc rest)) (snd (lits acc rest)).
Proof.
  induction rest as [|[s| |] r IH]; intros acc H; cbn; auto. apply IH, partial_lit, H.
Qed.

Definition sop_ok (p : sop) : Prop := match p with SFmt a r => partial a r | SWrite t => frame_ok t | _ => True end.
Definition wholeB (t : option str) : Prop := match t with Some x => frame_ok x | None => True end.
Definition cop_ok (p : cop) : Prop := match p with MFmt a r => partial a r | MWrite t => wholeB t | MWrMsg m => P m | _ => True end.
Lemma fmt_next_ok acc rest : partial acc rest -> sop_ok (sfmt_next acc rest) /\ cop_ok (mfmt_next acc rest).
Proof.
  intros H. unfold sfmt_next, mfmt_next. pose proof (lits_partial rest acc H) as Hl. destruct (lits acc rest) as [a r]. cbn in Hl.
  destruct r; cbn; [split; apply partial_done, Hl|split; exact Hl].
Qed.

Definition writes_built (s : st2) : Prop :=
  Forall (fun w => wholeB (snd w)) (writes2 s) /\ sop_ok (sp2 s) /\ cop_ok (mp2 s) /\ P (msg2 s) /\ Forall (act_ok P) (body2 s).
Hypothesis end_ok : P (c_end c).

Lemma writes2_snoc (l : list (bool * option str)) b t :
  Forall (fun w => wholeB (snd w)) l -> wholeB t -> Forall (fun w => wholeB (snd w)) (l ++ [(b, t)]).
Proof. intros H1 H2. apply Forall_app. split; [exact H1|]. constructor; [exact H2|constructor]. Qed.
Lemma next_action_writes_built s : Forall (fun w => wholeB (snd w)) (writes2 s) -> sop_ok (sp2 s) -> P (msg2 s) -> Forall (act_ok P) (body2 s) ->
  writes_built (next_action s).
Proof.
  intros H1 H2 H4 H5. unfold next_action, writes_built. destruct (body2 s) as [|[m|d|] r]; red2; repeat split; auto;
    inversion H5 as [|? ? Ha Hr]; subst; cbn in *; auto.
Qed.
Lemma step2_writes_built s b : writes_built s -> writes_built (step2 c s b).
Proof.
  intros (H1 & H2 & H3 & H4 & H5). destruct b; cbn [step2].
  - destruct (sp2 s) as [| |now|now| |k|acc [|p r]|t| |] eqn:E; [..|rewrite (step_spinner2_fmt c s acc p r E)| | |];
      unfold step_spinner2; rewrite ?E; unfold writes_built; red2; cbn [sop_ok] in H2; repeat split; auto; try (rewrite E; cbn; auto; fail).
    + destruct (stop2 s); exact I.
    + destruct (now <? upd2 s)%Z; exact I.
    + apply fmt_next_ok, partial_start.
    + apply partial_done, H2.
    + apply fmt_next_ok, partial_piece; assumption.
    + apply writes2_snoc; assumption.
  - destruct (mp2 s) as [m|acc [|p r]|t|d| |[|] x|x|x|] eqn:E; [| |rewrite (step_main2_fmt c s acc p r E)|..];
      unfold step_main2; rewrite ?E; cbn [cop_ok] in H3; try (unfold writes_built; red2; repeat split; auto; fail).
    + unfold writes_built; red2; repeat split; auto. apply fmt_next_ok, partial_start.
    + unfold writes_built; red2; repeat split; auto. cbn. apply partial_done, H3.
    + unfold writes_built; red2; repeat split; auto. apply fmt_next_ok, partial_piece; assumption.
    + unfold after_write; red2. destruct (ph2 s); try (apply next_action_writes_built; red2; auto using writes2_snoc);
        unfold writes_built; red2; repeat split; auto using writes2_snoc; cbn; auto.
    + apply next_action_writes_built; red2; auto.
    + destruct (sp2 s) eqn:Es; try (unfold writes_built; red2; rewrite ?E, ?Es; repeat split; auto; fail).
      destruct x; unfold writes_built; red2; rewrite ?Es; repeat split; auto. cbn. apply fill_built, end_ok.
    + unfold writes_built; red2. rewrite E. repeat split; auto.
Qed.
Lemma init2_writes_built t0 sm acts : P sm -> Forall (act_ok P) acts -> writes_built (init2 c t0 sm acts).
Proof.
  intros Hs Ha. unfold init2. apply next_action_writes_built; red2; auto; [|exact I]. constructor; [|constructor]. cbn. apply fill_built, Hs.
Qed.
Lemma all_writes2_built t0 sm acts sched : P sm -> Forall (act_ok P) acts ->
  Forall (fun w => wholeB (snd w)) (writes2 (run_auto2 c t0 sm acts sched)).
Proof. intros Hs Ha. refine (proj1 (run_auto2_inv c writes_built step2_writes_built _ _ _ _ _)). apply init2_writes_built; assumption. Qed.
End Built.

(* On the terminal: the line never shows a mixture of two frames *)
Section Line2.
Variable w : nat.
Hypothesis w_pos : 1 <= w.
Variable Q : list N -> Prop.
Definition okQ (r : list N) : Prop := r = [] \/ Q r.
Definition shortQ (t : option str) : Prop := match t with Some f => Q f /\ length f <= w | None => True end.
Lemma shortQ_short ws : Forall shortQ ws -> Forall (short w) ws.
Proof. apply Forall_impl. intros [f|]; cbn; tauto. Qed.
(* after any sequence of writes that are each a short Q-text or a line break, every row is empty or one Q-text *)
Lemma rows_are_Q ws R r c :
  Forall shortQ ws -> Forall okQ R -> okQ r ->
  Forall okQ (rows (feed w {| rows := R ++ [r]; cr := length R; cc := c |} (flat_map emits_of_write ws))).
Proof.
  intros Hs HR Hr. rewrite (screen_exact w w_pos) by apply shortQ_short, Hs.
  eapply Forall_impl; [|apply screen_of_rows]. cbn beta. intros x [Hx|[->|Hx]]; [|now left|].
  - rewrite Forall_forall in HR. apply in_app_or in Hx as [Hx|[<-|[]]]; auto.
  - right. rewrite Forall_forall in Hs. apply (Hs _ Hx).
Qed.
End Line2.

Fixpoint fmt_width (L : nat) (f : list piece) : nat :=
  match f with
  | [] => 0
  | PLit s :: r => length s + fmt_width L r
  | PInd :: r => 1 + fmt_width L r
  | PMsg :: r => L + fmt_width L r
  end.
Lemma built_length c L : forall f t, built c (fun m => length m <= L) f t -> length t <= fmt_width L f.
Proof.
  induction f as [|[s| |] r IH]; intros t H; cbn in H.
  - subst. cbn. lia.
  - destruct H as (t' & -> & H). rewrite app_length. cbn. specialize (IH _ H). lia.
  - destruct H as (k & t' & -> & H). cbn. specialize (IH _ H). lia.
  - destruct H as (m & t' & Hm & -> & H). rewrite app_length. cbn. specialize (IH _ H). lia.
Qed.

Definition short_msg (L : nat) (m : str) : Prop := length m <= L.
Lemma writes2_short w L c t0 sm acts sched :
  fmt_width L (c_fmt c) <= w -> short_msg L sm -> short_msg L (c_end c) -> Forall (act_ok (short_msg L)) acts ->
  Forall (shortQ w (frame_ok c (short_msg L))) (map snd (writes2 (run_auto2 c t0 sm acts sched))).
Proof.
  intros Hf Hs He Ha. apply Forall_map. eapply Forall_impl; [|apply (all_writes2_built c (short_msg L) He t0 sm acts sched Hs Ha)].
  intros [b [x|]]; cbn; auto. intros H. split; [exact H|]. pose proof (built_length c L _ _ H). lia.
Qed.

(* A normal exit leaves the end message as the last frame *)
Definition endframe (c : cfg) : str := fill_fmt (c_values c) 0 (c_end c) (c_fmt c).
Definition end_frame_inv2 (c : cfg) (s : st2) : Prop :=
  match ph2 s with
  | HEndFrame => mp2 s = MWrite (Some (endframe c))
  | HFinalNl => mp2 s = MWrite None /\ exists pre, writes2 s = pre ++ [(false, Some (endframe c))]
  | HFinished false => exists pre, writes2 s = pre ++ [(false, Some (endframe c)); (false, None)]
  | _ => True
  end.
Lemma step_spinner2_keeps c s :
  mp2 (step_spinner2 c s) = mp2 s /\ ph2 (step_spinner2 c s) = ph2 s /\ (sp2 s = SDone -> writes2 (step_spinner2 c s) = writes2 s).
Proof.
  unfold step_spinner2. destruct (sp2 s) as [| |now|now| |k|acc [|[x| |] r]|t| |]; red2; repeat split; auto; discriminate.
Qed.
Lemma next_action_end_frame_inv2 c s : end_frame_inv2 c (next_action s).
Proof. unfold next_action, end_frame_inv2. destruct (body2 s) as [|[m|d|] r]; red2; exact I. Qed.
Lemma step2_end_frame_inv2 c s b : join_inv2 s /\ end_frame_inv2 c s -> join_inv2 (step2 c s b) /\ end_frame_inv2 c (step2 c s b).
Proof.
  intros [HJ H]. split; [apply step2_join_inv2, HJ|]. unfold join_inv2, coherent in HJ. destruct HJ as (Hc & _ & Hp). destruct b; cbn [step2].
  - destruct (step_spinner2_keeps c s) as (H1 & H2 & H3). unfold end_frame_inv2 in *. rewrite H1, H2.
    destruct (ph2 s) as [| | | |[|]]; auto; destruct Hp as [Hp _]; rewrite (H3 Hp); exact H.
  - unfold step_main2. destruct (mp2 s) as [m|acc [|[x| |] r]|t|d| |[|] x|x|x|] eqn:E;
      try (unfold end_frame_inv2 in *; red2; rewrite Hc; exact I);
      try (unfold end_frame_inv2 in *; red2; destruct x; [destruct Hc as [Hc _]|]; rewrite Hc; exact I).
    + (* MWrite *) unfold after_write; red2. unfold end_frame_inv2 in H. destruct (ph2 s) eqn:Ep; try contradiction.
      * apply next_action_end_frame_inv2.
      * unfold end_frame_inv2; red2. exact I.
      * unfold end_frame_inv2; red2. rewrite E in H. injection H as ->. split; [reflexivity|]. eexists. reflexivity.
      * unfold end_frame_inv2; red2. destruct H as [Hm [pre Hw]]. rewrite E in Hm. injection Hm as ->. exists pre. rewrite Hw, <- app_assoc. reflexivity.
    + apply next_action_end_frame_inv2.
    + unfold end_frame_inv2 in *; red2. destruct Hc as [Hc _]. rewrite Hc. exact I.
    + destruct (sp2 s) eqn:Es; try (unfold end_frame_inv2 in *; red2; exact H).
      destruct x; unfold end_frame_inv2; red2; auto.
    + unfold end_frame_inv2 in *; red2. exact H.
Qed.

(* Manual mode with any values, format and interval *)
Fixpoint adv_times2 (c : cfg) (s : mst2) (now : Z) (ops : list (Z * Spinner.mop)) : list Z :=
  match ops with
  | [] => []
  | (dt, o) :: r =>
    let now' := (now + dt)%Z in
    (match o with MAdvance => if (now' <? n_upd s)%Z then [] else [now'] | _ => [] end)
    ++ adv_times2 c (manual_step2 c s now' o) now' r
  end.
Lemma adv_times2_spaced c : (0 <= c_interval c)%Z -> forall ops s now,
  Forall (fun t => n_upd s <= t)%Z (adv_times2 c s now ops) /\ spaced (c_interval c) (adv_times2 c s now ops).
Proof.
  intros Hiv. induction ops as [|[dt o] r IH]; intros s now; cbn [adv_times2]; [split; [constructor|exact I]|].
  destruct (IH (manual_step2 c s (now + dt)%Z o) (now + dt)%Z) as [Fa Sp].
  destruct o as [|m|m rs]; cbn [app]; try (cbn [manual_step2 n_upd] in Fa; split; assumption).
  cbn [manual_step2] in *. destruct (now + dt <? n_upd s)%Z eqn:Et; cbn [app n_upd] in *; [split; assumption|].
  apply Z.ltb_ge in Et. split.
  - constructor; [exact Et|]. eapply Forall_impl; [|exact Fa]. cbn. intros. lia.
  - destruct (adv_times2 c _ (now + dt)%Z r) as [|b l] eqn:El; [exact I|]. split; [|exact Sp].
    inversion Fa; subst. lia.
Qed.
(* every frame is the format filled with one indicator value and the message current at that call; the last one shows the
   current position and message *)
Definition mframe2 (c : cfg) (f : option str) : Prop :=
  match f with Some t => exists k m, t = fill_fmt (c_values c) k m (c_fmt c) | None => True end.
Definition last_frame_current2 (c : cfg) (s : mst2) : Prop :=
  Forall (mframe2 c) (n_frames s) /\
  exists pre, n_frames s = pre ++ [Some (fill_fmt (c_values c) (n_cur s) (n_msg s) (c_fmt c))] \/
              n_frames s = pre ++ [Some (fill_fmt (c_values c) (n_cur s) (n_msg s) (c_fmt c)); None].
Lemma manual_step2_last_frame_current2 c s now o : last_frame_current2 c s -> last_frame_current2 c (manual_step2 c s now o).
Proof.
  assert (forall k m, mframe2 c (Some (fill_fmt (c_values c) k m (c_fmt c)))) as Hf by (intros; eexists _, _; reflexivity).
  intros [HF HP]. destruct o as [|m|m rs]; cbn [manual_step2]; [destruct (now <? n_upd s)%Z; [split; assumption|]|..];
    (split; cbn [n_frames n_cur n_msg]; [apply Forall_app; split; [exact HF|repeat constructor; apply Hf]|]);
    eexists; first [left; reflexivity|right; reflexivity].
Qed.
Lemma manual_run2_last_frame_current2 c : forall ops s now, last_frame_current2 c s -> last_frame_current2 c (manual_run2 c s now ops).
Proof. induction ops as [|[dt o] r IH]; intros s now H; cbn [manual_run2]; [exact H|]. apply IH, manual_step2_last_frame_current2, H. Qed.
Lemma manual_init2_last_frame_current2 c t0 m : last_frame_current2 c (manual_init2 c t0 m).
Proof.
  split; cbn.
  - constructor; [|constructor]. eexists _, _. reflexivity.
  - exists []. left. reflexivity.
Qed.
Lemma indicator2_in_values vals k : vals <> [] -> In (indicator2 vals k) vals.
Proof.
  intros H. unfold indicator2. apply nth_In. apply Nat.mod_upper_bound. destruct vals; [congruence|discriminate].
Qed.
