(* An undecorated rendering only deletes: colorize without colours (the plain formatter; remove_format of any
   formatter) removes recognised tags and the backslash of each backslash-lessthan pair, and nothing else.  Hence the
   output keeps every line break of the message and is, line by line, no longer than the message; it acts line by
   line; and appending text to a message makes the output longer by at most the text appended.  Last, colorize itself
   over a concatenation: a message that leaves no tag candidate pending and in which no tag is escaped, followed by
   another, is rendered as the two one after the other (colorize_plain_app). *)
From Coq Require Import Lia.
From Clikit Require Import Base.Prelude Base.Res Model.Conv Model.Markup Proofs.ListLemmas Proofs.MarkupLemmas Proofs.LiteralLemmas.
From Clikit Require Proofs.OutputLemmas.

(* y is x with characters other than the line break deleted *)
Inductive deletes : str -> str -> Prop :=
| del_nil : deletes [] []
| del_keep c x y : deletes x y -> deletes (c :: x) (c :: y)
| del_drop c x y : c <> NL -> deletes x y -> deletes (c :: x) y.

Lemma deletes_refl x : deletes x x.
Proof. induction x; constructor; auto. Qed.
Lemma deletes_trans x y z : deletes x y -> deletes y z -> deletes x z.
Proof.
  intros H. revert z. induction H as [|c x y H IH|c x y Hc H IH]; intros z Hz; [exact Hz| |apply del_drop; auto].
  inversion Hz; subst; [apply del_keep|apply del_drop]; auto.
Qed.
Lemma deletes_app a a' b b' : deletes a a' -> deletes b b' -> deletes (a ++ b) (a' ++ b').
Proof. induction 1; intros Hb; cbn [app]; [exact Hb|apply del_keep|apply del_drop]; auto. Qed.
Lemma deletes_all t : Forall (fun c => c <> NL) t -> deletes t [].
Proof. induction 1; constructor; auto. Qed.
Lemma deletes_tail a t : Forall (fun c => c <> NL) t -> deletes (a ++ t) a.
Proof. intros Ht. rewrite <- (app_nil_r a) at 2. apply deletes_app; [apply deletes_refl|apply deletes_all, Ht]. Qed.
Lemma deletes_length x y : deletes x y -> length y <= length x.
Proof. induction 1; cbn [length]; lia. Qed.
Lemma deletes_P (P : N -> Prop) x y : deletes x y -> Forall P x -> Forall P y.
Proof.
  induction 1 as [|c x y H IH|c x y Hc H IH]; intros Hx; [constructor| |]; inversion Hx; subst; [constructor|]; auto.
Qed.
(* ... is a subsequence that keeps every line break *)
Lemma deletes_keeps_nl x y : deletes x y -> filter (N.eqb NL) y = filter (N.eqb NL) x.
Proof.
  induction 1 as [|c x y H IH|c x y Hc H IH]; cbn [filter]; [reflexivity|now rewrite IH|].
  destruct (N.eqb_spec NL c) as [E|_]; [symmetry in E; contradiction|exact IH].
Qed.


(* the lines: as many, and each at most as long *)
Lemma deletes_lines x y : deletes x y ->
  Forall2 (fun a b : str => length a <= length b) (split_on NL y) (split_on NL x).
Proof.
  induction 1 as [|c x y H IH|c x y Hc H IH].
  - cbn. constructor; [cbn; lia|constructor].
  - destruct (N.eqb c NL) eqn:E.
    + cbn [split_on]. rewrite E. constructor; [cbn; lia|exact IH].
    + destruct (split_on_cons NL c x E) as (l & ls & E1 & ->). destruct (split_on_cons NL c y E) as (l' & ls' & E2 & ->).
      rewrite E1, E2 in IH. inversion IH; subst. constructor; [cbn [length]; lia|assumption].
  - assert (E : N.eqb c NL = false) by (apply N.eqb_neq, Hc).
    destruct (split_on_cons NL c x E) as (l & ls & E1 & ->). rewrite E1 in IH.
    inversion IH; subst. constructor; [cbn [length]; lia|assumption].
Qed.
(* unescape deletes the backslash of each backslash-lessthan pair *)
Lemma deletes_unescape : forall s, deletes s (unescape s).
Proof.
  induction s as [|c|c d r IHr IHd] using list_ind2; [constructor|apply deletes_refl|].
  rewrite unescape_cons2. destruct (N.eqb_spec c BSL) as [->|Hc]; cbn [andb].
  - destruct (N.eqb_spec d LT) as [->|Hd]; [apply del_drop; [discriminate|apply del_keep, IHr]|apply del_keep, IHd].
  - apply del_keep, IHd.
Qed.

Definition tagish (c : N) : Prop := c = LT \/ c = SLASH \/ c = GT \/ tag_char c = true.
Lemma tagish_not_nl c : tagish c -> c <> NL.
Proof. intros [->|[->|[->|H]]]; try discriminate. intros ->. vm_compute in H. discriminate. Qed.
Lemma tag_start_tagish c : tag_start c = true -> tagish c.
Proof. intros H. right. right. right. unfold tag_char. now rewrite H. Qed.

Definition mk (d : list (str * tag)) (c : str) (k : cand) : lexst := {| l_done := d; l_cur := c; l_cand := k |}.
Lemma lex_step_shape st c :
  (c = LT /\ lex_step st c = mk (l_done st) (l_cur st ++ raw_of (l_cand st)) COpen)
  \/ (c <> LT /\ lex_step st c = mk (l_done st) (l_cur st ++ raw_of (l_cand st) ++ [c]) CText)
  \/ (exists k, c <> LT /\ tagish c /\ raw_of k = raw_of (l_cand st) ++ [c] /\ lex_step st c = mk (l_done st) (l_cur st) k)
  \/ (exists cl nm, c = GT /\ lex_step st c = mk (l_done st ++ [(l_cur st, Tag (raw_of (l_cand st) ++ [GT]) cl nm)]) [] CText).
Proof.
  unfold lex_step, mk. destruct (N.eqb_spec c LT) as [->|Hlt].
  { left. split; [reflexivity|]. now rewrite app_nil_r. }
  right. destruct (l_cand st) as [| | |cl nm] eqn:Ek; cbn [raw_of].
  - left. split; [exact Hlt|reflexivity].
  - destruct (N.eqb_spec c SLASH) as [->|Hs].
    + right. left. exists CSlash. repeat split; auto. right. left. reflexivity.
    + destruct (tag_start c) eqn:Ets.
      * right. left. exists (CName false [c]). repeat split; auto. apply tag_start_tagish, Ets.
      * left. split; [exact Hlt|reflexivity].
  - destruct (N.eqb_spec c GT) as [->|Hg].
    + right. right. exists true, []. split; reflexivity.
    + destruct (tag_start c) eqn:Ets.
      * right. left. exists (CName true [c]). repeat split; auto. apply tag_start_tagish, Ets.
      * left. split; [exact Hlt|reflexivity].
  - destruct (N.eqb_spec c GT) as [->|Hg].
    + right. right. exists cl, nm. split; reflexivity.
    + destruct (tag_char c) eqn:Etc.
      * right. left. exists (CName cl (nm ++ [c])). repeat split; auto.
        -- right. right. right. exact Etc.
        -- cbn [raw_of app]. f_equal. now rewrite app_assoc.
      * left. split; [exact Hlt|reflexivity].
Qed.

(* a character no tag holds and that is not the backslash: it ends every candidate *)
Definition inert (c : N) : Prop := c <> LT /\ c <> GT /\ c <> SLASH /\ c <> BSL /\ tag_char c = false.
Lemma inert_step st c : inert c -> lex_step st c = mk (l_done st) (l_cur st ++ raw_of (l_cand st) ++ [c]) CText.
Proof.
  intros (H1 & H2 & H3 & H4 & H5). destruct (lex_step_shape st c) as [[E _]|[[_ E]|[(k & _ & Ht & _)|(cl & nm & E & _)]]];
    [contradiction|exact E| |contradiction].
  destruct Ht as [E|[E|[E|E]]]; try contradiction. rewrite E in H5. discriminate.
Qed.
Lemma inert_nl : inert NL. Proof. repeat split; discriminate. Qed.
Lemma inert_space c : is_space c = true -> inert c.
Proof.
  unfold is_space. intros H. apply existsb_exists in H. destruct H as (x & Hin & E). apply N.eqb_eq in E. subst x.
  cbn [In] in Hin. repeat (destruct Hin as [<-|Hin]; [repeat split; discriminate|]). contradiction.
Qed.
(* inert characters behind x: the same tags, the characters appended to the tail *)
Lemma lex_app_inert x ws : Forall inert ws -> lex (x ++ ws) = (fst (lex x), snd (lex x) ++ ws).
Proof.
  intros H. unfold lex, lex_end. rewrite fold_left_app. set (sx := fold_left lex_step x lex_init).
  destruct H as [|ch ws Hc Hw]; cbn [fold_left]; [now rewrite app_nil_r|]. rewrite (inert_step sx ch Hc). unfold mk.
  rewrite lex_text by (eapply Forall_impl; [|exact Hw]; intros a Ha; apply Ha).
  cbn [l_done l_cur l_cand raw_of fst snd]. now rewrite app_nil_r, <- !app_assoc.
Qed.

(* every tag the scanner finds consists of tag characters: no line break in it *)
Definition lex_tagish (st : lexst) : Prop :=
  Forall (fun sg => Forall tagish (raw_text (snd sg))) (l_done st) /\ Forall tagish (raw_of (l_cand st)).
Lemma lex_step_tagish st c : lex_tagish st -> lex_tagish (lex_step st c).
Proof.
  intros [Hd Hk]. destruct (lex_step_shape st c) as [[_ ->]|[[_ ->]|[(k & _ & Ht & Ek & ->)|(cl & nm & -> & ->)]]];
    unfold lex_tagish, mk; cbn [l_done l_cand raw_of]; split; auto.
  - constructor; [left; reflexivity|constructor].
  - rewrite Ek. apply Forall_app. split; [exact Hk|constructor; [exact Ht|constructor]].
  - apply Forall_app. split; [exact Hd|]. constructor; [|constructor]. cbn [snd raw_text].
    apply Forall_app. split; [exact Hk|constructor; [right; right; left; reflexivity|constructor]].
Qed.
Lemma lex_fold_tagish m : forall st, lex_tagish st -> lex_tagish (fold_left lex_step m st).
Proof. induction m as [|c r IH]; intros st H; cbn [fold_left]; [exact H|]. apply IH, lex_step_tagish, H. Qed.
Lemma lex_init_tagish : lex_tagish lex_init.
Proof. split; constructor. Qed.
(* the raw text of a tag holds neither ESC nor backslash *)
Lemma tagish_good c : tagish c -> good c.
Proof. intros [->|[->|[->|H]]]; [split; discriminate..|apply tag_char_good, H]. Qed.
Lemma lex_raws_good m : Forall (fun sg : str * tag => Forall good (raw_text (snd sg))) (fst (lex m)).
Proof.
  destruct (lex_fold_tagish m lex_init lex_init_tagish) as [H1 _]. unfold lex, lex_end. cbn [fst].
  eapply Forall_impl; [|exact H1]. intros sg Hsg. eapply Forall_impl; [|exact Hsg]. exact tagish_good.
Qed.

(* the undecorated output as a function of the scanner state *)
Definition esc_of (a0 first : bool) (pre : str) : bool := match pre with [] => first && a0 | _ => ends_with_bsl pre end.
Definition kept (sty : styles) (escaped : bool) (t : tag) : str :=
  if escaped || negb (recognised sty t) then raw_text t else [].
Fixpoint plain_segs (sty : styles) (a0 first : bool) (segs : list (str * tag)) : str :=
  match segs with
  | [] => []
  | (pre, t) :: r => pre ++ kept sty (esc_of a0 first pre) t ++ plain_segs sty a0 false r
  end.

Lemma segs_spans_und sty a0 : forall segs first sk le y,
  segs_spans sty a0 first segs sk le = Ok y -> und (snd (fst y)) = plain_segs sty a0 first segs.
Proof.
  induction segs as [|[pre t] r IH]; intros first sk le y H; cbn [segs_spans plain_segs] in *; [now injection H as <-|].
  fold (esc_of a0 first pre) in H. bind_inv H x Hx. bind_inv H z Hz. injection H as <-. destruct x as [sk1 o].
  apply do_tag_plain in Hx. subst o. cbn [fst snd]. unfold und. cbn [flat_map snd]. fold (und (snd (fst z))).
  now rewrite (IH _ _ _ _ Hz).
Qed.

Definition wout (sty : styles) (a0 : bool) (st : lexst) : str :=
  plain_segs sty a0 true (l_done st) ++ l_cur st ++ raw_of (l_cand st).
Definition wout_of (sty : styles) (a0 : bool) (m : str) : str := wout sty a0 (fold_left lex_step m lex_init).
(* the undecorated rendering of m; a0: what a tag at position 0 takes for "escaped" *)
Definition plain_of (sty : styles) (a0 : bool) (m : str) : str := unescape (wout sty a0 (fold_left lex_step m lex_init)).

Lemma msg_spans_und sty sk m x : msg_spans sty sk m = Ok x -> und (snd x) = wout_of sty (ends_with_bsl m) m.
Proof.
  unfold msg_spans, wout_of, wout. pose proof (lex_lossless m) as HL. unfold lex, lex_end in *.
  set (st := fold_left lex_step m lex_init) in *. cbn [fst snd] in *. destruct (l_done st) as [|sg segs] eqn:Ed.
  - intros H. injection H as <-. cbn [flat_map plain_segs app] in *. cbn [snd und flat_map]. now rewrite app_nil_r.
  - rewrite <- Ed. intros H. bind_inv H y Hy. injection H as <-. cbn [snd]. rewrite und_app, (segs_spans_und _ _ _ _ _ _ _ Hy). f_equal. unfold tail_spans.
    destruct (snd y); cbn [und flat_map snd]; rewrite ?app_nil_r; [reflexivity|apply removelast_lastchar].
Qed.
Theorem colorize_plain_of sty sk m sk' out :
  colorize sty false sk m = Ok (sk', out) -> out = plain_of sty (ends_with_bsl m) m.
Proof.
  rewrite colorize_spans. intros H. bind_inv H x Hx. injection H as _ <-. cbn [spans_out].
  now rewrite (msg_spans_und _ _ _ _ Hx).
Qed.

Lemma plain_segs_app sty a0 : forall a b first,
  plain_segs sty a0 first (a ++ b) = plain_segs sty a0 first a ++ plain_segs sty a0 (match a with [] => first | _ => false end) b.
Proof.
  induction a as [|[pre t] a IH]; intros b first; cbn [app plain_segs]; [reflexivity|].
  rewrite IH, <- !app_assoc. destruct a; reflexivity.
Qed.

(* one step: the output so far grows by the character read, or - a tag is complete and recognised - loses the
   candidate, which consists of tag characters *)
Lemma wout_step sty a0 st c :
  wout sty a0 (lex_step st c) = wout sty a0 st ++ [c]
  \/ (c = GT /\ wout sty a0 st = wout sty a0 (lex_step st c) ++ raw_of (l_cand st)).
Proof.
  destruct (lex_step_shape st c) as [[-> ->]|[[_ ->]|[(k & _ & _ & Ek & ->)|(cl & nm & -> & ->)]]];
    unfold wout, mk; cbn [l_done l_cur l_cand raw_of].
  - left. now rewrite <- !app_assoc.
  - left. now rewrite app_nil_r, <- !app_assoc.
  - left. now rewrite Ek, <- !app_assoc.
  - rewrite plain_segs_app. cbn [plain_segs]. unfold kept. cbn [raw_text].
    destruct (_ || _).
    + left. now rewrite !app_nil_r, <- !app_assoc.
    + right. split; [reflexivity|]. now rewrite !app_nil_r, <- !app_assoc.
Qed.

Lemma wout_fold_deletes sty a0 m : forall st x, lex_tagish st -> deletes x (wout sty a0 st) ->
  deletes (x ++ m) (wout sty a0 (fold_left lex_step m st)).
Proof.
  induction m as [|c r IH]; intros st x Hst Hx; cbn [fold_left]; [now rewrite app_nil_r|].
  replace (x ++ c :: r) with ((x ++ [c]) ++ r) by now rewrite <- app_assoc.
  apply IH; [apply lex_step_tagish, Hst|].
  destruct (wout_step sty a0 st c) as [->|[-> E]].
  - apply deletes_app; [exact Hx|apply deletes_refl].
  - rewrite E in Hx. eapply deletes_trans; [apply deletes_tail; constructor; [discriminate|constructor]|].
    eapply deletes_trans; [exact Hx|]. apply deletes_tail.
    eapply Forall_impl; [|apply Hst]. intros ? ?. now apply tagish_not_nl.
Qed.
Theorem plain_of_deletes sty a0 m : deletes m (plain_of sty a0 m).
Proof.
  unfold plain_of. eapply deletes_trans; [|apply deletes_unescape].
  apply (wout_fold_deletes sty a0 m lex_init [] lex_init_tagish). constructor.
Qed.

(* For EVERY style table, stack and message: an undecorated colorize that succeeds deletes characters other than
   the line break, and nothing else. *)
Theorem colorize_deletes sty sk m sk' out : colorize sty false sk m = Ok (sk', out) -> deletes m out.
Proof. intros H. apply colorize_plain_of in H. subst out. apply plain_of_deletes. Qed.
(* as many lines, and each output line at most as long as the line of the message *)
Lemma deletes_lines_shrink x y : deletes x y ->
  length (split_on NL y) = length (split_on NL x)
  /\ Forall2 (fun a b : str => length a <= length b) (split_on NL y) (split_on NL x).
Proof. intros H. apply deletes_lines in H. split; [eapply Forall2_length, H|exact H]. Qed.
Theorem colorize_lines_shrink sty sk m sk' out : colorize sty false sk m = Ok (sk', out) ->
  length (split_on NL out) = length (split_on NL m)
  /\ Forall2 (fun a b : str => length a <= length b) (split_on NL out) (split_on NL m).
Proof. intros H. eapply deletes_lines_shrink, colorize_deletes, H. Qed.

Definition undecorated (f : formatter) : Prop := f_kind f <> FNull.
(* the plain formatter, through format and through remove_format; remove_format of the ANSI formatter *)
Theorem remove_format_deletes f m f' out : remove_format f m = Ok (f', out) -> deletes m out.
Proof.
  intros H. destruct (f_kind f) eqn:Ek.
  3: { unfold remove_format in H. rewrite Ek in H. injection H as _ <-. apply deletes_refl. }
  all: apply remove_format_colorize in H as [H _]; [exact (colorize_deletes _ _ _ _ _ H)|congruence].
Qed.
Theorem remove_format_lines_shrink f m f' out : remove_format f m = Ok (f', out) ->
  length (split_on NL out) = length (split_on NL m)
  /\ Forall2 (fun a b : str => length a <= length b) (split_on NL out) (split_on NL m).
Proof. intros H. eapply deletes_lines_shrink, remove_format_deletes, H. Qed.
Theorem format_plain_deletes f m style f' out : f_kind f = FPlain -> format f m style = Ok (f', out) -> deletes m out.
Proof. intros Hk H. apply (format_plain_colorize _ _ _ _ _ Hk) in H as [H _]. exact (colorize_deletes _ _ _ _ _ H). Qed.
Theorem format_plain_lines_shrink f m style f' out : f_kind f = FPlain -> format f m style = Ok (f', out) ->
  length (split_on NL out) = length (split_on NL m)
  /\ Forall2 (fun a b : str => length a <= length b) (split_on NL out) (split_on NL m).
Proof. intros Hk H. eapply deletes_lines_shrink, format_plain_deletes; eassumption. Qed.

(* the scanner started behind finished tags d and pending text c *)
Definition glue (d : list (str * tag)) (c : str) (st : lexst) : lexst :=
  match l_done st with
  | [] => mk d (c ++ l_cur st) (l_cand st)
  | (p, t) :: r => mk (d ++ (c ++ p, t) :: r) (l_cur st) (l_cand st)
  end.
Lemma glue_cand d c st : l_cand (glue d c st) = l_cand st.
Proof. unfold glue. destruct (l_done st) as [|[p t] r]; reflexivity. Qed.
Lemma glue_fail d c st X k :
  mk (l_done (glue d c st)) (l_cur (glue d c st) ++ X) k = glue d c (mk (l_done st) (l_cur st ++ X) k).
Proof. unfold glue, mk. cbn [l_done l_cur l_cand]. destruct (l_done st) as [|[p t] r]; cbn [l_done l_cur l_cand]; now rewrite <- ?app_assoc. Qed.
Lemma glue_go d c st k : mk (l_done (glue d c st)) (l_cur (glue d c st)) k = glue d c (mk (l_done st) (l_cur st) k).
Proof. unfold glue, mk. cbn [l_done l_cur l_cand]. destruct (l_done st) as [|[p t] r]; reflexivity. Qed.
Lemma glue_emit d c st T :
  mk (l_done (glue d c st) ++ [(l_cur (glue d c st), T)]) [] CText = glue d c (mk (l_done st ++ [(l_cur st, T)]) [] CText).
Proof.
  unfold glue, mk. cbn [l_done l_cur l_cand]. destruct (l_done st) as [|[p t] r]; cbn [l_done l_cur l_cand app]; [reflexivity|].
  now rewrite <- app_assoc.
Qed.
Lemma glue_step d c st x : lex_step (glue d c st) x = glue d c (lex_step st x).
Proof.
  unfold lex_step. rewrite glue_cand. destruct (N.eqb x LT); [apply glue_fail|].
  destruct (l_cand st) as [| | |cl nm].
  - apply glue_fail.
  - destruct (N.eqb x SLASH); [apply glue_go|]. destruct (tag_start x); [apply glue_go|apply glue_fail].
  - destruct (N.eqb x GT); [apply glue_emit|]. destruct (tag_start x); [apply glue_go|apply glue_fail].
  - destruct (N.eqb x GT); [apply glue_emit|]. destruct (tag_char x); [apply glue_go|apply glue_fail].
Qed.
Lemma glue_fold d c m : forall st, fold_left lex_step m (glue d c st) = glue d c (fold_left lex_step m st).
Proof. induction m as [|x r IH]; intros st; cbn [fold_left]; [reflexivity|]. now rewrite glue_step, IH. Qed.
Lemma glue_init d c : glue d c lex_init = mk d c CText.
Proof. unfold glue, lex_init, mk. cbn [l_done l_cur l_cand]. now rewrite app_nil_r. Qed.

(* the scanner on a concatenation whose left part leaves no tag candidate pending: the segments of the left part, then
   those of the right part, the first of them behind the tail of the left part *)
Definition lex_cat (la lb : list (str * tag) * str) : list (str * tag) * str :=
  match fst lb with
  | [] => (fst la, snd la ++ snd lb)
  | (p, t) :: r => (fst la ++ (snd la ++ p, t) :: r, snd lb)
  end.
Lemma lex_app a b : l_cand (fold_left lex_step a lex_init) = CText -> lex (a ++ b) = lex_cat (lex a) (lex b).
Proof.
  unfold lex. intros Hc. rewrite fold_left_app. set (sa := fold_left lex_step a lex_init) in *.
  assert (sa = glue (l_done sa) (l_cur sa) lex_init) as E by (rewrite glue_init; destruct sa; cbn in Hc; now subst).
  rewrite E at 1. rewrite glue_fold. set (sb := fold_left lex_step b lex_init).
  unfold lex_cat, lex_end, glue, mk. rewrite Hc. cbn [raw_of fst snd]. rewrite app_nil_r.
  destruct (l_done sb) as [|[p t] r]; cbn [l_done l_cur l_cand fst snd]; [now rewrite app_assoc|reflexivity].
Qed.

Lemma plain_segs_later sty a0 a0' : forall r, plain_segs sty a0 false r = plain_segs sty a0' false r.
Proof. induction r as [|[pre t] r IH]; cbn [plain_segs]; [reflexivity|]. rewrite IH. destruct pre; reflexivity. Qed.
(* pending text that does not end with a backslash: the tags found behind it are judged as at the start of a message
   whose position-0 rule is off *)
Lemma wout_glue sty a0 d c st : c <> [] -> ends_with_bsl c = false ->
  wout sty a0 (glue d c st) = plain_segs sty a0 true d ++ c ++ wout sty false st.
Proof.
  intros Hc Ec. unfold wout, glue, mk. destruct (l_done st) as [|[p t] r]; cbn [l_done l_cur l_cand plain_segs app].
  - now rewrite <- !app_assoc.
  - rewrite plain_segs_app. cbn [plain_segs].
    assert (E : forall first, esc_of a0 first (c ++ p) = esc_of false true p).
    { intros first. unfold esc_of. destruct (c ++ p) as [|x y] eqn:Ecp; [destruct c; [contradiction|discriminate]|].
      rewrite <- Ecp, ends_app. destruct p; [exact Ec|reflexivity]. }
    rewrite E, (plain_segs_later sty a0 false r). now rewrite <- !app_assoc.
Qed.

(* the output across an inert character *)
Lemma wout_sep sty a0 a sep b : inert sep ->
  wout sty a0 (fold_left lex_step (a ++ sep :: b) lex_init)
  = wout sty a0 (fold_left lex_step a lex_init) ++ sep :: wout sty false (fold_left lex_step b lex_init).
Proof.
  intros Hs. rewrite fold_left_app. cbn [fold_left]. set (sa := fold_left lex_step a lex_init).
  rewrite (inert_step sa sep Hs), <- glue_init, glue_fold, wout_glue.
  - unfold wout at 2. now rewrite <- !app_assoc.
  - destruct (l_cur sa); [destruct (raw_of (l_cand sa))|]; discriminate.
  - rewrite app_assoc, ends_snoc. destruct Hs as (_ & _ & _ & Hb & _). now apply N.eqb_neq.
Qed.
Lemma unescape_sep x sep y : sep <> LT -> sep <> BSL -> unescape (x ++ sep :: y) = unescape x ++ sep :: unescape y.
Proof. intros H1 H2. rewrite unescape_app_r by exact H1. now rewrite unescape_head. Qed.

(* OutputLemmas is required, not imported: its three facts about lines that this file and the Help files use *)
Lemma join_split : forall m, join_with NL (split_on NL m) = m.
Proof. exact OutputLemmas.join_split. Qed.
Lemma split_lines_no_nl : forall m, Forall OutputLemmas.no_nl (split_on NL m).
Proof. exact OutputLemmas.split_lines_no_nl. Qed.
Lemma split_join ls : ls <> [] -> Forall OutputLemmas.no_nl ls -> split_on NL (join_with NL ls) = ls.
Proof. exact (OutputLemmas.split_join ls). Qed.

Lemma unescape_snoc_le : forall x c, length (unescape (x ++ [c])) <= S (length (unescape x)).
Proof.
  induction x as [|a|a d r IHr IHd] using list_ind2; intros c.
  - cbn. lia.
  - cbn [app]. rewrite unescape_cons2. destruct (_ && _); cbn; lia.
  - cbn [app]. rewrite !unescape_cons2. destruct (_ && _); cbn [length].
    + specialize (IHr c). lia.
    + specialize (IHd c). cbn [app] in IHd. lia.
Qed.
Lemma unescape_app_ge : forall x y, length (unescape x) <= length (unescape (x ++ y)).
Proof.
  induction x as [|a|a d r IHr IHd] using list_ind2; intros y.
  - cbn. lia.
  - cbn [app]. destruct y as [|e y]; [lia|]. rewrite unescape_cons2. destruct (_ && _); cbn; lia.
  - cbn [app]. rewrite !unescape_cons2. destruct (_ && _); cbn [length].
    + specialize (IHr y). lia.
    + specialize (IHd y). cbn [app] in IHd. lia.
Qed.
Lemma unescape_cons_ge c z : length (unescape z) <= length (unescape (c :: z)).
Proof.
  destruct z as [|d r]; [cbn; lia|]. rewrite unescape_cons2. destruct (N.eqb_spec c BSL) as [->|]; cbn [andb length]; [|lia].
  destruct (N.eqb_spec d LT) as [->|]; [|cbn [length]; lia]. rewrite (unescape_head LT r LT_not_BSL). cbn [length]. lia.
Qed.
Lemma unescape_suffix_le y z : length (unescape z) <= length (unescape (y ++ z)).
Proof. induction y as [|c y IH]; [cbn [app]; lia|]. cbn [app]. pose proof (unescape_cons_ge c (y ++ z)). lia. Qed.

(* a post-processor of the output: unescape (the rendering itself) or nothing (the rendering before unescape, which
   is what the ANSI formatter's visible text is compared with) *)
Record post := {
  pu : str -> str;
  pu_nil : pu [] = [];
  pu_sep : forall x sep y, inert sep -> pu (x ++ sep :: y) = pu x ++ sep :: pu y;
  pu_snoc_le : forall x c, length (pu (x ++ [c])) <= S (length (pu x));
  pu_app_ge : forall x y, length (pu x) <= length (pu (x ++ y));
  pu_suffix_le : forall y z, length (pu z) <= length (pu (y ++ z));
  pu_deletes : forall x, deletes x (pu x) }.
Definition post_unescape : post.
Proof.
  refine {| pu := unescape |}; [reflexivity| |apply unescape_snoc_le|apply unescape_app_ge|apply unescape_suffix_le|apply deletes_unescape].
  intros x sep y (H1 & _ & _ & H4 & _). now apply unescape_sep.
Defined.
Definition post_id : post.
Proof.
  refine {| pu := fun x => x |}; [reflexivity|reflexivity| | | |apply deletes_refl].
  - intros x c. rewrite app_length. cbn. lia.
  - intros x y. rewrite app_length. lia.
  - intros y z. rewrite app_length. lia.
Defined.

Definition render (p : post) (sty : styles) (a0 : bool) (m : str) : str := pu p (wout_of sty a0 m).
Lemma plain_of_render sty a0 m : plain_of sty a0 m = render post_unescape sty a0 m.
Proof. reflexivity. Qed.

Section Render.
Variable p : post.
Variable sty : styles.
Theorem render_sep a0 a sep b : inert sep -> render p sty a0 (a ++ sep :: b) = render p sty a0 a ++ sep :: render p sty false b.
Proof. intros Hs. unfold render, wout_of. rewrite (wout_sep _ _ _ _ _ Hs). now apply pu_sep. Qed.
Lemma render_nil a0 : render p sty a0 [] = [].
Proof. apply pu_nil. Qed.
Lemma render_snoc a0 a sep : inert sep -> render p sty a0 (a ++ [sep]) = render p sty a0 a ++ [sep].
Proof. intros Hs. now rewrite render_sep, render_nil. Qed.
Lemma render_cons b sep : inert sep -> render p sty false (sep :: b) = sep :: render p sty false b.
Proof. intros Hs. pose proof (render_sep false [] sep b Hs) as H. cbn [app] in H. now rewrite H, render_nil. Qed.
Lemma render_inert_suffix a0 a : forall t, Forall inert t -> render p sty a0 (a ++ t) = render p sty a0 a ++ t.
Proof.
  intros t. revert a. induction t as [|c t IH]; intros a Ht; [now rewrite !app_nil_r|]. inversion Ht; subst.
  replace (a ++ c :: t) with ((a ++ [c]) ++ t) by now rewrite <- app_assoc.
  rewrite IH, render_snoc, <- app_assoc by assumption. reflexivity.
Qed.
Lemma render_inert_prefix : forall t b, Forall inert t -> render p sty false (t ++ b) = t ++ render p sty false b.
Proof. induction t as [|c t IH]; intros b Ht; [reflexivity|]. inversion Ht; subst. cbn [app]. now rewrite render_cons, IH. Qed.

Theorem render_deletes a0 m : deletes m (render p sty a0 m).
Proof.
  unfold render, wout_of. eapply deletes_trans; [|apply pu_deletes].
  apply (wout_fold_deletes sty a0 m lex_init [] lex_init_tagish). constructor.
Qed.
Lemma render_no_nl a0 s : OutputLemmas.no_nl s -> OutputLemmas.no_nl (render p sty a0 s).
Proof. intros H. eapply deletes_P; [apply render_deletes|exact H]. Qed.
Theorem render_le a0 x : length (render p sty a0 x) <= length x.
Proof. apply deletes_length, render_deletes. Qed.

(* a message whose position-0 rule is off (it does not end with a backslash) is rendered line by line *)
Lemma render_join : forall ls, render p sty false (join_with NL ls) = join_with NL (map (render p sty false) ls).
Proof.
  induction ls as [|l ls IH]; [apply render_nil|]. destruct ls as [|l2 ls]; [reflexivity|].
  change (join_with NL (l :: l2 :: ls)) with (l ++ NL :: join_with NL (l2 :: ls)).
  rewrite (render_sep _ _ _ _ inert_nl), IH. reflexivity.
Qed.
Theorem render_lines m : split_on NL (render p sty false m) = map (render p sty false) (split_on NL m).
Proof.
  rewrite <- (join_split m) at 1. rewrite render_join. apply split_join.
  - destruct (split_on NL m) eqn:E; [destruct (split_on_nonempty _ _ E)|discriminate].
  - apply Forall_map. eapply Forall_impl; [|apply split_lines_no_nl]. intros l. apply render_no_nl.
Qed.

(* reading one more character makes the output at most one longer *)
Lemma render_step_le a0 st c : length (pu p (wout sty a0 (lex_step st c))) <= S (length (pu p (wout sty a0 st))).
Proof.
  destruct (wout_step sty a0 st c) as [->|[_ E]]; [apply pu_snoc_le|]. rewrite E.
  pose proof (pu_app_ge p (wout sty a0 (lex_step st c)) (raw_of (l_cand st))). lia.
Qed.
Lemma render_fold_le a0 y : forall st,
  length (pu p (wout sty a0 (fold_left lex_step y st))) <= length (pu p (wout sty a0 st)) + length y.
Proof.
  induction y as [|c y IH]; intros st; cbn [fold_left length]; [lia|].
  specialize (IH (lex_step st c)). pose proof (render_step_le a0 st c). lia.
Qed.
Theorem render_app_le a0 x y : length (render p sty a0 (x ++ y)) <= length (render p sty a0 x) + length y.
Proof. unfold render, wout_of. rewrite fold_left_app. apply render_fold_le. Qed.
End Render.

(* the position-0 rule can only keep a tag *)
Lemma wout_a0 sty a0 st : exists y, wout sty a0 st = y ++ wout sty false st.
Proof.
  unfold wout. destruct (l_done st) as [|[pre t] r]; [exists []; reflexivity|]. cbn [plain_segs].
  rewrite (plain_segs_later sty a0 false r). destruct pre as [|c pre]; [|exists []; reflexivity]. cbn [esc_of andb app]. destruct a0; [|exists []; reflexivity].
  unfold kept. cbn [orb]. destruct (negb (recognised sty t)); [exists []; reflexivity|]. exists (raw_text t). now rewrite <- app_assoc.
Qed.
Theorem render_a0_le p sty a0 x : length (render p sty false x) <= length (render p sty a0 x).
Proof. unfold render, wout_of. destruct (wout_a0 sty a0 (fold_left lex_step x lex_init)) as [y ->]. apply pu_suffix_le. Qed.
(* a text put between blanks and more text: the rendering is at most the blanks, the rendering of the text on its own
   (whatever its position-0 rule says) and the rest *)
Theorem render_context_le p sty a0 t label rest : Forall inert t ->
  length (render p sty false (t ++ label ++ rest)) <= length t + length (render p sty a0 label) + length rest.
Proof.
  intros Ht. rewrite render_inert_prefix by exact Ht. rewrite app_length.
  pose proof (render_app_le p sty false label rest). pose proof (render_a0_le p sty a0 label). lia.
Qed.

Theorem plain_of_sep sty a0 a sep b : inert sep ->
  plain_of sty a0 (a ++ sep :: b) = plain_of sty a0 a ++ sep :: plain_of sty false b.
Proof. exact (render_sep post_unescape sty a0 a sep b). Qed.
Lemma plain_of_snoc sty a0 a sep : inert sep -> plain_of sty a0 (a ++ [sep]) = plain_of sty a0 a ++ [sep].
Proof. exact (render_snoc post_unescape sty a0 a sep). Qed.
Theorem plain_of_lines sty m : split_on NL (plain_of sty false m) = map (plain_of sty false) (split_on NL m).
Proof. exact (render_lines post_unescape sty m). Qed.
Theorem plain_of_le sty a0 x : length (plain_of sty a0 x) <= length x.
Proof. exact (render_le post_unescape sty a0 x). Qed.
Theorem plain_of_app_le sty a0 x y : length (plain_of sty a0 (x ++ y)) <= length (plain_of sty a0 x) + length y.
Proof. exact (render_app_le post_unescape sty a0 x y). Qed.
Theorem plain_of_a0_le sty a0 x : length (plain_of sty false x) <= length (plain_of sty a0 x).
Proof. exact (render_a0_le post_unescape sty a0 x). Qed.

(* the decorated rendering: its visible text is a deletion of the undecorated output before unescape *)
Lemma ends_bsl_snoc x : ends_with_bsl x = true -> exists x', x = x' ++ [BSL].
Proof.
  unfold ends_with_bsl. destruct (rev x) as [|c r] eqn:E; [discriminate|]. intros H. apply N.eqb_eq in H. subst c.
  exists (rev r). rewrite <- (rev_involutive x), E. reflexivity.
Qed.
Lemma sgr_close_ends x : ends_with_bsl (x ++ sgr_close) = false.
Proof. now rewrite ends_app. Qed.
Lemma unescape_wrapped codes x rest : codes <> [] ->
  unescape (sgr_wrap codes x ++ rest) = sgr_open codes ++ unescape x ++ sgr_close ++ unescape rest.
Proof.
  intros Hc. unfold sgr_wrap. destruct codes as [|c l]; [contradiction|].
  rewrite <- !app_assoc. rewrite (unescape_app_l _ _ (no_bsl_ends _ (sgr_open_no_bsl (c :: l)))), (unescape_id _ (sgr_open_no_bsl (c :: l))).
  f_equal. rewrite unescape_app_r by (cbn; discriminate). f_equal.
  change (sgr_close ++ rest) with (ESC :: 91%N :: 48%N :: 109%N :: rest).
  rewrite !unescape_head by discriminate. reflexivity.
Qed.

Theorem dec_visible : forall ps, Forall (fun x : span => no_esc (snd x)) ps ->
  exists v, strips (unescape (dec ps)) v /\ deletes (und ps) v.
Proof.
  induction ps as [|[cs x] ps IH]; intros H; [exists []; split; [apply strips_nil|constructor]|].
  inversion H as [|? ? Hx Hps]; subst. cbn [snd] in Hx. destruct (IH Hps) as (v' & Sv & Dv).
  unfold dec, und. cbn [flat_map]. fold (dec ps). fold (und ps). unfold dec_span. cbn [fst snd].
  destruct x as [|c0 x0] eqn:Ex; [exists v'; auto|]. rewrite <- Ex in *. clear Ex c0 x0.
  assert (Hux : no_esc (unescape x)) by (apply unescape_P, Hx).
  destruct cs as [|c l].
  - (* no codes: the text is written as it is, and may end with the backslash of a pair *)
    cbn [sgr_wrap].
    assert (Hplain : unescape (x ++ dec ps) = unescape x ++ unescape (dec ps) ->
              exists v, strips (unescape (x ++ dec ps)) v /\ deletes (x ++ und ps) v).
    { intros ->. exists (unescape x ++ v'). split; [apply strips_app; [apply strips_text, Hux|exact Sv]|].
      apply deletes_app; [apply deletes_unescape|exact Dv]. }
    destruct (ends_with_bsl x) eqn:Eb; [|apply Hplain, unescape_app_l, Eb].
    destruct (dec ps) as [|d D] eqn:ED; [apply Hplain, unescape_app_r; exact I|].
    destruct (N.eqb_spec d LT) as [->|Hd]; [|apply Hplain, unescape_app_r; exact Hd].
    destruct (ends_bsl_snoc x Eb) as [x' ->].
    assert (Hx' : no_esc x') by (apply Forall_app in Hx; tauto).
    exists (unescape x' ++ v'). split.
    + rewrite <- app_assoc. cbn [app]. rewrite unescape_app_r by (cbn; discriminate).
      rewrite unescape_cons2. change (N.eqb BSL BSL && N.eqb LT LT) with true. cbv iota.
      rewrite (unescape_head LT D LT_not_BSL) in Sv.
      apply strips_app; [apply strips_text, unescape_P, Hx'|exact Sv].
    + apply deletes_app; [|exact Dv]. eapply deletes_trans; [apply deletes_tail; constructor; [discriminate|constructor]|apply deletes_unescape].
  - rewrite unescape_wrapped by discriminate.
    exists ([] ++ unescape x ++ [] ++ v'). split.
    + apply strips_app; [apply strips_open|]. apply strips_app; [apply strips_text, Hux|]. apply strips_app; [apply strips_close|exact Sv].
    + cbn [app]. apply deletes_app; [apply deletes_unescape|exact Dv].
Qed.

(* For EVERY style table, stack and ESC-free message: the decorated colorize succeeds exactly when the undecorated one
   does, with the same stack; its visible text (v: the output with the SGR sequences removed) is obtained from the
   undecorated output before unescape by deleting characters other than the line break. *)
Theorem colorize_visible sty sk m sk' o1 : no_esc m -> colorize sty true sk m = Ok (sk', o1) ->
  colorize sty false sk m = Ok (sk', plain_of sty (ends_with_bsl m) m)
  /\ exists v, strips o1 v /\ deletes (wout_of sty (ends_with_bsl m) m) v.
Proof.
  intros Hm. rewrite !colorize_spans. intros H. bind_inv H x Hx. injection H as <- <-. rewrite Hx. cbn [bind spans_out].
  pose proof (msg_spans_und _ _ _ _ Hx) as Eu. unfold plain_of, wout_of in *. rewrite <- Eu. split; [reflexivity|].
  exact (dec_visible (snd x) (msg_spans_P _ _ _ _ _ Hm Hx)).
Qed.

(* no tag of m counts as escaped: neither m (which decides for a tag at position 0) nor a text before a tag ends with a
   backslash *)
Definition unescaped (m : str) : Prop :=
  ends_with_bsl m = false /\ Forall (fun sg : str * tag => ends_with_bsl (fst sg) = false) (fst (lex m)).
Lemma no_bsl_unescaped m : no_bsl m -> unescaped m.
Proof.
  intros H. split; [apply no_bsl_ends, H|]. destruct (lex_P _ m H) as [Hs _]. eapply Forall_impl; [|exact Hs].
  intros sg [Hp _]. apply no_bsl_ends, Hp.
Qed.
Lemma lex_tail_ends m : ends_with_bsl m = false -> ends_with_bsl (snd (lex m)) = false.
Proof.
  intros H. pose proof (lex_lossless m) as HL. destruct (snd (lex m)) as [|c t] eqn:E; [reflexivity|].
  rewrite <- HL, ends_app in H. exact H.
Qed.

(* the undecorated colorize as the run over the segments, the tail appended *)
Lemma colorize_plain_eq sty sk m :
  colorize sty false sk m =
  match run_segs sty false (ends_with_bsl m) true (fst (lex m)) sk [] false with
  | Ok (sk', out, _) => Ok (sk', unescape (out ++ snd (lex m)))
  | Err e => Err e
  end.
Proof.
  unfold colorize. pose proof (lex_lossless m) as HL. destruct (lex m) as [segs tail]. cbn [fst snd] in *.
  destruct segs as [|sg segs'] eqn:ES.
  - cbn [run_segs flat_map app] in *. now subst tail.
  - rewrite <- ES. destruct (run_segs sty false (ends_with_bsl m) true segs sk [] false) as [[[sk' out] le]|e]; cbn [bind]; [|reflexivity].
    rewrite !apply_cur_false, removelast_lastchar. destruct le; reflexivity.
Qed.

Lemma run_segs_prefix sty col at0 : forall segs first sk o out le,
  run_segs sty col at0 first segs sk (o ++ out) le =
  match run_segs sty col at0 first segs sk out le with Ok (s, r, l) => Ok (s, o ++ r, l) | Err e => Err e end.
Proof.
  induction segs as [|[pre t] r IH]; intros first sk o out le; cbn [run_segs]; [reflexivity|].
  destruct (do_tag sty col _ t sk) as [x|e]; cbn [bind]; [|reflexivity]. rewrite <- app_assoc. apply IH.
Qed.
Lemma run_segs_le sty col at0 first sg segs sk out le le' :
  run_segs sty col at0 first (sg :: segs) sk out le = run_segs sty col at0 first (sg :: segs) sk out le'.
Proof. destruct sg. reflexivity. Qed.
Lemma run_segs_graft sty f (c0 p : list N) t (r : list (list N * tag)) sk out le : ends_with_bsl c0 = false ->
  run_segs sty false false f ((c0 ++ p, t) :: r) sk out le
  = run_segs sty false false false ((p, t) :: r) sk (out ++ c0) le.
Proof.
  intros Hc. cbn [run_segs]. rewrite !esc_flag, ends_app.
  assert ((match p with [] => ends_with_bsl c0 | _ :: _ => ends_with_bsl p end) = ends_with_bsl p) as -> by (destruct p; [exact Hc|reflexivity]).
  destruct (do_tag sty false (ends_with_bsl p) t sk) as [x|e]; cbn [bind]; [|reflexivity].
  rewrite !apply_cur_false, <- !app_assoc. reflexivity.
Qed.
(* when no tag is escaped, the output of the run ends with a backslash only if it began with one *)
Lemma run_segs_ends sty : forall segs f sk out le s r l,
  Forall (fun sg : str * tag => ends_with_bsl (fst sg) = false /\ Forall good (raw_text (snd sg))) segs -> ends_with_bsl out = false ->
  run_segs sty false false f segs sk out le = Ok (s, r, l) -> ends_with_bsl r = false.
Proof.
  induction segs as [|[pre [raw cl nm]] rest IH]; intros f sk out le s r l Hs Ho H; cbn [run_segs] in H.
  - inversion H; subst. exact Ho.
  - inversion Hs as [|? ? (Epre & Hraw) Hr]; subst. cbn [fst snd raw_text] in *.
    destruct (do_tag sty false _ (Tag raw cl nm) sk) as [[sk' x]|e] eqn:ET; cbn [bind fst snd] in H; [|discriminate].
    apply (IH _ _ _ _ _ _ _ Hr) in H; [exact H|]. rewrite apply_cur_false.
    apply ends_app_false; [exact Ho|]. apply ends_app_false; [exact Epre|].
    rewrite (do_tag_plain _ _ _ _ _ _ ET). destruct (_ || _); [apply no_bsl_ends, good_no_bsl, Hraw|reflexivity].
Qed.

(* the undecorated rendering of  a ++ b  when a leaves no tag candidate pending and none of its tags is escaped: b is
   then scanned and rendered as on its own, from the stack a leaves *)
Lemma colorize_plain_app sty sk a b sk1 o1 sk2 o2 :
  l_cand (fold_left lex_step a lex_init) = CText -> unescaped a -> ends_with_bsl b = false ->
  colorize sty false sk a = Ok (sk1, o1) -> colorize sty false sk1 b = Ok (sk2, o2) ->
  colorize sty false sk (a ++ b) = Ok (sk2, o1 ++ o2).
Proof.
  intros Hc [A2 A3] B2. rewrite !colorize_plain_eq, (lex_app a b Hc), (ends_app_false a b A2 B2), A2, B2.
  destruct (run_segs sty false false true (fst (lex a)) sk [] false) as [[[s1 r1] l1]|e] eqn:RA; [|discriminate].
  intros H; inversion H; subst sk1 o1; clear H.
  destruct (run_segs sty false false true (fst (lex b)) s1 [] false) as [[[s2 r2] l2]|e] eqn:RB; [|discriminate].
  intros H; inversion H; subst sk2 o2; clear H.
  pose proof (lex_tail_ends a A2) as TA.
  assert (ends_with_bsl (r1 ++ snd (lex a)) = false) as EA.
  { apply ends_app_false; [|exact TA].
    exact (run_segs_ends sty _ true sk [] false s1 r1 l1 (Forall_and A3 (lex_raws_good a)) eq_refl RA). }
  set (ta := snd (lex a)) in *. set (tb := snd (lex b)) in *.
  unfold lex_cat. fold ta tb. destruct (fst (lex b)) as [|[p t] r] eqn:EL; cbn [fst snd]; unfold str in *.
  - cbn [run_segs] in RB. inversion RB; subst. rewrite RA. cbn [app]. rewrite app_assoc, (unescape_app_l _ _ EA). reflexivity.
  - rewrite run_segs_app, RA, (run_segs_graft sty false ta p t r s1 r1 l1 TA).
    rewrite (run_segs_le _ _ _ _ _ _ _ _ l1 false), <- (app_nil_r (r1 ++ ta)), run_segs_prefix. unfold str in *.
    rewrite <- (run_segs_first sty false true ((p, t) :: r) s1 [] false). unfold str in *. rewrite RB.
    rewrite <- app_assoc, (unescape_app_l _ _ EA). reflexivity.
Qed.
(* inert characters behind x: the same tags, the characters appended *)
Lemma colorize_plain_inert sty sk x ws : ends_with_bsl x = false -> Forall inert ws ->
  colorize sty false sk (x ++ ws) = do r <- colorize sty false sk x; Ok (fst r, snd r ++ ws).
Proof.
  intros Hx Hw. assert (no_bsl ws) as Hb by (eapply Forall_impl; [|exact Hw]; intros c Hc; apply Hc).
  rewrite !colorize_plain_eq, (lex_app_inert x ws Hw), (ends_app_false x ws Hx (no_bsl_ends ws Hb)), Hx. cbn [fst snd].
  destruct (run_segs sty false false true (fst (lex x)) sk [] false) as [[[s o] l]|e]; cbn [bind fst snd]; [|reflexivity].
  rewrite app_assoc, unescape_app_r, (unescape_id ws Hb); [reflexivity|]. destruct Hw as [|c ws Hc _]; [exact I|apply Hc].
Qed.

(* an undecorated rendering that shows no '<' comes from a message that leaves no tag candidate pending *)
Lemma unescape_keeps_lt : forall s, no_lt (unescape s) -> no_lt s.
Proof.
  induction s as [|c|c d r IHr IHd] using list_ind2; intros H; [constructor|exact H|].
  rewrite unescape_cons2 in H. destruct (N.eqb c BSL && N.eqb d LT); inversion H as [|? ? Hc Hr]; subst; [congruence|].
  constructor; [exact Hc|exact (IHd Hr)].
Qed.
Lemma colorize_no_lt_closed sty sk m sk' out :
  colorize sty false sk m = Ok (sk', out) -> no_lt out -> l_cand (fold_left lex_step m lex_init) = CText.
Proof.
  intros H Ho. apply colorize_plain_of in H. subst out. apply unescape_keeps_lt in Ho. unfold wout in Ho.
  apply Forall_app in Ho as [_ Ho]. apply Forall_app in Ho as [_ Ho].
  destruct (l_cand _); [reflexivity|inversion Ho; congruence..].
Qed.
