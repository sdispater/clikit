(* C18: the shape of the answer, a first valid line answers at once (ask_first_valid: what "index and value are
   interchangeable" needs at the level of ask()) - and the choices for which index and value are NOT interchangeable. *)
From Coq Require Import Lia.
From Clikit Require Import Base.Prelude Base.Res Model.Conv Model.Question Proofs.StrLemmas Proofs.FlagsLemmas Proofs.QuestionLemmas.

(* single-select answers one value, multi-select a list *)
Lemma validate_shape q s a : validate q s = inr a ->
  if q_multi q then exists l, a = AMany l else exists v, a = AOne v.
Proof.
  unfold validate. destruct s as [s|]; [|discriminate]. destruct (q_multi q).
  - destruct (forallb _ _); [|discriminate]. destruct (validate_values _ _); [discriminate|]. intros H. inversion H. eauto.
  - destruct (validate_value _ _); [discriminate|]. intros H. inversion H. eauto.
Qed.

Lemma dec_text_nonempty z : dec_text z <> [].
Proof. intros E. pose proof (int_of_str_dec_text z) as H. rewrite E in H. discriminate H. Qed.

Lemma ask_first_valid q line rest a : q_attempts q <> Some 0 -> validate q (effective_answer q line) = inr a ->
  ask_choice true q (line :: rest) = {| o_end := Answered a; o_lines_read := 1; o_errors_printed := 0; o_prompts := 1 |}.
Proof.
  intros Hk Hv. unfold ask_choice. cbn [negb]. now rewrite ask_loop_step, Hv by exact Hk.
Qed.

(* where index and value are not interchangeable *)
Module Spaced.
  Definition sp : N := 32. Definition a_ : N := 97. Definition b_ : N := 98. Definition zero : N := 48.
  (* single-select, choices " a" and "b", one attempt *)
  Definition q1 : choiceq := {| q_choices := [[sp; a_]; [b_]]; q_multi := false; q_default := None; q_attempts := Some 1 |}.
  (* typing 0 answers " a"; typing " a" (stripped to "a" before it is validated) is invalid *)
  Example index_works_value_does_not :
    o_end (ask_choice true q1 [[zero]]) = Answered (AOne [sp; a_]) /\ o_end (ask_choice true q1 [[sp; a_]]) = Failed VInvalid.
  Proof. vm_compute. split; reflexivity. Qed.
  (* multi-select, choices "a b" and "c": the blanks are removed from what was typed *)
  Definition q2 : choiceq := {| q_choices := [[a_; sp; b_]; [99%N]]; q_multi := true; q_default := None; q_attempts := Some 1 |}.
  Example multi_index_works_value_does_not :
    o_end (ask_choice true q2 [[zero]]) = Answered (AMany [[a_; sp; b_]]) /\ o_end (ask_choice true q2 [[a_; sp; b_]]) = Failed VInvalid.
  Proof. vm_compute. split; reflexivity. Qed.
End Spaced.
