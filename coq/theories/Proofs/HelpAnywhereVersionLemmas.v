(* C09, the help switch anywhere: a SYNTACTIC criterion for "the help command's lenient parse of the line does not set the
   version option" (the semantic hypothesis of the help_switch_anywhere_* theorems).

   The version option of DefaultApplicationConfig is add_option("version", "V", NO_VALUE).  The parse stores an option
   under the long name it is FOUND by: a token "--NAME" / "--NAME=..." stores under NAME (which may be a short name:
   "--V" finds the option too), a token "-abc" stores, letter by letter, under the long name of the option with that
   short name.  Args.set_option then files the value under the long name of the option the stored key finds.  So the
   version option can be set only by a token before "--" whose long-name part is "version" or "V", or by a single-dash
   token holding the letter V (spells_version).  Without such a token it is not set - whatever else is on the line and
   wherever the lenient parse stops. *)
From Clikit Require Import Base.Prelude Base.Res Model.Conv Model.Flags Model.Format Model.Parser Model.Spell
     Model.Resolver Model.Tokenizer Model.Switches
     Proofs.StrLemmas Proofs.ListLemmas Proofs.DictLemmas Proofs.FormatLemmas Proofs.ParserLemmas Proofs.SpellArgs Proofs.FmtOkLemmas
     Proofs.ResolverLemmas Proofs.SwitchesLemmas Proofs.HelpSamePageLemmas Proofs.HelpRunLemmas Proofs.SwitchesHelpLemmas
     Proofs.HelpAnywhereLemmas.
From Clikit Require Proofs.ClassifyLemmas.

Definition S_V : str := [86%N].
Definition bad_key (k : str) : bool := str_eqb k S_version || str_eqb k S_V.
(* the name a "--..." token is looked up by *)
Definition long_name (tok : str) : str :=
  match split_eq (skipn 2 tok) [] with Some (n, _) => n | None => skipn 2 tok end.
Definition spells_version (tok : str) : bool :=
  if starts_dd tok then bad_key (long_name tok)
  else if starts_dash tok then existsb (N.eqb 86) (skipn 1 tok) else false.

Definition keys_ok (po : list (str * rawopt)) : Prop := forall k, In k (map fst po) -> bad_key k = false.

Lemma keys_ok_sset k v po : keys_ok po -> bad_key k = false -> keys_ok (sset k v po).
Proof. intros Hp Hk k' H. apply in_keys_sset in H as [->|H]; [exact Hk|now apply Hp]. Qed.

(* what an option branch does to the remaining tokens: nothing, or it takes the next one as a value - never "--" *)
Definition tail_rel (t t' : list str) : Prop := t' = t \/ exists x, t = x :: t' /\ is_ddash x = false.
Lemma tail_rel_trans t1 t2 t3 (P : list str -> Prop) :
  (forall t t', tail_rel t t' -> P t -> P t') -> tail_rel t1 t2 -> tail_rel t2 t3 -> P t1 -> P t3.
Proof. intros H H1 H2 Hp. eapply H; [exact H2|]. eapply H; [exact H1|exact Hp]. Qed.
(* several such steps: what was taken holds no "--", so the option tokens of the rest are option tokens of the whole *)
Definition clean_suffix (t t' : list str) : Prop := exists c, t = c ++ t' /\ no_ddash c = true.
Lemma clean_suffix_refl t : clean_suffix t t.
Proof. now exists []. Qed.
Lemma clean_suffix_trans t1 t2 t3 : clean_suffix t1 t2 -> clean_suffix t2 t3 -> clean_suffix t1 t3.
Proof.
  intros (c1 & -> & H1) (c2 & -> & H2). exists (c1 ++ c2). split; [apply app_assoc|].
  unfold no_ddash in *. now rewrite forallb_app, H1, H2.
Qed.
Lemma tail_rel_clean t t' : tail_rel t t' -> clean_suffix t t'.
Proof. intros [->|(x & -> & Hx)]; [apply clean_suffix_refl|]. exists [x]. unfold no_ddash. cbn. now rewrite Hx. Qed.

Definition toks_ok (t : list str) : Prop := Forall (fun tok => spells_version tok = false) (option_tokens t).
Lemma toks_ok_suffix t t' : clean_suffix t t' -> toks_ok t -> toks_ok t'.
Proof. intros (c & -> & Hc) H. unfold toks_ok in *. rewrite (option_tokens_app c t' Hc) in H. now apply Forall_app in H. Qed.

Lemma not_dash_not_ddash x : nonempty x && starts_dash x = false -> is_ddash x = false.
Proof.
  unfold is_ddash. destruct (str_eqb_spec x [DASH; DASH]) as [->|]; [|reflexivity]. cbn. discriminate.
Qed.
Lemma look_tail acc v t : tail_rel t (snd (ClassifyLemmas.look acc v t)).
Proof.
  unfold ClassifyLemmas.look. destruct v; [now left|]. destruct acc; [|now left]. destruct t as [|nxt rest]; [now left|].
  destruct (nonempty nxt) eqn:En; cbn [andb negb].
  - destruct (starts_dash nxt) eqn:Ed; cbn [negb snd]; [now left|]. right. exists nxt. split; [reflexivity|].
    apply not_dash_not_ddash. now rewrite Ed, andb_false_r.
  - right. exists nxt. split; [reflexivity|]. apply not_dash_not_ddash. now rewrite En.
Qed.
Lemma take_value_clean t : clean_suffix t (snd (take_value t)).
Proof.
  apply tail_rel_clean. destruct t as [|v rest]; cbn [take_value snd]; [now left|].
  destruct (nonempty v && starts_dash v) eqn:E; cbn [snd]; [now left|]. right. exists v. split; [reflexivity|].
  now apply not_dash_not_ddash.
Qed.
(* every successful option branch files one value, under the name it was given *)
Lemma store_opts st n o v t st' t' : ClassifyLemmas.store st n o v t = Ok (st', t') ->
  (exists w, ps_opts st' = sset n w (ps_opts st)) /\ t' = t.
Proof.
  unfold ClassifyLemmas.store. destruct (match v with Some [] => None | x => x end) as [s|].
  - destruct (o_multi o); intros H; inversion H; cbn [ps_opts]; eauto.
  - destruct (o_required o); [discriminate|]. destruct (o_multi o); [discriminate|]. intros H; inversion H; cbn [ps_opts]; eauto.
Qed.

Section Keys.
  Variable g : fmt.
  (* a short name that finds an option whose long name is "version" or "V" is the letter V *)
  Hypothesis Hshort : forall c o, get_option g [c] true = Ok o -> bad_key (o_long o) = true -> c = 86%N.

  Lemma add_long_keys st n v t st' t' : add_long_option g st n v t = Ok (st', t') ->
    (exists w, ps_opts st' = sset n w (ps_opts st)) /\ clean_suffix t t'.
  Proof.
    rewrite ClassifyLemmas.add_long_eq. destruct (negb (has_option g n true)); [discriminate|].
    destruct (get_option g n true) as [o|k]; cbn [bind]; [|discriminate].
    destruct (match v with Some _ => negb (o_accepts o) | None => false end); [discriminate|].
    intros H. apply store_opts in H as [H ->]. split; [exact H|apply tail_rel_clean, look_tail].
  Qed.
  Lemma parse_long_keys st tok t st' t' : parse_long_option g st tok t = Ok (st', t') ->
    (exists w, ps_opts st' = sset (long_name tok) w (ps_opts st)) /\ clean_suffix t t'.
  Proof.
    unfold parse_long_option, long_name. destruct (split_eq (skipn 2 tok) []) as [[n v]|]; [apply add_long_keys|].
    destruct (accepts g (skipn 2 tok)); [|apply add_long_keys].
    pose proof (take_value_clean t) as Ht. destruct (take_value t) as [v t1]. cbn [snd] in Ht.
    intros H. apply add_long_keys in H as [H1 H2]. split; [exact H1|exact (clean_suffix_trans _ _ _ Ht H2)].
  Qed.

  (* a letter other than V finds an option that is filed under a name that is neither "version" nor "V" *)
  Lemma short_not_bad c o : N.eqb 86 c = false -> get_option g [c] true = Ok o -> bad_key (o_long o) = false.
  Proof. intros Hc Eo. destruct (bad_key (o_long o)) eqn:E; [|reflexivity]. rewrite (Hshort c o Eo E) in Hc. discriminate. Qed.
  Lemma add_short_keys st c v t st' t' : N.eqb 86 c = false -> keys_ok (ps_opts st) ->
    add_short_option g st [c] v t = Ok (st', t') -> keys_ok (ps_opts st') /\ clean_suffix t t'.
  Proof.
    intros Hc Hk. unfold add_short_option. destruct (negb (has_option g [c] true)); [discriminate|].
    destruct (get_option g [c] true) as [o|k] eqn:Eo; cbn [bind]; [|discriminate].
    intros H. apply add_long_keys in H as [[w ->] H2]. split; [|exact H2].
    apply keys_ok_sset; [exact Hk|exact (short_not_bad c o Hc Eo)].
  Qed.

  (* a group of letters without V keeps the keys clean - in the state reached as well when the group fails midway *)
  Lemma short_set_keys : forall name st t, existsb (N.eqb 86) name = false -> keys_ok (ps_opts st) ->
    keys_ok (ps_opts (snd (short_set g st name t))) /\
    forall st' t', fst (short_set g st name t) = Ok (st', t') -> keys_ok (ps_opts st') /\ clean_suffix t t'.
  Proof.
    induction name as [|c rest IH]; intros st t Hn Hk; cbn [short_set fst snd].
    - split; [exact Hk|]. intros st' t' H. inversion H; subst. split; [exact Hk|apply clean_suffix_refl].
    - cbn [existsb] in Hn. apply orb_false_elim in Hn as [Hc Hrest].
      destruct (negb (has_option g [c] true)); cbn [fst snd]; [split; [exact Hk|discriminate]|].
      destruct (get_option g [c] true) as [o|k] eqn:Eo; cbn [fst snd]; [|split; [exact Hk|discriminate]].
      assert (forall v st1 t1, add_long_option g st (o_long o) v t = Ok (st1, t1) -> keys_ok (ps_opts st1) /\ clean_suffix t t1) as Hadd.
      { intros v st1 t1 E. apply add_long_keys in E as [[w ->] E2]. split; [|exact E2].
        apply keys_ok_sset; [exact Hk|exact (short_not_bad c o Hc Eo)]. }
      destruct (o_accepts o).
      + destruct (add_long_option g st (o_long o) _ t) as [[st1 t1]|k] eqn:E; cbn [fst snd]; [|split; [exact Hk|discriminate]].
        destruct (Hadd _ _ _ E) as [Hk1 Hs1]. split; [exact Hk1|]. intros st' t' H. inversion H; subst. auto.
      + destruct (add_long_option g st (o_long o) None t) as [[st1 t1]|k] eqn:E; cbn [fst snd]; [|split; [exact Hk|discriminate]].
        destruct (Hadd _ _ _ E) as [Hk1 Hs1]. destruct (IH st1 t1 Hrest Hk1) as [I1 I2]. split; [exact I1|].
        intros st' t' H. destruct (I2 _ _ H) as [J1 J2]. split; [exact J1|exact (clean_suffix_trans _ _ _ Hs1 J2)].
  Qed.

  Lemma parse_short_keys st tok t : existsb (N.eqb 86) (skipn 1 tok) = false -> keys_ok (ps_opts st) ->
    keys_ok (ps_opts (snd (parse_short_option g st tok t))) /\
    forall st' t', fst (parse_short_option g st tok t) = Ok (st', t') -> keys_ok (ps_opts st') /\ clean_suffix t t'.
  Proof.
    intros Hn Hk. unfold parse_short_option.
    (* the branches that are one add_short_option: the state left is the one returned, or the one before *)
    assert (forall c v t0, N.eqb 86 c = false -> clean_suffix t t0 ->
              let r := add_short_option g st [c] v t0 in
              keys_ok (ps_opts (match r with Ok (st', _) => st' | Err _ => st end)) /\
              forall st' t', r = Ok (st', t') -> keys_ok (ps_opts st') /\ clean_suffix t t') as Hadd.
    { intros c v t0 Hc Ht0 r. subst r. destruct (add_short_option g st [c] v t0) as [[st1 t1]|k] eqn:E; [|split; [exact Hk|discriminate]].
      destruct (add_short_keys _ _ _ _ _ _ Hc Hk E) as [A1 A2]. split; [exact A1|].
      intros st' t' H. inversion H; subst. split; [exact A1|exact (clean_suffix_trans _ _ _ Ht0 A2)]. }
    destruct (skipn 1 tok) as [|c [|c2 rest]].
    - cbn [fst snd]. split; [exact Hk|discriminate].
    - cbn [existsb] in Hn. apply orb_false_elim in Hn as [Hc _]. destruct (accepts g [c]).
      + pose proof (take_value_clean t) as Ht. destruct (take_value t) as [v t1]. exact (Hadd c v t1 Hc Ht).
      + exact (Hadd c None t Hc (clean_suffix_refl t)).
    - destruct (accepts g [c]); [|apply short_set_keys; assumption].
      cbn [existsb] in Hn. apply orb_false_elim in Hn as [Hc _]. exact (Hadd c _ t Hc (clean_suffix_refl t)).
  Qed.

  (* the token loop: no token before "--" spells the version option - the stored keys stay clean *)
  Lemma loop_keys len : forall fuel toks p st, (p = true -> toks_ok toks) -> keys_ok (ps_opts st) ->
    keys_ok (ps_opts (fst (loop fuel g len p st toks))).
  Proof.
    induction fuel as [|fuel IH]; intros toks p st Ht Hk; cbn [loop]; [exact Hk|].
    destruct toks as [|tok rest]; [exact Hk|].
    assert ((p = true -> is_ddash tok = false) ->
            keys_ok (ps_opts (fst (match parse_argument g len st tok with
                                    | Ok st' => loop fuel g len p st' rest | Err k => (st, Some k) end)))) as Harg.
    { intros Hnd. destruct (parse_argument g len st tok) as [st'|k] eqn:E; [|exact Hk].
      apply IH; [|rewrite (parse_argument_opts _ _ _ _ _ E); exact Hk].
      intros Hp. specialize (Ht Hp). unfold toks_ok in *. cbn [option_tokens] in Ht. rewrite (Hnd Hp) in Ht. now inversion Ht. }
    destruct p; cbn [andb]; [|apply Harg; discriminate]. specialize (Ht eq_refl).
    destruct (nonempty tok) eqn:Ene; cbn [negb]; [|apply Harg; intros _; destruct tok; [reflexivity|discriminate]].
    destruct (is_dd tok) eqn:Edd; [apply IH; [discriminate|exact Hk]|].
    assert (spells_version tok = false /\ toks_ok rest) as [Hs Hr].
    { unfold toks_ok in Ht. cbn [option_tokens] in Ht. change (is_ddash tok) with (is_dd tok) in Ht. rewrite Edd in Ht. now inversion Ht. }
    destruct (starts_dd tok) eqn:Esd.
    { destruct (parse_long_option g st tok rest) as [[st' rest']|k] eqn:E; [|exact Hk].
      apply parse_long_keys in E as [[w E1] E2]. apply IH; [intros _; exact (toks_ok_suffix _ _ E2 Hr)|].
      rewrite E1. apply keys_ok_sset; [exact Hk|]. unfold spells_version in Hs. now rewrite Esd in Hs. }
    destruct (starts_dash tok && negb (str_eqb tok [DASH])) eqn:Esh; [|apply Harg; intros _; exact Edd].
    apply andb_prop in Esh as [Esh _]. unfold spells_version in Hs. rewrite Esd, Esh in Hs.
    destruct (parse_short_keys st tok rest Hs Hk) as [S1 S2].
    destruct (parse_short_option g st tok rest) as [[[st' rest']|k] st2]; cbn [fst snd] in *; [|exact S1].
    destruct (S2 _ _ eq_refl) as [K1 K2]. apply IH; [intros _; exact (toks_ok_suffix _ _ K2 Hr)|exact K1].
  Qed.
End Keys.

(* from the stored keys to Args.is_option_set("version") *)
Lemma set_options_keys f : forall l a a', set_options f a l = Ok a' -> forall k, In k (map fst (ar_opts a')) ->
  In k (map fst (ar_opts a)) \/ exists n o, In n (map fst l) /\ get_option f n true = Ok o /\ k = o_long o.
Proof.
  induction l as [|[n v] r IH]; intros a a'; cbn [set_options]; [intros H; inversion H; auto|].
  destruct (has_option f n true).
  - unfold set_option at 1. destruct (get_option f n true) as [o|k0] eqn:Eo; cbn [bind]; [|discriminate].
    match goal with |- (do a1 <- (do pv <- ?X; _); _) = _ -> _ => destruct X as [pv|k0]; cbn [bind]; [|discriminate] end.
    intros H k Hk. apply (IH _ _ H) in Hk as [Hk|(n' & o' & Hn & Ho & E)].
    + cbn [ar_opts] in Hk. apply in_keys_sset in Hk as [->|Hk]; [|now left]. right. exists n, o. repeat split; auto. now left.
    + right. exists n', o'. repeat split; auto. now right.
  - intros H k Hk. apply (IH _ _ H) in Hk as [Hk|(n' & o' & Hn & Ho & E)]; [now left|]. right. exists n', o'. repeat split; auto. now right.
Qed.

Definition is_version_option (o : opt) : bool :=
  str_eqb (o_long o) S_version && match o_short o with Some s => str_eqb s S_V | None => false end.
Definition defines_version (cfg : appcfg) : bool := existsb is_version_option (ac_opts cfg).
Definition no_version_spelling (ots : list str) : bool := negb (existsb spells_version ots).

Section NotSet.
  Variables (f : fmt) (ov : opt).
  Hypothesis Hinv : fmt_inv f.
  Hypothesis Hsound : short_sound f.
  Hypothesis Hcar : carries ov f.
  Hypothesis Hov : is_version_option ov = true.

  Lemma version_option_names : o_long ov = S_version /\ o_short ov = Some S_V.
  Proof.
    unfold is_version_option in Hov. apply andb_prop in Hov as [H1 H2].
    destruct (str_eqb_spec (o_long ov) S_version); [|discriminate]. destruct (o_short ov) as [s|]; [|discriminate].
    destruct (str_eqb_spec s S_V); [subst; auto|discriminate].
  Qed.

  Lemma short_names_version g A cns : aug_format f = Ok (g, A, cns) ->
    forall c o, get_option g [c] true = Ok o -> bad_key (o_long o) = true -> c = 86%N.
  Proof.
    intros Ha c o Hg Hb. destruct version_option_names as [Hl Hs]. pose proof (ClassifyLemmas.aug_format_opts f g A cns Ha) as AO.
    assert (In ov (map snd (get_options_all f))) as Hlist.
    { destruct Hcar as (_ & _ & Hin & _). change ov with (snd (o_long ov, ov)). now apply in_map. }
    destruct (ClassifyLemmas.ao_get _ _ AO _ _ Hg) as [Ho Hn].
    pose proof (proj2 (ClassifyLemmas.ao_long _ _ AO o Ho)) as G1.
    pose proof (proj2 (ClassifyLemmas.ao_long _ _ AO ov Hlist)) as G2. rewrite Hl in G2.
    pose proof (proj2 (ClassifyLemmas.ao_short _ _ AO ov S_V Hlist Hs)) as G3.
    unfold bad_key in Hb. apply orb_prop in Hb as [Hb|Hb].
    - destruct (str_eqb_spec (o_long o) S_version) as [E|]; [|discriminate]. rewrite E in G1.
      assert (o = ov) as -> by congruence. unfold ClassifyLemmas.opt_named in Hn. rewrite Hl, Hs in Hn.
      apply orb_prop in Hn as [Hn|Hn].
      + exfalso. unfold S_version in Hn. cbn [str_eqb] in Hn. now rewrite andb_false_r in Hn.
      + unfold S_V in Hn. cbn [str_eqb] in Hn. rewrite andb_true_r in Hn. now apply N.eqb_eq in Hn.
    - destruct (str_eqb_spec (o_long o) S_V) as [E|]; [|discriminate]. rewrite E in G1.
      assert (o = ov) as -> by congruence. rewrite Hl in E. discriminate.
  Qed.

  Theorem version_not_set toks x : parse f true toks = Ok x -> no_version_spelling (option_tokens toks) = true ->
    args_is_option_set f x S_version = false.
  Proof.
    intros Hp Hno. destruct version_option_names as [Hl Hs]. destruct Hcar as (C1 & C2 & _). rewrite Hl in C1, C2.
    pose proof (wf_implies_fmt_ok_lemma f Hinv) as Hok. apply fmt_ok_inv in Hok as (g & A & cns & FF).
    assert (toks_ok toks) as Ht.
    { unfold toks_ok, no_version_spelling in *. apply negb_true_iff in Hno. apply Forall_forall. intros t Hin.
      destruct (spells_version t) eqn:E; [|reflexivity]. rewrite <- Hno. symmetry. apply existsb_exists. eauto. }
    destruct (parse_lenient_ok_inv f g A cns toks x FF Hp) as (st1 & e & st2 & a1 & Hloop & _ & Ea & Hx).
    (* the keys the loop stored are clean; the options set are those they find *)
    pose proof (loop_keys g (short_names_version g A cns (ff_aug _ _ _ _ FF)) true (S (length toks)) toks true ps_empty
                  (fun _ => Ht) ltac:(intros k [])) as Hk. rewrite Hloop in Hk. cbn [fst] in Hk.
    pose proof (set_arguments_opts f _ _ _ Ea) as Ho1. cbn [ar_opts] in Ho1.
    unfold args_is_option_set. cbn [has_option get_option]. rewrite C1, C2, Hl.
    apply shas_false_iff. intros Hin. apply (set_options_keys f _ _ _ Hx) in Hin as [Hin|(n & o' & Hn & Hg & E)].
    - rewrite Ho1 in Hin. destruct Hin.
    - specialize (Hk n Hn). destruct Hinv as (_ & _ & Hoi). cbn [get_option] in Hg.
      destruct (get_option_named f Hoi Hsound n o' Hg) as (I1 & _ & I3). rewrite <- E in I3.
      assert (o' = ov) as -> by congruence. apply in_onames in I1 as [I1|I1].
      + rewrite Hl in I1. subst n. discriminate.
      + rewrite Hs in I1. inversion I1; subst n. discriminate.
  Qed.
End NotSet.

Theorem help_line_version_not_set cfg a toks fx x : build_app cfg = Ok a -> default_help_config cfg = true ->
  defines_version cfg = true -> help_line_parse a toks = Ok (fx, x) ->
  no_version_spelling (option_tokens toks) = true -> args_is_option_set fx x S_version = false.
Proof.
  intros Hb Hc Hv Hp Hno. destruct (default_help_setup cfg a Hb Hc) as (hc & f & arg & o & HS).
  unfold defines_version in Hv. apply existsb_exists in Hv as [ov [Hoin Hov]].
  pose proof (build_app_carries cfg a ov Hb Hoin) as Htree.
  pose proof (coll_get_in _ _ _ (hs_all HS)) as Hin.
  pose proof (proj1 (Forall_forall _ _) Htree hc Hin) as Hhc. apply tree_ok_unfold in Hhc as [Hcar _].
  rewrite (help_setup_fmt HS) in Hcar. rewrite (help_line_parse_setup HS) in Hp.
  apply bind_ok in Hp as (x0 & E & Hp). inversion Hp; subst fx x0.
  exact (version_not_set f ov (hs_inv HS) (hs_sound HS) Hcar Hov toks x E Hno).
Qed.

Lemma plain_spells_nothing t : lead_ok t = true -> spells_version t = false.
Proof.
  unfold lead_ok, spells_version. intros H. apply andb_prop in H as [_ H]. apply negb_true_iff in H.
  rewrite (starts_dd_dash t H), H. reflexivity.
Qed.
Lemma no_spelling_line path rest : forallb lead_ok path = true ->
  no_version_spelling (option_tokens (path ++ rest)) = no_version_spelling (option_tokens rest).
Proof. intros Hp. unfold no_version_spelling. now rewrite (existsb_plain _ path rest plain_spells_nothing Hp). Qed.
Lemma no_spelling_no_token ots : no_version_spelling ots = true -> wants_version ots = false.
Proof.
  unfold no_version_spelling, wants_version, has_token. intros H. apply negb_true_iff in H.
  assert (forall t, spells_version t = true -> existsb (str_eqb t) ots = false) as Hn.
  { intros t Ht. destruct (existsb (str_eqb t) ots) eqn:E; [|reflexivity]. apply existsb_exists in E as (y & Hy & Ey).
    destruct (str_eqb_spec t y); [subst y|discriminate]. rewrite <- H. symmetry. apply existsb_exists. eauto. }
  now rewrite (Hn T_V eq_refl), (Hn T_version eq_refl).
Qed.

Section Closed.
  Variables (cfg : appcfg) (a : application) (debug : bool) (path rest : list str).
  Hypothesis Hb : build_app cfg = Ok a.
  Hypothesis Hcfg : default_help_config cfg = true.
  Hypothesis Hver : defines_version cfg = true.
  Hypothesis Hplain : forallb lead_ok path = true.
  Hypothesis Hne : path <> [].
  Hypothesis Hh : match path with t :: _ => str_eqb t S_help = false | [] => True end.
  Hypothesis Hsw : wants_help (option_tokens rest) = true.
  Hypothesis Hno : no_version_spelling (option_tokens rest) = true.

  (* no token before "--" spells the version option, the command the path names has no default sub-command: that
     command's page, unless the help command's own parse raised a value error *)
  Lemma help_anywhere_closed_that_command b p : starts_stopped rest = true ->
    walk (named_of (ap_cmds a)) None path = Ok (Some (b, p)) -> defaults_of (b_subs b) = [] ->
    sm_action (run_summary debug a (path ++ rest)) =
      match help_line_parse a (path ++ rest) with
      | Err k => AError k
      | Ok _ => match help_lenient (b_fmt b) (path ++ rest) with Ok _ => AHelpCmd p | Err k => AHelpFail k end
      end.
  Proof.
    intros Hst Hw Hd. destruct (help_line_parse a (path ++ rest)) as [[fx x]|k] eqn:E.
    - rewrite (help_anywhere_page cfg a debug path rest Hb Hcfg Hplain Hne Hh Hsw fx x E).
      + rewrite <- (leading_app_stopped _ rest Hplain Hst) in Hw. exact (help_page_that_command a _ b p (not_help_app path rest Hne Hh) Hw Hd).
      + apply (help_line_version_not_set cfg a _ fx x Hb Hcfg Hver E). now rewrite (no_spelling_line _ _ Hplain).
      + exact (no_spelling_no_token _ Hno).
    - now rewrite (help_anywhere_run cfg a debug path rest Hb Hcfg Hplain Hne Hh Hsw), E.
  Qed.
End Closed.
