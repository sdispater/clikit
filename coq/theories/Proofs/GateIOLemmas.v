(* Proofs about Model/GateIO.v (the IO layer of the gate, C10): the gate of one output object (out_emits is
   Output._may_write, whatever the kind, stream, formatter, indentation); what every world a history can reach has (valid
   verbosities, I/Os that name two different existing outputs); what a call does to the outputs that exist; after any
   history the quiet flag / verbosity of an output are the LAST ones given to it; raising verbosities / leaving quiet
   along a history never removes a write. *)
From Coq Require Import Lia Arith.
From Clikit Require Import Base.Prelude Base.Res Model.Markup Model.Gate Model.GateIO
  Proofs.ListLemmas Proofs.GateLemmas Proofs.GateMonoLemmas.

Lemma upd_length l i f : length (upd l i f) = length l.
Proof. revert i. induction l as [|x r IH]; intros [|i]; cbn [upd length]; auto. Qed.

Lemma upd_nth l f : forall i j, nth_error (upd l i f) j = if Nat.eqb i j then option_map f (nth_error l j) else nth_error l j.
Proof.
  induction l as [|x r IH]; intros [|i] [|j]; cbn [upd nth_error Nat.eqb option_map]; auto;
    try (destruct (Nat.eqb _ _); reflexivity).
Qed.

Lemma upd_Forall (P : ost -> Prop) l i f : (forall x, P x -> P (f x)) -> Forall P l -> Forall P (upd l i f).
Proof.
  intros Hf. revert i. induction l as [|x r IH]; intros i H; [destruct i; constructor|].
  inversion H; subst. destruct i; cbn [upd]; constructor; auto.
Qed.

Lemma upd_comm l f g : (forall x, f (g x) = g (f x)) -> forall a b, upd (upd l a f) b g = upd (upd l b g) a f.
Proof.
  intros Hc. induction l as [|x r IH]; intros [|a] [|b]; cbn [upd]; try reflexivity.
  - now rewrite Hc.
  - now rewrite IH.
Qed.

(* both outputs of an I/O: one function applied at two places (idempotent, so a = b would not matter either) *)
Lemma upd2_nth l f a b j : (forall x, f (f x) = f x) ->
  nth_error (upd (upd l a f) b f) j = if Nat.eqb a j || Nat.eqb b j then option_map f (nth_error l j) else nth_error l j.
Proof.
  intros Hi. rewrite upd_nth, upd_nth. destruct (Nat.eqb b j), (Nat.eqb a j); cbn [orb]; try reflexivity.
  destruct (nth_error l j); cbn [option_map]; [now rewrite Hi|reflexivity].
Qed.

(* a function that keeps a field keeps it at every place of the list *)
Lemma upd_keeps {X} (pr : ost -> X) l i f j : (forall y, pr (f y) = pr y) ->
  option_map pr (nth_error (upd l i f) j) = option_map pr (nth_error l j).
Proof.
  intros Hf. rewrite upd_nth. destruct (Nat.eqb i j); [|reflexivity]. destruct (nth_error l j); cbn; now rewrite ?Hf.
Qed.

Lemma wm_has_path_section a m : exists p, path KSection a (meth_of_wm m) = Some p.
Proof. destruct a, m; cbn; eauto. Qed.
Lemma io_meth_has_path k a m : exists p, path k a (snd (fst (io_delegate m))) = Some p.
Proof. destruct k, a, m; cbn; eauto. Qed.
Lemma io_meth_takes_flags m : takes_flags (snd (fst (io_delegate m))) = true.
Proof. destruct m; reflexivity. Qed.
Lemma io_meth_hands_on_the_flags m : snd (io_delegate m) = FCaller.
Proof. destruct m; reflexivity. Qed.

Lemma out_emits_gate o m fl : has_method o m = true ->
  out_emits o m fl = may_write (s_quiet o) (s_verb o) (if takes_flags m then fl else None).
Proof.
  unfold has_method, out_emits. destruct (path (kind_of o) (decorated o) m) as [p|] eqn:E; [|discriminate]. intros _.
  exact (emits_first_gate _ _ _ _ _ fl p E).
Qed.

Lemma out_emits_monotone o o' m fl : kind_of o = kind_of o' -> decorated o = decorated o' ->
  (s_quiet o' = true -> s_quiet o = true) -> (s_verb o <= s_verb o')%Z ->
  out_emits o m fl = true -> out_emits o' m fl = true.
Proof.
  unfold out_emits. intros <- <- Hq Hv H. destruct (s_quiet o') eqn:Eq'.
  - rewrite (Hq eq_refl), emits_quiet_false in H. discriminate.
  - eapply emits_mono_unquiet; eauto.
Qed.

Lemma valid_verbosity_cases v : valid_verbosity v = true -> v = NORMAL \/ v = VERBOSE \/ v = VERY_VERBOSE \/ v = DEBUG.
Proof.
  unfold valid_verbosity. rewrite !orb_true_iff, !Z.eqb_eq. tauto.
Qed.
Lemma valid_verbosity_nonneg v : valid_verbosity v = true -> (0 <= v)%Z.
Proof. intros H. destruct (valid_verbosity_cases v H) as [-> | [-> | [-> | ->]]]; unfold NORMAL, VERBOSE, VERY_VERBOSE, DEBUG; lia. Qed.

Definition io_ok (n : nat) (ab : nat * nat) : Prop := fst ab < n /\ snd ab < n /\ fst ab <> snd ab.
Definition wf (w : world) : Prop :=
  Forall (fun o => valid_verbosity (s_verb o) = true) (w_outs w) /\ Forall (io_ok (length (w_outs w))) (w_ios w).

Lemma wf_world0 k sa se cs : wf (world0 k sa se cs).
Proof.
  split; cbn.
  - repeat constructor.
  - constructor; [|constructor]. unfold io_ok; cbn. lia.
Qed.

Lemma io_ok_mono n n' ab : n <= n' -> io_ok n ab -> io_ok n' ab.
Proof. unfold io_ok. lia. Qed.

Lemma wf_set_outs w i f : (forall x, valid_verbosity (s_verb x) = true -> valid_verbosity (s_verb (f x)) = true) ->
  wf w -> wf (set_outs w (upd (w_outs w) i f)).
Proof.
  intros Hf [H1 H2]. split; cbn [set_outs w_outs w_ios].
  - apply upd_Forall; assumption.
  - now rewrite upd_length.
Qed.
Lemma wf_on_out w o f : (forall x, valid_verbosity (s_verb x) = true -> valid_verbosity (s_verb (f x)) = true) ->
  wf w -> wf (fst (on_out w o f)).
Proof. intros Hf Hw. unfold on_out. destruct (nth_error (w_outs w) o); cbn [fst]; [now apply wf_set_outs|assumption]. Qed.
Lemma wf_on_both w i f : (forall x, valid_verbosity (s_verb x) = true -> valid_verbosity (s_verb (f x)) = true) ->
  wf w -> wf (fst (on_both w i f)).
Proof.
  intros Hf Hw. unfold on_both. destruct (nth_error (w_ios w) i) as [[a b]|]; cbn [fst]; [|assumption].
  destruct Hw as [H1 H2]. split; cbn [set_outs w_outs w_ios].
  - apply upd_Forall; [assumption|]. apply upd_Forall; assumption.
  - now rewrite !upd_length.
Qed.

Definition is_quiet_setter (s : iop) : bool := match s with ISetQuiet _ _ | OSetQuiet _ _ => true | _ => false end.
Definition is_verb_setter (s : iop) : bool := match s with ISetVerbosity _ _ | OSetVerbosity _ _ => true | _ => false end.
(* which outputs a gate setter reaches ... *)
Definition setter_touch (w : world) (s : iop) (j : nat) : bool :=
  match s with
  | ISetQuiet i _ | ISetVerbosity i _ =>
    match nth_error (w_ios w) i with Some (a, b) => Nat.eqb a j || Nat.eqb b j | None => false end
  | OSetQuiet o _ | OSetVerbosity o _ => Nat.eqb o j
  | _ => false
  end.
(* ... and what a call does to each output it reaches (nothing, for a call that changes no output) *)
Definition setter_fn (s : iop) : ost -> ost :=
  match s with
  | ISetQuiet _ q | OSetQuiet _ q => put_quiet q
  | ISetVerbosity _ v | OSetVerbosity _ v => if valid_verbosity v then put_verb v else (fun x => x)
  | ISetFormatter _ k | OSetFormatter _ k => put_formatter k
  | IIndent _ incr n | OIndent _ incr n => put_indent incr n
  | OSetStream _ sid sansi => put_stream sid sansi
  | _ => fun x => x
  end.
(* what a call does to the world, whatever it answers: nothing to the outputs and I/Os; what it applies (setter_fn) to one
   output, or to the two of an I/O; a section of one output behind the outputs; sections of the two outputs of an I/O
   behind the outputs, and the I/O that names them behind the I/Os *)
Inductive step_shape (w : world) (op : iop) : world -> Prop :=
| sh_keep w' : w_outs w' = w_outs w -> w_ios w' = w_ios w -> step_shape w op w'
| sh_out o : step_shape w op (fst (on_out w o (setter_fn op)))
| sh_both i : step_shape w op (fst (on_both w i (setter_fn op)))
| sh_io_section i a b oa ob : nth_error (w_ios w) i = Some (a, b) ->
    nth_error (w_outs w) a = Some oa -> nth_error (w_outs w) b = Some ob ->
    step_shape w op {| w_outs := w_outs w ++ [section_of oa; section_of ob];
                       w_ios := w_ios w ++ [(length (w_outs w), S (length (w_outs w)))];
                       w_inter := w_inter w; w_cansec := w_cansec w |}
| sh_out_section o x : nth_error (w_outs w) o = Some x ->
    step_shape w op {| w_outs := w_outs w ++ [section_of x]; w_ios := w_ios w; w_inter := w_inter w; w_cansec := w_cansec w |}.

Lemma step_shape_step w op : step_shape w op (fst (step w op)).
Proof.
  assert (step_shape w op w) as Same by now apply sh_keep.
  destruct op; cbn [step]; try apply sh_both; try apply sh_out.
  - destruct (io_delegate m) as [[t om] src]. destruct (nth_error (w_ios w) i); [|exact Same].
    destruct (nth_error (w_outs w) _); exact Same.
  - destruct (nth_error (w_ios w) i); [|exact Same]. pose proof (sh_both w (ISetVerbosity i v) i) as H. cbn [setter_fn] in H.
    destruct (valid_verbosity v); [exact H|exact Same].
  - destruct (nth_error (w_ios w) i); [now apply sh_keep|exact Same].
  - destruct (nth_error (w_ios w) i) as [[a b]|] eqn:Ei; [|exact Same].
    destruct (nth_error (w_outs w) a) as [oa|] eqn:Ea; [|exact Same].
    destruct (nth_error (w_outs w) b) as [ob|] eqn:Eb; [|exact Same].
    pose proof (sh_io_section w (ISection i) i a b oa ob Ei Ea Eb) as H. revert H.
    destruct (w_cansec w); intros H; [exact H|exact Same].
  - destruct (nth_error (w_outs w) o); [|exact Same]. destruct (has_method _ _); exact Same.
  - destruct (nth_error (w_outs w) o); [|exact Same]. pose proof (sh_out w (OSetVerbosity o v) o) as H. cbn [setter_fn] in H.
    destruct (valid_verbosity v); [exact H|exact Same].
  - destruct (nth_error (w_outs w) o) as [x|] eqn:Ex; [|exact Same]. exact (sh_out_section w _ o x Ex).
Qed.

(* no call gives an output a verbosity that is not a level *)
Lemma setter_fn_valid op x : valid_verbosity (s_verb x) = true -> valid_verbosity (s_verb (setter_fn op x)) = true.
Proof. destruct op; cbn [setter_fn]; auto; destruct (valid_verbosity v) eqn:Ev; auto. Qed.

Lemma wf_step w op : wf w -> wf (fst (step w op)).
Proof.
  intros Hw. pose proof Hw as [H1 H2].
  destruct (step_shape_step w op) as [w' Eo Ei|o|i|i a b oa ob Ei Ea Eb|o x Ex].
  - unfold wf. now rewrite Eo, Ei.
  - apply wf_on_out; [apply setter_fn_valid|assumption].
  - apply wf_on_both; [apply setter_fn_valid|assumption].
  - (* io.section(): the two new outputs have the verbosities of the old ones; the new I/O names them *)
    split; cbn [w_outs w_ios].
    + apply Forall_app. split; [assumption|].
      repeat constructor; cbn [section_of s_verb]; [exact (Forall_nth_error _ _ _ _ H1 Ea)|exact (Forall_nth_error _ _ _ _ H1 Eb)].
    + rewrite app_length. cbn [length]. apply Forall_app. split.
      * eapply Forall_impl; [|exact H2]. intros ab. apply io_ok_mono. lia.
      * constructor; [|constructor]. unfold io_ok; cbn [fst snd]. lia.
  - split; cbn [w_outs w_ios].
    + apply Forall_app. split; [assumption|]. repeat constructor. exact (Forall_nth_error _ _ _ _ H1 Ex).
    + rewrite app_length. cbn [length]. eapply Forall_impl; [|exact H2]. intros ab. apply io_ok_mono. lia.
Qed.

Lemma wf_exec : forall h w, wf w -> wf (exec w h).
Proof. unfold exec. induction h as [|op r IH]; intros w Hw; cbn [fold_left]; [assumption|]. apply IH, wf_step, Hw. Qed.

Lemma run_exec : forall h w, fst (run w h) = exec w h.
Proof.
  unfold exec. induction h as [|op r IH]; intros w; cbn [run fold_left]; [reflexivity|].
  destruct (step w op) as [w1 x] eqn:E. specialize (IH w1). destruct (run w1 r) as [w2 xs]. cbn [fst] in *. exact IH.
Qed.

Lemma reachable_wf k sa se cs h : wf (fst (run (world0 k sa se cs) h)).
Proof. rewrite run_exec. apply wf_exec, wf_world0. Qed.

(* the outputs an I/O of a reachable world names exist *)
Lemma wf_io_outputs w i a b : wf w -> nth_error (w_ios w) i = Some (a, b) ->
  (exists oa, nth_error (w_outs w) a = Some oa) /\ (exists ob, nth_error (w_outs w) b = Some ob) /\ a <> b.
Proof.
  intros [_ H2] Hi. destruct (Forall_nth_error _ _ _ _ H2 Hi) as (Ha & Hb & Hn). cbn [fst snd] in *.
  repeat split; [| |assumption].
  - destruct (nth_error (w_outs w) a) eqn:E; [eauto|]. apply nth_error_None in E. lia.
  - destruct (nth_error (w_outs w) b) eqn:E; [eauto|]. apply nth_error_None in E. lia.
Qed.
(* ... and their verbosities are levels: the reading of the gate through lowest_level applies *)
Lemma wf_verbosity_nonneg w j o : wf w -> nth_error (w_outs w) j = Some o -> (0 <= s_verb o)%Z.
Proof. intros [H1 _] Ho. apply valid_verbosity_nonneg. exact (Forall_nth_error _ _ _ _ H1 Ho). Qed.

Lemma io_write_step w i m fl ab o : nth_error (w_ios w) i = Some ab ->
  nth_error (w_outs w) (pick (fst (fst (io_delegate m))) ab) = Some o ->
  step w (IWrite i m fl) = (w, OWrote (s_sid o) (may_write (s_quiet o) (s_verb o) fl)).
Proof.
  intros Hi Ho. cbn [step]. pose proof (io_meth_has_path (kind_of o) (decorated o) m) as [p Hp].
  pose proof (io_meth_takes_flags m) as Ht. pose proof (io_meth_hands_on_the_flags m) as Hs.
  destruct (io_delegate m) as [[t om] src]. cbn [fst snd] in *. subst src. rewrite Hi, Ho. cbn [flags_given].
  rewrite out_emits_gate by (unfold has_method; now rewrite Hp). now rewrite Ht.
Qed.

Lemma put_quiet_idem q x : put_quiet q (put_quiet q x) = put_quiet q x. Proof. reflexivity. Qed.
Lemma put_verb_idem v x : put_verb v (put_verb v x) = put_verb v x. Proof. reflexivity. Qed.

Lemma option_map_id {X} (o : option X) : option_map (fun x => x) o = o.
Proof. destruct o; reflexivity. Qed.

Lemma on_out_effect w o f :
  let w' := fst (on_out w o f) in
  w_ios w' = w_ios w /\ w_inter w' = w_inter w /\ w_cansec w' = w_cansec w /\
  forall j, nth_error (w_outs w') j = if Nat.eqb o j then option_map f (nth_error (w_outs w) j) else nth_error (w_outs w) j.
Proof.
  unfold on_out. destruct (nth_error (w_outs w) o) eqn:E; cbn [fst set_outs w_ios w_inter w_cansec w_outs]; repeat split.
  - intros j. apply upd_nth.
  - intros j. destruct (Nat.eqb o j) eqn:Ej; [|reflexivity]. apply Nat.eqb_eq in Ej. subst. now rewrite E.
Qed.
Lemma on_both_effect w i f : (forall x, f (f x) = f x) ->
  let w' := fst (on_both w i f) in
  w_ios w' = w_ios w /\ w_inter w' = w_inter w /\ w_cansec w' = w_cansec w /\
  forall j, nth_error (w_outs w') j =
            if match nth_error (w_ios w) i with Some (a, b) => Nat.eqb a j || Nat.eqb b j | None => false end
            then option_map f (nth_error (w_outs w) j) else nth_error (w_outs w) j.
Proof.
  intros Hi. unfold on_both. destruct (nth_error (w_ios w) i) as [[a b]|]; cbn [fst set_outs w_ios w_inter w_cansec w_outs]; repeat split.
  intros j. now apply upd2_nth.
Qed.

Lemma on_both_length w i f : length (w_outs (fst (on_both w i f))) = length (w_outs w).
Proof. unfold on_both. destruct (nth_error (w_ios w) i) as [[a b]|]; cbn [fst set_outs w_outs]; now rewrite ?upd_length. Qed.

Lemma setter_effect w s : is_quiet_setter s || is_verb_setter s = true ->
  let w' := fst (step w s) in
  w_ios w' = w_ios w /\ w_inter w' = w_inter w /\ w_cansec w' = w_cansec w /\
  forall j, nth_error (w_outs w') j =
            if setter_touch w s j then option_map (setter_fn s) (nth_error (w_outs w) j) else nth_error (w_outs w) j.
Proof.
  destruct s; cbn [is_quiet_setter is_verb_setter orb]; try discriminate; intros _; cbn [step setter_touch setter_fn].
  - apply on_both_effect. reflexivity.
  - destruct (nth_error (w_ios w) i) as [[a b]|] eqn:Ei.
    + destruct (valid_verbosity v).
      * pose proof (on_both_effect w i (put_verb v) (fun x => eq_refl)) as H. rewrite Ei in H. exact H.
      * cbn [fst]. repeat split. intros j. rewrite option_map_id. now destruct (_ || _).
    + cbn [fst]. repeat split.
  - apply on_out_effect.
  - destruct (nth_error (w_outs w) o) eqn:Eo.
    + destruct (valid_verbosity v).
      * apply on_out_effect.
      * cbn [fst]. repeat split. intros j. rewrite option_map_id. now destruct (Nat.eqb o j).
    + cbn [fst]. repeat split. intros j. destruct (Nat.eqb o j) eqn:Ej; [|reflexivity]. apply Nat.eqb_eq in Ej. subst.
      rewrite Eo. reflexivity.
Qed.

Lemma setter_touch_ios w w' s j : w_ios w = w_ios w' -> setter_touch w s j = setter_touch w' s j.
Proof. intros E. destruct s; cbn [setter_touch]; try reflexivity; now rewrite E. Qed.

Lemma quiet_verb_fn_commute s1 s2 x : is_quiet_setter s1 = true -> is_verb_setter s2 = true ->
  setter_fn s2 (setter_fn s1 x) = setter_fn s1 (setter_fn s2 x).
Proof.
  destruct s1; cbn [is_quiet_setter]; try discriminate; destruct s2; cbn [is_verb_setter]; try discriminate; intros _ _;
    cbn [setter_fn]; destruct (valid_verbosity _); reflexivity.
Qed.

(* a field that f keeps is kept by a call that applies f, wherever it applies it *)
Lemma on_out_keeps {X} (pr : ost -> X) w o f j : (forall y, pr (f y) = pr y) ->
  option_map pr (nth_error (w_outs (fst (on_out w o f))) j) = option_map pr (nth_error (w_outs w) j).
Proof.
  intros Hf. unfold on_out. destruct (nth_error (w_outs w) o); [|reflexivity]. cbn [fst set_outs w_outs]. now apply upd_keeps.
Qed.
Lemma on_both_keeps {X} (pr : ost -> X) w i f j : (forall y, pr (f y) = pr y) ->
  option_map pr (nth_error (w_outs (fst (on_both w i f))) j) = option_map pr (nth_error (w_outs w) j).
Proof.
  intros Hf. unfold on_both. destruct (nth_error (w_ios w) i) as [[a b]|]; [|reflexivity]. cbn [fst set_outs w_outs].
  now rewrite !upd_keeps.
Qed.
(* ... so a call keeps, on every output that exists, each field that what it applies keeps (new outputs come behind) *)
Lemma step_keeps {X} (pr : ost -> X) w op j : (forall y, pr (setter_fn op y) = pr y) -> j < length (w_outs w) ->
  option_map pr (nth_error (w_outs (fst (step w op))) j) = option_map pr (nth_error (w_outs w) j).
Proof.
  intros Hf Hj. destruct (step_shape_step w op) as [w' Eo _|o|i|i a b oa ob _ _ _|o x _].
  - now rewrite Eo.
  - apply on_out_keeps, Hf.
  - apply on_both_keeps, Hf.
  - cbn [w_outs]. now rewrite nth_error_app1.
  - cbn [w_outs]. now rewrite nth_error_app1.
Qed.

(* the LAST value given: the quiet value / the verbosity a call gives to output j (in a world whose I/Os are those of w) *)
Definition gives_quiet (w : world) (op : iop) (j : nat) : option bool :=
  match op with
  | ISetQuiet i q => match nth_error (w_ios w) i with
                     | Some (a, b) => if Nat.eqb a j || Nat.eqb b j then Some q else None | None => None end
  | OSetQuiet o q => if Nat.eqb o j then Some q else None
  | _ => None
  end.
Definition gives_verb (w : world) (op : iop) (j : nat) : option Z :=
  match op with
  | ISetVerbosity i v => match nth_error (w_ios w) i with
                         | Some (a, b) => if (Nat.eqb a j || Nat.eqb b j) && valid_verbosity v then Some v else None | None => None end
  | OSetVerbosity o v => if Nat.eqb o j && valid_verbosity v then Some v else None
  | _ => None
  end.
Definition last_given {X} (gives : iop -> option X) (h : list iop) : option X :=
  fold_left (fun acc op => match gives op with Some x => Some x | None => acc end) h None.
Definition or_else {X} (o : option X) (d : X) : X := match o with Some x => x | None => d end.

(* wc is a world reached from w: the I/Os of w are still there, every I/O made since has outputs made since *)
Definition ext (w wc : world) : Prop :=
  exists extra, w_ios wc = w_ios w ++ extra /\
                Forall (fun ab : nat * nat => length (w_outs w) <= fst ab /\ length (w_outs w) <= snd ab) extra /\
                length (w_outs w) <= length (w_outs wc).
Lemma ext_refl w : ext w w.
Proof. exists []. rewrite app_nil_r. repeat split; auto. Qed.

Lemma ext_ios w wc i : ext w wc -> forall ab, nth_error (w_ios wc) i = Some ab ->
  nth_error (w_ios w) i = Some ab \/ (nth_error (w_ios w) i = None /\ length (w_outs w) <= fst ab /\ length (w_outs w) <= snd ab).
Proof.
  intros (extra & He & Hf & _) ab H. rewrite He in H. destruct (lt_dec i (length (w_ios w))) as [Hl|Hl].
  - left. now rewrite nth_error_app1 in H.
  - right. rewrite nth_error_app2 in H by lia. split; [apply nth_error_None; lia|].
    apply (proj1 (Forall_forall _ _) Hf ab). eapply nth_error_In; eauto.
Qed.
Lemma ext_ios_old w wc i ab : ext w wc -> nth_error (w_ios w) i = Some ab -> nth_error (w_ios wc) i = Some ab.
Proof. intros (extra & He & _) H. rewrite He. rewrite nth_error_app1; [assumption|]. apply nth_error_Some. congruence. Qed.

Lemma ext_set_outs w wc l : ext w wc -> length l = length (w_outs wc) -> ext w (set_outs wc l).
Proof. intros (extra & He & Hf & Hl) E. exists extra. cbn [set_outs w_ios w_outs]. rewrite E. auto. Qed.

Lemma ext_on_out w wc o f : ext w wc -> ext w (fst (on_out wc o f)).
Proof.
  intros He. unfold on_out. destruct (nth_error (w_outs wc) o); [|assumption]. apply ext_set_outs; [assumption|apply upd_length].
Qed.
Lemma ext_on_both w wc i f : ext w wc -> ext w (fst (on_both wc i f)).
Proof.
  intros He. unfold on_both. destruct (nth_error (w_ios wc) i) as [[a b]|]; [|assumption].
  apply ext_set_outs; [assumption|now rewrite !upd_length].
Qed.

Lemma ext_step w wc op : ext w wc -> ext w (fst (step wc op)).
Proof.
  intros He. destruct (step_shape_step wc op) as [w' Eo Ei|o|i|i a b oa ob _ _ _|o x _].
  - destruct He as (extra & E & Hf & Hl). exists extra. rewrite Eo, Ei. auto.
  - apply ext_on_out, He.
  - apply ext_on_both, He.
  - destruct He as (extra & E & Hf & Hl).
    exists (extra ++ [(length (w_outs wc), S (length (w_outs wc)))]). cbn [w_ios w_outs]. rewrite E, app_assoc.
    repeat split; [|rewrite app_length; lia]. apply Forall_app. split; [assumption|]. constructor; [|constructor]. cbn [fst snd]. lia.
  - destruct He as (extra & E & Hf & Hl). exists extra. cbn [w_ios w_outs].
    rewrite app_length. repeat split; auto. lia.
Qed.

(* one call, seen from output j of the starting world: the settings it has afterwards *)
Definition field_after {X} (given : option X) (before : option X) : option X :=
  match before with Some old => Some (or_else given old) | None => None end.

Lemma eqb_false_of_lt a j : j < a -> Nat.eqb a j = false.
Proof. intros H. apply Nat.eqb_neq. lia. Qed.

(* an output of the starting world is reached by the same setters in every world reached from it: an I/O made since has
   outputs made since *)
Lemma setter_touch_ext w wc s j : ext w wc -> j < length (w_outs w) -> setter_touch wc s j = setter_touch w s j.
Proof.
  intros He Hj.
  assert (forall i, match nth_error (w_ios wc) i with Some (a, b) => Nat.eqb a j || Nat.eqb b j | None => false end =
                    match nth_error (w_ios w) i with Some (a, b) => Nat.eqb a j || Nat.eqb b j | None => false end) as Hio.
  { intros i. destruct (nth_error (w_ios wc) i) as [[a b]|] eqn:Ei.
    - destruct (ext_ios w wc i He _ Ei) as [->|(-> & Ha & Hb)]; [reflexivity|]. cbn [fst snd] in *.
      now rewrite (eqb_false_of_lt a j), (eqb_false_of_lt b j) by lia.
    - destruct (nth_error (w_ios w) i) as [ab|] eqn:Ew; [|reflexivity].
      rewrite (ext_ios_old w wc i ab He Ew) in Ei. discriminate. }
  destruct s; cbn [setter_touch]; auto.
Qed.

(* only the quiet setters change a quiet flag, only the verbosity setters a verbosity *)
Lemma setter_fn_keeps_quiet op y : is_quiet_setter op = false -> s_quiet (setter_fn op y) = s_quiet y.
Proof. destruct op; try discriminate; intros _; cbn [setter_fn]; try destruct (valid_verbosity _); reflexivity. Qed.
Lemma setter_fn_keeps_verb op y : is_verb_setter op = false -> s_verb (setter_fn op y) = s_verb y.
Proof. destruct op; try discriminate; intros _; reflexivity. Qed.

Lemma step_quiet_of w wc op j : ext w wc -> j < length (w_outs w) ->
  option_map s_quiet (nth_error (w_outs (fst (step wc op))) j) =
  field_after (gives_quiet w op j) (option_map s_quiet (nth_error (w_outs wc) j)).
Proof.
  intros He Hj. assert (j < length (w_outs wc)) as Hjc by (destruct He as (_ & _ & _ & Hl); lia).
  destruct (is_quiet_setter op) eqn:Eq.
  - pose proof (setter_effect wc op ltac:(now rewrite Eq)) as (_ & _ & _ & D).
    rewrite D, (setter_touch_ext w wc op j He Hj).
    destruct op; try discriminate Eq; cbn [setter_touch setter_fn gives_quiet].
    + destruct (nth_error (w_ios w) i) as [[a b]|]; [destruct (_ || _)|]; destruct (nth_error (w_outs wc) j); reflexivity.
    + destruct (Nat.eqb o j), (nth_error (w_outs wc) j); reflexivity.
  - rewrite step_keeps by (assumption || (intros y; now apply setter_fn_keeps_quiet)).
    destruct op; try discriminate Eq; cbn [gives_quiet]; now destruct (nth_error (w_outs wc) j).
Qed.

Lemma step_verb_of w wc op j : ext w wc -> j < length (w_outs w) ->
  option_map s_verb (nth_error (w_outs (fst (step wc op))) j) =
  field_after (gives_verb w op j) (option_map s_verb (nth_error (w_outs wc) j)).
Proof.
  intros He Hj. assert (j < length (w_outs wc)) as Hjc by (destruct He as (_ & _ & _ & Hl); lia).
  destruct (is_verb_setter op) eqn:Eq.
  - pose proof (setter_effect wc op ltac:(rewrite Eq; apply orb_true_r)) as (_ & _ & _ & D).
    rewrite D, (setter_touch_ext w wc op j He Hj).
    destruct op; try discriminate Eq; cbn [setter_touch setter_fn gives_verb].
    + destruct (nth_error (w_ios w) i) as [[a b]|]; [destruct (_ || _)|];
        destruct (valid_verbosity v), (nth_error (w_outs wc) j); reflexivity.
    + destruct (Nat.eqb o j), (valid_verbosity v), (nth_error (w_outs wc) j); reflexivity.
  - rewrite step_keeps by (assumption || (intros y; now apply setter_fn_keeps_verb)).
    destruct op; try discriminate Eq; cbn [gives_verb]; now destruct (nth_error (w_outs wc) j).
Qed.

Lemma ext_exec : forall h w wc, ext w wc -> ext w (exec wc h).
Proof. unfold exec. induction h as [|op r IH]; intros w wc He; cbn [fold_left]; [assumption|]. apply IH, ext_step, He. Qed.

Lemma exec_snoc w h op : exec w (h ++ [op]) = fst (step (exec w h) op).
Proof. unfold exec. now rewrite fold_left_app. Qed.
Lemma last_given_snoc {X} (g : iop -> option X) h op :
  last_given g (h ++ [op]) = match g op with Some x => Some x | None => last_given g h end.
Proof. unfold last_given. now rewrite fold_left_app. Qed.

(* op' is op, or the same setter leaving quiet where op entered it / giving a higher (valid) verbosity *)
Inductive raises : iop -> iop -> Prop :=
| r_same op : raises op op
| r_io_quiet i q q' : (q' = true -> q = true) -> raises (ISetQuiet i q) (ISetQuiet i q')
| r_out_quiet o q q' : (q' = true -> q = true) -> raises (OSetQuiet o q) (OSetQuiet o q')
| r_io_verb i v v' : valid_verbosity v = true -> valid_verbosity v' = true -> (v <= v')%Z ->
                     raises (ISetVerbosity i v) (ISetVerbosity i v')
| r_out_verb o v v' : valid_verbosity v = true -> valid_verbosity v' = true -> (v <= v')%Z ->
                      raises (OSetVerbosity o v) (OSetVerbosity o v').

Definition le_out (o o' : ost) : Prop :=
  (s_quiet o' = true -> s_quiet o = true) /\ (s_verb o <= s_verb o')%Z /\ s_indent o = s_indent o' /\ s_fk o = s_fk o' /\
  s_sid o = s_sid o' /\ s_sansi o = s_sansi o' /\ s_fo o = s_fo o' /\ s_sec o = s_sec o'.
Definition le_world (w w' : world) : Prop :=
  Forall2 le_out (w_outs w) (w_outs w') /\ w_ios w = w_ios w' /\ w_inter w = w_inter w' /\ w_cansec w = w_cansec w'.
Definition obs_le (x x' : obs) : Prop :=
  match x, x' with
  | OWrote s e, OWrote s' e' => s = s' /\ (e = true -> e' = true)
  | ODone, ODone | ONothing, ONothing => True
  | ORaised k, ORaised k' => k = k'
  | _, _ => False
  end.

Lemma le_out_refl o : le_out o o.
Proof. unfold le_out. repeat split; auto. lia. Qed.
Lemma le_world_refl w : le_world w w.
Proof. split; [|auto]. induction (w_outs w); constructor; auto using le_out_refl. Qed.

Lemma Forall2_nth {X} (R : X -> X -> Prop) l l' : Forall2 R l l' -> forall i,
  match nth_error l i, nth_error l' i with
  | Some x, Some x' => R x x'
  | None, None => True
  | _, _ => False
  end.
Proof.
  induction 1 as [|x x' l l' Hx _ IH]; intros [|i]; cbn [nth_error]; auto. apply IH.
Qed.
Lemma Forall2_upd (R : ost -> ost -> Prop) f f' : (forall x x', R x x' -> R (f x) (f' x')) ->
  forall l l', Forall2 R l l' -> forall i, Forall2 R (upd l i f) (upd l' i f').
Proof.
  intros Hf. induction 1 as [|x x' l l' Hx Hl IH]; intros [|i]; cbn [upd]; constructor; auto.
Qed.

Lemma le_out_emits o o' m fl : le_out o o' -> out_emits o m fl = true -> out_emits o' m fl = true.
Proof.
  intros (Hq & Hv & _ & Hk & _ & _ & Hfo & Hsec). apply out_emits_monotone; auto.
  - unfold kind_of. now rewrite Hsec.
  - unfold decorated. now rewrite Hfo, Hk.
Qed.
Lemma le_out_has_method o o' m : le_out o o' -> has_method o m = has_method o' m.
Proof. intros (_ & _ & _ & Hk & _ & _ & Hfo & Hsec). unfold has_method, kind_of, decorated. now rewrite Hsec, Hfo, Hk. Qed.
Lemma le_out_section o o' : le_out o o' -> le_out (section_of o) (section_of o').
Proof. intros (Hq & Hv & Hi & Hk & Hs & Ha & Hfo & Hsec). unfold le_out. cbn [section_of s_quiet s_verb s_indent s_fk s_sid s_sansi s_fo s_sec]. rewrite Hk, Ha. repeat split; auto. Qed.

(* the two calls of a pair read the same I/O, and outputs that are related, or both name nothing *)
Lemma le_at_io w w' i (k k' : nat * nat -> world * obs) : le_world w w' ->
  (forall ab, le_world (fst (k ab)) (fst (k' ab)) /\ obs_le (snd (k ab)) (snd (k' ab))) ->
  let r := match nth_error (w_ios w) i with Some ab => k ab | None => (w, ONothing) end in
  let r' := match nth_error (w_ios w') i with Some ab => k' ab | None => (w', ONothing) end in
  le_world (fst r) (fst r') /\ obs_le (snd r) (snd r').
Proof.
  intros Hw Hk. cbn zeta. rewrite <- (proj1 (proj2 Hw)). destruct (nth_error (w_ios w) i); [apply Hk|split; [exact Hw|exact I]].
Qed.
Lemma le_at_out w w' o (k k' : ost -> world * obs) : le_world w w' ->
  (forall x x', le_out x x' -> le_world (fst (k x)) (fst (k' x')) /\ obs_le (snd (k x)) (snd (k' x'))) ->
  let r := match nth_error (w_outs w) o with Some x => k x | None => (w, ONothing) end in
  let r' := match nth_error (w_outs w') o with Some x => k' x | None => (w', ONothing) end in
  le_world (fst r) (fst r') /\ obs_le (snd r) (snd r').
Proof.
  intros Hw Hk. cbn zeta. pose proof (Forall2_nth _ _ _ (proj1 Hw) o) as Hx.
  destruct (nth_error (w_outs w) o), (nth_error (w_outs w') o); try contradiction; [now apply Hk|split; [exact Hw|exact I]].
Qed.

Lemma le_on_out w w' o f f' : (forall x x', le_out x x' -> le_out (f x) (f' x')) -> le_world w w' ->
  le_world (fst (on_out w o f)) (fst (on_out w' o f')) /\ obs_le (snd (on_out w o f)) (snd (on_out w' o f')).
Proof.
  intros Hf Hw. apply (le_at_out w w' o); [exact Hw|]. intros _ _ _. destruct Hw as (Ho & Hr).
  split; [|exact I]. split; [|exact Hr]. now apply Forall2_upd.
Qed.
Lemma le_on_both w w' i f f' : (forall x x', le_out x x' -> le_out (f x) (f' x')) -> le_world w w' ->
  le_world (fst (on_both w i f)) (fst (on_both w' i f')) /\ obs_le (snd (on_both w i f)) (snd (on_both w' i f')).
Proof.
  intros Hf Hw. apply (le_at_io w w' i); [exact Hw|]. intros [a b]. destruct Hw as (Ho & Hr).
  split; [|exact I]. split; [|exact Hr]. apply Forall2_upd; [assumption|]. now apply Forall2_upd.
Qed.

Lemma le_put_same (g : ost -> ost) :
  (forall x, s_quiet (g x) = s_quiet x) -> (forall x, s_verb (g x) = s_verb x) ->
  (forall x x', le_out x x' -> s_indent (g x) = s_indent (g x') /\ s_fk (g x) = s_fk (g x') /\ s_sid (g x) = s_sid (g x') /\
                s_sansi (g x) = s_sansi (g x') /\ s_fo (g x) = s_fo (g x') /\ s_sec (g x) = s_sec (g x')) ->
  forall x x', le_out x x' -> le_out (g x) (g x').
Proof.
  intros Hq Hv Hr x x' H. pose proof (Hr x x' H) as (A & B & C & D & E & F). destruct H as (Q & V & _).
  unfold le_out. rewrite !Hq, !Hv. repeat split; auto.
Qed.
Lemma le_put_quiet q q' x x' : (q' = true -> q = true) -> le_out x x' -> le_out (put_quiet q x) (put_quiet q' x').
Proof. intros Hq (Q & V & I & K & S & A & F & C). unfold le_out; cbn. repeat split; auto. Qed.
Lemma le_put_verb v v' x x' : (v <= v')%Z -> le_out x x' -> le_out (put_verb v x) (put_verb v' x').
Proof. intros Hv (Q & V & I & K & S & A & F & C). unfold le_out; cbn. repeat split; auto. Qed.

(* the same call on both sides: what it applies keeps the order *)
Lemma le_setter_fn op x x' : le_out x x' -> le_out (setter_fn op x) (setter_fn op x').
Proof.
  intros H. pose proof H as (Q & V & I & K & S & A & F & C). destruct op; cbn [setter_fn]; try exact H.
  1, 5: now apply le_put_quiet.
  1, 4: destruct (valid_verbosity v); [apply le_put_verb; [lia|exact H]|exact H].
  (* formatter, indentation, stream: what is new is computed from fields that agree *)
  all: unfold le_out; cbn; rewrite ?I, ?A, ?K; repeat split; auto.
Qed.

Lemma step_le_same w w' op : le_world w w' ->
  le_world (fst (step w op)) (fst (step w' op)) /\ obs_le (snd (step w op)) (snd (step w' op)).
Proof.
  intros Hw. pose proof Hw as (Ho & Hi & Hn & Hc). pose proof (le_setter_fn op) as Hf.
  destruct op; cbn [step setter_fn] in *; try (apply le_on_both; assumption); try (apply le_on_out; assumption).
  - destruct (io_delegate m) as [[t om] src]. apply le_at_io; [exact Hw|]. intros ab. apply le_at_out; [exact Hw|].
    intros x x' Hx. split; [exact Hw|]. split; [apply Hx|]. now apply le_out_emits.
  - apply le_at_io; [exact Hw|]. intros _. destruct (valid_verbosity v); [|split; [exact Hw|reflexivity]].
    apply le_on_both; [|assumption]. intros x x'. apply le_put_verb. lia.
  - apply le_at_io; [exact Hw|]. intros _. split; [|exact I]. split; [assumption|]. cbn. auto.
  - apply le_at_io; [exact Hw|]. intros [a b]. apply le_at_out; [exact Hw|]. intros oa oa' Ha.
    apply le_at_out; [exact Hw|]. intros ob ob' Hb.
    rewrite <- Hc. destruct (w_cansec w); [|split; [exact Hw|reflexivity]]. split; [|exact I].
    split; cbn [fst w_outs w_ios w_inter w_cansec].
    + apply Forall2_app; [assumption|]. constructor; [now apply le_out_section|]. constructor; [now apply le_out_section|constructor].
    + rewrite (Forall2_length _ _ _ Ho), Hi. auto.
  - apply le_at_out; [exact Hw|]. intros x x' Hx. rewrite <- (le_out_has_method x x' _ Hx).
    destruct (has_method x _); [|split; [exact Hw|reflexivity]]. split; [exact Hw|]. split; [apply Hx|]. now apply le_out_emits.
  - apply le_at_out; [exact Hw|]. intros _ _ _. destruct (valid_verbosity v); [|split; [exact Hw|reflexivity]].
    apply le_on_out; [|assumption]. intros y y'. apply le_put_verb. lia.
  - apply le_at_out; [exact Hw|]. intros x x' Hx. split; [|exact I]. split; cbn [fst w_outs w_ios w_inter w_cansec]; [|auto].
    apply Forall2_app; [assumption|]. constructor; [now apply le_out_section|constructor].
Qed.

Lemma step_le w w' op op' : le_world w w' -> raises op op' ->
  le_world (fst (step w op)) (fst (step w' op')) /\ obs_le (snd (step w op)) (snd (step w' op')).
Proof.
  intros Hw Hr. destruct Hr as [op|i q q' Hq|o q q' Hq|i v v' Hv Hv' Hl|o v v' Hv Hv' Hl]; cbn [step]; rewrite ?Hv, ?Hv'.
  - now apply step_le_same.
  - apply le_on_both; [|assumption]. intros x x'. now apply le_put_quiet.
  - apply le_on_out; [|assumption]. intros x x'. now apply le_put_quiet.
  - apply le_at_io; [exact Hw|]. intros _. apply le_on_both; [|assumption]. intros x x'. now apply le_put_verb.
  - apply le_at_out; [exact Hw|]. intros _ _ _. apply le_on_out; [|assumption]. intros y y'. now apply le_put_verb.
Qed.

Lemma run_le : forall h h', Forall2 raises h h' -> forall w w', le_world w w' ->
  Forall2 obs_le (snd (run w h)) (snd (run w' h')) /\ le_world (fst (run w h)) (fst (run w' h')).
Proof.
  induction 1 as [|op op' h h' Hop _ IH]; intros w w' Hw; cbn [run].
  - split; [constructor|assumption].
  - destruct (step_le w w' op op' Hw Hop) as [Hw1 Hx].
    destruct (step w op) as [w1 x], (step w' op') as [w1' x']. cbn [fst snd] in *.
    destruct (IH w1 w1' Hw1) as [Hxs Hw2]. destruct (run w1 h) as [w2 xs], (run w1' h') as [w2' xs']. cbn [fst snd] in *.
    split; [constructor; assumption|assumption].
Qed.

Lemma nth_error_ext {X} : forall (l l' : list X), (forall j, nth_error l j = nth_error l' j) -> l = l'.
Proof.
  induction l as [|x r IH]; intros [|x' r'] H.
  - reflexivity.
  - specialize (H 0). discriminate.
  - specialize (H 0). discriminate.
  - pose proof (H 0) as H0. cbn in H0. inversion H0; subst. f_equal. apply IH. intros j. exact (H (S j)).
Qed.
Lemma world_ext w w' : w_outs w = w_outs w' -> w_ios w = w_ios w' -> w_inter w = w_inter w' -> w_cansec w = w_cansec w' -> w = w'.
Proof. destruct w, w'; cbn. intros; subst; reflexivity. Qed.

Lemma io_section_step w i a b oa ob : nth_error (w_ios w) i = Some (a, b) ->
  nth_error (w_outs w) a = Some oa -> nth_error (w_outs w) b = Some ob -> w_cansec w = true ->
  step w (ISection i) = ({| w_outs := w_outs w ++ [section_of oa; section_of ob];
                            w_ios := w_ios w ++ [(length (w_outs w), S (length (w_outs w)))];
                            w_inter := w_inter w; w_cansec := w_cansec w |}, ODone).
Proof. intros Hi Ha Hb Hc. cbn [step]. now rewrite Hi, Ha, Hb, Hc. Qed.

Lemma nth_error_app_at {X} (l : list X) x r : nth_error (l ++ x :: r) (length l) = Some x.
Proof. exact (nth_error_app_here l x r). Qed.
Lemma nth_error_app_at1 {X} (l : list X) x y r : nth_error (l ++ x :: y :: r) (S (length l)) = Some y.
Proof. rewrite nth_error_app2 by lia. replace (S (length l) - length l) with 1 by lia. reflexivity. Qed.

(* what a setter of the I/O that applies f to both outputs leaves, and what a section made right afterwards starts with *)
Lemma io_setter_both w i a b oa ob f : (forall x, f (f x) = f x) ->
  nth_error (w_ios w) i = Some (a, b) -> nth_error (w_outs w) a = Some oa -> nth_error (w_outs w) b = Some ob ->
  let w' := fst (on_both w i f) in
  snd (on_both w i f) = ODone /\
  nth_error (w_outs w') a = Some (f oa) /\ nth_error (w_outs w') b = Some (f ob) /\
  (forall j, j <> a -> j <> b -> nth_error (w_outs w') j = nth_error (w_outs w) j) /\
  w_ios w' = w_ios w /\ length (w_outs w') = length (w_outs w) /\
  (w_cansec w = true ->
   let w2 := fst (step w' (ISection i)) in
   snd (step w' (ISection i)) = ODone /\
   nth_error (w_ios w2) (length (w_ios w)) = Some (length (w_outs w), S (length (w_outs w))) /\
   nth_error (w_outs w2) (length (w_outs w)) = Some (section_of (f oa)) /\
   nth_error (w_outs w2) (S (length (w_outs w))) = Some (section_of (f ob))).
Proof.
  intros Hf Hi Ha Hb. pose proof (on_both_effect w i f Hf) as (S2 & _ & S4 & S6). pose proof (on_both_length w i f) as S5.
  cbn zeta in *. rewrite Hi in S6.
  assert (nth_error (w_outs (fst (on_both w i f))) a = Some (f oa)) as Ea by (rewrite S6, Nat.eqb_refl, Ha; reflexivity).
  assert (nth_error (w_outs (fst (on_both w i f))) b = Some (f ob)) as Eb by (rewrite S6, Nat.eqb_refl, orb_true_r, Hb; reflexivity).
  split; [unfold on_both; now rewrite Hi|]. repeat (split; [assumption|]). split; [|split; [exact S2|split; [exact S5|]]].
  - intros j Hja Hjb. rewrite S6. rewrite (proj2 (Nat.eqb_neq a j)), (proj2 (Nat.eqb_neq b j)) by congruence. reflexivity.
  - intros Hc. rewrite (io_section_step _ i a b (f oa) (f ob)) by congruence. cbn [fst snd w_ios w_outs].
    rewrite <- S5, <- S2. repeat split; [apply nth_error_app_at | apply nth_error_app_at | apply nth_error_app_at1].
Qed.

Lemma io_set_verbosity_valid w i ab v : nth_error (w_ios w) i = Some ab -> valid_verbosity v = true ->
  step w (ISetVerbosity i v) = on_both w i (put_verb v).
Proof. intros Hi Hv. cbn [step]. now rewrite Hi, Hv. Qed.
Lemma io_set_verbosity_invalid w i ab v : nth_error (w_ios w) i = Some ab -> valid_verbosity v = false ->
  step w (ISetVerbosity i v) = (w, ORaised ValueError).
Proof. intros Hi Hv. cbn [step]. now rewrite Hi, Hv. Qed.

Definition emitted (x : obs) : option bool := match x with OWrote _ e => Some e | _ => None end.
