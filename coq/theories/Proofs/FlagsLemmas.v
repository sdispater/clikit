(* C07: the flag words of Model/Flags.v bit by bit (tb), validation and normalisation of option and argument flags, the one
   rule for defaults, the normal forms of the constructed objects; of Model/Conv.v, what parse_typed returns, and int() on
   decimal texts with CPython's limit of 4300 digits. *)
From Coq Require Import Lia Decimal DecimalZ DecimalFacts DecimalPos DecimalN.
From Clikit Require Import Proofs.ListLemmas.
From Clikit Require Import Base.Prelude Base.Res Model.Conv Model.Flags Proofs.Bits.

Definition tb (f k : Z) : bool := Z.testbit f k.
Arguments tb : simpl never.

Lemma bit_tb f k : (0 <= k)%Z -> bit f k = tb f k.
Proof. intros H. unfold bit, tb. rewrite land_pow2_testbit by assumption. apply negb_involutive. Qed.

Lemma tb_cond_setbit (c : bool) f j k : (0 <= j)%Z ->
  tb (if c then setbit f j else f) k = tb f k || ((k =? j)%Z && c).
Proof.
  intros Hj. unfold tb, setbit. destruct c.
  - rewrite testbit_lor_pow2 by assumption. now rewrite andb_true_r.
  - now rewrite andb_false_r, orb_false_r.
Qed.

Definition is_ok {X} (r : res X) : bool := match r with Ok _ => true | Err _ => false end.
Definition at_most_one (a b c d : bool) : bool :=
  negb ((a && b) || (a && c) || (a && d) || (b && c) || (b && d) || (c && d)).
Definition exactly_one (a b c d : bool) : bool := (a || b || c || d) && at_most_one a b c d.

(* the documented contradictions, on named bits *)
Definition opt_flags_ok (f : Z) : bool :=
  negb (tb f 0 && tb f 1) &&                       (* both name preferences *)
  negb (tb f 2 && (tb f 3 || tb f 4 || tb f 5)) && (* value-less and requires/optionally takes/multiplies a value *)
  negb (tb f 4 && tb f 5) &&                       (* optional value and multi-valued *)
  at_most_one (tb f 7) (tb f 8) (tb f 9) (tb f 10).
Definition arg_flags_ok (f : Z) : bool :=
  negb (tb f 0 && tb f 1) && at_most_one (tb f 4) (tb f 5) (tb f 6) (tb f 7).

Ltac bits_to_tb := rewrite ?bit_tb by lia.

Lemma opt_flags_ok_inv f : opt_flags_ok f = true ->
  (tb f 0 && tb f 1) = false /\ (tb f 2 && (tb f 3 || tb f 4 || tb f 5)) = false /\ (tb f 4 && tb f 5) = false /\
  at_most_one (tb f 7) (tb f 8) (tb f 9) (tb f 10) = true.
Proof.
  unfold opt_flags_ok. intros H. apply andb_prop in H as [H Ht]. apply andb_prop in H as [H H45].
  apply andb_prop in H as [H01 H2]. now rewrite <- !negb_true_iff.
Qed.

Lemma type_exclusive_ok f s b i fl : (0 <= s)%Z -> (0 <= b)%Z -> (0 <= i)%Z -> (0 <= fl)%Z ->
  type_exclusive f s b i fl = if at_most_one (tb f s) (tb f b) (tb f i) (tb f fl) then Ok tt else Err ValueError.
Proof.
  intros. unfold type_exclusive. bits_to_tb.
  destruct (tb f s), (tb f b), (tb f i), (tb f fl); reflexivity.
Qed.

Lemma opt_validate_iff f : opt_validate f = if opt_flags_ok f then Ok tt else Err ValueError.
Proof.
  unfold opt_validate, abs_validate, opt_flags_ok. rewrite type_exclusive_ok by lia. bits_to_tb.
  destruct (tb f 0), (tb f 1), (tb f 2), (tb f 3), (tb f 4), (tb f 5); cbn;
    try reflexivity; destruct (at_most_one _ _ _ _); reflexivity.
Qed.
Lemma arg_validate_iff f : arg_validate f = if arg_flags_ok f then Ok tt else Err ValueError.
Proof.
  unfold arg_validate, arg_flags_ok. rewrite type_exclusive_ok by lia. bits_to_tb.
  destruct (tb f 0), (tb f 1); cbn; try reflexivity; destruct (at_most_one _ _ _ _); reflexivity.
Qed.

(* Every bit of the normalised flag word.  Each step of _add_default_flags reads bits that no earlier step writes, so the
   conditions are those of the word given. *)
Lemma opt_defaults_tb f hs k : (0 <= k)%Z ->
  tb (opt_defaults f hs) k =
  tb f k || (k =? 0)%Z && (negb hs && negb (tb f 0 || tb f 1)) || (k =? 1)%Z && (hs && negb (tb f 0 || tb f 1))
    || (k =? 2)%Z && negb (tb f 2 || tb f 3 || tb f 4 || tb f 5)
    || (k =? 7)%Z && negb (tb f 7 || tb f 8 || tb f 9 || tb f 10)
    || (k =? 3)%Z && (tb f 5 && negb (tb f 3)).
Proof.
  intros Hk. unfold opt_defaults, abs_defaults. cbv zeta. bits_to_tb.
  rewrite !tb_cond_setbit by (destruct hs; lia).
  destruct hs; cbn [Z.eqb Pos.eqb andb negb]; now rewrite ?andb_false_r, ?orb_false_r.
Qed.
Lemma arg_defaults_tb f k : (0 <= k)%Z ->
  tb (arg_defaults f) k =
  tb f k || (k =? 1)%Z && negb (tb f 0 || tb f 1) || (k =? 4)%Z && negb (tb f 4 || tb f 5 || tb f 6 || tb f 7).
Proof.
  intros Hk. unfold arg_defaults. cbv zeta. bits_to_tb. rewrite !tb_cond_setbit by lia.
  cbn [Z.eqb Pos.eqb andb]. now rewrite ?orb_false_r.
Qed.
(* a numbered bit of the normalised word, in terms of the bits of the word given *)
Ltac norm_bits :=
  rewrite ?opt_defaults_tb, ?arg_defaults_tb by lia; cbn [Z.eqb Pos.eqb andb]; rewrite ?orb_false_r.

(* normalisation only adds bits, and only among PREFER_*, NO_VALUE, REQUIRED_VALUE, STRING *)
Lemma opt_defaults_mono f hs k : (0 <= k)%Z -> tb f k = true -> tb (opt_defaults f hs) k = true.
Proof. intros Hk H. rewrite opt_defaults_tb, H by assumption. reflexivity. Qed.
Lemma opt_defaults_other f hs k : (0 <= k)%Z -> k <> 0%Z -> k <> 1%Z -> k <> 2%Z -> k <> 3%Z -> k <> 7%Z ->
  tb (opt_defaults f hs) k = tb f k.
Proof.
  intros. rewrite opt_defaults_tb by assumption.
  repeat match goal with |- context [(k =? ?j)%Z] => replace (k =? j)%Z with false by (symmetry; apply Z.eqb_neq; assumption) end.
  cbn [andb]. now rewrite !orb_false_r.
Qed.

Definition is_dlist (d : dflt) : bool := match d with DList _ => true | _ => false end.
(* the default kept is the default given; when none is given, a multi-valued object holds the empty list *)
Definition default_kept (given kept : dflt) : Prop := kept = given \/ (given = DNone /\ kept = DList []).

(* Option and Argument treat their default by one rule; the objects differ in which bits say that a value is taken
   (not NO_VALUE / OPTIONAL), that a default is refused (NO_VALUE / REQUIRED) and that there are many values *)
Definition default_rule (takes refuses multi : bool) (d : dflt) : res dflt :=
  if takes || negb (is_dnone d) then
    (if refuses then Err ValueError
     else if multi then match d with DNone => Ok (DList []) | DList l => Ok (DList l) | DScalar _ => Err ValueError end
     else Ok d)
  else Ok (if multi then DList [] else DNone).
Lemma opt_default_rule g d : opt_default g d = default_rule (negb (tb g 2)) (tb g 2) (tb g 5) d.
Proof. unfold opt_default, default_rule. bits_to_tb. now rewrite negb_involutive. Qed.
Lemma arg_default_rule g d : arg_default g d = default_rule (tb g 1) (tb g 0) (tb g 2) d.
Proof. unfold arg_default. bits_to_tb. reflexivity. Qed.
Lemma default_rule_ok takes refuses multi d d' : default_rule takes refuses multi d = Ok d' ->
  default_kept d d' /\ (multi = true -> is_dlist d' = true) /\
  (refuses = true -> d = DNone /\ d' = if multi then DList [] else DNone).
Proof.
  unfold default_rule, default_kept. destruct takes, refuses, multi, d; cbn; intros H; inversion H; subst; clear H.
  all: repeat split; auto; discriminate.
Qed.
Lemma default_rule_accepts takes refuses multi d :
  is_ok (default_rule takes refuses multi d) =
  match d with DNone => negb (takes && refuses) | DScalar _ => negb refuses && negb multi | DList _ => negb refuses end.
Proof. destruct takes, refuses, multi, d; reflexivity. Qed.

Record opt_normal (f g : Z) (has_short : bool) (d0 d : dflt) : Prop := {
  on_one_type : exactly_one (tb g 7) (tb g 8) (tb g 9) (tb g 10) = true;
  on_one_pref : xorb (tb g 0) (tb g 1) = true;
  on_short_pref : tb g 1 = true -> has_short = true;
  on_valueless : tb g 2 = true -> tb g 3 = false /\ tb g 4 = false /\ tb g 5 = false /\ d = DNone;
  on_valued : tb g 2 = false -> (tb g 3 || tb g 4 || tb g 5) = true;
  on_multi : tb g 5 = true -> tb g 3 = true /\ is_dlist d = true;
  on_default_kept : default_kept d0 d;
  on_adds_only : forall k, (0 <= k)%Z -> tb f k = true -> tb g k = true;
  on_keeps_rest : forall k, (0 <= k)%Z -> k <> 0%Z -> k <> 1%Z -> k <> 2%Z -> k <> 3%Z -> k <> 7%Z -> tb g k = tb f k
}.

Lemma mk_option_flags ln sn f d o :
  mk_option ln sn f d = Ok o ->
  opt_flags_ok f = true /\ oo_flags o = opt_defaults f (match oo_short o with Some _ => true | None => false end) /\
  validate_short_name sn f = Ok (oo_short o) /\ opt_default (oo_flags o) d = Ok (oo_default o).
Proof.
  unfold mk_option. rewrite opt_validate_iff.
  destruct (opt_flags_ok f); cbn [bind]; [|discriminate].
  destruct (validate_long_name ln); cbn [bind]; [|discriminate].
  destruct (validate_short_name sn f) as [s|] eqn:Es; cbn [bind]; [|discriminate].
  destruct (opt_default _ d) as [d'|] eqn:Ed; cbn [bind]; [|discriminate].
  intros H. inversion H; subst; cbn. auto.
Qed.

Lemma short_none_pref sn f : validate_short_name sn f = Ok None -> tb f 1 = false.
Proof.
  unfold validate_short_name. destruct sn as [| |s].
  - rewrite bit_tb by lia. destruct (tb f 1); [discriminate|reflexivity].
  - discriminate.
  - destruct (strip_prefix [DASH] s) as [|c [|? ?]]; try discriminate. destruct (is_ascii_alpha c); discriminate.
Qed.

(* the conditions under which the constructors accept *)
Definition long_ok (n : name_in) : bool := is_ok (validate_long_name n).
Definition short_ok (n : name_in) (f : Z) : bool := is_ok (validate_short_name n f).
Definition default_ok (f : Z) (d : dflt) : bool :=
  let valueless := tb f 2 || negb (tb f 3 || tb f 4 || tb f 5) in
  match d with
  | DNone => true
  | DScalar _ => negb valueless && negb (tb f 5)
  | DList _ => negb valueless
  end.
Definition arg_default_ok (f : Z) (d : dflt) : bool :=
  match d with
  | DNone => true
  | DScalar _ => negb (tb f 0) && negb (tb f 2)
  | DList _ => negb (tb f 0)
  end.

(* the constructor's parts fail with ValueError only *)
Definition only_value_error {X} (r : res X) : Prop := forall k, r = Err k -> k = ValueError.
Lemma only_value_error_bind {X Y} (r : res X) (g : X -> res Y) :
  only_value_error r -> (forall x, only_value_error (g x)) -> only_value_error (bind r g).
Proof. intros Hr Hg k. destruct r as [x|e]; cbn [bind]; [apply Hg|]. intros [= ->]. now apply Hr. Qed.

(* well-formed long name / alias / argument name body: first character an ASCII letter, every character of [a-zA-Z0-9-];
   a long name has at least two characters, a short name is exactly one ASCII letter *)
Definition wf_name_body (s : str) : bool :=
  match s with c :: _ => is_ascii_alpha c && forallb name_char s | [] => false end.
Definition wf_long_name (s : str) : bool := wf_name_body s && Nat.leb 2 (length s).
Definition wf_short_name (s : str) : bool := match s with [c] => is_ascii_alpha c | _ => false end.
Lemma wf_body_no_dash s : wf_name_body s = true -> starts_with [DASH] s = false.
Proof.
  destruct s as [|c r]; [discriminate|]. unfold wf_name_body. intros H. apply andb_prop in H as [Hc _].
  cbn -[N.eqb]. destruct (N.eqb_spec DASH c) as [E|E]; [subst c; discriminate|reflexivity].
Qed.
Lemma strip_prefix_none1 s : starts_with [DASH] s = false -> strip_prefix [DASH] s = s /\ strip_prefix [DASH; DASH] s = s.
Proof. destruct s as [|c r]; cbn -[N.eqb]; [auto|]. destruct (N.eqb DASH c); [discriminate|auto]. Qed.

Record arg_normal (f g : Z) (d0 d : dflt) : Prop := {
  an_one_type : exactly_one (tb g 4) (tb g 5) (tb g 6) (tb g 7) = true;
  an_req_xor_opt : xorb (tb g 0) (tb g 1) = true;
  an_required_no_default : tb g 0 = true -> d0 = DNone /\ d = (if tb g 2 then DList [] else DNone);
  an_multi_list : tb g 2 = true -> is_dlist d = true;
  an_default_kept : default_kept d0 d;
  an_adds_only : forall k, (0 <= k)%Z -> tb f k = true -> tb g k = true;
  an_keeps_rest : forall k, (0 <= k)%Z -> k <> 1%Z -> k <> 4%Z -> tb g k = tb f k
}.

Lemma arg_normal_form_lemma n f d o :
  mk_argument n f d = Ok o -> arg_normal f (ao_flags o) d (ao_default o).
Proof.
  unfold mk_argument. destruct (validate_arg_name n); cbn [bind]; [|discriminate].
  rewrite arg_validate_iff. destruct (arg_flags_ok f) eqn:Hok; cbn [bind]; [|discriminate].
  destruct (arg_default (arg_defaults f) d) as [d'|] eqn:Hd; cbn [bind]; [|discriminate].
  intros [= <-]. cbn [ao_flags ao_default].
  unfold arg_flags_ok in Hok. apply andb_prop in Hok as [H01 Htypes].
  rewrite arg_default_rule in Hd. apply default_rule_ok in Hd as (Hkept & Hlist & Hnone). revert Hlist Hnone. norm_bits. intros Hlist Hnone.
  split; norm_bits; try assumption.
  - unfold exactly_one. unfold at_most_one in *.
    destruct (tb f 4), (tb f 5), (tb f 6), (tb f 7); try discriminate; reflexivity.
  - destruct (tb f 0), (tb f 1); try discriminate; reflexivity.
  - intros k Hk Hf. now rewrite arg_defaults_tb, Hf.
  - intros k Hk H1 H4. rewrite arg_defaults_tb by assumption.
    replace (k =? 4)%Z with false by (symmetry; apply Z.eqb_neq; assumption).
    replace (k =? 1)%Z with false by (symmetry; apply Z.eqb_neq; assumption). cbn [andb]. now rewrite !orb_false_r.
Qed.

Definition has_type (t : vtype) (v : pyval) : bool :=
  match t, v with
  | TStr, VStr _ | TBool, VBool _ | TInt, VInt _ | TFloat, VFloat _ => true
  | _, _ => false
  end.
Definition conv_input (v : pyval) : bool :=
  match v with VNone | VBool _ | VInt _ | VStr _ => true | _ => false end.

Lemma conv_typed_lemma t nl v : conv_input v = true ->
  match parse_typed t nl v with
  | Ok r => (r = VNone /\ nl = true /\ is_null v = true) \/ has_type t r = true
  | Err k => k = ValueError
  end.
Proof.
  intros Hv. destruct t; cbn [parse_typed]; unfold parse_string, parse_boolean, parse_int, parse_float.
  all: destruct (nl && is_null v) eqn:E; [apply andb_prop in E; left; tauto|].
  (* every scrutinee on the way to the result is split; no cbn from here on: it would evaluate the float threshold
     2^1024 - 2^970 in every branch *)
  all: destruct v; try discriminate Hv; cbv beta iota.
  all: repeat match goal with |- match match ?x with _ => _ end with _ => _ end => destruct x end.
  all: cbn [has_type]; auto.
Qed.

Lemma is_digit_range c : is_digit c = true -> (48 <= c <= 57)%N.
Proof. unfold is_digit. intros H. apply andb_prop in H as [H1 H2]. apply N.leb_le in H1, H2. lia. Qed.

Lemma uint_roundtrip u : uint_of_chars (chars_of_uint u) = Some u.
Proof. induction u; cbn; rewrite ?IHu; reflexivity. Qed.
Lemma uint_of_chars_digits s : forallb is_digit s = true -> exists u, uint_of_chars s = Some u.
Proof.
  induction s as [|c r IH]; cbn [forallb uint_of_chars]; [now exists Nil|].
  intros H. apply andb_prop in H as [Hc Hr]. destruct (IH Hr) as [u ->]. apply is_digit_range in Hc.
  repeat match goal with |- context [(c =? ?n)%N] => destruct (N.eqb_spec c n); [eexists; reflexivity|] end. lia.
Qed.

Definition plain_num_char (c : N) : bool := is_digit c || N.eqb c 45.
Lemma chars_of_uint_digits u : forallb is_digit (chars_of_uint u) = true.
Proof. induction u; cbn; auto. Qed.
Lemma lstrip_nonspace s : forallb plain_num_char s = true -> lstrip s = s.
Proof.
  destruct s as [|c r]; cbn; [reflexivity|]. intros H. apply andb_prop in H as [Hc _].
  assert (is_space_num c = false) as ->; [|reflexivity].
  unfold plain_num_char in Hc. unfold is_space_num.
  apply orb_prop in Hc as [Hc|Hc].
  - apply is_digit_range in Hc.
    assert (is_space c = false) as ->; [|reflexivity].
    unfold is_space. apply not_true_is_false. intros He. apply existsb_exists in He as [x [Hx Hcx]].
    apply N.eqb_eq in Hcx. subst x. cbn in Hx. repeat (destruct Hx as [Hx|Hx]; [lia|]). exact Hx.
  - apply N.eqb_eq in Hc. subst c. reflexivity.
Qed.
Lemma strip_plain s : forallb plain_num_char s = true -> strip s = s.
Proof.
  intros H. unfold strip. rewrite (lstrip_nonspace s H).
  rewrite lstrip_nonspace by (now rewrite forallb_rev). apply rev_involutive.
Qed.
Lemma drop_underscores_digits s b : forallb is_digit s = true -> drop_underscores b s = Some s.
Proof.
  revert b. induction s as [|c r IH]; intros b H; cbn; [reflexivity|].
  cbn in H. apply andb_prop in H as [Hc Hr].
  assert (N.eqb c US = false) as ->.
  { apply N.eqb_neq. intros ->. discriminate. }
  now rewrite (IH _ Hr).
Qed.
Lemma digits_plain s : forallb is_digit s = true -> forallb plain_num_char s = true.
Proof.
  induction s as [|c r IH]; cbn; [reflexivity|]. intros H. apply andb_prop in H as [Hc Hr].
  rewrite (IH Hr). unfold plain_num_char. now rewrite Hc.
Qed.

(* int() of a non-empty string of ASCII digits, bare and behind a minus sign: the numeral the digits spell *)
Lemma int_of_str_digits s u : s <> [] -> forallb is_digit s = true -> uint_of_chars s = Some u ->
  int_of_str s = Some (Z.of_int (Pos u)) /\ int_of_str (45%N :: s) = Some (Z.of_int (Neg u)).
Proof.
  intros Hne Hd Hu. unfold int_of_str. rewrite !strip_plain by (cbn; apply digits_plain, Hd).
  rewrite N.eqb_refl. destruct s as [|c r]; [contradiction|].
  assert ((c =? 45)%N = false /\ (c =? 43)%N = false) as [-> ->].
  { cbn in Hd. apply andb_prop in Hd as [Hc _]. apply is_digit_range in Hc. split; apply N.eqb_neq; lia. }
  rewrite (drop_underscores_digits _ _ Hd), Hu. split; reflexivity.
Qed.

Lemma to_int_nonnil z : match Z.to_int z with Pos u | Neg u => chars_of_uint u <> [] end.
Proof.
  assert (forall u, u <> Nil -> chars_of_uint u <> []) as H by (intros [] Hu; [contradiction|discriminate..]).
  destruct z; cbn [Z.to_int]; [discriminate|apply H, DecimalPos.Unsigned.to_uint_nonnil..].
Qed.

Lemma int_of_str_dec_text z : int_of_str (dec_text z) = Some z.
Proof.
  unfold dec_text. pose proof (DecimalZ.of_to z) as Hz. pose proof (to_int_nonnil z) as Hne.
  destruct (Z.to_int z) as [u|u]; rewrite <- Hz;
    apply (int_of_str_digits _ u Hne (chars_of_uint_digits u) (uint_roundtrip u)).
Qed.

Lemma dec_text_not_null z : str_eqb (dec_text z) s_null = false.
Proof.
  unfold dec_text. destruct (Z.to_int z) as [u|u]; [|reflexivity].
  pose proof (chars_of_uint_digits u) as Hd. destruct (chars_of_uint u) as [|c r]; [reflexivity|].
  cbn in Hd. apply andb_prop in Hd as [Hc _]. apply is_digit_range in Hc.
  cbn. destruct (N.eqb_spec c 110); [lia|reflexivity].
Qed.

(* the text form of an integer is ASCII: CPython's digit normalisation leaves it alone, and its digit characters are the
   digits of the number *)
Lemma to_ascii_digit_plain s : forallb plain_num_char s = true -> map to_ascii_digit s = s.
Proof.
  induction s as [|c r IH]; cbn [map forallb]; [reflexivity|]. intros H. apply andb_prop in H as [Hc Hr].
  rewrite (IH Hr). f_equal. unfold to_ascii_digit.
  assert ((c <? 128)%N = true) as ->; [|reflexivity].
  apply N.ltb_lt. unfold plain_num_char in Hc. apply orb_prop in Hc as [Hc|Hc].
  - apply is_digit_range in Hc. lia.
  - apply N.eqb_eq in Hc. lia.
Qed.
Lemma filter_digits_all s : forallb is_digit s = true -> filter is_digit s = s.
Proof.
  induction s as [|c r IH]; cbn; [reflexivity|]. intros H. apply andb_prop in H as [Hc Hr]. rewrite Hc. now rewrite IH.
Qed.
Lemma dec_text_plain z : forallb plain_num_char (dec_text z) = true.
Proof.
  unfold dec_text. destruct (Z.to_int z) as [u|u]; [apply digits_plain, chars_of_uint_digits|].
  cbn. apply digits_plain, chars_of_uint_digits.
Qed.
Lemma digit_chars_dec_text z : digit_chars (dec_text z) = num_digits z.
Proof.
  unfold digit_chars, dec_text, num_digits. destruct (Z.to_int z) as [u|u].
  - now rewrite filter_digits_all by apply chars_of_uint_digits.
  - cbn. now rewrite filter_digits_all by apply chars_of_uint_digits.
Qed.
(* int(text) of a text that int() reads unchanged: only the number of its digits decides whether it is read at all *)
Lemma int_of_text_plain s : forallb plain_num_char s = true ->
  int_of_text s = if Nat.leb (digit_chars s) MAX_STR_DIGITS then int_of_str s else None.
Proof. intros H. unfold int_of_text. now rewrite to_ascii_digit_plain. Qed.
Lemma int_of_text_dec_text z : int_of_text (dec_text z) = if int_text_ok z then Some z else None.
Proof.
  rewrite int_of_text_plain by apply dec_text_plain. now rewrite digit_chars_dec_text, int_of_str_dec_text.
Qed.
Lemma parse_string_int z nl : parse_string (VInt z) nl = if int_text_ok z then Ok (VStr (dec_text z)) else Err ValueError.
Proof. unfold parse_string. cbn [is_null]. now rewrite andb_false_r. Qed.
Lemma parse_int_dec_text z nl : parse_int (VStr (dec_text z)) nl = if int_text_ok z then Ok (VInt z) else Err ValueError.
Proof.
  unfold parse_int. cbn [is_null]. rewrite dec_text_not_null, andb_false_r, int_of_text_dec_text. now destruct (int_text_ok z).
Qed.
(* whether int() reads a string of ASCII digits is decided by its length alone *)
Lemma parse_int_digits s : forallb is_digit s = true ->
  parse_int (VStr s) false =
  if Nat.leb (length s) MAX_STR_DIGITS then match int_of_str s with Some z => Ok (VInt z) | None => Err ValueError end
  else Err ValueError.
Proof.
  intros Hd. unfold parse_int. cbn [andb]. rewrite int_of_text_plain by now apply digits_plain.
  unfold digit_chars. rewrite (filter_digits_all _ Hd). now destruct (Nat.leb _ _).
Qed.
Lemma parse_int_digits_short s : s <> [] -> forallb is_digit s = true -> length s <= MAX_STR_DIGITS ->
  is_ok (parse_int (VStr s) false) = true.
Proof.
  intros Hne Hd Hl. rewrite parse_int_digits by assumption. apply Nat.leb_le in Hl. rewrite Hl.
  destruct (uint_of_chars_digits _ Hd) as [u Hu]. now destruct (int_of_str_digits s u Hne Hd Hu) as [-> _].
Qed.
Lemma parse_int_digits_long s : forallb is_digit s = true -> MAX_STR_DIGITS < length s ->
  parse_int (VStr s) false = Err ValueError.
Proof. intros Hd Hl. rewrite parse_int_digits by assumption. apply Nat.leb_gt in Hl. now rewrite Hl. Qed.

(* The digit criterion in terms of magnitude: |z| < 10^4300 has at most 4300 digits. *)
Lemma chars_len u : length (chars_of_uint u) = nb_digits u.
Proof. induction u; cbn; auto. Qed.

(* value of the accumulator grows by a factor ten per digit *)
Lemma of_uint_acc_lower l : forall acc, (Npos acc * 10 ^ N.of_nat (nb_digits l) <= Npos (Pos.of_uint_acc l acc))%N.
Proof.
  induction l; intros acc; cbn [nb_digits Pos.of_uint_acc];
    try (rewrite Nat2N.inj_succ, N.pow_succ_r', N.mul_assoc; etransitivity; [|apply IHl]; apply N.mul_le_mono_r; lia).
  cbn. lia.
Qed.

(* a numeral without leading zero and with n digits is at least 10^(n-1) *)
Lemma of_uint_lower u : nzhead u = u -> u <> Nil -> (10 ^ N.of_nat (pred (nb_digits u)) <= Pos.of_uint u)%N.
Proof.
  intros Hn Hne. destruct u; try contradiction; cbn [nb_digits pred Pos.of_uint];
    try (etransitivity; [|apply of_uint_acc_lower]; lia).
  (* D0 u: nzhead (D0 u) = nzhead u, which is shorter than D0 u *)
  exfalso. cbn in Hn. pose proof (nb_digits_nzhead u) as H. rewrite Hn in H. cbn in H. lia.
Qed.

Lemma to_uint_nzhead p : nzhead (Pos.to_uint p) = Pos.to_uint p.
Proof.
  pose proof (DecimalPos.Unsigned.to_of (Pos.to_uint p)) as H.
  rewrite DecimalPos.Unsigned.of_to in H. cbn [N.to_uint] in H.
  unfold unorm in H. destruct (nzhead (Pos.to_uint p)) eqn:E; try (now rewrite <- H).
  exfalso. apply (DecimalPos.Unsigned.to_uint_nonzero p). now rewrite H.
Qed.

Lemma pos_digits_bound p k : (Npos p < 10 ^ N.of_nat k)%N -> nb_digits (Pos.to_uint p) <= k.
Proof.
  intros H. pose proof (of_uint_lower (Pos.to_uint p) (to_uint_nzhead p) (DecimalPos.Unsigned.to_uint_nonnil p)) as L.
  rewrite DecimalPos.Unsigned.of_to in L.
  destruct (Nat.le_gt_cases (nb_digits (Pos.to_uint p)) k) as [|Hgt]; [assumption|exfalso].
  assert (10 ^ N.of_nat k <= 10 ^ N.of_nat (pred (nb_digits (Pos.to_uint p))))%N by (apply N.pow_le_mono_r; lia).
  lia.
Qed.

Lemma num_digits_bound z k : (0 < k)%nat -> (Z.abs z < 10 ^ Z.of_nat k)%Z -> num_digits z <= k.
Proof.
  intros Hk H. unfold num_digits. destruct z as [|p|p]; cbn [Z.to_int Z.abs] in *; [cbn; lia|..].
  all: rewrite chars_len; apply pos_digits_bound, N2Z.inj_lt; rewrite N2Z.inj_pow, nat_N_Z; exact H.
Qed.

Lemma int_text_ok_small z : (Z.abs z < 10 ^ 4300)%Z -> int_text_ok z = true.
Proof.
  intros H. unfold int_text_ok, MAX_STR_DIGITS. apply Nat.leb_le, num_digits_bound; [apply Nat.lt_0_succ|].
  replace (Z.of_nat 4300) with 4300%Z by reflexivity. exact H.
Qed.
