(* C12, third layer of Model/Dispatcher.v (nstep / run_C12N): listeners that dispatch while they are called.
   nrun_sim (from NR_init; Props/C12.v nrun_refines): for every sequence of ops - dispatching listeners included - every dispatch (the flat call
   log: the listeners a dispatch calls, and right behind each of them what the dispatch IT makes calls),
   get_listeners(event) and has_listeners answer of the dispatcher model is the answer of a specification
   that keeps only the log of registrations and the behaviour tables, in which a dispatch - made by the
   harness or by a listener - walks  spec_order log ev  for the log AS IT IS WHEN THAT DISPATCH STARTS, up
   to the first callable that stops, and every callable acts (registers, dispatches) when it is called. *)
From Coq Require Import Lia.
From Clikit Require Import Proofs.ListLemmas.
From Clikit Require Import Base.Prelude Model.Dispatcher Proofs.DispatcherLemmas Proofs.DispatcherExtLemmas.

Record nspec := { m_q : xspec; m_disp : list (N * N) }.
Definition nsinit : nspec := {| m_q := xsinit; m_disp := [] |}.
Definition with_q (m : nspec) (q : xspec) : nspec := {| m_q := q; m_disp := m_disp m |}.

Definition qnregisters (q : xspec) (c : N) : xspec :=
  match aget N.eqb c (q_rg q) with
  | Some (e2, p2) => qnew q e2 p2 false None
  | None => q
  end.

Fixpoint qnwalk (rec : nspec -> N -> nspec * list N) (m : nspec) (l : list N) : nspec * list N :=
  match l with
  | [] => (m, [])
  | i :: r =>
    let c := callable_of (q_call (m_q m)) i in
    let stops := q_stops_of (m_q m) c in
    let m1 := with_q m (qnregisters (m_q m) c) in
    let '(m2, inner) := match aget N.eqb c (m_disp m1) with
                        | Some ev2 => rec m1 ev2
                        | None => (m1, [])
                        end in
    if stops then (m2, c :: inner)
    else let '(m3, rest) := qnwalk rec m2 r in (m3, c :: inner ++ rest)
  end.

(* a dispatch: the registrations of ev in the log NOW, highest priority first, registration order within a priority *)
Fixpoint qndispatch (fuel : nat) (m : nspec) (ev : N) : nspec * list N :=
  match fuel with
  | O => (m, [])
  | S f => qnwalk (qndispatch f) m (spec_order (q_regs (m_q m)) ev)
  end.

Definition nsstep (m : nspec) (o : nop) : nspec * dout :=
  match o with
  | NAddDispatcher ev prio ev2 stops =>
    ({| m_q := qnew (m_q m) ev prio stops None; m_disp := m_disp m ++ [(q_ncall (m_q m), ev2)] |}, ONone)
  | NOp (XOp (Dispatch ev)) => let '(m', l) := qndispatch NFUEL m ev in (m', OCalled l)
  | NOp (XAddAgain ev prio c) =>
    match aget N.eqb c (m_disp m) with
    | Some t => if (ev <? t)%N then (with_q m (fst (xsstep (m_q m) (XAddAgain ev prio c))), ONone) else (m, ONone)
    | None => (with_q m (fst (xsstep (m_q m) (XAddAgain ev prio c))), ONone)
    end
  | NOp o => let '(q', out) := xsstep (m_q m) o in (with_q m q', out)
  end.
Fixpoint nsrun (m : nspec) (ops : list nop) : list dout :=
  match ops with
  | [] => []
  | o :: r => let '(m', out) := nsstep m o in out :: nsrun m' r
  end.

Definition ncovered (o : nop) : bool := match o with NOp x => xcovered x | _ => true end.
Fixpoint nouts_agree (ops : list nop) (a b : list dout) : Prop :=
  match ops, a, b with
  | [], [], [] => True
  | o :: ops', x :: a', y :: b' => (ncovered o = true -> x = y) /\ nouts_agree ops' a' b'
  | _, _, _ => False
  end.

Definition NR (s : nstate) (m : nspec) : Prop := XR (n_x s) (m_q m) /\ n_disp s = m_disp m.

Lemma NR_init : NR ninit nsinit.
Proof. split; [apply XR_init | reflexivity]. Qed.

(* what one called listener registers is the effect of the one-element call list: nregisters x c computes to
   xeffects x [c], qnregisters q c to qeffects q [c] *)
Lemma XR_nregisters x q c : XR x q -> XR (nregisters x c) (qnregisters q c).
Proof. exact (XR_effects [c] x q). Qed.

Definition rec_sim (rec : nstate -> N -> nstate * list N) (qrec : nspec -> N -> nspec * list N) : Prop :=
  forall s m ev, NR s m -> NR (fst (rec s ev)) (fst (qrec m ev)) /\ snd (rec s ev) = snd (qrec m ev).

Lemma nwalk_sim rec qrec : rec_sim rec qrec ->
  forall l s m, NR s m -> NR (fst (nwalk rec s l)) (fst (qnwalk qrec m l)) /\ snd (nwalk rec s l) = snd (qnwalk qrec m l).
Proof.
  intros Hrec. induction l as [|i r IH]; intros s m H; cbn [nwalk qnwalk]; [split; [exact H|reflexivity]|].
  pose proof H as (HX & Hd). pose proof HX as (HI & Hc & Hn & Hs & Hr).
  rewrite Hc.
  set (c := callable_of (q_call (m_q m)) i).
  assert (stops_of (n_x s) c = q_stops_of (m_q m) c) as Hst by (unfold stops_of, q_stops_of; now rewrite Hs).
  rewrite Hst.
  assert (NR (with_x s (nregisters (n_x s) c)) (with_q m (qnregisters (m_q m) c))) as H1.
  { split; [apply XR_nregisters, HX | exact Hd]. }
  cbn [with_x with_q n_disp m_disp]. rewrite Hd.
  (* the dispatch the callable makes, if it makes one *)
  set (A := match aget N.eqb c (m_disp m) with Some ev2 => rec _ ev2 | None => _ end).
  set (B := match aget N.eqb c (m_disp m) with Some ev2 => qrec _ ev2 | None => _ end).
  assert (NR (fst A) (fst B) /\ snd A = snd B) as [H2 Ho]
    by (unfold A, B; destruct (aget N.eqb c (m_disp m)); [apply Hrec, H1 | split; [exact H1|reflexivity]]).
  clearbody A B. destruct A as [s2 inner], B as [m2 qinner]. cbn [fst snd] in H2, Ho. subst qinner.
  destruct (q_stops_of (m_q m) c); [split; [exact H2|reflexivity]|].
  destruct (IH s2 m2 H2) as [H3 Ho3].
  destruct (nwalk rec s2 r) as [s3 rest]. destruct (qnwalk qrec m2 r) as [m3 qrest]. cbn [fst snd] in *. subst qrest.
  split; [exact H3|reflexivity].
Qed.

Lemma ndispatch_sim fuel : rec_sim (ndispatch fuel) (qndispatch fuel).
Proof.
  induction fuel as [|f IH]; intros s m ev H; cbn [ndispatch qndispatch]; [split; [exact H|reflexivity]|].
  pose proof H as (HX & Hd). pose proof HX as (HI & Hc & Hn & Hs & Hr).
  destruct (get_listeners_spec (x_d (n_x s)) (q_regs (m_q m)) ev HI) as [HI' Ho].
  destruct (get_listeners (x_d (n_x s)) ev) as [d' l]. cbn [fst snd] in *. subst l.
  apply (nwalk_sim _ _ IH).
  split; [apply XR_with_d; assumption | exact Hd].
Qed.

(* an op of the second layer: its simulation, the table of dispatching callables untouched *)
Lemma nstep_x s m x :
  NR s m -> NR (with_x s (fst (xstep (n_x s) x))) (with_q m (fst (xsstep (m_q m) x))) /\
            (xcovered x = true -> snd (xstep (n_x s) x) = snd (xsstep (m_q m) x)).
Proof. intros (HX & Hd). destruct (xstep_sim _ _ x HX) as [H' Ho]. split; [split; [exact H'|exact Hd]|exact Ho]. Qed.


Lemma nstep_sim s m o :
  NR s m -> NR (fst (nstep s o)) (fst (nsstep m o)) /\ (ncovered o = true -> snd (nstep s o) = snd (nsstep m o)).
Proof.
  intros H. pose proof H as (HX & Hd).
  destruct o as [x|ev prio ev2 stops].
  - (* every op of the second layer but Dispatch and XAddAgain is handed to xstep / xsstep as it is: nstep_x *)
    destruct x as [[ev prio stops|ev|e|ev| |ev c]|ev prio c|ev stops|ev prio ev2 prio2|ev]; cbn [nstep nsstep ncovered];
      try (rewrite !let_pair; cbn [fst snd]; apply nstep_x, H).
    + (* Dispatch *)
      destruct (ndispatch_sim NFUEL s m ev H) as [H1 Ho].
      destruct (ndispatch NFUEL s ev) as [s' l]. destruct (qndispatch NFUEL m ev) as [m' ql]. cbn [fst snd] in *.
      subst ql. split; [exact H1 | reflexivity].
    + (* XAddAgain: ignored for a dispatching callable unless the event is before the one it dispatches *)
      rewrite Hd. destruct (aget N.eqb c (m_disp m)) as [t|]; [destruct (ev <? t)%N|]; cbn [fst snd];
        (split; [|reflexivity]); try exact H; apply (nstep_x _ _ _ H).
  - cbn [nstep nsstep ncovered fst snd]. split; [|reflexivity].
    split; [apply XR_new, HX | cbn [n_disp m_disp]; destruct HX as (_ & _ & Hn & _); now rewrite Hn, Hd].
Qed.

Lemma nrun_sim ops : forall s m, NR s m -> nouts_agree ops (nrun s ops) (nsrun m ops).
Proof.
  induction ops as [|o r IH]; intros s m H; cbn; [exact I|].
  destruct (nstep_sim s m o H) as [H' Ho].
  destruct (nstep s o) as [s' x]. destruct (nsstep m o) as [m' y]. cbn in *.
  split; [exact Ho | apply IH, H'].
Qed.

