(* C12, the extended alphabet of Model/Dispatcher.v (xstep / run_C12X): the same callable registered
   again, the default priority, a dispatch whose event is already stopped, a listener that registers a
   listener while it is being called.
   The specification [xsstep] keeps NOTHING but the log of registrations (one entry per add_listener call, whoever made
   it) and the behaviour tables: a dispatch calls  run_until_stop (spec_order log ev)  for the log AS IT IS WHEN THE
   DISPATCH STARTS; what the called listeners register is appended to the log afterwards.  [XR] is the simulation;
   [base_only] shows that on the base alphabet the extended step function is the old one. *)
From Coq Require Import Lia Permutation Sorted.
From Clikit Require Import Base.Prelude Model.Dispatcher Proofs.ListLemmas Proofs.DispatcherLemmas.

Record xspec := {
  q_regs : list reg;                (* the log: r_lid = index of the registration, r_stops = does its callable stop *)
  q_call : list (N * N);            (* registration index -> callable *)
  q_ncall : N;
  q_stops : list (N * bool);
  q_rg : list (N * (N * Z))
}.
Definition xsinit : xspec := {| q_regs := []; q_call := []; q_ncall := 0; q_stops := []; q_rg := [] |}.
Definition q_stops_of (q : xspec) (c : N) : bool :=
  match aget N.eqb c (q_stops q) with Some b => b | None => false end.

Definition qadd (q : xspec) (ev : N) (prio : Z) (c : N) : xspec :=
  {| q_regs := q_regs q ++ [{| r_ev := ev; r_prio := prio; r_lid := N.of_nat (length (q_regs q)); r_stops := q_stops_of q c |}];
     q_call := q_call q ++ [(N.of_nat (length (q_regs q)), c)];
     q_ncall := q_ncall q; q_stops := q_stops q; q_rg := q_rg q |}.
Definition qnew (q : xspec) (ev : N) (prio : Z) (stops : bool) (registers : option (N * Z)) : xspec :=
  let c := q_ncall q in
  qadd {| q_regs := q_regs q; q_call := q_call q; q_ncall := N.succ c;
          q_stops := q_stops q ++ [(c, stops)];
          q_rg := match registers with Some t => q_rg q ++ [(c, t)] | None => q_rg q end |} ev prio c.
Definition qeffects (q : xspec) (called : list N) : xspec :=
  fold_left (fun q c => match aget N.eqb c (q_rg q) with
                        | Some (e2, p2) => qnew q e2 p2 false None
                        | None => q end) called q.
(* the calls are decided on the log as it is NOW; the effects of the called listeners come after *)
Definition qdispatch (q : xspec) (ev : N) (prestopped : bool) : xspec * dout :=
  let called := map (callable_of (q_call q))
                    (if prestopped then [] else run_until_stop (spec_stops (q_regs q)) (spec_order (q_regs q) ev)) in
  (qeffects q called, OCalled called).

Definition xsstep (q : xspec) (o : xop) : xspec * dout :=
  match o with
  | XOp (Add ev prio stops) => (qnew q ev prio stops None, ONone)
  | XAddDefault ev stops => (qnew q ev 0%Z stops None, ONone)
  | XAddRegistrar ev prio ev2 prio2 => (qnew q ev prio false (Some (ev2, prio2)), ONone)
  | XAddAgain ev prio c => (if (c <? q_ncall q)%N then qadd q ev prio c else q, ONone)
  | XOp (Dispatch ev) => qdispatch q ev false
  | XDispatchStopped ev => qdispatch q ev true
  | XOp (Get ev) => (q, OList (map (callable_of (q_call q)) (spec_order (q_regs q) ev)))
  | XOp (Has e) => (q, snd (sstep (q_regs q) (Has e)))
  | XOp GetAll => (q, ONone)          (* not specified here: compared against the implementation only *)
  | XOp (Prio _ _) => (q, ONone)      (* likewise *)
  end.
Fixpoint xsrun (q : xspec) (ops : list xop) : list dout :=
  match ops with
  | [] => []
  | o :: r => let '(q', out) := xsstep q o in out :: xsrun q' r
  end.

Definition xcovered (o : xop) : bool := match o with XOp GetAll | XOp (Prio _ _) => false | _ => true end.
Fixpoint xouts_agree (ops : list xop) (a b : list dout) : Prop :=
  match ops, a, b with
  | [], [], [] => True
  | o :: ops', x :: a', y :: b' => (xcovered o = true -> x = y) /\ xouts_agree ops' a' b'
  | _, _, _ => False
  end.

(* The simulation: the dispatcher record against the log (the invariant of DispatcherLemmas), the tables equal *)
Definition XR (s : xstate) (q : xspec) : Prop :=
  Inv (x_d s) (q_regs q) /\ x_call s = q_call q /\ x_ncall s = q_ncall q /\ x_stops s = q_stops q /\ x_regs s = q_rg q.

Lemma XR_init : XR xinit xsinit.
Proof. unfold XR. split; [apply Inv_init | cbn; repeat split]. Qed.

Lemma XR_add s q ev prio c : XR s q -> XR (xadd s ev prio c) (qadd q ev prio c).
Proof.
  intros (HI & Hc & Hn & Hs & Hr).
  assert (stops_of s c = q_stops_of q c) as Hst by (unfold stops_of, q_stops_of; now rewrite Hs).
  pose proof (Inv_add _ _ ev prio (stops_of s c) HI) as HI'. cbn [sstep fst] in HI'.
  unfold XR, xadd, qadd; cbn [x_d x_call x_ncall x_stops x_regs q_regs q_call q_ncall q_stops q_rg].
  split; [rewrite <- Hst; exact HI'|].
  destruct HI as (Hnext & _). rewrite Hnext, Hc. auto.
Qed.

Lemma XR_tables s q d st rg :
  Inv d (q_regs q) -> x_call s = q_call q ->
  XR {| x_d := d; x_call := x_call s; x_ncall := N.succ (x_ncall s); x_stops := st; x_regs := rg |}
     {| q_regs := q_regs q; q_call := q_call q; q_ncall := N.succ (x_ncall s); q_stops := st; q_rg := rg |}.
Proof. intros HI Hc. unfold XR; cbn. auto. Qed.

Lemma XR_new s q ev prio stops registers : XR s q -> XR (xnew s ev prio stops registers) (qnew q ev prio stops registers).
Proof.
  intros (HI & Hc & Hn & Hs & Hr). unfold xnew, qnew. rewrite <- Hn, <- Hs, <- Hr.
  apply XR_add. unfold XR; cbn. auto.
Qed.

Lemma XR_effects called : forall s q, XR s q -> XR (xeffects s called) (qeffects q called).
Proof.
  induction called as [|c r IH]; intros s q H; cbn; [exact H|].
  apply IH. destruct H as (HI & Hc & Hn & Hs & Hr). rewrite Hr.
  destruct (aget N.eqb c (q_rg q)) as [[e2 p2]|]; [apply XR_new|]; unfold XR; auto.
Qed.

Lemma XR_with_d s q d : XR s q -> Inv d (q_regs q) -> XR (with_d s d) q.
Proof. intros (_ & Hc & Hn & Hs & Hr) HI. unfold XR, with_d; cbn. auto. Qed.

Lemma XR_dispatch s q ev b :
  XR s q -> XR (fst (xdispatch s ev b)) (fst (qdispatch q ev b)) /\ snd (xdispatch s ev b) = snd (qdispatch q ev b).
Proof.
  intros H. pose proof H as (HI & Hc & Hn & Hs & Hr).
  destruct (get_listeners_spec (x_d s) (q_regs q) ev HI) as [HI' Ho].
  unfold xdispatch, qdispatch. destruct (get_listeners (x_d s) ev) as [d' l]. cbn [fst snd] in *.
  rewrite Hc, Ho, (proj1 (proj2 HI)).
  split; [|reflexivity].
  rewrite <- Hc. apply XR_effects. apply XR_with_d; assumption.
Qed.

Lemma xstep_sim s q o :
  XR s q ->
  XR (fst (xstep s o)) (fst (xsstep q o)) /\ (xcovered o = true -> snd (xstep s o) = snd (xsstep q o)).
Proof.
  intros H. pose proof H as (HI & Hc & Hn & Hs & Hr).
  destruct o as [[ev prio stops|ev|e|ev| |ev c]|ev prio c|ev stops|ev prio ev2 prio2|ev]; cbn [xstep xsstep xcovered fst snd].
  - split; [apply XR_new, H | reflexivity].
  - destruct (XR_dispatch s q ev false H) as [H1 H2].
    destruct (xdispatch s ev false), (qdispatch q ev false). cbn in *. split; auto.
  - split; [exact H|]. intros _.
    destruct (step_sim (x_d s) (q_regs q) (Has e) HI) as [_ Ho]. exact (Ho eq_refl).
  - destruct (get_listeners_spec (x_d s) (q_regs q) ev HI) as [HI' Ho].
    destruct (get_listeners (x_d s) ev) as [d' l]. cbn [fst snd] in *.
    split; [apply XR_with_d; assumption|]. intros _. now rewrite Hc, Ho.
  - destruct (step_sim (x_d s) (q_regs q) GetAll HI) as [HI' _]. cbn [sstep fst] in HI'.
    destruct (dstep (x_d s) GetAll) as [d' out]. cbn [fst snd] in *.
    split; [apply XR_with_d; assumption | discriminate].
  - split; [exact H | discriminate].
  - split; [|reflexivity]. rewrite Hn. destruct (c <? q_ncall q)%N; [apply XR_add, H | exact H].
  - split; [apply XR_new, H | reflexivity].
  - split; [apply XR_new, H | reflexivity].
  - destruct (XR_dispatch s q ev true H) as [H1 H2].
    destruct (xdispatch s ev true), (qdispatch q ev true). cbn in *. split; auto.
Qed.

Lemma xrun_sim ops : forall s q, XR s q -> xouts_agree ops (xrun s ops) (xsrun q ops).
Proof.
  induction ops as [|o r IH]; intros s q H; cbn; [exact I|].
  destruct (xstep_sim s q o H) as [H' Ho].
  destruct (xstep s o) as [s' x]. destruct (xsstep q o) as [q' y]. cbn in *.
  split; [exact Ho | apply IH, H'].
Qed.

(* a dispatch only appends to the log *)
Lemma qeffects_log called : forall q, exists more, q_regs (qeffects q called) = q_regs q ++ more.
Proof.
  unfold qeffects. induction called as [|c r IH]; intros q; cbn [fold_left]; [exists []; now rewrite app_nil_r|].
  destruct (aget N.eqb c (q_rg q)) as [[e2 p2]|]; [|apply IH].
  destruct (IH (qnew q e2 p2 false None)) as [more Hm]. rewrite Hm. unfold qnew, qadd; cbn [q_regs].
  eexists. rewrite <- app_assoc. reflexivity.
Qed.

(* Conservativity: on base ops the extended step is the old step *)
Definition base_only (s : xstate) : Prop :=
  (forall i, callable_of (x_call s) i = i) /\ x_ncall s = d_next (x_d s) /\ x_stops s = d_stops (x_d s) /\ x_regs s = [] /\
  Forall (fun kb => (fst kb < x_ncall s)%N) (x_stops s).

Lemma aget_fresh_none (st : list (N * bool)) n : Forall (fun kb => (fst kb < n)%N) st -> aget N.eqb n st = None.
Proof.
  induction 1 as [|[k b] r Hk _ IH]; cbn; auto. cbn in Hk.
  destruct (N.eqb_spec n k); [lia | exact IH].
Qed.

Lemma base_only_init : base_only xinit.
Proof. unfold base_only; cbn. repeat split; auto. Qed.

Lemma find_prio_c_id call g c : (forall i, callable_of call i = i) -> find_prio_c call g c = find_prio g c.
Proof.
  intros Hid. induction g as [|[p ls] r IH]; cbn; auto.
  rewrite IH. f_equal.
  assert (existsb (fun i => N.eqb (callable_of call i) c) ls = existsb (N.eqb c) ls) as ->; [|reflexivity].
  induction ls as [|a l IHl]; cbn; auto. rewrite Hid, IHl, (N.eqb_sym a c). reflexivity.
Qed.

Lemma map_callable_id call (l : list N) : (forall i, callable_of call i = i) -> map (callable_of call) l = l.
Proof. intros H. induction l as [|a r IH]; cbn; [reflexivity|]. now rewrite H, IH. Qed.

Lemma get_listeners_keeps st ev :
  d_next (fst (get_listeners st ev)) = d_next st /\ d_stops (fst (get_listeners st ev)) = d_stops st.
Proof.
  unfold get_listeners. destruct (aget N.eqb ev (d_listeners st)); [|auto].
  destruct (aget N.eqb ev (d_sorted st)); cbn; auto.
Qed.

Lemma xstep_base s o :
  base_only s -> base_only (fst (xstep s (XOp o))) /\ x_d (fst (xstep s (XOp o))) = fst (dstep (x_d s) o) /\
          snd (xstep s (XOp o)) = snd (dstep (x_d s) o).
Proof.
  intros (Hid & Hn & Hs & Hr & Hb).
  destruct o as [ev prio stops|ev|e|ev| |ev c]; cbn [xstep dstep fst snd].
  - (* Add *)
    assert (stops_of {| x_d := x_d s; x_call := x_call s; x_ncall := N.succ (x_ncall s);
                        x_stops := x_stops s ++ [(x_ncall s, stops)]; x_regs := x_regs s |} (x_ncall s) = stops) as Hst.
    { unfold stops_of; cbn. rewrite aget_app, (aget_fresh_none _ _ Hb). cbn. now rewrite N.eqb_refl. }
    unfold xnew, xadd; cbn [x_d x_call x_ncall x_stops x_regs]. rewrite Hst.
    split; [|split; reflexivity].
    unfold base_only; cbn [x_d x_call x_ncall x_stops x_regs add_listener d_next d_stops].
    split; [|split; [now rewrite Hn|split; [now rewrite Hs, Hn|split; [exact Hr|]]]].
    + intros i. unfold callable_of. rewrite aget_app.
      specialize (Hid i). unfold callable_of in Hid.
      destruct (aget N.eqb i (x_call s)); [exact Hid|]. cbn. rewrite Hn.
      destruct (N.eqb_spec i (d_next (x_d s))); [now subst | reflexivity].
    + apply Forall_app. split; [eapply Forall_impl; [|exact Hb]; cbn; intros; lia|].
      repeat constructor. cbn. lia.
  - (* Dispatch *)
    unfold xdispatch. pose proof (get_listeners_keeps (x_d s) ev) as [K1 K2].
    destruct (get_listeners (x_d s) ev) as [d' l]. cbn [fst snd] in *.
    rewrite (map_callable_id _ _ Hid).
    assert (forall called st, x_regs st = [] -> xeffects st called = st) as Hnoeff.
    { induction called as [|c r IH]; intros st Hst; cbn; [reflexivity|]. rewrite Hst. cbn. now apply IH. }
    rewrite Hnoeff by exact Hr.
    split; [|split; reflexivity].
    unfold base_only, with_d; cbn. rewrite K1, K2. auto.
  - (* Has *)
    split; [unfold base_only; auto | split; [destruct e; reflexivity | reflexivity]].
  - (* Get *)
    pose proof (get_listeners_keeps (x_d s) ev) as [K1 K2].
    destruct (get_listeners (x_d s) ev) as [d' l]. cbn [fst snd] in *.
    rewrite (map_callable_id _ _ Hid). split; [|split; reflexivity].
    unfold base_only, with_d; cbn. rewrite K1, K2. auto.
  - (* GetAll *)
    cbn. split; [|split; [reflexivity|]].
    + unfold base_only, with_d; cbn. auto.
    + f_equal. erewrite map_ext; [apply map_id|]. intros [e l]. cbn. now rewrite (map_callable_id _ _ Hid).
  - (* Prio *)
    split; [|split; [reflexivity|]]; [unfold base_only; auto|].
    f_equal. destruct (aget N.eqb ev (d_listeners (x_d s))); [|reflexivity]. apply find_prio_c_id, Hid.
Qed.

Lemma xrun_base_gen ops : forall s, base_only s -> xrun s (map XOp ops) = drun (x_d s) ops.
Proof.
  induction ops as [|o r IH]; intros s H; cbn [map xrun drun]; [reflexivity|].
  destruct (xstep_base s o H) as (H' & Hd & Ho).
  destruct (xstep s (XOp o)) as [s' x]. destruct (dstep (x_d s) o) as [d' y]. cbn [fst snd] in *.
  subst. f_equal. apply IH, H'.
Qed.
