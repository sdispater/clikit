(* Model/Question.v (C18): the validator returns only members of the choices; the ask loop one round at a time
   (ask_loop_zero / _nil / _step); rejected entries followed by a valid one, or by the end of input, by induction on
   them; a budget of exactly the rejected entries from what such a run costs (ask_loop_skip). *)
From Coq Require Import Lia.
From Clikit Require Import Base.Prelude Base.Res Model.Conv Model.Question Proofs.StrLemmas Proofs.FlagsLemmas.

(* only members of the choices are ever returned *)
Lemma positions_in cs v : forall i k, In k (positions cs v i) -> In v cs.
Proof.
  induction cs as [|c r IH]; intros i k; cbn; [tauto|].
  destruct (str_eqb_spec c v) as [->|]; [intros _; now left|]. intros H. right. eapply IH, H.
Qed.
Lemma validate_value_member cs v x : validate_value cs v = inr x -> In x cs.
Proof.
  unfold validate_value. destruct (positions cs v 0) as [|i [|j r]] eqn:E.
  - destruct (int_of_str v) as [z|]; [|discriminate].
    destruct ((0 <=? z)%Z && (z <? Z.of_nat (length cs))%Z); [|discriminate].
    destruct (nth_error cs (Z.to_nat z)) as [c|] eqn:En; [|discriminate].
    intros H. inversion H; subst. eapply nth_error_In, En.
  - intros H. inversion H; subst. eapply (positions_in cs x 0 i). rewrite E. now left.
  - discriminate.
Qed.
Lemma validate_values_member cs : forall vs xs, validate_values cs vs = inr xs -> Forall (fun x => In x cs) xs.
Proof.
  induction vs as [|v r IH]; intros xs; cbn.
  - intros H. inversion H. constructor.
  - destruct (validate_value cs v) as [e|x] eqn:Ev; [discriminate|].
    destruct (validate_values cs r) as [e|ys] eqn:Er; [discriminate|].
    intros H. inversion H; subst. constructor; [eapply validate_value_member, Ev|apply IH; reflexivity].
Qed.
Lemma validate_member q s a : validate q s = inr a ->
  match a with AOne v => In v (q_choices q) | AMany l => Forall (fun x => In x (q_choices q)) l | ANone => False end.
Proof.
  unfold validate. destruct s as [s|]; [|discriminate]. destruct (q_multi q).
  - destruct (forallb _ _); [|discriminate].
    destruct (validate_values (q_choices q) _) as [e|l] eqn:E; [discriminate|].
    intros H. inversion H; subst. eapply validate_values_member, E.
  - destruct (validate_value (q_choices q) s) as [e|x] eqn:E; [discriminate|].
    intros H. inversion H; subst. eapply validate_value_member, E.
Qed.

(* one round of the loop, for any budget that is not used up *)
Definition bump {X} (last : option X) (n : nat) : nat := match last with Some _ => S n | None => n end.
Lemma ask_loop_zero q s last n e p :
  ask_loop q s (Some 0) last n e p =
    {| o_end := match last with Some er => Failed er | None => Failed VOther end;
       o_lines_read := n; o_errors_printed := e; o_prompts := p |}.
Proof. destruct s; reflexivity. Qed.
Lemma ask_loop_nil q att last n e p : att <> Some 0 ->
  ask_loop q [] att last n e p = {| o_end := Aborted; o_lines_read := n; o_errors_printed := bump last e; o_prompts := S p |}.
Proof. destruct att as [[|k]|]; [congruence| |]; destruct last; reflexivity. Qed.
Lemma ask_loop_step q line rest att last n e p : att <> Some 0 ->
  ask_loop q (line :: rest) att last n e p =
  match validate q (effective_answer q line) with
  | inr a => {| o_end := Answered a; o_lines_read := S n; o_errors_printed := bump last e; o_prompts := S p |}
  | inl er => ask_loop q rest (option_map pred att) (Some er) (S n) (bump last e) (S p)
  end.
Proof. destruct att as [[|k]|]; [congruence| |]; destruct last; reflexivity. Qed.

Lemma budget_cases (att : option nat) : att = Some 0 \/ att <> Some 0.
Proof. destruct att as [[|k]|]; [left; reflexivity|right; discriminate..]. Qed.

(* the loop only ever answers with what the validator accepted *)
Lemma ask_loop_answer q : forall script att last n e p a,
  o_end (ask_loop q script att last n e p) = Answered a -> exists s, validate q s = inr a.
Proof.
  induction script as [|l r IH]; intros att last n e p a;
    (destruct att as [[|k]|]; [rewrite ask_loop_zero; destruct last; discriminate| |]).
  1, 2: rewrite ask_loop_nil by discriminate; discriminate.
  all: rewrite ask_loop_step by discriminate; destruct (validate q _) as [er|x] eqn:Ev; [apply IH|]; cbn; intros [= <-]; eauto.
Qed.
Lemma ask_choice_answer q script a : o_end (ask_choice true q script) = Answered a -> exists s, validate q s = inr a.
Proof. apply ask_loop_answer. Qed.

Lemma index_and_value_validate q i c :
  q_multi q = false -> nth_error (q_choices q) i = Some c ->
  positions (q_choices q) c 0 = [i] ->                                  (* the value occurs once *)
  positions (q_choices q) (dec_text (Z.of_nat i)) 0 = [] ->             (* the index text is not itself a choice *)
  validate q (Some (dec_text (Z.of_nat i))) = inr (AOne c) /\ validate q (Some c) = inr (AOne c).
Proof.
  intros Hm Hn Hp Hi. unfold validate. rewrite Hm. unfold validate_value. rewrite Hi, Hp.
  rewrite int_of_str_dec_text.
  assert (i < length (q_choices q)) as Hl by (apply nth_error_Some; congruence).
  assert ((0 <=? Z.of_nat i)%Z && (Z.of_nat i <? Z.of_nat (length (q_choices q)))%Z = true) as ->.
  { apply andb_true_intro. split; [apply Z.leb_le|apply Z.ltb_lt]; lia. }
  rewrite Nat2Z.id, Hn. auto.
Qed.

(* attempts: entries the validator rejects *)
Definition entry_invalid (q : choiceq) (line : str) : Prop :=
  exists e, validate q (effective_answer q line) = inl e.

(* a budget: more than k attempts are left *)
Definition more_than (k : nat) (att : option nat) : Prop := match att with Some a => k < a | None => True end.
Lemma more_than_pos k att : more_than k att -> att <> Some 0.
Proof. destruct att; [intros H [= ->]; cbn in H; lia|discriminate]. Qed.
Lemma more_than_pred k att : more_than (S k) att -> more_than k (option_map pred att).
Proof. destruct att; cbn; [lia|auto]. Qed.

(* every invalid entry before a valid one costs one line and prints one error; the valid one answers *)
Lemma ask_loop_until_valid q : forall bad good rest att last n e p a,
  Forall (entry_invalid q) bad -> validate q (effective_answer q good) = inr a -> more_than (length bad) att ->
  ask_loop q (bad ++ good :: rest) att last n e p =
  {| o_end := Answered a; o_lines_read := n + length bad + 1; o_errors_printed := bump last e + length bad; o_prompts := p + length bad + 1 |}.
Proof.
  induction bad as [|b bad IH]; intros good rest att last n e p a Hb Hg Hk; cbn [app length] in *;
    rewrite ask_loop_step by exact (more_than_pos _ _ Hk).
  - rewrite Hg. f_equal; lia.
  - inversion Hb as [|? ? [er Her] Hb2]; subst.
    rewrite Her, (IH good rest _ _ _ _ _ a Hb2 Hg (more_than_pred _ _ Hk)). f_equal; cbn [bump]; lia.
Qed.

(* at end of input the question gives up - whatever the attempt limit - having read every line *)
Lemma ask_loop_eof q : forall bad att last n e p,
  Forall (entry_invalid q) bad -> more_than (length bad) att ->
  let o := ask_loop q bad att last n e p in o_end o = Aborted /\ o_lines_read o = n + length bad.
Proof.
  induction bad as [|b bad IH]; intros att last n e p Hb Hk; cbv zeta; cbn [length] in *.
  - rewrite ask_loop_nil by exact (more_than_pos _ _ Hk). cbn. auto.
  - rewrite ask_loop_step by exact (more_than_pos _ _ Hk). inversion Hb as [|? ? [er Her] Hb2]; subst. rewrite Her.
    destruct (IH _ (Some er) (S n) (bump last e) (S p) Hb2 (more_than_pred _ _ Hk)) as [H1 H2]. split; [exact H1|]. rewrite H2. lia.
Qed.

(* every rejected entry costs one line, one prompt and one attempt, and prints the error of the one before it *)
Lemma ask_loop_skip q : forall pre l er rest att last n e p,
  Forall (entry_invalid q) pre -> validate q (effective_answer q l) = inl er ->
  more_than (length pre) att ->
  ask_loop q (pre ++ l :: rest) att last n e p =
  ask_loop q rest (option_map (fun k => k - S (length pre)) att) (Some er) (n + S (length pre)) (bump last e + length pre) (p + S (length pre)).
Proof.
  induction pre as [|x r IH]; intros l er rest att last n e p Hb Hl Hk; cbn [app length];
    rewrite ask_loop_step by exact (more_than_pos _ _ Hk).
  - rewrite Hl. f_equal; try lia. destruct att; cbn; f_equal; lia.
  - inversion Hb as [|? ? [ex Hex] Hr]; subst. rewrite Hex, (IH l er) by (auto; destruct att; cbn in *; auto; lia).
    f_equal; cbn [bump]; try lia. destruct att; cbn; f_equal; lia.
Qed.
(* a list of entries that is not empty has a last one *)
Lemma invalid_snoc q bad : Forall (entry_invalid q) bad ->
  bad = [] \/ exists pre l er, bad = pre ++ [l] /\ Forall (entry_invalid q) pre /\ validate q (effective_answer q l) = inl er.
Proof.
  intros Hb. destruct bad as [|b bad']; [left; reflexivity|right].
  destruct (@exists_last _ (b :: bad')) as (pre & l & E); [discriminate|]. rewrite E in *.
  apply Forall_app in Hb. destruct Hb as [Hp Hl]. inversion Hl as [|? ? [er Her] _]; subst. eauto 6.
Qed.

(* a budget of exactly the invalid entries: the question fails with the error of the last of them, the earlier ones printed *)
Lemma ask_loop_exhaust q pre l er rest last n e p :
  Forall (entry_invalid q) pre -> validate q (effective_answer q l) = inl er ->
  ask_loop q ((pre ++ [l]) ++ rest) (Some (length (pre ++ [l]))) last n e p =
  {| o_end := Failed er; o_lines_read := n + S (length pre); o_errors_printed := bump last e + length pre; o_prompts := p + S (length pre) |}.
Proof.
  intros Hp Hl. rewrite <- app_assoc, last_length. cbn [app].
  rewrite (ask_loop_skip q pre l er) by (auto; cbn; lia). cbn [option_map]. rewrite Nat.sub_diag. apply ask_loop_zero.
Qed.
