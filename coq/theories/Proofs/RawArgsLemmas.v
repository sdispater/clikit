(* C08, last clause: a command STRING and the ARGV LIST it spells are indistinguishable to parser, resolver and run.
   Parser, resolver and run read a raw-arguments object only through its tokens (Model/Parser.v, Resolver.v, Switches.v
   take the token list); StringArgs(s) holds tokenize s, ArgvArgs(script :: ts) holds ts. *)
From Clikit Require Import Base.Prelude Base.Res Model.Conv Model.Format Model.Parser Model.Resolver Model.Run Model.Tokenizer
  Model.Switches.

(* what is observed of a raw-arguments object *)
Record observed := { ob_parse : fmt -> bool -> res args;
                     ob_resolve : application -> res (list str * fmt * args);
                     ob_run : bool -> application -> summary }.
Definition observe (ts : list str) : observed :=
  {| ob_parse := fun f len => parse f len ts; ob_resolve := fun a => resolve a ts; ob_run := fun d a => run_summary d a ts |}.
Definition string_args (s : str) : option observed :=
  match tokenize s with TOk ts => Some (observe ts) | TOutOfFuel => None end.
Definition argv_args (ts : list str) : observed := observe ts.
