(* C01, read side: in a format built through the API the long name and the short name of an option resolve
   to the same option, and a position and the name of the argument listed there to the same argument.

   fmt_inv (FmtOkLemmas.v) alone does NOT give this: opts_inv says that the short name of a listed option is
   indexed, not WHAT it is indexed to (Fbad below satisfies fmt_inv and resolves "-v" to --quiet).  The missing
   piece is short_inv: at every level of the base chain an entry (s, o) of the short-name index belongs to a
   listed option whose short name is s.  ArgsFormat.__init__ rebuilds that index from the listing
   (build_format), so short_inv holds for every built format whatever the builder's own index was; together
   with opts_sep (no two listed options share a name) the entry is THE option having that short name. *)
From Coq Require Import Lia.
From Clikit Require Import Base.Prelude Base.Res Model.Conv Model.Flags Model.Format Model.Parser Model.Spell
     Proofs.StrLemmas Proofs.DictLemmas Proofs.FormatLemmas Proofs.FormatAgreeLemmas Proofs.SpellOpts Proofs.FmtOkLemmas
     Proofs.ParserLemmas.

Fixpoint short_inv (f : fmt) : Prop :=
  match f with Fmt b _ _ _ _ os oss _ _ =>
    (forall s o, sget s oss = Some o -> In o (map snd os) /\ o_short o = Some s) /\
    match b with None => True | Some bf => short_inv bf end end.

(* the invariant of API-built formats used on the read side *)
Definition names_inv (f : fmt) : Prop := fmt_inv f /\ short_inv f.

Lemma build_format_short_inv g :
  match f_base g with Some bf => short_inv bf | None => True end -> short_inv (build_format g).
Proof.
  destruct g as [b cn co cs ar os oss hm ho]. cbn [f_base]. intros Hb. unfold build_format.
  destruct (index_copts (map snd co)). cbn [short_inv]. split; [|exact Hb].
  intros s o H. apply (short_index_sound os s o). exact H.
Qed.

Lemma reachable_names_inv base ops :
  match base with Some bf => names_inv bf | None => True end -> forallb bop_valid ops = true ->
  names_inv (build_format (brun (empty_builder base) ops)).
Proof.
  intros Hb Hv. split.
  - apply reachable_fmt_ok_lemma; [|exact Hv]. destruct base; [apply Hb|exact I].
  - apply build_format_short_inv. rewrite brun_base. cbn [empty_builder f_base].
    destruct base; [apply Hb|exact I].
Qed.
Lemma api_format_names_inv f : api_format f -> names_inv f.
Proof.
  induction 1 as [ops Hv|bf ops _ IH Hv].
  - apply (reachable_names_inv None); [exact I|exact Hv].
  - apply (reachable_names_inv (Some bf)); [exact IH|exact Hv].
Qed.

Lemma opts_sep_unique l : opts_sep l -> forall o1 o2 n,
  In o1 l -> In o2 l -> In n (onames o1) -> In n (onames o2) -> o1 = o2.
Proof.
  induction l as [|o r IH]; intros Hs o1 o2 n H1 H2 N1 N2; [contradiction|].
  destruct Hs as [Ho Hr]. destruct H1 as [<-|H1], H2 as [<-|H2].
  - reflexivity.
  - exfalso. exact (Ho o2 H2 n N1 N2).
  - exfalso. exact (Ho o1 H1 n N2 N1).
  - exact (IH Hr o1 o2 n H1 H2 N1 N2).
Qed.

(* one level of the base chain: what the own listing and its short-name index find under n *)
Definition own_option (os oss : list (str * opt)) (n : str) : option opt :=
  match sget n os with Some o => Some o | None => sget n oss end.

Lemma get_option_all_eq b cn co cs ar os oss hm ho n :
  get_option_all (Fmt b cn co cs ar os oss hm ho) n =
  match own_option os oss n with
  | Some o => Ok o
  | None => match b with Some bf => get_option_all bf n | None => Err NoSuchOption end
  end.
Proof. unfold own_option. cbn [get_option_all]. now destruct (sget n os), (sget n oss). Qed.

Section Level.
  Variables os oss : list (str * opt).
  Hypothesis Hk : Forall okeyed os.
  Hypothesis Hs : forall s o, sget s oss = Some o -> In o (map snd os) /\ o_short o = Some s.

  (* what the level finds is one of its options, and n is a name of it *)
  Lemma own_option_listed n o : own_option os oss n = Some o -> In (o_long o, o) os /\ In n (onames o).
  Proof.
    unfold own_option. destruct (sget n os) as [o'|] eqn:E1.
    - intros [= ->]. apply sget_some_in in E1. pose proof (okeyed_in _ _ _ Hk E1) as ->.
      split; [exact E1|apply in_onames; now left].
    - intros E2. destruct (Hs n o E2) as [Hl Hsn]. apply in_map_iff in Hl as [[k o'] [E Hl]]. cbn [snd] in E. subst o'.
      rewrite (okeyed_in _ _ _ Hk Hl) in Hl. split; [exact Hl|apply in_onames; now right].
  Qed.

  (* every name of an option of the level finds it: something is found (own_option_has), it has that name, and no two
     options of the level share a name *)
  Lemma own_option_finds k o n :
    (forall k o s, In (k, o) os -> o_short o = Some s -> shas s oss = true) -> opts_sep (map snd os) ->
    In (k, o) os -> In n (onames o) -> own_option os oss n = Some o.
  Proof.
    intros Hsh Hsep Hin Hn. pose proof (own_option_has os oss k o n Hk Hsh Hin Hn) as Hhas.
    destruct (own_option os oss n) as [o'|] eqn:E.
    - destruct (own_option_listed n o' E) as [Hl Hn']. f_equal.
      apply (opts_sep_unique _ Hsep o' o n); [now apply (in_map snd) in Hl|now apply (in_map snd) in Hin|exact Hn'|exact Hn].
    - unfold own_option in E. rewrite !shas_sget in Hhas. destruct (sget n os); [discriminate|]. now rewrite E in Hhas.
  Qed.
End Level.

(* whatever name of a listed option is asked for, the option itself is found *)
Lemma listed_option_resolves f : opts_inv f -> short_inv f -> forall k o n,
  In (k, o) (get_options_all f) -> In n (onames o) -> get_option_all f n = Ok o.
Proof.
  induction f as [cn co cs ar os oss hm ho|bf cn co cs ar os oss hm ho IH] using fmt_ind'; intros Hi Hs k o n Hin Hn;
    rewrite get_option_all_eq.
  - destruct Hi as (Hk & _ & Hsh & Hsep & _). destruct Hs as [Hs _]. cbn [get_options_all] in Hin.
    now rewrite (own_option_finds os oss Hk Hs k o n Hsh Hsep Hin Hn).
  - rewrite (opts_all_app _ Hi) in Hin. cbn [f_opts f_base] in Hin.
    destruct Hi as (Hk & _ & Hsh & Hsep & Hb & Hfr). destruct Hs as [Hs Hsb].
    apply in_app_or in Hin as [Hin|Hin]; [now rewrite (own_option_finds os oss Hk Hs k o n Hsh Hsep Hin Hn)|].
    (* inherited: the own level finds nothing, for it would find an own option named n, and n is a name in the base *)
    destruct (own_option os oss n) as [o'|] eqn:E; [exfalso|exact (IH Hb Hsb k o n Hin Hn)].
    destruct (own_option_listed os oss Hk Hs n o' E) as [Hl Hn'].
    destruct (opts_all_spec bf Hb) as (_ & _ & _ & Hnb). specialize (Hnb k o n Hin Hn).
    rewrite (Hfr _ o' n Hl Hn') in Hnb. discriminate.
Qed.

(* conversely: what a name resolves to is a listed option, and the name is its long or its short name *)
Lemma resolved_option_listed f : opts_inv f -> short_inv f -> forall n o,
  get_option_all f n = Ok o -> In (o_long o, o) (get_options_all f) /\ In n (onames o).
Proof.
  (* with and without base alike: first what the own level finds under n (Hown); the base is asked only if that is nothing *)
  induction f as [cn co cs ar os oss hm ho|bf cn co cs ar os oss hm ho IH] using fmt_ind'; intros Hi Hs n o;
    rewrite get_option_all_eq, (opts_all_app _ Hi); cbn [f_opts f_base];
    destruct Hs as [Hs Hsb]; pose proof (own_option_listed os oss (proj1 Hi) Hs n) as Hown;
    destruct (own_option os oss n) as [o'|]; try discriminate.
  - intros [= ->]. rewrite app_nil_r. now apply Hown.
  - intros [= ->]. destruct (Hown o eq_refl) as [Hl Hn]. split; [apply in_or_app; now left|exact Hn].
  - intros H. destruct Hi as (_ & _ & _ & _ & Hb & _). destruct (IH Hb Hsb n o H) as [Hl Hn].
    split; [apply in_or_app; now right|exact Hn].
Qed.

Lemma listed_option_has f : opts_inv f -> forall k o n,
  In (k, o) (get_options_all f) -> In n (onames o) -> has_option_all f n = true.
Proof. intros Hi. apply (opts_all_spec f Hi). Qed.

(* names_resolve, options: every listed option is listed under its long name, and its long name and its short
   name (if it has one) resolve to it; any name that resolves at all is one of the two *)
Theorem names_resolve_options_lemma f : names_inv f ->
  (forall k o, In (k, o) (get_options f true) ->
     k = o_long o /\ get_option f (o_long o) true = Ok o /\ has_option f (o_long o) true = true /\
     forall s, o_short o = Some s -> get_option f s true = Ok o /\ has_option f s true = true) /\
  (forall n o, get_option f n true = Ok o ->
     In (o_long o, o) (get_options f true) /\ (n = o_long o \/ o_short o = Some n)).
Proof.
  intros [(Ha & Hk & Ho) Hs]. cbn [get_options get_option has_option]. split.
  - intros k o Hin. destruct (opts_all_spec f Ho) as (_ & Hkeyed & _ & _).
    split; [exact (okeyed_in _ _ _ Hkeyed Hin)|]. split; [|split].
    + apply (listed_option_resolves f Ho Hs k o); [exact Hin|apply in_onames; now left].
    + apply (listed_option_has f Ho k o); [exact Hin|apply in_onames; now left].
    + intros s Hsn. split.
      * apply (listed_option_resolves f Ho Hs k o); [exact Hin|apply in_onames; now right].
      * apply (listed_option_has f Ho k o); [exact Hin|apply in_onames; now right].
  - intros n o H. destruct (resolved_option_listed f Ho Hs n o H) as [Hl Hn]. split; [exact Hl|].
    now apply in_onames.
Qed.

Theorem names_resolve_arguments_lemma f : names_inv f ->
  (forall i n a, nth_error (get_arguments f true) i = Some (n, a) ->
     n = a_name a /\
     get_argument f (APos (Z.of_nat i)) true = Ok a /\ get_argument f (AName n) true = Ok a /\
     has_argument f (APos (Z.of_nat i)) true = true /\ has_argument f (AName n) true = true) /\
  (forall r a, get_argument f r true = Ok a ->
     exists i, nth_error (get_arguments f true) i = Some (a_name a, a) /\
               (r = AName (a_name a) \/ r = APos (Z.of_nat i))).
Proof.
  intros [([Hai Hord] & Hk & _) _]. cbn [get_arguments].
  pose proof (args_all_nodup f Hai) as Hnd. pose proof (args_all_keyed f Hai Hk) as Hkeyed.
  rewrite Forall_forall in Hkeyed. split.
  - intros i n a H. pose proof (nth_error_In _ _ H) as Hin.
    pose proof (Hkeyed _ Hin) as K. unfold akeyed in K. cbn [fst snd] in K.
    assert (i < length (get_arguments_all f)) as Hlt by (apply nth_error_Some; congruence).
    pose proof (sget_of_in n a _ Hnd Hin) as Hg.
    split; [exact K|]. unfold get_argument, has_argument. cbn [get_arguments].
    repeat split.
    + destruct (Z.leb_spec (Z.of_nat (length (get_arguments_all f))) (Z.of_nat i)); [lia|].
      destruct (Z.ltb_spec (Z.of_nat i) 0); [lia|]. rewrite Nat2Z.id, H. reflexivity.
    + cbv zeta. now rewrite Hg.
    + apply andb_true_intro. split; [apply Z.leb_le; lia|apply Z.ltb_lt; lia].
    + cbv zeta. now rewrite shas_sget, Hg.
  - intros r a H. unfold get_argument in H. cbn [get_arguments] in H. destruct r as [n|i].
    + destruct (sget n (get_arguments_all f)) as [a'|] eqn:E; [|discriminate]. inversion H; subst a'.
      apply sget_some_in in E. pose proof (Hkeyed _ E) as K. unfold akeyed in K. cbn [fst snd] in K. subst n.
      apply In_nth_error in E as [i E]. exists i. split; [exact E|now left].
    + destruct (Z.leb_spec (Z.of_nat (length (get_arguments_all f))) i); [discriminate|].
      destruct (Z.ltb_spec i 0); [discriminate|].
      destruct (nth_error (get_arguments_all f) (Z.to_nat i)) as [[n a']|] eqn:E; [|discriminate]. inversion H; subst a'.
      pose proof (nth_error_In _ _ E) as Hin. pose proof (Hkeyed _ Hin) as K. unfold akeyed in K. cbn [fst snd] in K. subst n.
      exists (Z.to_nat i). split; [exact E|right]. rewrite Z2Nat.id by lia. reflexivity.
Qed.

Lemma access_agrees_options_inv f a k o s : names_inv f ->
  In (k, o) (get_options f true) -> o_short o = Some s ->
  args_option f a k = args_option f a s /\ args_is_option_set f a k = args_is_option_set f a s.
Proof.
  intros Hi Hin Hs. destruct (proj1 (names_resolve_options_lemma f Hi) k o Hin) as (-> & Hl & Hhl & Hsh).
  destruct (Hsh s Hs) as [Hg Hh]. split.
  - exact (option_access_agrees f a _ _ o Hl Hg).
  - exact (option_set_agrees f a _ _ o Hhl Hh Hl Hg).
Qed.
(* any name that resolves reads what the long name reads *)
Lemma access_by_any_name_inv f a n o : names_inv f -> get_option f n true = Ok o ->
  args_option f a n = args_option f a (o_long o) /\ args_is_option_set f a n = args_is_option_set f a (o_long o).
Proof.
  intros Hi H. destruct (proj2 (names_resolve_options_lemma f Hi) n o H) as [Hl Hn].
  destruct (proj1 (names_resolve_options_lemma f Hi) _ o Hl) as (_ & Hg & Hh & Hsh).
  destruct Hn as [->|Hs]; [split; reflexivity|]. destruct (Hsh n Hs) as [Hg' Hh']. split.
  - exact (option_access_agrees f a _ _ o Hg' Hg).
  - exact (option_set_agrees f a _ _ o Hh' Hh Hg' Hg).
Qed.
Lemma access_agrees_arguments_inv f a i n ar : names_inv f ->
  nth_error (get_arguments f true) i = Some (n, ar) ->
  args_argument f a (APos (Z.of_nat i)) = args_argument f a (AName n) /\
  args_is_argument_set f a (APos (Z.of_nat i)) = args_is_argument_set f a (AName n).
Proof.
  intros Hi H. destruct (proj1 (names_resolve_arguments_lemma f Hi) i n ar H) as (_ & G1 & G2 & H1 & H2). split.
  - exact (argument_access_agrees f a _ _ ar G1 G2).
  - exact (argument_set_agrees f a _ _ ar H1 H2 G1 G2).
Qed.
Lemma unset_option_default_inv f a k o n : names_inv f ->
  In (k, o) (get_options f true) -> sget (o_long o) (ar_opts a) = None ->
  n = o_long o \/ o_short o = Some n ->
  args_option f a n = Ok (if o_accepts o then o_default o else VBool false) /\ args_is_option_set f a n = false.
Proof.
  intros Hi Hin Hun Hn. destruct (proj1 (names_resolve_options_lemma f Hi) k o Hin) as (_ & Hl & Hhl & Hsh).
  assert (get_option f n true = Ok o /\ has_option f n true = true) as [Hg Hh].
  { destruct Hn as [->|Hs]; [split; assumption|exact (Hsh n Hs)]. }
  split; [exact (unset_option_default f a n o Hg Hun)|].
  unfold args_is_option_set. now rewrite Hh, Hg, shas_sget, Hun.
Qed.
Lemma unset_argument_default_inv f a i n ar : names_inv f ->
  nth_error (get_arguments f true) i = Some (n, ar) -> sget n (ar_args a) = None ->
  args_argument f a (APos (Z.of_nat i)) = Ok (a_default ar) /\ args_argument f a (AName n) = Ok (a_default ar) /\
  args_is_argument_set f a (APos (Z.of_nat i)) = false /\ args_is_argument_set f a (AName n) = false.
Proof.
  intros Hi H Hun. destruct (proj1 (names_resolve_arguments_lemma f Hi) i n ar H) as (-> & G1 & G2 & H1 & H2).
  repeat split.
  - exact (unset_argument_default f a _ ar G1 Hun).
  - exact (unset_argument_default f a _ ar G2 Hun).
  - unfold args_is_argument_set. now rewrite H1, G1, shas_sget, Hun.
  - unfold args_is_argument_set. now rewrite H2, G2, shas_sget, Hun.
Qed.

From Coq Require Import String Ascii.
From Clikit Require Import Proofs.SpellLemmas.
Module NamesResolveExamples.
  Import SpellExamples FmtOkExamples.
  (* fmt_inv does not suffice: the short index may point anywhere *)
  Definition Fbad := Fmt None [] [] [] [] [(s "verbose", o_verbose); (s "quiet", o_quiet)]
                         [(s "v", o_quiet); (s "q", o_quiet)] false false.
  Lemma Fbad_fmt_inv : fmt_inv Fbad.
  Proof.
    split; [|split].
    - split; [|reflexivity]. cbn. repeat split; constructor.
    - cbn. split; [constructor|exact I].
    - cbn. split; [repeat constructor|]. split.
      { repeat constructor; cbn; intuition discriminate. }
      split.
      { intros k o s0 [E|[E|[]]] Hs; inversion E; subst; cbn in Hs; inversion Hs; subst; reflexivity. }
      split; [|exact I]. split; [|split; [intros o' []|exact I]].
      intros o' [<-|[]] n H1 H2. cbn in H1, H2. intuition congruence.
  Qed.
  Example Fbad_resolves_differently :
    fmt_inv Fbad /\ fmt_ok Fbad = true /\ ~ short_inv Fbad /\
    get_option Fbad (s "verbose") true = Ok o_verbose /\ get_option Fbad (s "v") true = Ok o_quiet.
  Proof.
    split; [exact Fbad_fmt_inv|]. split; [vm_compute; reflexivity|]. split; [|split; vm_compute; reflexivity].
    intros [H _]. destruct (H (s "v") o_quiet) as [_ E]; [vm_compute; reflexivity|]. vm_compute in E. discriminate.
  Qed.

  (* G: options and arguments spread over a base (FmtOkExamples) *)
  Lemma G_names_inv : names_inv G.
  Proof. exact (api_format_names_inv G G_api). Qed.
  Example G_listing :
    map fst (get_options G true) = [s "num"; s "tag"; s "level"; s "verbose"; s "quiet"; s "color"] /\
    map fst (get_arguments G true) = [s "host"; s "port"; s "files"] /\
    In (s "color", o_color) (get_options G true) /\ In (s "tag", o_tag) (get_options G true) /\
    nth_error (get_arguments G true) 0 = Some (s "host", a_host) /\
    nth_error (get_arguments G true) 2 = Some (s "files", a_files).
  Proof. vm_compute. repeat split; auto 10. Qed.
  (* the inherited --color / -c and the own --tag / -t, read from the assignment the line D1 spells *)
  Example G_access_agrees :
    let A := denote G D1 in
    args_option G A (s "color") = args_option G A (s "c") /\ args_option G A (s "c") = Ok (VStr (s "auto")) /\
    args_option G A (s "tag") = args_option G A (s "t") /\
    args_argument G A (APos 2) = args_argument G A (AName (s "files")) /\
    args_argument G A (APos 0) = Ok (VStr (s "h1")).
  Proof.
    cbv zeta. destruct G_listing as (_ & _ & Hc & Ht & _ & Hf).
    split; [exact (proj1 (access_agrees_options_inv G _ _ o_color (s "c") G_names_inv Hc eq_refl))|].
    split; [vm_compute; reflexivity|].
    split; [exact (proj1 (access_agrees_options_inv G _ _ o_tag (s "t") G_names_inv Ht eq_refl))|].
    split; [exact (proj1 (access_agrees_arguments_inv G _ 2 _ a_files G_names_inv Hf))|].
    vm_compute. reflexivity.
  Qed.
  Example all_forms :
    ld_items D2 =
      [IVal o_num ShortSep (s "12"); IPos (s "h2"); IGroup [o_quiet; o_verbose] (Some (o_color, GGlued (s "red")));
       IVal o_level LongEq (s "null"); IVal o_num ShortGlued (s "7")] /\
    ld_items D3 =
      [IGroup [o_verbose; o_quiet; o_verbose] None; IPos (s "h3"); IFlag o_quiet false; IGroup [o_verbose] (Some (o_color, GBare))] /\
    render D2 = [s "-n"; s "12"; s "h2"; s "-qvcred"; s "--level=null"; s "-n7"] /\
    render D3 = [s "server"; s "-vqv"; s "h3"; s "-q"; s "-vc"; s "--"] /\
    wf_line F1 D2 = true /\ wf_line F1 D3 = true /\ wf_line G D2 = true /\ wf_line G D3 = true /\
    (forall lenient, parse G lenient (render D2) = Ok (denote G D2)) /\
    (forall lenient, parse G lenient (render D3) = Ok (denote G D3)) /\
    denote G D3 =
      {| ar_opts := [(s "verbose", VBool true); (s "quiet", VBool true); (s "color", VStr (s "auto"))];
         ar_args := [(s "host", VStr (s "h3"))] |}.
  Proof.
    repeat match goal with |- _ /\ _ => split end; vm_compute; reflexivity.
  Qed.
  Example G_instance :
    api_format G /\
    map fst (get_options G true) = [s "num"; s "tag"; s "level"; s "verbose"; s "quiet"; s "color"] /\
    map fst (get_arguments G true) = [s "host"; s "port"; s "files"] /\
    args_option G (denote G D1) (s "color") = args_option G (denote G D1) (s "c") /\
    args_option G (denote G D1) (s "c") = Ok (VStr (s "auto")) /\
    args_option G (denote G D1) (s "tag") = args_option G (denote G D1) (s "t") /\
    args_argument G (denote G D1) (APos 2) = args_argument G (denote G D1) (AName (s "files")) /\
    args_argument G (denote G D1) (APos 0) = Ok (VStr (s "h1")).
  Proof.
    split; [exact G_api|]. split; [exact (proj1 G_listing)|]. split; [exact (proj1 (proj2 G_listing))|].
    exact G_access_agrees.
  Qed.
End NamesResolveExamples.
