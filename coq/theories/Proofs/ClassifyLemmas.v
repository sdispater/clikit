(* C02, classification clauses: WHICH malformed command line gives WHICH error (strict mode).
   Everything is stated over the model of DefaultArgsParser in Model/Parser.v; f' is the augmented
   format the parser works on (aug_format f = Ok (f', arguments, command_names)).
   Every clause theorem has an Example that instantiates all its hypotheses on the concrete formats
   ex_f / ex_g / ex_h (non-vacuity). *)
From Coq Require Import Lia String Ascii.
From Clikit Require Import Base.Prelude Base.Res Model.Conv Model.Flags Model.Format Model.Parser
     Proofs.StrLemmas Proofs.ListLemmas Proofs.DictLemmas Proofs.FlagsLemmas Proofs.FormatLemmas Proofs.FormatAgreeLemmas Proofs.ParserLemmas.

Definition long_tok (body : str) : str := DASH :: DASH :: body.     (* "--" ++ body *)
Definition short_tok (body : str) : str := DASH :: body.            (* "-" ++ body *)
(* a non-empty token that starts with "-": never taken as the value of an option *)
Definition dashy (tok : str) : bool := nonempty tok && starts_dash tok.
Definition no_eq (s : str) : bool := forallb (fun c => negb (N.eqb c EQ)) s.

Lemma split_eq_found n v : forall acc, no_eq n = true -> split_eq (n ++ EQ :: v) acc = Some (rev acc ++ n, v).
Proof.
  induction n as [|c r IH]; intros acc Hn; cbn [app split_eq].
  - rewrite N.eqb_refl, app_nil_r. reflexivity.
  - cbn [no_eq forallb] in Hn. apply andb_prop in Hn as [Hc Hr].
    destruct (N.eqb c EQ); [discriminate|]. rewrite (IH (c :: acc) Hr). cbn [rev]. rewrite <- app_assoc. reflexivity.
Qed.
Lemma split_eq_none n : forall acc, no_eq n = true -> split_eq n acc = None.
Proof.
  induction n as [|c r IH]; intros acc Hn; cbn [split_eq]; [reflexivity|].
  cbn [no_eq forallb] in Hn. apply andb_prop in Hn as [Hc Hr].
  destruct (N.eqb c EQ); [discriminate|]. apply IH, Hr.
Qed.

(* the look-ahead of _add_long_option and what it stores, as separate functions *)
Definition look (acc : bool) (v : option str) (t : list str) : option str * list str :=
  match v, acc, t with
  | None, true, nxt :: rest =>
      if nonempty nxt && negb (starts_dash nxt) then (Some nxt, rest)
      else if negb (nonempty nxt) then (Some [], rest)
      else (None, t)
  | _, _, _ => (v, t)
  end.
Definition store (st : pstate) (name : str) (o : opt) (value : option str) (tokens : list str)
  : res (pstate * list str) :=
  match (match value with Some [] => None | v => v end) with
  | None =>
      if o_required o then Err CannotParse
      else if o_multi o then Err (Other 2)
      else
        let v := if o_optional o then ODefault (o_default o) else OTrue in
        Ok ({| ps_args := ps_args st; ps_opts := sset name v (ps_opts st) |}, tokens)
  | Some s =>
      if o_multi o then
        let l := match sget name (ps_opts st) with Some (OList l) => l | _ => [] end in
        Ok ({| ps_args := ps_args st; ps_opts := sset name (OList (l ++ [s])) (ps_opts st) |}, tokens)
      else Ok ({| ps_args := ps_args st; ps_opts := sset name (OStr s) (ps_opts st) |}, tokens)
  end.

Lemma add_long_eq f st n v t :
  add_long_option f st n v t =
  if negb (has_option f n true) then Err NoSuchOption else
  do o <- get_option f n true;
  if (match v with Some _ => negb (o_accepts o) | None => false end) then Err CannotParse else
  store st n o (fst (look (o_accepts o) v t)) (snd (look (o_accepts o) v t)).
Proof.
  unfold add_long_option, store, look.
  destruct (negb (has_option f n true)); [reflexivity|].
  destruct (get_option f n true) as [o|k]; cbn [bind]; [|reflexivity].
  destruct v as [s|]; [destruct (negb (o_accepts o)); reflexivity|].
  destruct (o_accepts o); [|reflexivity].
  destruct t as [|nxt rest]; [reflexivity|].
  destruct (nonempty nxt && negb (starts_dash nxt)); [reflexivity|].
  destruct (negb (nonempty nxt)); reflexivity.
Qed.
(* a successful _add_long_option is a store for an option the format has *)
Lemma add_long_ok f st n v t st' t' : add_long_option f st n v t = Ok (st', t') ->
  exists o, get_option f n true = Ok o /\
            store st n o (fst (look (o_accepts o) v t)) (snd (look (o_accepts o) v t)) = Ok (st', t').
Proof.
  rewrite add_long_eq. destruct (negb (has_option f n true)); [discriminate|].
  destruct (get_option f n true) as [o|k]; cbn [bind]; [|discriminate].
  destruct (match v with Some _ => negb (o_accepts o) | None => false end); [discriminate|]. eauto.
Qed.

Lemma look_suffix acc v t : exists c, t = c ++ snd (look acc v t).
Proof.
  unfold look. destruct v as [s|]; [exists []; reflexivity|].
  destruct acc; [|exists []; reflexivity].
  destruct t as [|nxt rest]; [exists []; reflexivity|].
  destruct (nonempty nxt && negb (starts_dash nxt)); [exists [nxt]; reflexivity|].
  destruct (negb (nonempty nxt)); [exists [nxt]; reflexivity|exists []; reflexivity].
Qed.
(* a dashy token put behind the remaining tokens does not change the look-ahead *)
Lemma look_app acc v t tok r :
  (v <> None \/ t <> [] \/ dashy tok = true) ->
  look acc v (t ++ tok :: r) = (fst (look acc v t), snd (look acc v t) ++ tok :: r).
Proof.
  intros Hc. unfold look. destruct v as [s|]; [reflexivity|].
  destruct acc; [|reflexivity].
  destruct t as [|nxt rest]; cbn [app].
  - destruct Hc as [Hc|[Hc|Hc]]; [congruence|congruence|].
    unfold dashy in Hc. apply andb_prop in Hc as [H1 H2]. rewrite H1, H2. reflexivity.
  - destruct (nonempty nxt && negb (starts_dash nxt)); [reflexivity|].
    destruct (negb (nonempty nxt)); reflexivity.
Qed.
Lemma store_tokens st n o v t :
  store st n o v t = match store st n o v [] with Ok (st', _) => Ok (st', t) | Err k => Err k end.
Proof.
  unfold store. destruct (match v with Some [] => None | x => x end) as [s|].
  - destruct (o_multi o); reflexivity.
  - destruct (o_required o); [reflexivity|]. destruct (o_multi o); reflexivity.
Qed.
Lemma store_ok_tokens st n o v t st' t' : store st n o v t = Ok (st', t') -> t' = t.
Proof. rewrite store_tokens. destruct (store st n o v []) as [[s x]|k]; intros H; inversion H; reflexivity. Qed.
Lemma store_app st n o v t st' x : store st n o v t = Ok (st', t) -> store st n o v (t ++ x) = Ok (st', t ++ x).
Proof.
  rewrite (store_tokens st n o v t), (store_tokens st n o v (t ++ x)).
  destruct (store st n o v []) as [[s y]|k]; intros H; inversion H; reflexivity.
Qed.
Lemma store_args st n o v t st' t' : store st n o v t = Ok (st', t') -> ps_args st' = ps_args st.
Proof.
  unfold store. destruct (match v with Some [] => None | x => x end) as [s|].
  - destruct (o_multi o); intros H; inversion H; reflexivity.
  - destruct (o_required o); [discriminate|]. destruct (o_multi o); [discriminate|]. intros H; inversion H; reflexivity.
Qed.

(* what an option token leaves alone: the scratch arguments, and all the remaining tokens but some it takes from
   their front *)
Definition frame (st : pstate) (t : list str) (st' : pstate) (t' : list str) : Prop :=
  ps_args st' = ps_args st /\ exists c, t = c ++ t'.
Lemma frame_trans st t st1 t1 st2 t2 : frame st t st1 t1 -> frame st1 t1 st2 t2 -> frame st t st2 t2.
Proof. intros [A1 [c1 ->]] [A2 [c2 ->]]. split; [congruence|]. exists (c1 ++ c2). now rewrite app_assoc. Qed.

Lemma take_value_suffix t : exists c, t = c ++ snd (take_value t).
Proof.
  destruct t as [|v r]; cbn [take_value]; [exists []; reflexivity|].
  destruct (nonempty v && starts_dash v); [exists []; reflexivity|exists [v]; reflexivity].
Qed.

Lemma add_long_frame f st n v t st' t' : add_long_option f st n v t = Ok (st', t') -> frame st t st' t'.
Proof.
  intros H. apply add_long_ok in H as (o & _ & H). split; [eapply store_args; eauto|].
  apply store_ok_tokens in H. subst t'. apply look_suffix.
Qed.
Lemma add_short_frame f st n v t st' t' : add_short_option f st n v t = Ok (st', t') -> frame st t st' t'.
Proof.
  unfold add_short_option. destruct (negb (has_option f n true)); [discriminate|].
  destruct (get_option f n true) as [o|k]; cbn [bind]; [|discriminate]. apply add_long_frame.
Qed.
(* the same after the look-ahead of take_value *)
Lemma take_value_frame st t st' t' : frame st (snd (take_value t)) st' t' -> frame st t st' t'.
Proof. intros H. destruct (take_value_suffix t) as [c1 H1]. apply (frame_trans st t st (snd (take_value t))); [split; eauto|exact H]. Qed.
Lemma parse_long_frame f st tk t st' t' : parse_long_option f st tk t = Ok (st', t') -> frame st t st' t'.
Proof.
  unfold parse_long_option. destruct (split_eq (skipn 2 tk) []) as [[n v]|]; [apply add_long_frame|].
  destruct (accepts f (skipn 2 tk)); [|apply add_long_frame].
  intros H. apply take_value_frame. destruct (take_value t) as [v t2]. eapply add_long_frame; eauto.
Qed.
Lemma short_set_frame f : forall name st t st' t',
  fst (short_set f st name t) = Ok (st', t') -> frame st t st' t'.
Proof.
  induction name as [|c rest IH]; intros st t st' t'; cbn [short_set fst].
  - intros H. inversion H. split; [reflexivity|exists []; reflexivity].
  - destruct (negb (has_option f [c] true)); [discriminate|].
    destruct (get_option f [c] true) as [o|k]; [|discriminate].
    destruct (o_accepts o).
    + destruct (add_long_option f st (o_long o) _ t) as [[s1 t1]|k] eqn:E; cbn [fst]; [|discriminate].
      intros H. inversion H; subst. eapply add_long_frame; eauto.
    + destruct (add_long_option f st (o_long o) None t) as [[s1 t1]|k] eqn:E; cbn [fst]; [|discriminate].
      intros H. eapply frame_trans; [eapply add_long_frame|eapply IH]; eauto.
Qed.
Lemma parse_short_frame f st tk t st' t' :
  fst (parse_short_option f st tk t) = Ok (st', t') -> frame st t st' t'.
Proof.
  unfold parse_short_option. destruct (skipn 1 tk) as [|c [|c2 rest]]; cbn [fst]; [discriminate| |].
  - destruct (accepts f [c]); [|cbn [fst]; apply add_short_frame].
    intros H. apply take_value_frame. destruct (take_value t) as [v t2]. eapply add_short_frame; eauto.
  - destruct (accepts f [c]); [cbn [fst]; apply add_short_frame|apply short_set_frame].
Qed.

(* a dashy token (and anything behind it) appended to the remaining tokens is left where it is *)
Lemma add_long_app f st n v t st' t' tok r :
  add_long_option f st n v t = Ok (st', t') -> (v <> None \/ t <> [] \/ dashy tok = true) ->
  add_long_option f st n v (t ++ tok :: r) = Ok (st', t' ++ tok :: r).
Proof.
  rewrite !add_long_eq. destruct (negb (has_option f n true)); [discriminate|].
  destruct (get_option f n true) as [o|k]; cbn [bind]; [|discriminate].
  destruct (match v with Some _ => negb (o_accepts o) | None => false end); [discriminate|].
  intros H Hc. rewrite (look_app _ _ _ _ _ Hc). cbn [fst snd].
  pose proof (store_ok_tokens _ _ _ _ _ _ _ H) as Ht. subst t'. apply store_app. exact H.
Qed.
Lemma take_value_app t tok r : (t <> [] \/ dashy tok = true) ->
  take_value (t ++ tok :: r) = (fst (take_value t), snd (take_value t) ++ tok :: r).
Proof.
  intros Hc. destruct t as [|v rest]; cbn [app take_value].
  - destruct Hc as [Hc|Hc]; [congruence|]. unfold dashy in Hc. rewrite Hc. reflexivity.
  - destruct (nonempty v && starts_dash v); reflexivity.
Qed.
(* what take_value leaves for the look-ahead of _add_long_option *)
Lemma take_value_cond t tok : (t <> [] \/ dashy tok = true) ->
  fst (take_value t) <> None \/ snd (take_value t) <> [] \/ dashy tok = true.
Proof.
  intros Hc. destruct t as [|v rest]; cbn [take_value].
  - destruct Hc as [Hc|Hc]; [congruence|auto].
  - destruct (nonempty v && starts_dash v); cbn [fst snd]; [right; left; discriminate|left; discriminate].
Qed.
Lemma parse_long_app f st tk t st' t' tok r :
  parse_long_option f st tk t = Ok (st', t') -> (t <> [] \/ dashy tok = true) ->
  parse_long_option f st tk (t ++ tok :: r) = Ok (st', t' ++ tok :: r).
Proof.
  unfold parse_long_option. intros H Hc.
  destruct (split_eq (skipn 2 tk) []) as [[n v]|].
  { apply add_long_app; [exact H|left; discriminate]. }
  destruct (accepts f (skipn 2 tk)).
  - rewrite (take_value_app _ _ _ Hc). pose proof (take_value_cond _ _ Hc) as Hc2.
    destruct (take_value t) as [v t2]. cbn [fst snd] in *. apply add_long_app; assumption.
  - apply add_long_app; [exact H|right; exact Hc].
Qed.
Lemma add_short_app f st n v t st' t' tok r :
  add_short_option f st n v t = Ok (st', t') -> (v <> None \/ t <> [] \/ dashy tok = true) ->
  add_short_option f st n v (t ++ tok :: r) = Ok (st', t' ++ tok :: r).
Proof.
  unfold add_short_option. destruct (negb (has_option f n true)); [discriminate|].
  destruct (get_option f n true) as [o|k]; cbn [bind]; [|discriminate]. apply add_long_app.
Qed.
Lemma short_set_app f tok r : dashy tok = true -> forall name st t st' t',
  fst (short_set f st name t) = Ok (st', t') ->
  fst (short_set f st name (t ++ tok :: r)) = Ok (st', t' ++ tok :: r).
Proof.
  intros Hd. induction name as [|c rest IH]; intros st t st' t'; cbn [short_set fst].
  - intros H. inversion H. reflexivity.
  - destruct (negb (has_option f [c] true)); [discriminate|].
    destruct (get_option f [c] true) as [o|k]; [|discriminate].
    destruct (o_accepts o).
    + destruct (add_long_option f st (o_long o) _ t) as [[s1 t1]|k] eqn:E; cbn [fst]; [|discriminate].
      intros H. inversion H; subst.
      rewrite (add_long_app _ _ _ _ _ _ _ tok r E) by (right; right; exact Hd). reflexivity.
    + destruct (add_long_option f st (o_long o) None t) as [[s1 t1]|k] eqn:E; cbn [fst]; [|discriminate].
      intros H. rewrite (add_long_app _ _ _ _ _ _ _ tok r E) by (right; right; exact Hd). apply IH. exact H.
Qed.
Lemma parse_short_app f st tk t st' t' tok r : dashy tok = true ->
  fst (parse_short_option f st tk t) = Ok (st', t') ->
  fst (parse_short_option f st tk (t ++ tok :: r)) = Ok (st', t' ++ tok :: r).
Proof.
  intros Hd. unfold parse_short_option. destruct (skipn 1 tk) as [|c [|c2 rest]]; cbn [fst]; [discriminate| |].
  - destruct (accepts f [c]).
    + rewrite (take_value_app t tok r) by (right; exact Hd).
      destruct (take_value t) as [v t2]. cbn [fst snd]. intros H.
      rewrite (add_short_app _ _ _ _ _ _ _ tok r H) by (right; right; exact Hd). reflexivity.
    + cbn [fst]. intros H. rewrite (add_short_app _ _ _ _ _ _ _ tok r H) by (right; right; exact Hd). reflexivity.
  - destruct (accepts f [c]).
    + cbn [fst]. intros H. rewrite (add_short_app _ _ _ _ _ _ _ tok r H) by (left; discriminate). reflexivity.
    + apply short_set_app. exact Hd.
Qed.

(* Error kinds, and the defaults that get into the option scratch map.
   opts_ok (ParserLemmas) asks conv_input (o_default o) of EVERY option; a multi-valued option keeps the list [] as
   default (Option.set_default, dec_opt), and conv_input (VList []) = false: a statement under opts_ok says nothing
   about a format with a multi-valued option.  The default of an option is only ever stored when its value is not
   required, so this suffices: *)
Definition opts_ok_w (f : fmt) : Prop :=
  forall n o, get_option f n true = Ok o ->
    (o_multi o = true -> o_required o = true) /\ (o_required o = false -> conv_input (o_default o) = true).
Lemma opts_ok_weaken f : opts_ok f -> opts_ok_w f.
Proof. intros H n o Ho. destruct (H n o Ho) as [H1 H2]. auto. Qed.

Lemma store_spec_w st n o v t :
  (o_multi o = true -> o_required o = true) -> (o_required o = false -> conv_input (o_default o) = true) ->
  st_defaults_ok st ->
  match store st n o v t with Ok (st', _) => st_defaults_ok st' | Err k => loop_error k end.
Proof.
  intros Hm Hd Hp. unfold store. destruct (match v with Some [] => None | x => x end) as [s|].
  - destruct (o_multi o); (apply st_defaults_ok_set; [assumption|intros ? HH; discriminate HH]).
  - destruct (o_required o) eqn:Hr; [left; reflexivity|].
    destruct (o_multi o) eqn:Hmu; [discriminate (Hm eq_refl)|].
    apply st_defaults_ok_set; [assumption|].
    destruct (o_optional o); intros d Hdd; inversion Hdd; subst. exact (Hd eq_refl).
Qed.
Lemma add_long_spec_w f st n v t :
  opts_ok_w f -> st_defaults_ok st ->
  match add_long_option f st n v t with Ok (st', _) => st_defaults_ok st' | Err k => loop_error k end.
Proof.
  intros Hok Hp. rewrite add_long_eq.
  destruct (has_option f n true) eqn:Hh; cbn [negb]; [|right; reflexivity].
  destruct (has_option_get f n Hh) as [o Ho]. cbn [get_option]. rewrite Ho. cbn [bind].
  destruct (Hok n o Ho) as [Hm Hd].
  destruct (match v with Some _ => negb (o_accepts o) | None => false end); [left; reflexivity|].
  apply store_spec_w; assumption.
Qed.
Lemma add_short_spec_w f st n v t :
  opts_ok_w f -> st_defaults_ok st ->
  match add_short_option f st n v t with Ok (st', _) => st_defaults_ok st' | Err k => loop_error k end.
Proof.
  intros Hok Hp. unfold add_short_option.
  destruct (has_option f n true) eqn:Hh; cbn [negb]; [|right; reflexivity].
  destruct (has_option_get f n Hh) as [o Ho]. cbn [get_option]. rewrite Ho. cbn [bind].
  apply add_long_spec_w; assumption.
Qed.
Lemma parse_long_spec_w f st tok t :
  opts_ok_w f -> st_defaults_ok st ->
  match parse_long_option f st tok t with Ok (st', _) => st_defaults_ok st' | Err k => loop_error k end.
Proof.
  intros Hok Hp. unfold parse_long_option.
  destruct (split_eq (skipn 2 tok) []) as [[n v]|]; [apply add_long_spec_w; assumption|].
  destruct (accepts f (skipn 2 tok)); [|apply add_long_spec_w; assumption].
  destruct (take_value t) as [v t']. apply add_long_spec_w; assumption.
Qed.
(* the second component is the state reached, which survives an error *)
Lemma short_set_spec_w f : opts_ok_w f -> forall name st t, st_defaults_ok st ->
  st_defaults_ok (snd (short_set f st name t)) /\
  match fst (short_set f st name t) with Ok (st', _) => st_defaults_ok st' | Err k => loop_error k end.
Proof.
  intros Hok. induction name as [|c rest IH]; intros st t Hp; cbn [short_set fst snd]; [auto|].
  destruct (has_option f [c] true) eqn:Hh; cbn [negb fst snd]; [|split; [exact Hp|right; reflexivity]].
  destruct (has_option_get f [c] Hh) as [o Ho]. cbn [get_option]. rewrite Ho.
  destruct (o_accepts o).
  - pose proof (add_long_spec_w f st (o_long o) (match rest with [] => None | _ => Some rest end) t Hok Hp) as H.
    destruct (add_long_option f st (o_long o) _ t) as [[st' t']|k]; cbn [fst snd]; auto.
  - pose proof (add_long_spec_w f st (o_long o) None t Hok Hp) as H.
    destruct (add_long_option f st (o_long o) None t) as [[st' t']|k]; cbn [fst snd]; auto.
Qed.
Lemma parse_short_spec_w f st tok t :
  opts_ok_w f -> st_defaults_ok st -> skipn 1 tok <> [] ->
  st_defaults_ok (snd (parse_short_option f st tok t)) /\
  match fst (parse_short_option f st tok t) with Ok (st', _) => st_defaults_ok st' | Err k => loop_error k end.
Proof.
  intros Hok Hp Hne. unfold parse_short_option.
  destruct (skipn 1 tok) as [|c [|c2 rest]]; [contradiction| |].
  - destruct (accepts f [c]).
    + destruct (take_value t) as [v t'].
      pose proof (add_short_spec_w f st [c] v t' Hok Hp) as H.
      destruct (add_short_option f st [c] v t') as [[st' t'']|k]; cbn [fst snd]; auto.
    + pose proof (add_short_spec_w f st [c] None t Hok Hp) as H.
      destruct (add_short_option f st [c] None t) as [[st' t'']|k]; cbn [fst snd]; auto.
  - destruct (accepts f [c]); [|apply short_set_spec_w; assumption].
    pose proof (add_short_spec_w f st [c] (Some (c2 :: rest)) t Hok Hp) as H.
    destruct (add_short_option f st [c] (Some (c2 :: rest)) t) as [[st' t'']|k]; cbn [fst snd]; auto.
Qed.

(* one iteration of the while loop of _parse: (parse_options, scratch state, remaining tokens) *)
Definition step (f : fmt) (len p : bool) (st : pstate) (tok : str) (rest : list str)
  : res (bool * pstate * list str) :=
  if p && negb (nonempty tok) then
    match parse_argument f len st tok with Ok st' => Ok (p, st', rest) | Err k => Err k end
  else if p && is_dd tok then Ok (false, st, rest)
  else if p && starts_dd tok then
    match parse_long_option f st tok rest with Ok (st', rest') => Ok (p, st', rest') | Err k => Err k end
  else if p && starts_dash tok && negb (str_eqb tok [DASH]) then
    match fst (parse_short_option f st tok rest) with Ok (st', rest') => Ok (p, st', rest') | Err k => Err k end
  else
    match parse_argument f len st tok with Ok st' => Ok (p, st', rest) | Err k => Err k end.
(* the state the loop returns when that iteration fails: a group of short options keeps what its first letters stored *)
Definition step_err_state (f : fmt) (p : bool) (st : pstate) (tok : str) (rest : list str) : pstate :=
  if p && negb (nonempty tok) then st else if p && is_dd tok then st else if p && starts_dd tok then st
  else if p && starts_dash tok && negb (str_eqb tok [DASH]) then snd (parse_short_option f st tok rest) else st.

Lemma loop_step f len fuel p st tok rest :
  loop (S fuel) f len p st (tok :: rest) =
  match step f len p st tok rest with
  | Ok (p', st', rest') => loop fuel f len p' st' rest'
  | Err k => (step_err_state f p st tok rest, Some k)
  end.
Proof.
  unfold step, step_err_state. cbn [loop].
  destruct (p && negb (nonempty tok)); [destruct (parse_argument f len st tok); reflexivity|].
  destruct (p && is_dd tok); [reflexivity|].
  destruct (p && starts_dd tok); [destruct (parse_long_option f st tok rest) as [[s r]|k]; reflexivity|].
  destruct (p && starts_dash tok && negb (str_eqb tok [DASH])); [|destruct (parse_argument f len st tok); reflexivity].
  destruct (parse_short_option f st tok rest) as [[[s r]|k] s2]; reflexivity.
Qed.

(* which of its four branches an iteration takes depends on the token (and the switch) alone; in the first,
   p && is_dd tok = false says that the switch stays as it is *)
Lemma step_cases f len p st tok :
  (p && is_dd tok = false /\ forall rest, step f len p st tok rest =
     match parse_argument f len st tok with Ok st' => Ok (p, st', rest) | Err k => Err k end) \/
  (p = true /\ is_dd tok = true /\ forall rest, step f len p st tok rest = Ok (false, st, rest)) \/
  (p = true /\ is_dd tok = false /\ forall rest, step f len p st tok rest =
     match parse_long_option f st tok rest with Ok (st', rest') => Ok (p, st', rest') | Err k => Err k end) \/
  (p = true /\ is_dd tok = false /\ skipn 1 tok <> [] /\ forall rest, step f len p st tok rest =
     match fst (parse_short_option f st tok rest) with Ok (st', rest') => Ok (p, st', rest') | Err k => Err k end).
Proof.
  unfold step. destruct p; cbn [andb]; [|left; auto].
  destruct (nonempty tok) eqn:Hne; cbn [negb]; [|left; destruct tok; [auto|discriminate]].
  destruct (is_dd tok) eqn:Hdd; [right; left; auto|].
  destruct (starts_dd tok); [right; right; left; auto|].
  destruct (starts_dash tok) eqn:Hsd; cbn [andb]; [|left; auto].
  destruct (str_eqb tok [DASH]) eqn:Hd; cbn [negb]; [left; auto|].
  right. right. right. repeat split; auto. apply starts_dash_skipn; assumption.
Qed.

Lemma step_frame f len p st tok rest p' st' rest' :
  step f len p st tok rest = Ok (p', st', rest') ->
  (exists c, rest = c ++ rest') /\ p' = p && negb (is_dd tok) /\
  (ps_args st' = ps_args st \/ parse_argument f len st tok = Ok st').
Proof.
  assert (forall b, p && b = false -> p = p && negb b) as Hsw by (destruct p, b; auto).
  destruct (step_cases f len p st tok) as [[Hd E]|[(-> & Hd & E)|[(-> & Hd & E)|(-> & Hd & _ & E)]]];
    rewrite E, ?Hd; clear E.
  - destruct (parse_argument f len st tok) as [s|k]; intros [= <- <- <-]. split; [exists []; reflexivity|auto].
  - intros [= <- <- <-]. split; [exists []; reflexivity|auto].
  - destruct (parse_long_option f st tok rest) as [[s r]|k] eqn:El; intros [= <- <- <-].
    destruct (parse_long_frame _ _ _ _ _ _ El). auto.
  - destruct (fst (parse_short_option f st tok rest)) as [[s r]|k] eqn:Es; intros [= <- <- <-].
    destruct (parse_short_frame _ _ _ _ _ _ Es). auto.
Qed.
Lemma step_len f len p st tok rest p' st' rest' :
  step f len p st tok rest = Ok (p', st', rest') -> length rest' <= length rest.
Proof. intros H. apply step_frame in H as [[c ->] _]. rewrite app_length. lia. Qed.

Lemma step_app f len p st tok0 t p1 st1 t1 tok r : dashy tok = true ->
  step f len p st tok0 t = Ok (p1, st1, t1) ->
  step f len p st tok0 (t ++ tok :: r) = Ok (p1, st1, t1 ++ tok :: r).
Proof.
  intros Hd. destruct (step_cases f len p st tok0) as [[_ E]|[(_ & _ & E)|[(_ & _ & E)|(_ & _ & _ & E)]]]; rewrite !E.
  - destruct (parse_argument f len st tok0) as [s|k]; intros [= <- <- <-]; reflexivity.
  - intros [= <- <- <-]; reflexivity.
  - destruct (parse_long_option f st tok0 t) as [[s x]|k] eqn:El; intros [= <- <- <-].
    rewrite (parse_long_app _ _ _ _ _ _ tok r El) by (right; exact Hd). reflexivity.
  - destruct (fst (parse_short_option f st tok0 t)) as [[s x]|k] eqn:Es; intros [= <- <- <-].
    rewrite (parse_short_app _ _ _ _ _ _ tok r Hd Es). reflexivity.
Qed.

Lemma step_spec_w f len p st tok rest : opts_ok_w f -> st_defaults_ok st ->
  st_defaults_ok (step_err_state f p st tok rest) /\
  match step f len p st tok rest with Ok (_, st', _) => st_defaults_ok st' | Err k => loop_error k end.
Proof.
  intros Hok Hp.
  assert (st_defaults_ok (step_err_state f p st tok rest)) as He.
  { unfold step_err_state. destruct (p && negb (nonempty tok)); [exact Hp|]. destruct (p && is_dd tok); [exact Hp|].
    destruct (p && starts_dd tok); [exact Hp|].
    destruct (p && starts_dash tok && negb (str_eqb tok [DASH])) eqn:Hs; [|exact Hp].
    apply andb_prop in Hs as [Hs Hnd]. apply andb_prop in Hs as [_ Hsd].
    apply parse_short_spec_w; [assumption..|]. apply starts_dash_skipn; [assumption|now apply negb_true_iff]. }
  split; [exact He|].
  destruct (step_cases f len p st tok) as [[_ E]|[(_ & _ & E)|[(_ & _ & E)|(_ & _ & Hne & E)]]]; rewrite E.
  - pose proof (parse_argument_spec f len st tok Hp) as H.
    destruct (parse_argument f len st tok); [exact H|left; exact H].
  - exact Hp.
  - pose proof (parse_long_spec_w f st tok rest Hok Hp) as H. destruct (parse_long_option f st tok rest) as [[s r]|k]; exact H.
  - destruct (parse_short_spec_w f st tok rest Hok Hp Hne) as [_ H].
    destruct (fst (parse_short_option f st tok rest)) as [[s r]|k]; exact H.
Qed.

Lemma loop_spec_w f len : opts_ok_w f -> forall fuel p st tokens, st_defaults_ok st -> length tokens < fuel ->
  st_defaults_ok (fst (loop fuel f len p st tokens)) /\
  forall k, snd (loop fuel f len p st tokens) = Some k -> loop_error k.
Proof.
  intros Hok. induction fuel as [|fuel IH]; intros p st tokens Hp Hf; [lia|].
  destruct tokens as [|tok rest]; [cbn; split; [exact Hp|discriminate]|]. cbn [length] in Hf.
  rewrite loop_step. destruct (step_spec_w f len p st tok rest Hok Hp) as [He Hs].
  destruct (step f len p st tok rest) as [[[p1 st1] t1]|k] eqn:E.
  - apply IH; [exact Hs|]. apply step_len in E. lia.
  - split; [exact He|]. intros k' [= <-]. exact Hs.
Qed.

(* reach f len p st t p' st' t': iterating from (p, st, t) the loop arrives, without error, at (p', st', t') *)
Inductive reach (f : fmt) (len : bool) : bool -> pstate -> list str -> bool -> pstate -> list str -> Prop :=
| reach_here p st t : reach f len p st t p st t
| reach_next p st tok rest p1 st1 t1 p2 st2 t2 :
    step f len p st tok rest = Ok (p1, st1, t1) -> reach f len p1 st1 t1 p2 st2 t2 ->
    reach f len p st (tok :: rest) p2 st2 t2.

Lemma reach_trans f len p0 st0 t0 p1 st1 t1 p2 st2 t2 :
  reach f len p0 st0 t0 p1 st1 t1 -> reach f len p1 st1 t1 p2 st2 t2 -> reach f len p0 st0 t0 p2 st2 t2.
Proof. induction 1; [auto|]. intros H2. eapply reach_next; eauto. Qed.

Lemma reach_loop f len p st t p' st' t' :
  reach f len p st t p' st' t' -> forall fuel, length t < fuel ->
  exists fuel', length t' < fuel' /\ loop fuel f len p st t = loop fuel' f len p' st' t'.
Proof.
  induction 1 as [p st t|p st tok rest p1 st1 t1 p2 st2 t2 Hs Hr IH]; intros fuel Hf.
  - exists fuel. split; [exact Hf|reflexivity].
  - destruct fuel as [|fuel]; [lia|]. cbn [length] in Hf.
    pose proof (step_len _ _ _ _ _ _ _ _ _ Hs) as Hl.
    destruct (IH fuel ltac:(lia)) as (fuel' & Hf' & Heq).
    exists fuel'. split; [exact Hf'|]. rewrite loop_step, Hs. exact Heq.
Qed.

(* the strict token loop processes all of pre without error and ends in scratch state st *)
Definition scans (f : fmt) (pre : list str) (st : pstate) : Prop :=
  loop (S (length pre)) f false true ps_empty pre = (st, None).

Lemma reach_scans f t p st : reach f false true ps_empty t p st [] -> scans f t st.
Proof.
  intros Hr. unfold scans. destruct (reach_loop _ _ _ _ _ _ _ _ Hr (S (length t)) ltac:(lia)) as (fuel' & Hf & ->).
  destruct fuel'; [cbn in Hf; lia|reflexivity].
Qed.

Lemma scans_reach_gen f len tok r : dashy tok = true -> forall fuel pre p st0 st,
  length pre < fuel -> loop fuel f len p st0 pre = (st, None) -> existsb is_dd pre = false ->
  reach f len p st0 (pre ++ tok :: r) p st (tok :: r).
Proof.
  intros Hd. induction fuel as [|fuel IH]; intros pre p st0 st Hf Hl Hdd; [lia|].
  destruct pre as [|tok0 t].
  - cbn [loop] in Hl. inversion Hl; subst. apply reach_here.
  - cbn [length] in Hf. cbn [existsb] in Hdd. apply orb_false_elim in Hdd as [Hdd0 Hddt].
    rewrite loop_step in Hl. destruct (step f len p st0 tok0 t) as [[[p1 st1] t1]|k] eqn:E; [|discriminate].
    destruct (step_frame _ _ _ _ _ _ _ _ _ E) as ([c Hc] & Hp & _).
    rewrite Hdd0, andb_true_r in Hp. subst p1.
    cbn [app]. eapply reach_next; [apply step_app; eassumption|].
    apply IH; [subst t; rewrite app_length in Hf; lia|exact Hl|].
    subst t. rewrite existsb_app in Hddt. now apply orb_false_elim in Hddt as [_ ?].
Qed.
Lemma scans_reach f pre st tok r :
  scans f pre st -> existsb is_dd pre = false -> dashy tok = true ->
  reach f false true ps_empty (pre ++ tok :: r) true st (tok :: r).
Proof. intros Hs Hdd Hd. eapply scans_reach_gen; eauto. Qed.

(* the first failing iteration decides the result of a strict parse *)
Theorem strict_error_at f f' ar cns toks p st tok rest k :
  aug_format f = Ok (f', ar, cns) ->
  reach f' false true ps_empty toks p st (tok :: rest) ->
  step f' false p st tok rest = Err k ->
  parse f false toks = Err k.
Proof.
  intros Haug Hr Hs. rewrite (parse_eq _ _ _ _ _ _ Haug).
  destruct (reach_loop _ _ _ _ _ _ _ _ Hr (S (length toks)) ltac:(lia)) as (fuel' & Hf & ->).
  destruct fuel' as [|fuel']; [cbn in Hf; lia|]. rewrite loop_step, Hs. destruct k; reflexivity.
Qed.
(* the same for a dashy token behind a prefix that the loop processes without error (no "--" in it) *)
Lemma prefix_error f f' ar cns pre st tok rest k :
  aug_format f = Ok (f', ar, cns) -> scans f' pre st -> existsb is_dd pre = false -> dashy tok = true ->
  step f' false true st tok rest = Err k -> parse f false (pre ++ tok :: rest) = Err k.
Proof. intros Ha Hs Hdd Hd He. eapply strict_error_at; eauto. apply scans_reach; auto. Qed.

(* what a parse does once the strict token loop has gone through the whole line *)
Lemma parse_after_scan f f' ar cns toks st1 :
  aug_format f = Ok (f', ar, cns) -> scans f' toks st1 ->
  parse f false toks =
  match insert_missing ar cns false st1 with
  | Err k => Err k
  | Ok st2 =>
      if missing_required ar st2 then Err CannotParse
      else do a1 <- set_arguments f {| ar_opts := []; ar_args := [] |} (ps_args st2);
           set_options f a1 (ps_opts st2)
  end.
Proof.
  intros Ha Hs. rewrite (parse_eq _ _ _ _ _ _ Ha), Hs. unfold finish_parse. cbn [fst snd].
  destruct (insert_missing ar cns false st1) as [st2|k]; [|reflexivity]. rewrite andb_true_r. reflexivity.
Qed.
Lemma parse_ok_inv f f' ar cns toks r :
  aug_format f = Ok (f', ar, cns) -> parse f false toks = Ok r ->
  exists st1 st2 a1, scans f' toks st1 /\ insert_missing ar cns false st1 = Ok st2 /\
    missing_required ar st2 = false /\
    set_arguments f {| ar_opts := []; ar_args := [] |} (ps_args st2) = Ok a1 /\
    set_options f a1 (ps_opts st2) = Ok r.
Proof.
  intros Ha. rewrite (parse_eq _ _ _ _ _ _ Ha). unfold scans.
  destruct (loop (S (length toks)) f' false true ps_empty toks) as [st1 [k|]]; [destruct k; discriminate|].
  unfold finish_parse. cbn [fst snd].
  destruct (insert_missing ar cns false st1) as [st2|k] eqn:Ei; [|discriminate].
  destruct (missing_required ar st2) eqn:Em; cbn [andb negb]; [discriminate|].
  intros H. bind_inv H a1 Ea. exists st1, st2, a1. auto 6.
Qed.
(* a line whose conversion fails is rejected with the same ValueError in lenient mode *)
Lemma modes_agree_after_scan f f' ar cns toks st1 st2 :
  aug_format f = Ok (f', ar, cns) -> scans f' toks st1 ->
  insert_missing ar cns false st1 = Ok st2 -> missing_required ar st2 = false ->
  parse f true toks = parse f false toks.
Proof.
  intros Ha Hs Hi Hm. rewrite !(parse_eq _ _ _ _ _ _ Ha), Hs, (loop_mono _ _ _ _ _ _ Hs). unfold finish_parse. cbn [fst snd].
  rewrite (insert_missing_mono _ _ _ _ Hi), Hi, Hm. reflexivity.
Qed.

Theorem parse_error_kinds_w f len toks f' arguments cns :
  aug_format f = Ok (f', arguments, cns) -> opts_ok_w f' ->
  forall k, parse f len toks = Err k ->
    allowed k /\ (len = true -> k = ValueError).
Proof.
  intros Haug Hok k. rewrite (parse_eq _ _ _ _ _ _ Haug). intros H.
  destruct (loop_spec_w f' len Hok (S (length toks)) true ps_empty toks st_defaults_ok_empty ltac:(lia)) as [Hp He].
  unfold allowed. destruct (finish_parse_err _ _ _ _ _ _ _ Hp He H) as [[[->| ->] ->]| ->]; split; auto; discriminate.
Qed.
Theorem lenient_no_parse_error_w f f' ar cns toks :
  aug_format f = Ok (f', ar, cns) -> opts_ok_w f' ->
  parse f true toks <> Err NoSuchOption /\ parse f true toks <> Err CannotParse.
Proof.
  intros Ha Hok. split; intros H; destruct (parse_error_kinds_w f true toks f' ar cns Ha Hok _ H) as [_ Hv];
    specialize (Hv eq_refl); discriminate.
Qed.
(* under opts_ok, which no format with a multi-valued option meets (ex_h_not_opts_ok) *)
Lemma lenient_no_parse_error f f' ar cns toks :
  aug_format f = Ok (f', ar, cns) -> opts_ok f' ->
  parse f true toks <> Err NoSuchOption /\ parse f true toks <> Err CannotParse.
Proof. intros Ha Hok. eapply lenient_no_parse_error_w; eauto using opts_ok_weaken. Qed.

(* the scratch state the strict loop ends in *)
Definition scan_st (f : fmt) (pre : list str) : pstate := fst (loop (S (length pre)) f false true ps_empty pre).
Lemma scans_scan_st f pre : snd (loop (S (length pre)) f false true ps_empty pre) = None -> scans f pre (scan_st f pre).
Proof. unfold scans, scan_st. destruct (loop _ f false true ps_empty pre) as [st e]. cbn [fst snd]. intros ->. reflexivity. Qed.
(* ... and what the re-alignment makes of it *)
Definition realigned (ar : list (str * arg)) (cns : list (str * cname)) (st : pstate) : pstate :=
  match insert_missing ar cns false st with Ok s => s | Err _ => st end.

(* the name part of the body of a long option token: everything before the first "=" *)
Definition name_part (body : str) : str := match split_eq body [] with Some (n, _) => n | None => body end.
Lemma name_part_plain n : no_eq n = true -> name_part n = n.
Proof. intros H. unfold name_part. rewrite (split_eq_none n [] H). reflexivity. Qed.
Lemma name_part_eq n v : no_eq n = true -> name_part (n ++ EQ :: v) = n.
Proof. intros H. unfold name_part. rewrite (split_eq_found n v [] H). reflexivity. Qed.

Lemma long_tok_dispatch f len st body rest : body <> [] ->
  step f len true st (long_tok body) rest =
  match parse_long_option f st (long_tok body) rest with Ok (st', rest') => Ok (true, st', rest') | Err k => Err k end.
Proof.
  intros Hb. unfold step, long_tok. cbn [andb nonempty negb].
  assert (is_dd (DASH :: DASH :: body) = false) as ->.
  { unfold is_dd. cbn [str_eqb]. rewrite N.eqb_refl. destruct body; [contradiction|reflexivity]. }
  assert (starts_dd (DASH :: DASH :: body) = true) as -> by (unfold starts_dd; rewrite N.eqb_refl; reflexivity).
  reflexivity.
Qed.
Lemma short_tok_dispatch f len st body rest : body <> [] -> starts_dash body = false ->
  step f len true st (short_tok body) rest =
  match fst (parse_short_option f st (short_tok body) rest) with Ok (st', rest') => Ok (true, st', rest') | Err k => Err k end.
Proof.
  intros Hb Hd. unfold step, short_tok. cbn [andb nonempty negb].
  destruct body as [|x body]; [contradiction|]. cbn [starts_dash] in Hd.
  assert (is_dd (DASH :: x :: body) = false) as ->.
  { unfold is_dd. cbn [str_eqb]. rewrite Hd, andb_false_r. reflexivity. }
  assert (starts_dd (DASH :: x :: body) = false) as -> by (unfold starts_dd; rewrite Hd, andb_false_r; reflexivity).
  assert (starts_dash (DASH :: x :: body) = true) as -> by (unfold starts_dash; apply N.eqb_refl).
  assert (str_eqb (DASH :: x :: body) [DASH] = false) as -> by (cbn [str_eqb]; apply andb_false_r).
  reflexivity.
Qed.

Lemma dashy_long body : dashy (long_tok body) = true.
Proof. reflexivity. Qed.
Lemma dashy_short body : dashy (short_tok body) = true.
Proof. reflexivity. Qed.

(* clause 1: an unknown option -> NoSuchOption *)
Lemma step_unknown_long f len st body rest :
  body <> [] -> has_option f (name_part body) true = false ->
  step f len true st (long_tok body) rest = Err NoSuchOption.
Proof.
  intros Hb Hn. rewrite long_tok_dispatch by exact Hb.
  unfold parse_long_option, long_tok, name_part in *. cbn [skipn].
  destruct (split_eq body []) as [[n v]|].
  - rewrite add_long_eq, Hn. reflexivity.
  - unfold accepts. rewrite Hn. cbn [andb]. rewrite add_long_eq, Hn. reflexivity.
Qed.

(* short options: "-x...", also behind a group of known flags "-abx..." *)
(* x is a flag that short_set passes over: short_set looks the letter up and hands the LONG name of what it finds to
   _add_long_option, which looks that name up again - hence two lookups, o and o', and the conditions that matter
   (no value, none required, single-valued) are on the second *)
Definition flag_ok (f : fmt) (x : N) : bool :=
  match get_option f [x] true with
  | Ok o => negb (o_accepts o) &&
            match get_option f (o_long o) true with
            | Ok o' => negb (o_accepts o') && negb (o_required o') && negb (o_multi o')
            | Err _ => false end
  | Err _ => false end.

Lemma flag_ok_inv f x : flag_ok f x = true ->
  exists o o', get_option f [x] true = Ok o /\ o_accepts o = false /\ get_option f (o_long o) true = Ok o' /\
    o_accepts o' = false /\ o_required o' = false /\ o_multi o' = false.
Proof.
  unfold flag_ok. intros H.
  destruct (get_option f [x] true) as [o|] eqn:E1; [|discriminate]. apply andb_prop in H as [H1 H].
  destruct (get_option f (o_long o) true) as [o'|] eqn:E2; [|discriminate].
  apply andb_prop in H as [H H4]. apply andb_prop in H as [H2 H3].
  apply negb_true_iff in H1, H2, H3, H4.
  exists o, o'. repeat split; assumption.
Qed.

(* the known flags at the front of a group are consumed one by one, each leaving the remaining tokens alone *)
Lemma short_set_known_flags f more t : forall flags st, forallb (flag_ok f) flags = true ->
  exists st', short_set f st (flags ++ more) t = short_set f st' more t.
Proof.
  induction flags as [|x fl IH]; intros st Hf; cbn [app]; [eauto|].
  cbn [forallb] in Hf. apply andb_prop in Hf as [Hx Hfl].
  destruct (flag_ok_inv _ _ Hx) as (o & o' & H1 & H2 & H3 & H4 & H5 & H6).
  cbn [short_set]. rewrite (get_option_has _ _ _ H1), H1, H2. cbn [negb].
  rewrite add_long_eq, (get_option_has _ _ _ H3), H3. cbn [negb bind].
  rewrite H4. cbn [look fst snd]. unfold store. rewrite H5, H6. apply IH. exact Hfl.
Qed.

(* a group that starts with a known flag is handed to short_set as a whole *)
Lemma parse_short_group f st flags more t : forallb (flag_ok f) flags = true -> flags <> [] -> more <> [] ->
  parse_short_option f st (short_tok (flags ++ more)) t = short_set f st (flags ++ more) t.
Proof.
  destruct flags as [|x fl]; [contradiction|]. intros Hf _ Hm. cbn [forallb] in Hf. apply andb_prop in Hf as [Hx _].
  destruct (flag_ok_inv _ _ Hx) as (o & o' & H1 & H2 & _).
  unfold parse_short_option, short_tok. cbn [skipn app].
  destruct (fl ++ more) as [|y l] eqn:E; [destruct fl; [contradiction|discriminate]|].
  unfold accepts. rewrite (get_option_has _ _ _ H1), H1, H2. reflexivity.
Qed.

Lemma short_set_unknown f c more : has_option f [c] true = false ->
  forall flags st t, forallb (flag_ok f) flags = true ->
  fst (short_set f st (flags ++ c :: more) t) = Err NoSuchOption.
Proof.
  intros Hn flags st t Hf. destruct (short_set_known_flags f (c :: more) t flags st Hf) as [st' ->].
  cbn [short_set]. rewrite Hn. reflexivity.
Qed.

Lemma step_unknown_short f len st flags c more rest :
  starts_dash (flags ++ c :: more) = false -> forallb (flag_ok f) flags = true -> has_option f [c] true = false ->
  step f len true st (short_tok (flags ++ c :: more)) rest = Err NoSuchOption.
Proof.
  intros Hd Hf Hn. rewrite short_tok_dispatch; [|destruct flags; discriminate|exact Hd].
  destruct flags as [|x fl].
  - unfold parse_short_option, short_tok. cbn [skipn app]. destruct more as [|m more].
    + unfold accepts. rewrite Hn. cbn [andb fst]. unfold add_short_option. rewrite Hn. reflexivity.
    + unfold accepts. rewrite Hn. cbn [andb].
      pose proof (short_set_unknown f c (m :: more) Hn [] st rest eq_refl) as Hx. cbn [app] in Hx.
      rewrite Hx. reflexivity.
  - rewrite parse_short_group, (short_set_unknown f c more Hn (x :: fl) st rest Hf); [reflexivity|exact Hf|discriminate..].
Qed.

(* clause 2: a value given to a flag -> CannotParse *)
Lemma step_flag_value f len st name value rest o :
  no_eq name = true -> get_option f name true = Ok o -> o_accepts o = false ->
  step f len true st (long_tok (name ++ EQ :: value)) rest = Err CannotParse.
Proof.
  intros Hq Hg Ha. rewrite long_tok_dispatch by (destruct name; discriminate).
  unfold parse_long_option, long_tok. cbn [skipn]. rewrite (split_eq_found name value [] Hq). cbn [rev app].
  rewrite add_long_eq, (get_option_has _ _ _ Hg), Hg. cbn [negb bind]. rewrite Ha. reflexivity.
Qed.

(* clause 3: a required option value left out -> CannotParse *)
(* nothing follows, or what follows cannot be a value: an empty token or one that starts with "-" *)
Definition no_value_next (rest : list str) : bool :=
  match rest with [] => true | nxt :: _ => negb (nonempty nxt) || starts_dash nxt end.

Lemma add_long_missing f st n o (v : option str) (t : list str) :
  get_option f n true = Ok o -> o_required o = true ->
  (v = Some [] \/ (v = None /\ no_value_next t = true)) ->
  add_long_option f st n v t = Err CannotParse.
Proof.
  intros Hg Hr Hv. rewrite add_long_eq, (get_option_has _ _ _ Hg), Hg. cbn [negb bind].
  destruct Hv as [->|[-> Hn]].
  - destruct (negb (o_accepts o)); [reflexivity|]. cbn [look fst snd]. unfold store. rewrite Hr. reflexivity.
  - unfold look. destruct (o_accepts o); [|cbn [fst snd]; unfold store; rewrite Hr; reflexivity].
    destruct t as [|nxt r]; [cbn [fst snd]; unfold store; rewrite Hr; reflexivity|].
    cbn [no_value_next] in Hn.
    destruct (nonempty nxt); cbn [negb orb andb] in *.
    + rewrite Hn. cbn [negb fst snd]. unfold store. rewrite Hr. reflexivity.
    + cbn [fst snd]. unfold store. rewrite Hr. reflexivity.
Qed.

Lemma take_value_no_value rest : no_value_next rest = true ->
  (fst (take_value rest) = Some ([] : str) \/ (fst (take_value rest) = None /\ no_value_next (snd (take_value rest)) = true)).
Proof.
  destruct rest as [|nxt r]; cbn [take_value no_value_next fst snd]; [auto|]. intros Hn.
  destruct (nonempty nxt) eqn:E; cbn [negb orb andb] in *.
  - rewrite Hn. cbn [fst snd no_value_next]. rewrite E, Hn. auto.
  - left. destruct nxt; [reflexivity|discriminate].
Qed.

(* "--name" with nothing usable behind it, and "--name=" *)
Lemma step_value_missing_long f len st name rest o :
  name <> [] -> no_eq name = true -> get_option f name true = Ok o ->
  o_required o = true -> no_value_next rest = true ->
  step f len true st (long_tok name) rest = Err CannotParse.
Proof.
  intros Hne Hq Hg Hr Hn. rewrite long_tok_dispatch by exact Hne.
  unfold parse_long_option, long_tok. cbn [skipn]. rewrite (split_eq_none name [] Hq).
  destruct (accepts f name).
  - pose proof (take_value_no_value rest Hn) as Hv. destruct (take_value rest) as [v t']. cbn [fst snd] in Hv.
    rewrite (add_long_missing f st name o v t' Hg Hr Hv). reflexivity.
  - rewrite (add_long_missing f st name o None rest Hg Hr); [reflexivity|auto].
Qed.
Lemma step_value_missing_eq f len st name rest o :
  no_eq name = true -> get_option f name true = Ok o -> o_required o = true ->
  step f len true st (long_tok (name ++ [EQ])) rest = Err CannotParse.
Proof.
  intros Hq Hg Hr. rewrite long_tok_dispatch by (destruct name; discriminate).
  unfold parse_long_option, long_tok. cbn [skipn]. rewrite (split_eq_found name [] [] Hq). cbn [rev app].
  rewrite (add_long_missing f st name o _ rest Hg Hr) by auto. reflexivity.
Qed.

(* short form: "-n", also as the last letter of a group of flags "-abn" *)
Lemma short_set_missing f c o : get_option f [c] true = Ok o -> get_option f (o_long o) true = Ok o ->
  o_required o = true ->
  forall flags st t, forallb (flag_ok f) flags = true -> no_value_next t = true ->
  fst (short_set f st (flags ++ [c]) t) = Err CannotParse.
Proof.
  intros Hg Hgl Hr flags st t Hf Hn. destruct (short_set_known_flags f [c] t flags st Hf) as [st' ->].
  cbn [short_set]. rewrite (get_option_has _ _ _ Hg), Hg. cbn [negb].
  rewrite (add_long_missing f st' (o_long o) o None t Hgl Hr) by auto.
  destruct (o_accepts o); reflexivity.
Qed.

Lemma step_value_missing_short f len st flags c rest o :
  starts_dash (flags ++ [c]) = false -> forallb (flag_ok f) flags = true ->
  get_option f [c] true = Ok o -> get_option f (o_long o) true = Ok o -> o_required o = true ->
  no_value_next rest = true ->
  step f len true st (short_tok (flags ++ [c])) rest = Err CannotParse.
Proof.
  intros Hd Hf Hg Hgl Hr Hn. rewrite short_tok_dispatch; [|destruct flags; discriminate|exact Hd].
  destruct flags as [|x fl].
  - unfold parse_short_option, short_tok. cbn [skipn app]. destruct (accepts f [c]).
    + pose proof (take_value_no_value rest Hn) as Hv. destruct (take_value rest) as [v t']. cbn [fst snd] in Hv.
      unfold add_short_option. rewrite (get_option_has _ _ _ Hg), Hg. cbn [negb bind].
      rewrite (add_long_missing f st (o_long o) o v t' Hgl Hr Hv). reflexivity.
    + unfold add_short_option. rewrite (get_option_has _ _ _ Hg), Hg. cbn [negb bind].
      rewrite (add_long_missing f st (o_long o) o None rest Hgl Hr) by auto. reflexivity.
  - rewrite parse_short_group, (short_set_missing f c o Hg Hgl Hr (x :: fl) st rest Hf Hn); [reflexivity|exact Hf|discriminate..].
Qed.

(* a concrete format for the non-vacuity examples
   command names: server (alias srv), add;  arguments: src (required), count (optional, INTEGER);
   options: --verbose/-v, --quiet/-q (flags), --num/-n (value required, INTEGER), --opt/-o (value optional) *)
Definition S_ (x : string) : str := List.map N_of_ascii (list_ascii_of_string x).
Definition T (l : list string) : list str := List.map S_ l.
Definition mkopt (l : string) (s : option string) (fl : Z) (d : pyval) : opt :=
  {| o_long := S_ l; o_short := option_map S_ s;
     o_flags := opt_defaults fl (match s with Some _ => true | None => false end); o_default := d |}.
Definition mkarg (n : string) (fl : Z) (d : pyval) : arg :=
  {| a_name := S_ n; a_flags := arg_defaults fl; a_default := d |}.
Definition ex_opts : list element :=
  [ EOpt (mkopt "verbose" (Some "v") 4 VNone); EOpt (mkopt "quiet" (Some "q") 4 VNone);
    EOpt (mkopt "num" (Some "n") 520 VNone); EOpt (mkopt "opt" (Some "o") 16 (VStr (S_ "d"))) ]%string.
Definition ex_args : list element := [ EArg (mkarg "src" 1 VNone); EArg (mkarg "count" 66 VNone) ]%string.
Definition ex_cnames : list element :=
  [ ECName {| cn_name := S_ "server"; cn_aliases := [S_ "srv"] |}; ECName {| cn_name := S_ "add"; cn_aliases := [] |} ]%string.
Definition fmt_of (es : list element) : fmt :=
  match format_of_elements es None with Ok f => f | Err _ => empty_builder None end.
Definition aug_of (f : fmt) := match aug_format f with Ok x => x | Err _ => (f, [], []) end.
(* ex_f: with command names; ex_g: the same without command names *)
Definition ex_f : fmt := fmt_of (ex_cnames ++ ex_args ++ ex_opts).
Definition ex_g : fmt := fmt_of (ex_args ++ ex_opts).
Definition ex_f' := fst (fst (aug_of ex_f)).  Definition ex_far := snd (fst (aug_of ex_f)).  Definition ex_fcn := snd (aug_of ex_f).
Definition ex_g' := fst (fst (aug_of ex_g)).  Definition ex_gar := snd (fst (aug_of ex_g)).  Definition ex_gcn := snd (aug_of ex_g).
Lemma ex_f_aug : aug_format ex_f = Ok (ex_f', ex_far, ex_fcn).  Proof. vm_compute. reflexivity. Qed.
Lemma ex_g_aug : aug_format ex_g = Ok (ex_g', ex_gar, ex_gcn).  Proof. vm_compute. reflexivity. Qed.

Open Scope string_scope.
Example ex_strict_error_at : parse ex_f false (T ["server"; "--"; "--nope"; "a"; "b"; "c"; "d"]) = Err CannotParse.
Proof.
  (* everything after "--" is positional, "--nope" too: the loop gets as far as "c", the fifth positional *)
  eapply (strict_error_at ex_f ex_f' ex_far ex_fcn _ false _ (S_ "c") (T ["d"]) CannotParse ex_f_aug).
  - repeat (eapply reach_next; [vm_compute; reflexivity|]). apply reach_here.
  - vm_compute. reflexivity.
Qed.
Close Scope string_scope.

(* every argument is listed under its own name (true of every format built through the API) *)
Definition args_named (l : list (str * arg)) : Prop := forall k a, In (k, a) l -> k = a_name a.
Definition args_named_b (l : list (str * arg)) : bool := forallb (fun ka => str_eqb (fst ka) (a_name (snd ka))) l.
Lemma args_named_b_ok l : args_named_b l = true -> args_named l.
Proof.
  unfold args_named_b, args_named. rewrite forallb_forall. intros H k a Hin.
  specialize (H (k, a) Hin). cbn in H. destruct (str_eqb_spec k (a_name a)); [assumption|discriminate].
Qed.

Lemma add_elements_app es1 : forall f es2,
  add_elements f (es1 ++ es2) = do f1 <- add_elements f es1; add_elements f1 es2.
Proof.
  induction es1 as [|e r IH]; intros f es2; cbn [app add_elements bind]; [reflexivity|].
  destruct (match e with EOpt o => add_option f o | ECOpt c => add_command_option f c
                       | EArg a => add_argument f a | ECName c => add_command_name f c end) as [f1|k];
    cbn [bind]; [apply IH|reflexivity].
Qed.

(* adding command names changes neither the base, nor the arguments, nor the option fields *)
Definition opt_fields (f : fmt) := (f_copts f, f_copts_short f, f_opts f, f_opts_short f).
Lemma add_cnames_keeps cs : forall f f1, add_elements f (map ECName cs) = Ok f1 ->
  f_base f1 = f_base f /\ f_args f1 = f_args f /\ opt_fields f1 = opt_fields f.
Proof.
  induction cs as [|c r IH]; intros f f1; cbn [map add_elements].
  - intros H. inversion H. auto.
  - destruct f as [b cn co cs' ar os oss hm ho]. cbn [add_command_name bind]. intros H. apply IH in H. exact H.
Qed.
Lemma add_opts_args os0 : forall f f1, add_elements f (map (fun no : str * opt => EOpt (snd no)) os0) = Ok f1 ->
  f_base f1 = f_base f /\ f_args f1 = f_args f.
Proof.
  induction os0 as [|o r IH]; intros f f1; cbn [map add_elements].
  - intros H. inversion H. auto.
  - unfold add_option. destruct (opt_name_taken f (o_long (snd o))); [discriminate|].
    destruct (optname_taken f (o_short (snd o))); [discriminate|].
    destruct f as [b cn co cs' ar os oss hm ho]. cbn [bind]. intros H.
    apply IH in H as [H1 H2]. cbn in *. auto.
Qed.
Lemma get_arguments_all_nobase f : f_base f = None -> get_arguments_all f = f_args f.
Proof. destruct f as [[bf|] cn co cs ar os oss hm ho]; cbn; [discriminate|reflexivity]. Qed.

Lemma add_args_args l : forall f f1, f_base f = None -> NoDup (map fst (f_args f)) ->
  add_elements f (map (fun na : str * arg => EArg (snd na)) l) = Ok f1 ->
  f_base f1 = None /\ f_args f1 = f_args f ++ map (fun na => (a_name (snd na), snd na)) l /\
  NoDup (map fst (f_args f1)).
Proof.
  induction l as [|[k a] r IH]; intros f f1 Hb Hnd; cbn [map add_elements snd].
  - intros H. inversion H; subst. rewrite app_nil_r. auto.
  - unfold add_argument. cbn [has_argument get_arguments]. rewrite (get_arguments_all_nobase f Hb).
    destruct (shas (a_name a) (f_args f)) eqn:Hs; [discriminate|].
    destruct (has_multi_all f); [discriminate|].
    destruct (a_required a && has_optional_all f); [discriminate|].
    destruct f as [b cn co cs' ar os oss hm ho]. cbn [bind f_args f_base] in *.
    assert (sget (a_name a) ar = None) as Hn.
    { rewrite shas_sget in Hs. destruct (sget (a_name a) ar); [discriminate|reflexivity]. }
    assert (sset (a_name a) a ar = ar ++ [(a_name a, a)]) as Hset by (now apply sset_new).
    intros H. apply IH in H; cbn [f_base f_args].
    + destruct H as (H1 & H2 & H3). split; [exact H1|]. split; [|exact H3].
      rewrite H2. cbn [f_args]. rewrite Hset, <- app_assoc. reflexivity.
    + exact Hb.
    + rewrite Hset, map_app. cbn [map fst]. apply NoDup_snoc; [exact Hnd|now apply sget_none_iff].
Qed.

Lemma sset_named k a l : args_named l -> k = a_name a -> args_named (sset k a l).
Proof. intros Hl Hk k' a' Hin. apply in_sset in Hin as [[-> ->]|Hin]; [exact Hk|eapply Hl; eauto]. Qed.
Lemma supdate_named d2 : forall d1, args_named d1 -> args_named d2 -> args_named (supdate d1 d2).
Proof.
  unfold supdate. induction d2 as [|[k a] r IH]; intros d1 H1 H2; cbn [fold_left fst snd]; [exact H1|].
  apply IH.
  - apply sset_named; [exact H1|]. apply H2. now left.
  - intros k' a' Hin. apply H2. now right.
Qed.
Lemma pseudo_named f cns : forall j i,
  args_named (map (fun p : str * arg * cname => (fst (fst p), snd (fst p))) (pseudo_args f cns j i)).
Proof.
  induction cns as [|c r IH]; intros j i; cbn [pseudo_args map]; [intros k a []|].
  intros k a [H|H]; [inversion H; reflexivity|eapply IH; eauto].
Qed.

Lemma map_named l : args_named l -> map (fun na : str * arg => (a_name (snd na), snd na)) l = l.
Proof.
  induction l as [|[k a] r IH]; intros H; cbn [map snd]; [reflexivity|].
  rewrite IH by (intros k' a' Hin; apply H; now right). rewrite <- (H k a) by now left. reflexivity.
Qed.

(* the parser's preamble builds f' in three stages: command names, argument slots, options *)
Lemma aug_format_inv f f' ar cns : aug_format f = Ok (f', ar, cns) ->
  let ps := pseudo_args f (get_command_names_all f) 1 1 in
  ar = supdate (map (fun p : str * arg * cname => (fst (fst p), snd (fst p))) ps) (get_arguments_all f) /\
  cns = map (fun p : str * arg * cname => (fst (fst p), snd p)) ps /\
  exists b1 b2 b,
    add_elements (empty_builder None) (map ECName (get_command_names_all f)) = Ok b1 /\
    add_elements b1 (map (fun na : str * arg => EArg (snd na)) ar) = Ok b2 /\
    add_elements b2 (map (fun no : str * opt => EOpt (snd no)) (get_options_all f)) = Ok b /\
    f' = build_format b.
Proof.
  unfold aug_format, format_of_elements. intros H. bind_inv H f0 E. injection H as <- <- <-.
  bind_inv E b Eb. injection E as <-.
  rewrite add_elements_app in Eb. bind_inv Eb b1 E1. rewrite add_elements_app in Eb. bind_inv Eb b2 E2.
  split; [reflexivity|]. split; [reflexivity|]. exists b1, b2, b. auto.
Qed.

(* what the parser's preamble produces: ar is the argument list of f' (command-name slots first),
   its names are distinct, and cns names the first (length cns) of them *)
Record aug_ok (f' : fmt) (ar : list (str * arg)) (cns : list (str * cname)) : Prop := {
  aug_args : get_arguments_all f' = ar;
  aug_nodup : NoDup (map fst ar);
  aug_named : args_named ar;
  aug_cns : map fst cns = map fst (firstn (length cns) ar) }.


Lemma aug_format_ok f f' ar cns :
  aug_format f = Ok (f', ar, cns) -> args_named (get_arguments_all f) -> aug_ok f' ar cns.
Proof.
  intros H Hnamed. destruct (aug_format_inv _ _ _ _ H) as (Har & Hcns & b1 & b2 & b & E1 & E2 & Eb & ->). clear H.
  set (ps := pseudo_args f (get_command_names_all f) 1 1) in *.
  set (P := map (fun p : str * arg * cname => (fst (fst p), snd (fst p))) ps) in *.
  assert (args_named ar) as Hn by (rewrite Har; apply supdate_named; [apply pseudo_named|exact Hnamed]).
  (* stage by stage: the command names leave the argument list empty; add_argument appends each slot under the
     argument's own name and refuses a name that is there; the options leave the list alone *)
  apply add_cnames_keeps in E1 as (B1 & A1 & _). cbn [empty_builder f_base f_args] in B1, A1.
  apply add_args_args in E2; [|exact B1|rewrite A1; constructor].
  destruct E2 as (B2 & A2 & N2). rewrite A1 in A2. cbn [app] in A2.
  apply add_opts_args in Eb as [B3 A3].
  rewrite map_named in A2 by exact Hn.
  constructor.
  - destruct (build_format_same b) as (Hb & _ & Ha & _). rewrite get_arguments_all_nobase by congruence. congruence.
  - rewrite <- A2. exact N2.
  - exact Hn.
  - (* supdate keeps the keys of its first argument, the command-name slots, in front *)
    destruct (supdate_keys (get_arguments_all f) P) as [l Hl]. rewrite <- Har in Hl. subst cns.
    replace (map fst (map (fun p : str * arg * cname => (fst (fst p), snd p)) ps)) with (map fst P)
      by (unfold P; rewrite !map_map; reflexivity).
    replace (length (map (fun p : str * arg * cname => (fst (fst p), snd p)) ps)) with (length P)
      by (unfold P; rewrite !map_length; reflexivity).
    eapply firstn_map_fst_app; eauto.
Qed.

(* Clause 5: more positional arguments than declared -> CannotParse. *)
(* a token that the loop reads as a positional argument while options are still parsed: empty, "-", or
   not starting with "-"; after the "--" separator every token is positional *)
Definition plain (tok : str) : bool := negb (nonempty tok) || negb (starts_dash tok) || str_eqb tok [DASH].
Definition positional (p : bool) (tok : str) : bool := negb p || plain tok.
Definition no_multi (A : list (str * arg)) : bool := forallb (fun na => negb (a_multi (snd na))) A.

Lemma step_positional f len p st tok rest : positional p tok = true ->
  step f len p st tok rest =
  match parse_argument f len st tok with Ok st' => Ok (p, st', rest) | Err k => Err k end.
Proof.
  unfold positional, plain, step. destruct p; cbn [negb orb andb]; [|reflexivity]. intros H.
  destruct (nonempty tok) eqn:Hne; cbn [negb orb] in *; [|reflexivity].
  destruct (str_eqb_spec tok [DASH]) as [->|Hnd]; [reflexivity|]. rewrite orb_false_r in H.
  apply negb_true_iff in H. rewrite H.
  destruct tok as [|c r]; [discriminate|]. cbn [starts_dash] in H.
  assert (is_dd (c :: r) = false) as -> by (unfold is_dd; cbn [str_eqb]; now rewrite H).
  assert (starts_dd (c :: r) = false) as -> by (unfold starts_dd; destruct r; [reflexivity|now rewrite H]).
  reflexivity.
Qed.

Lemma nth_arg_nat (A : list (str * arg)) (i : nat) : nth_arg A (Z.of_nat i) = option_map snd (nth_error A i).
Proof. unfold nth_arg. destruct (Z.ltb_spec (Z.of_nat i) 0); [lia|]. now rewrite Nat2Z.id. Qed.

(* _parse_argument by cases on the slots, when (length (ps_args st)) values are stored already: the next slot takes
   the token; when there is none, a multi-valued last slot does; otherwise the token is one too many *)
Lemma parse_argument_cases f len st tok :
  parse_argument f len st tok =
  match nth_error (get_arguments_all f) (length (ps_args st)) with
  | Some (_, a) =>
      Ok (if a_multi a then append_arg st (a_name a) tok
          else {| ps_args := sset (a_name a) (RStr tok) (ps_args st); ps_opts := ps_opts st |})
  | None =>
      match (match length (ps_args st) with S n => nth_error (get_arguments_all f) n | 0 => None end) with
      | Some (_, a) => if a_multi a then Ok (append_arg st (a_name a) tok) else if len then Ok st else Err CannotParse
      | None => if len then Ok st else Err CannotParse
      end
  end.
Proof.
  unfold parse_argument. rewrite !has_argument_pos, !get_argument_pos. cbn [get_arguments]. rewrite nth_arg_nat.
  destruct (nth_error (get_arguments_all f) (length (ps_args st))) as [[k a]|]; cbn [option_map snd bind];
    [destruct (a_multi a); reflexivity|].
  destruct (length (ps_args st)) as [|n]; [reflexivity|]. replace (Z.of_nat (S n) - 1)%Z with (Z.of_nat n) by lia. rewrite nth_arg_nat.
  destruct (nth_error (get_arguments_all f) n) as [[k a]|]; reflexivity.
Qed.

Lemma no_multi_nth A i k a : no_multi A = true -> nth_error A i = Some (k, a) -> a_multi a = false.
Proof.
  unfold no_multi. rewrite forallb_forall. intros H Hn. apply nth_error_In in Hn.
  specialize (H _ Hn). cbn in H. now apply negb_true_iff.
Qed.

(* all argument slots are taken and none of them is multi-valued: one more positional is rejected *)
Lemma parse_argument_full f st tok :
  length (get_arguments_all f) <= length (ps_args st) -> no_multi (get_arguments_all f) = true ->
  parse_argument f false st tok = Err CannotParse.
Proof.
  intros Hl Hm. rewrite parse_argument_cases, (proj2 (nth_error_None _ _) Hl).
  destruct (length (ps_args st)) as [|n]; [reflexivity|].
  destruct (nth_error (get_arguments_all f) n) as [[k a]|] eqn:E; [|reflexivity].
  rewrite (no_multi_nth _ _ _ _ Hm E). reflexivity.
Qed.

Theorem extra_positional_at f f' ar cns toks p st tok rest :
  aug_format f = Ok (f', ar, cns) ->
  reach f' false true ps_empty toks p st (tok :: rest) ->
  positional p tok = true -> no_multi (get_arguments_all f') = true ->
  length (get_arguments_all f') <= length (ps_args st) ->
  parse f false toks = Err CannotParse.
Proof.
  intros Ha Hr Hp Hm Hl. eapply strict_error_at; eauto.
  rewrite step_positional by exact Hp. rewrite parse_argument_full; auto.
Qed.

(* invariant of the scratch arguments: the keys are the first names of the argument list *)
Definition entry_ok (kv : str * rawarg) : Prop := snd kv <> RList [].
Definition args_inv_st (A : list (str * arg)) (st : pstate) : Prop :=
  map fst (ps_args st) = map fst (firstn (length (ps_args st)) A) /\ Forall entry_ok (ps_args st).

Lemma nth_split_keys (A : list (str * arg)) c k a : NoDup (map fst A) -> nth_error A c = Some (k, a) ->
  firstn (S c) A = firstn c A ++ [(k, a)] /\ ~ In k (map fst (firstn c A)).
Proof.
  intros Hnd Hn. destruct (nth_error_split A c Hn) as (l1 & l2 & HA & Hl). subst A c.
  split.
  - rewrite firstn_app, firstn_all2 by lia. replace (S (length l1) - length l1) with 1 by lia.
    rewrite firstn_app, firstn_all, Nat.sub_diag. cbn. now rewrite app_nil_r.
  - rewrite firstn_app, firstn_all, Nat.sub_diag. cbn [firstn]. rewrite app_nil_r.
    rewrite map_app in Hnd. cbn [map fst] in Hnd. apply NoDup_remove_2 in Hnd.
    intros Hin. apply Hnd. apply in_or_app. now left.
Qed.

Lemma flatten_app d1 d2 : flatten (d1 ++ d2) = flatten d1 ++ flatten d2.
Proof. unfold flatten. apply flat_map_app. Qed.

(* a positional token lands in the next free slot *)
Lemma parse_argument_next f len st tok k a :
  NoDup (map fst (get_arguments_all f)) -> args_named (get_arguments_all f) ->
  map fst (ps_args st) = map fst (firstn (length (ps_args st)) (get_arguments_all f)) ->
  nth_error (get_arguments_all f) (length (ps_args st)) = Some (k, a) ->
  parse_argument f len st tok =
    Ok {| ps_args := ps_args st ++ [(k, if a_multi a then RList [tok] else RStr tok)]; ps_opts := ps_opts st |}.
Proof.
  intros Hnd Hnm Hk Hn. rewrite parse_argument_cases, Hn.
  assert (a_name a = k) as -> by (symmetry; apply Hnm; eapply nth_error_In; eauto).
  destruct (nth_split_keys _ _ _ _ Hnd Hn) as [_ Hnotin]. rewrite <- Hk in Hnotin.
  apply sget_none_iff in Hnotin. unfold append_arg. rewrite Hnotin, !sset_new by exact Hnotin.
  destruct (a_multi a); reflexivity.
Qed.

Lemma args_inv_snoc A st k a v o :
  NoDup (map fst A) -> args_inv_st A st -> nth_error A (length (ps_args st)) = Some (k, a) -> v <> RList [] ->
  args_inv_st A {| ps_args := ps_args st ++ [(k, v)]; ps_opts := o |}.
Proof.
  intros Hnd [Hk Hf] Hn Hv. unfold args_inv_st. cbn [ps_args]. split.
  - rewrite app_length. cbn [length]. rewrite Nat.add_1_r.
    destruct (nth_split_keys _ _ _ _ Hnd Hn) as [-> _]. rewrite !map_app, <- Hk. reflexivity.
  - apply Forall_app. split; [exact Hf|]. constructor; [exact Hv|constructor].
Qed.

(* one more value for a key that is there *)
Lemma args_inv_append A st nm tok : args_inv_st A st -> shas nm (ps_args st) = true -> args_inv_st A (append_arg st nm tok).
Proof.
  intros [Hk Hf] Hs. unfold append_arg, args_inv_st. cbn [ps_args].
  set (v := RList _).
  assert (map fst (sset nm v (ps_args st)) = map fst (ps_args st)) as Hkeys by (rewrite sset_keys, Hs; apply app_nil_r).
  split.
  - rewrite <- (map_length fst (sset nm v (ps_args st))), Hkeys, map_length. exact Hk.
  - apply Forall_sset; [exact Hf|]. unfold entry_ok, v. cbn [snd].
    destruct (match sget nm (ps_args st) with Some (RList l) => l | _ => [] end); discriminate.
Qed.

Lemma parse_argument_inv f len st tok st' :
  NoDup (map fst (get_arguments_all f)) -> args_named (get_arguments_all f) ->
  args_inv_st (get_arguments_all f) st -> parse_argument f len st tok = Ok st' ->
  args_inv_st (get_arguments_all f) st'.
Proof.
  intros Hnd Hnm Hi. destruct (nth_error (get_arguments_all f) (length (ps_args st))) as [[k a]|] eqn:Hn.
  { rewrite (parse_argument_next f len st tok k a Hnd Hnm (proj1 Hi) Hn). intros [= <-].
    apply (args_inv_snoc _ _ _ a); auto. destruct (a_multi a); discriminate. }
  rewrite parse_argument_cases, Hn.
  assert (forall r, (if len then Ok st else Err CannotParse) = Ok r -> args_inv_st (get_arguments_all f) r) as Hdrop
    by (destruct len; intros r [= <-]; exact Hi).
  destruct (length (ps_args st)) as [|n] eqn:En; [apply Hdrop|].
  destruct (nth_error (get_arguments_all f) n) as [[k a]|] eqn:E; [|apply Hdrop].
  destruct (a_multi a); [|apply Hdrop]. intros [= <-]. apply args_inv_append; [exact Hi|].
  (* the last slot is filled: its name is a key of the scratch arguments *)
  assert (a_name a = k) as -> by (symmetry; apply Hnm; eapply nth_error_In; eauto).
  apply shas_in. destruct Hi as [-> _]. rewrite En. destruct (nth_split_keys _ _ _ _ Hnd E) as [-> _].
  rewrite map_app. apply in_or_app. right. now left.
Qed.

Lemma args_inv_same A st st' : ps_args st' = ps_args st -> args_inv_st A st -> args_inv_st A st'.
Proof. unfold args_inv_st. intros ->. auto. Qed.

Lemma loop_inv f len : NoDup (map fst (get_arguments_all f)) -> args_named (get_arguments_all f) ->
  forall fuel p st t st', loop fuel f len p st t = (st', None) ->
  args_inv_st (get_arguments_all f) st -> args_inv_st (get_arguments_all f) st'.
Proof.
  intros Hnd Hnm. induction fuel as [|fuel IH]; intros p st t st' Hl Hi; [cbn in Hl; discriminate|].
  destruct t as [|tok rest]; [cbn in Hl; inversion Hl; subst; exact Hi|].
  rewrite loop_step in Hl. destruct (step f len p st tok rest) as [[[p1 st1] t1]|k] eqn:E; [|discriminate].
  apply (IH _ _ _ _ Hl). destruct (step_frame _ _ _ _ _ _ _ _ _ E) as (_ & _ & [Hs|Hs]).
  - eapply args_inv_same; eauto.
  - eapply parse_argument_inv; eauto.
Qed.
Lemma args_inv_empty A : args_inv_st A ps_empty.
Proof. split; [reflexivity|constructor]. Qed.

Lemma entries_flatten d : Forall entry_ok d -> length d <= length (flatten d).
Proof.
  induction 1 as [|[k v] r Hv Hr IH]; [cbn; lia|].
  change ((k, v) :: r) with ([(k, v)] ++ r). rewrite flatten_app, !app_length.
  assert (1 <= length (flatten [(k, v)])); [|cbn [length] in *; lia].
  unfold entry_ok in Hv. cbn in *. destruct v as [s|[|x l]|c]; cbn; try lia. congruence.
Qed.


(* a run of plain tokens fills the argument slots in order (no multi-valued argument) *)
Lemma plain_positional tok : plain tok = true -> positional true tok = true.
Proof. intros H. unfold positional. now rewrite H. Qed.

Lemma plain_run f len : NoDup (map fst (get_arguments_all f)) -> args_named (get_arguments_all f) ->
  no_multi (get_arguments_all f) = true ->
  forall pre st more, forallb plain pre = true -> args_inv_st (get_arguments_all f) st ->
  length (ps_args st) + length pre <= length (get_arguments_all f) ->
  exists st', reach f len true st (pre ++ more) true st' more /\
              length (ps_args st') = length (ps_args st) + length pre /\
              flatten (ps_args st') = flatten (ps_args st) ++ pre.
Proof.
  intros Hnd Hnm Hm. induction pre as [|tok pre IH]; intros st more Hp Hi Hl.
  - exists st. rewrite app_nil_r, Nat.add_0_r. repeat split; auto. apply reach_here.
  - cbn [forallb] in Hp. apply andb_prop in Hp as [Ht Hp]. cbn [length] in Hl.
    destruct (nth_error (get_arguments_all f) (length (ps_args st))) as [[k a]|] eqn:Hn;
      [|apply nth_error_None in Hn; lia].
    pose proof (parse_argument_next f len st tok k a Hnd Hnm (proj1 Hi) Hn) as Hpa.
    rewrite (no_multi_nth _ _ _ _ Hm Hn) in Hpa.
    set (st1 := {| ps_args := ps_args st ++ [(k, RStr tok)]; ps_opts := ps_opts st |}) in *.
    assert (args_inv_st (get_arguments_all f) st1) as Hi1 by (apply (args_inv_snoc _ _ _ a); auto; discriminate).
    destruct (IH st1 more Hp Hi1) as (st' & Hr & Hlen & Hfl).
    { unfold st1. cbn [ps_args]. rewrite app_length. cbn [length]. lia. }
    exists st'. split; [|split].
    + cbn [app]. eapply reach_next; [|exact Hr]. rewrite step_positional by (apply plain_positional; exact Ht).
      rewrite Hpa. reflexivity.
    + rewrite Hlen. unfold st1. cbn [ps_args length]. rewrite app_length. cbn [length]. lia.
    + rewrite Hfl. unfold st1. cbn [ps_args]. rewrite flatten_app, <- app_assoc. reflexivity.
Qed.

(* as many plain tokens as there are slots (command names included), then one more; what follows it is not looked at *)
Theorem too_many_positionals f f' ar cns pre tok rest :
  aug_format f = Ok (f', ar, cns) -> args_named (get_arguments_all f) -> no_multi ar = true ->
  forallb plain pre = true -> length pre = length ar -> plain tok = true ->
  parse f false (pre ++ tok :: rest) = Err CannotParse.
Proof.
  intros Ha Hnm Hm Hp Hl Ht. destruct (aug_format_ok _ _ _ _ Ha Hnm) as [HA Hnd Hnamed _].
  destruct (plain_run f' false) with (pre := pre) (st := ps_empty) (more := tok :: rest)
    as (st' & Hr & Hlen & _); try (rewrite HA; assumption); [exact Hp|apply args_inv_empty|cbn; rewrite HA; lia|].
  apply (extra_positional_at f f' ar cns _ true st' tok rest Ha Hr).
  - apply plain_positional; exact Ht.
  - rewrite HA; exact Hm.
  - rewrite Hlen, HA. cbn. lia.
Qed.

Lemma skip_names_skipn vals : forall cns k0 vals' cns' k, skip_names vals cns k0 = (vals', cns', k) ->
  exists m, k = k0 + m /\ cns' = skipn m cns /\ vals' = skipn m vals /\ m <= length cns /\ m <= length vals.
Proof.
  induction vals as [|v r IH]; intros cns k0 vals' cns' k; cbn [skip_names].
  - intros H. inversion H; subst. exists 0. cbn. repeat split; lia.
  - destruct cns as [|c cr].
    + intros H. inversion H; subst. exists 0. cbn. repeat split; lia.
    + destruct (nonempty v && cname_match (snd c) v).
      * intros H. apply IH in H as (m & -> & -> & -> & H1 & H2). exists (S m). cbn [skipn length]. repeat split; lia.
      * intros H. inversion H; subst. exists 0. cbn. repeat split; lia.
Qed.


Lemma copy_values_keys vals : forall ars len fixed0 fixed, copy_values vals ars len fixed0 = Ok fixed ->
  forall n, shas n fixed = true -> shas n fixed0 = true \/ In n (map fst (firstn (length vals) ars)).
Proof.
  induction vals as [|v r IH]; intros ars len fixed0 fixed; cbn [copy_values length].
  - intros H; inversion H; subst. auto.
  - destruct ars as [|[k a] ars'].
    + destruct len; [|discriminate]. intros H; inversion H; subst. auto.
    + destruct (a_multi a); intros H n Hn; destruct (IH _ _ _ _ H n Hn) as [Hs|Hs].
      * rewrite shas_set in Hs. destruct (str_eqb_spec n k) as [->|]; [right; cbn; now left|left; exact Hs].
      * right. apply in_map_iff in Hs as (x & Hx & Hin). apply in_map_iff. exists x. split; [exact Hx|].
        eapply firstn_in_le; [apply le_S, le_n|exact Hin].
      * rewrite shas_set in Hs. destruct (str_eqb_spec n k) as [->|]; [right; cbn; now left|left; exact Hs].
      * right. cbn [firstn map In]. now right.
Qed.

Lemma no_multi_skipn A m : no_multi A = true -> no_multi (skipn m A) = true.
Proof.
  unfold no_multi. rewrite !forallb_forall. intros H x Hx. apply H.
  rewrite <- (firstn_skipn m A). apply in_or_app. now right.
Qed.
Lemma copy_values_too_many vals : forall ars fixed, no_multi ars = true -> length ars < length vals ->
  copy_values vals ars false fixed = Err CannotParse.
Proof.
  induction vals as [|v r IH]; intros ars fixed Hm Hl; cbn [length] in Hl; [lia|]. cbn [copy_values].
  destruct ars as [|[k a] ars']; [reflexivity|].
  cbn [no_multi forallb snd] in Hm. apply andb_prop in Hm as [Ha Hm]. apply negb_true_iff in Ha. rewrite Ha.
  apply IH; [exact Hm|cbn [length] in Hl; lia].
Qed.


Lemma key_index (ar : list (str * arg)) j n a m :
  NoDup (map fst ar) -> nth_error ar j = Some (n, a) -> In n (map fst (firstn m ar)) -> j < m.
Proof.
  intros Hnd Hn Hin. destruct (Nat.lt_ge_cases j m) as [|Hge]; [assumption|exfalso].
  rewrite <- (firstn_skipn m ar), map_app in Hnd.
  apply (NoDup_app_disjoint _ _ n Hnd Hin).
  assert (j < length ar) as Hj by (apply nth_error_Some; congruence).
  assert (nth_error (skipn m ar) (j - m) = Some (n, a)) as Hs.
  { rewrite <- Hn. rewrite <- (firstn_skipn m ar) at 2.
    rewrite nth_error_app2 by (rewrite firstn_length; lia). rewrite firstn_length. f_equal. lia. }
  apply nth_error_In in Hs. apply in_map_iff. exists (n, a). auto.
Qed.

(* too many positionals, found only when the values are re-aligned against omitted command names:
   vals' are the positionals left once the leading ones that spell command names are set aside *)
Theorem too_many_after_realign f f' ar cns toks st1 vals' cns' k :
  aug_format f = Ok (f', ar, cns) -> scans f' toks st1 ->
  skip_names (flatten (ps_args st1)) cns 0 = (vals', cns', k) ->
  no_multi ar = true -> length ar - length cns < length vals' ->
  parse f false toks = Err CannotParse.
Proof.
  intros Ha Hs Hsk Hm Hl. rewrite (parse_after_scan _ _ _ _ _ _ Ha Hs).
  unfold insert_missing. rewrite Hsk.
  destruct (skip_names_skipn _ _ _ _ _ _ Hsk) as (m & -> & -> & -> & H1 & H2).
  rewrite copy_values_too_many; [reflexivity|apply no_multi_skipn; exact Hm|].
  rewrite !skipn_length in *. lia.
Qed.

(* Clause 4: a required argument is missing -> CannotParse. *)
Lemma insert_missing_missing ar cns st1 st2 vals' cns' k j n a :
  NoDup (map fst ar) -> map fst cns = map fst (firstn (length cns) ar) ->
  skip_names (flatten (ps_args st1)) cns 0 = (vals', cns', k) ->
  insert_missing ar cns false st1 = Ok st2 ->
  nth_error ar j = Some (n, a) -> a_required a = true ->
  shas n (ps_args st1) = false -> length cns + length vals' <= j ->
  missing_required ar st2 = true.
Proof.
  intros Hnd Hcns Hsk Hi Hn Hreq Hs1 Hj. unfold insert_missing in Hi. rewrite Hsk in Hi.
  destruct (skip_names_skipn _ _ _ _ _ _ Hsk) as (m & -> & -> & -> & H1 & H2).
  destruct (copy_values _ _ false _) as [fixed|k0] eqn:Ec; cbn [bind] in Hi; [|discriminate].
  inversion Hi; subst st2. clear Hi.
  unfold missing_required. apply existsb_exists. exists (n, a). split; [eapply nth_error_In; eauto|].
  cbn [fst snd ps_args]. rewrite Hreq, fold_sset_has, Hs1. cbn [andb orb].
  destruct (shas n fixed) eqn:Hf; [exfalso|reflexivity].
  destruct (copy_values_keys _ _ _ _ _ Ec n Hf) as [H0|H0].
  - (* a command-name slot *)
    assert (In n (map fst (skipn m cns))) as Hin.
    { rewrite shas_sget in H0.
      destruct (sget n (map (fun c : str * cname => (fst c, RCmd (snd c))) (skipn m cns))) as [v|] eqn:Eg; [|discriminate].
      apply sget_some_in in Eg. apply in_map_iff in Eg as ([k1 c1] & Hk & Hin). inversion Hk; subst.
      apply in_map_iff. exists (n, c1). auto. }
    assert (In n (map fst cns)) as Hin2.
    { rewrite <- (firstn_skipn m cns), map_app. apply in_or_app. now right. }
    rewrite Hcns in Hin2. pose proof (key_index _ _ _ _ _ Hnd Hn Hin2). lia.
  - (* one of the slots the re-aligned values were copied to *)
    rewrite (skipn_length m cns) in H0. replace (0 + m + (length cns - m)) with (length cns) in H0 by lia.
    assert (In n (map fst (firstn (length cns + length (skipn m (flatten (ps_args st1)))) ar))) as Hin.
    { rewrite firstn_add, map_app. apply in_or_app. now right. }
    pose proof (key_index _ _ _ _ _ Hnd Hn Hin). lia.
Qed.

(* the loop goes through the whole line; vals' are the positionals left once the leading ones that spell
   command names are set aside; the i-th declared argument (0-based, after the command-name slots) is
   required and i >= number of those positionals *)
Theorem missing_argument f f' ar cns toks st1 vals' cns' k i n a :
  aug_format f = Ok (f', ar, cns) -> args_named (get_arguments_all f) ->
  scans f' toks st1 ->
  skip_names (flatten (ps_args st1)) cns 0 = (vals', cns', k) ->
  nth_error ar (length cns + i) = Some (n, a) -> a_required a = true -> length vals' <= i ->
  parse f false toks = Err CannotParse.
Proof.
  intros Ha Hnm Hs Hsk Hn Hreq Hi. destruct (aug_format_ok _ _ _ _ Ha Hnm) as [HA Hnd Hnamed Hcns].
  rewrite (parse_after_scan _ _ _ _ _ _ Ha Hs).
  pose proof (insert_missing_spec ar cns false st1) as Hspec.
  destruct (insert_missing ar cns false st1) as [st2|k0] eqn:Ei; [|destruct Hspec as [-> _]; reflexivity].
  assert (args_inv_st ar st1) as [Hk Hf].
  { rewrite <- HA. eapply (loop_inv f' false); try (rewrite HA; assumption); [exact Hs|apply args_inv_empty]. }
  destruct (skip_names_skipn _ _ _ _ _ _ Hsk) as (m & Hk0 & Hc' & Hv' & H1 & H2).
  pose proof (entries_flatten _ Hf) as Hlen.
  assert (shas n (ps_args st1) = false) as Hs1.
  { rewrite shas_sget. destruct (sget n (ps_args st1)) as [v|] eqn:Eg; [exfalso|reflexivity].
    apply sget_some_in in Eg. assert (In n (map fst (ps_args st1))) as Hin by (apply in_map_iff; exists (n, v); auto).
    rewrite Hk in Hin. pose proof (key_index _ _ _ _ _ Hnd Hn Hin).
    subst vals'. rewrite skipn_length in Hi. lia. }
  rewrite (insert_missing_missing ar cns st1 st2 vals' cns' k _ n a Hnd Hcns Hsk Ei Hn Hreq Hs1); [reflexivity|lia].
Qed.

(* option-free lines (formats without multi-valued argument): toks are plain tokens *)
Lemma plain_scans f f' ar cns toks :
  aug_format f = Ok (f', ar, cns) -> args_named (get_arguments_all f) -> no_multi ar = true ->
  forallb plain toks = true -> length toks <= length ar ->
  exists st1, scans f' toks st1 /\ flatten (ps_args st1) = toks.
Proof.
  intros Ha Hnm Hm Hp Hl. destruct (aug_format_ok _ _ _ _ Ha Hnm) as [HA Hnd Hnamed _].
  pose proof (plain_run f' false) as PR. rewrite HA in PR.
  destruct (PR Hnd Hnamed Hm toks ps_empty [] Hp (args_inv_empty _)) as (st' & Hr & _ & Hfl); [cbn; lia|].
  rewrite app_nil_r in Hr. exists st'. split; [apply (reach_scans _ _ _ _ Hr)|exact Hfl].
Qed.

Theorem missing_argument_plain f f' ar cns toks vals' cns' k i n a :
  aug_format f = Ok (f', ar, cns) -> args_named (get_arguments_all f) -> no_multi ar = true ->
  forallb plain toks = true -> length toks <= length ar ->
  skip_names toks cns 0 = (vals', cns', k) ->
  nth_error ar (length cns + i) = Some (n, a) -> a_required a = true -> length vals' <= i ->
  parse f false toks = Err CannotParse.
Proof.
  intros Ha Hnm Hm Hp Hl Hsk Hn Hreq Hi.
  destruct (plain_scans _ _ _ _ _ Ha Hnm Hm Hp Hl) as (st1 & Hs & Hfl).
  eapply missing_argument; eauto. rewrite Hfl. exact Hsk.
Qed.

(* clause 5 for option-free lines, both ways of finding out: more plain tokens than there are argument
   slots once the spelled command names are discounted *)
Theorem too_many_plain f f' ar cns toks vals' cns' k :
  aug_format f = Ok (f', ar, cns) -> args_named (get_arguments_all f) -> no_multi ar = true ->
  forallb plain toks = true -> skip_names toks cns 0 = (vals', cns', k) ->
  length ar - length cns < length vals' ->
  parse f false toks = Err CannotParse.
Proof.
  intros Ha Hnm Hm Hp Hsk Hl. destruct (Nat.le_gt_cases (length toks) (length ar)) as [Hle|Hgt].
  - destruct (plain_scans _ _ _ _ _ Ha Hnm Hm Hp Hle) as (st1 & Hs & Hfl).
    eapply too_many_after_realign; eauto. rewrite Hfl. exact Hsk.
  - rewrite <- (firstn_skipn (length ar) toks) in Hp |- *.
    rewrite forallb_app in Hp. apply andb_prop in Hp as [Hp1 Hp2].
    destruct (skipn (length ar) toks) as [|tok rest] eqn:E.
    { assert (length (skipn (length ar) toks) = 0) as H0 by (rewrite E; reflexivity). rewrite skipn_length in H0. lia. }
    cbn [forallb] in Hp2. apply andb_prop in Hp2 as [Ht _].
    eapply too_many_positionals; eauto. rewrite firstn_length. lia.
Qed.

Open Scope string_scope.
Lemma ex_f_named : args_named (get_arguments_all ex_f).  Proof. apply args_named_b_ok. vm_compute. reflexivity. Qed.
Lemma ex_g_named : args_named (get_arguments_all ex_g).  Proof. apply args_named_b_ok. vm_compute. reflexivity. Qed.

Example ex_extra_positional_after_dd : parse ex_g false (T ["x"; "--verbose"; "2"; "--"; "-y"; "z"]) = Err CannotParse.
Proof.
  eapply (extra_positional_at ex_g ex_g' ex_gar ex_gcn _ false _ (S_ "-y") (T ["z"]) ex_g_aug).
  - repeat (eapply reach_next; [vm_compute; reflexivity|]). apply reach_here.
  - reflexivity.
  - vm_compute. reflexivity.
  - vm_compute. lia.
Qed.
Example ex_too_many_positionals : parse ex_f false (T ["server"; "add"; "x"; "2"; "y"; "--nope"]) = Err CannotParse.
Proof.
  apply (too_many_positionals ex_f ex_f' ex_far ex_fcn (T ["server"; "add"; "x"; "2"]) (S_ "y") (T ["--nope"]) ex_f_aug ex_f_named);
    vm_compute; reflexivity.
Qed.
Example ex_too_many_after_realign : parse ex_f false (T ["x"; "--verbose"; "2"; "y"]) = Err CannotParse.
Proof.
  eapply (too_many_after_realign ex_f ex_f' ex_far ex_fcn _ (scan_st ex_f' (T ["x"; "--verbose"; "2"; "y"])) _ _ _ ex_f_aug).
  - vm_compute. reflexivity.
  - vm_compute. reflexivity.
  - vm_compute. reflexivity.
  - vm_compute. lia.
Qed.
Example ex_too_many_plain : parse ex_f false (T ["server"; "x"; "2"; "y"]) = Err CannotParse.
Proof.
  eapply (too_many_plain ex_f ex_f' ex_far ex_fcn _ _ _ _ ex_f_aug ex_f_named); [vm_compute; reflexivity..|vm_compute; lia].
Qed.
Example ex_too_many_plain_g : parse ex_g false (T ["x"; "2"; "y"; "z"]) = Err CannotParse.
Proof.
  eapply (too_many_plain ex_g ex_g' ex_gar ex_gcn _ _ _ _ ex_g_aug ex_g_named); [vm_compute; reflexivity..|vm_compute; lia].
Qed.

Example ex_missing_argument : parse ex_f false (T ["server"; "--num"; "3"; "add"; "-v"]) = Err CannotParse.
Proof.
  eapply (missing_argument ex_f ex_f' ex_far ex_fcn _ (scan_st ex_f' (T ["server"; "--num"; "3"; "add"; "-v"])) _ _ _ 0 _ _
            ex_f_aug ex_f_named); [vm_compute; reflexivity..|vm_compute; lia].
Qed.
Example ex_missing_argument_names_omitted : parse ex_f false (T ["--opt"; "-q"]) = Err CannotParse.
Proof.
  eapply (missing_argument ex_f ex_f' ex_far ex_fcn _ (scan_st ex_f' (T ["--opt"; "-q"])) _ _ _ 0 _ _
            ex_f_aug ex_f_named); [vm_compute; reflexivity..|vm_compute; lia].
Qed.
Example ex_missing_argument_plain : parse ex_f false (T ["srv"; "add"]) = Err CannotParse.
Proof.
  eapply (missing_argument_plain ex_f ex_f' ex_far ex_fcn _ _ _ _ 0 _ _ ex_f_aug ex_f_named);
    [vm_compute; try reflexivity; lia..|vm_compute; lia].
Qed.
Close Scope string_scope.

(* Clause 6: a value that does not convert to the declared type -> ValueError. *)
(* a stored raw value that the conversion of its argument / option rejects *)
Definition bad_arg (f : fmt) (n : str) (v : rawarg) : Prop :=
  has_argument f (AName n) true = true /\
  exists a, get_argument f (AName n) true = Ok a /\
    match v with
    | RStr s => a_multi a = false /\ exists k, parse_typed (a_type a) (a_nullable a) (VStr s) = Err k
    | RList l => a_multi a = true /\ exists s k, In s l /\ parse_typed (a_type a) (a_nullable a) (VStr s) = Err k
    | RCmd _ => False
    end.
Definition bad_opt (f : fmt) (n : str) (v : rawopt) : Prop :=
  has_option f n true = true /\
  exists o, get_option f n true = Ok o /\
    match v with
    | OStr s => o_multi o = false /\ o_accepts o = true /\
                exists k, parse_typed (o_type o) (o_nullable o) (VStr s) = Err k
    | OList l => o_multi o = true /\ exists s k, In s l /\ parse_typed (o_type o) (o_nullable o) (VStr s) = Err k
    | _ => False
    end.

Lemma parse_each_bad t nl s k : forall l, In s l -> parse_typed t nl (VStr s) = Err k ->
  exists k', parse_each t nl l = Err k'.
Proof.
  induction l as [|x r IH]; intros Hin He; [contradiction|]. cbn [parse_each].
  destruct (parse_typed t nl (VStr x)) as [v|k1] eqn:E; cbn [bind]; [|eauto].
  destruct Hin as [->|Hin]; [congruence|]. destruct (IH Hin He) as [k' ->]. cbn [bind]. eauto.
Qed.

Lemma set_argument_bad f a0 n v : bad_arg f n v -> exists k, set_argument f a0 n v = Err k.
Proof.
  intros (_ & a & Hg & Hv). unfold set_argument. rewrite Hg. cbn [bind].
  destruct v as [s|l|c]; [| |contradiction].
  - destruct Hv as (-> & k & Hk). cbn [parse_raw_arg]. rewrite Hk. cbn [bind]. eauto.
  - destruct Hv as (-> & s & k & Hin & Hk). destruct (parse_each_bad _ _ _ _ l Hin Hk) as [k' ->]. cbn [bind]. eauto.
Qed.
Lemma set_arguments_bad f n v : bad_arg f n v -> forall l a0, In (n, v) l -> exists k, set_arguments f a0 l = Err k.
Proof.
  intros Hb. induction l as [|[n0 v0] r IH]; intros a0 Hin; [contradiction|]. cbn [set_arguments].
  destruct Hin as [Heq|Hin].
  - inversion Heq; subst. destruct Hb as [Hh Hb']. rewrite Hh.
    destruct (set_argument_bad f a0 n v (conj Hh Hb')) as [k ->]. cbn [bind]. eauto.
  - destruct (has_argument f (AName n0) true); [|apply IH; exact Hin].
    destruct (set_argument f a0 n0 v0) as [a'|k]; cbn [bind]; [apply IH; exact Hin|eauto].
Qed.

Lemma set_option_bad f a0 n v : bad_opt f n v -> exists k, set_option f a0 n v = Err k.
Proof.
  intros (_ & o & Hg & Hv). unfold set_option. rewrite Hg. cbn [bind].
  destruct v as [s| |d|l]; try contradiction.
  - destruct Hv as (-> & -> & k & Hk). cbn [parse_raw_opt]. rewrite Hk. cbn [bind]. eauto.
  - destruct Hv as (-> & s & k & Hin & Hk). destruct (parse_each_bad _ _ _ _ l Hin Hk) as [k' ->]. cbn [bind]. eauto.
Qed.
Lemma set_options_bad f n v : bad_opt f n v -> forall l a0, In (n, v) l -> exists k, set_options f a0 l = Err k.
Proof.
  intros Hb. induction l as [|[n0 v0] r IH]; intros a0 Hin; [contradiction|]. cbn [set_options].
  destruct Hin as [Heq|Hin].
  - inversion Heq; subst. destruct Hb as [Hh Hb']. rewrite Hh.
    destruct (set_option_bad f a0 n v (conj Hh Hb')) as [k ->]. cbn [bind]. eauto.
  - destruct (has_option f n0 true); [|apply IH; exact Hin].
    destruct (set_option f a0 n0 v0) as [a'|k]; cbn [bind]; [apply IH; exact Hin|eauto].
Qed.

(* the line gets through the token loop, the re-alignment and the required-argument check, and one of the
   values then stored for an argument does not convert *)
Theorem bad_argument_value f f' ar cns toks st1 st2 n v :
  aug_format f = Ok (f', ar, cns) -> scans f' toks st1 ->
  insert_missing ar cns false st1 = Ok st2 -> missing_required ar st2 = false ->
  In (n, v) (ps_args st2) -> bad_arg f n v ->
  parse f false toks = Err ValueError.
Proof.
  intros Ha Hs Hi Hm Hin Hb. rewrite (parse_after_scan _ _ _ _ _ _ Ha Hs), Hi, Hm.
  destruct (set_arguments_bad f n v Hb _ {| ar_opts := []; ar_args := [] |} Hin) as [k Hk].
  rewrite Hk. cbn [bind]. rewrite (set_arguments_err _ _ _ _ Hk). reflexivity.
Qed.

(* the same for a value stored for an option *)
Theorem bad_option_value_w f f' ar cns toks st1 st2 n v :
  aug_format f = Ok (f', ar, cns) -> opts_ok_w f' -> scans f' toks st1 ->
  insert_missing ar cns false st1 = Ok st2 -> missing_required ar st2 = false ->
  In (n, v) (ps_opts st1) -> bad_opt f n v ->
  parse f false toks = Err ValueError.
Proof.
  intros Ha Hok Hs Hi Hm Hin Hb. rewrite (parse_after_scan _ _ _ _ _ _ Ha Hs), Hi, Hm.
  pose proof (insert_missing_spec ar cns false st1) as Ho. rewrite Hi in Ho.
  destruct (loop_spec_w f' false Hok (S (length toks)) true ps_empty toks st_defaults_ok_empty ltac:(lia)) as [Hp _].
  unfold scans in Hs. rewrite Hs in Hp. cbn [fst] in Hp.
  destruct (set_arguments f _ (ps_args st2)) as [a1|k] eqn:Ea; cbn [bind].
  - rewrite <- Ho in Hin. destruct (set_options_bad f n v Hb _ a1 Hin) as [k Hk]. rewrite Hk.
    rewrite (set_options_err f (ps_opts st2) a1 k); [reflexivity| |exact Hk].
    intros n0 d Hd. rewrite Ho in Hd. eapply Hp; eauto.
  - rewrite (set_arguments_err _ _ _ _ Ea). reflexivity.
Qed.

Lemma insert_missing_same_args ar cns len st st' st2 :
  insert_missing ar cns len st = Ok st2 -> ps_args st' = ps_args st ->
  insert_missing ar cns len st' = Ok {| ps_args := ps_args st2; ps_opts := ps_opts st' |}.
Proof.
  unfold insert_missing. intros H ->.
  destruct (skip_names (flatten (ps_args st)) cns 0) as [[vals' cns'] k].
  destruct (copy_values vals' _ len _) as [fx|k0]; cbn [bind] in *; [|discriminate].
  inversion H; subst. reflexivity.
Qed.

Lemma set_options_sset_bad f name value o k0 :
  get_option f name true = Ok o -> o_multi o = false -> o_accepts o = true ->
  parse_typed (o_type o) (o_nullable o) (VStr value) = Err k0 ->
  forall l a r, set_options f a l = Ok r -> set_options f a (sset name (OStr value) l) = Err ValueError.
Proof.
  intros Hg Hm Hacc Hk.
  assert (forall a l', set_options f a ((name, OStr value) :: l') = Err ValueError) as Hhead.
  { intros a l'. cbn [set_options]. rewrite (get_option_has _ _ _ Hg). unfold set_option. rewrite Hg. cbn [bind].
    rewrite Hm, Hacc. cbn [parse_raw_opt]. rewrite Hk. cbn [bind]. rewrite (parse_typed_str _ _ _ _ Hk). reflexivity. }
  induction l as [|[n0 x] l IH]; intros a r Hr; unfold sset; cbn [aset]; [apply Hhead|].
  destruct (str_eqb_spec name n0) as [<-|Hne]; [apply Hhead|].
  cbn [set_options] in *. destruct (has_option f n0 true); [|apply (IH _ _ Hr)].
  destruct (set_option f a n0 x) as [a'|k]; cbn [bind] in *; [apply (IH _ _ Hr)|discriminate].
Qed.

Lemma step_long_eq_value f len st name value rest o :
  no_eq name = true -> value <> [] ->
  get_option f name true = Ok o -> o_accepts o = true -> o_multi o = false ->
  step f len true st (long_tok (name ++ EQ :: value)) rest =
    Ok (true, {| ps_args := ps_args st; ps_opts := sset name (OStr value) (ps_opts st) |}, rest).
Proof.
  intros Hq Hv Hg Hacc Hm. rewrite long_tok_dispatch by (destruct name; discriminate).
  unfold parse_long_option, long_tok. cbn [skipn]. rewrite (split_eq_found name value [] Hq). cbn [rev app].
  rewrite add_long_eq, (get_option_has _ _ _ Hg), Hg. cbn [negb bind]. rewrite Hacc. cbn [negb look fst snd]. unfold store.
  destruct value as [|c v]; [contradiction|]. rewrite Hm. reflexivity.
Qed.

(* pre is a line the strict parser accepts; "--name=value" is put behind it, value not convertible to the
   type of option name.  No hypothesis on the other options. *)
Theorem bad_option_value_last f f' ar cns pre r name value o' o k0 :
  aug_format f = Ok (f', ar, cns) ->
  parse f false pre = Ok r -> existsb is_dd pre = false ->
  no_eq name = true -> value <> [] ->
  (* the option as the augmented format knows it: takes a value, single-valued *)
  get_option f' name true = Ok o' -> o_accepts o' = true -> o_multi o' = false ->
  (* the option as the format itself knows it, and the conversion that fails *)
  get_option f name true = Ok o -> o_accepts o = true -> o_multi o = false ->
  parse_typed (o_type o) (o_nullable o) (VStr value) = Err k0 ->
  parse f false (pre ++ [long_tok (name ++ EQ :: value)]) = Err ValueError.
Proof.
  intros Ha Hok Hdd Hq Hv Hg' Hacc' Hm' Hg Hacc Hm Hk.
  destruct (parse_ok_inv _ _ _ _ _ _ Ha Hok) as (st1 & st2 & a1 & Hs & Hi & Hmiss & Hsa & Hso).
  set (tok := long_tok (name ++ EQ :: value)).
  set (st1' := {| ps_args := ps_args st1; ps_opts := sset name (OStr value) (ps_opts st1) |}).
  assert (scans f' (pre ++ [tok]) st1') as Hs'.
  { eapply reach_scans, reach_trans; [apply (scans_reach f' pre st1 tok [] Hs Hdd (dashy_long _))|].
    eapply reach_next; [|apply reach_here]. apply (step_long_eq_value f' false st1 name value [] o'); assumption. }
  rewrite (parse_after_scan _ _ _ _ _ _ Ha Hs').
  rewrite (insert_missing_same_args ar cns false st1 st1' st2 Hi eq_refl).
  unfold missing_required in *. cbn [ps_args ps_opts]. rewrite Hmiss, Hsa. cbn [bind]. unfold st1'. cbn [ps_opts].
  pose proof (insert_missing_spec ar cns false st1) as Ho. rewrite Hi in Ho. rewrite Ho in Hso.
  eapply set_options_sset_bad; eauto.
Qed.

(* decidable sufficient condition for opts_ok_w *)
Definition opt_ok_wb (o : opt) : bool := (negb (o_multi o) || o_required o) && (o_required o || conv_input (o_default o)).
Fixpoint opts_ok_wb (f : fmt) : bool :=
  match f with Fmt b _ _ _ _ os oss _ _ =>
    forallb (fun no => opt_ok_wb (snd no)) os && forallb (fun no => opt_ok_wb (snd no)) oss &&
    match b with Some bf => opts_ok_wb bf | None => true end end.
Lemma opt_ok_wb_inv o : opt_ok_wb o = true ->
  (o_multi o = true -> o_required o = true) /\ (o_required o = false -> conv_input (o_default o) = true).
Proof.
  unfold opt_ok_wb. intros H. apply andb_prop in H as [H1 H2]. split.
  - intros Hmu. rewrite Hmu in H1. exact H1.
  - intros Hr. rewrite Hr in H2. exact H2.
Qed.
(* get_option finds an option among the own long names, the own short names, or in the base: each place is checked *)
Lemma opts_ok_wb_ok f : opts_ok_wb f = true -> opts_ok_w f.
Proof.
  unfold opts_ok_w. cbn [get_option].
  induction f as [cn co cs ar os oss hm ho|bf cn co cs ar os oss hm ho IH] using fmt_ind';
    cbn [opts_ok_wb get_option_all]; intros H n o Hg;
    apply andb_prop in H as [H Hb]; apply andb_prop in H as [H1 H2]; rewrite forallb_forall in H1, H2.
  all: destruct (sget n os) as [o1|] eqn:E1; [inversion Hg; subst; apply opt_ok_wb_inv, (H1 (n, o)), sget_some_in, E1|].
  all: destruct (sget n oss) as [o2|] eqn:E2; [inversion Hg; subst; apply opt_ok_wb_inv, (H2 (n, o)), sget_some_in, E2|].
  - discriminate.
  - eapply IH; eauto.
Qed.

Open Scope string_scope.
Lemma ex_f_opts_ok_w : opts_ok_w ex_f'.  Proof. apply opts_ok_wb_ok. vm_compute. reflexivity. Qed.

Example ex_bad_argument_value : parse ex_f false (T ["server"; "add"; "x"; "--verbose"; "abc"]) = Err ValueError.
Proof.
  pose (st1 := scan_st ex_f' (T ["server"; "add"; "x"; "--verbose"; "abc"])).
  apply (bad_argument_value ex_f ex_f' ex_far ex_fcn _ st1 (realigned ex_far ex_fcn st1) (S_ "count") (RStr (S_ "abc")) ex_f_aug).
  - vm_compute. reflexivity.
  - vm_compute. reflexivity.
  - vm_compute. reflexivity.
  - vm_compute. tauto.
  - split; [vm_compute; reflexivity|]. eexists. split; [vm_compute; reflexivity|].
    split; [vm_compute; reflexivity|]. eexists. vm_compute. reflexivity.
Qed.
Example ex_bad_option_value : parse ex_f false (T ["x"; "--num=abc"; "--verbose"]) = Err ValueError.
Proof.
  pose (st1 := scan_st ex_f' (T ["x"; "--num=abc"; "--verbose"])).
  apply (bad_option_value_w ex_f ex_f' ex_far ex_fcn _ st1 (realigned ex_far ex_fcn st1) (S_ "num") (OStr (S_ "abc")) ex_f_aug ex_f_opts_ok_w).
  - vm_compute. reflexivity.
  - vm_compute. reflexivity.
  - vm_compute. reflexivity.
  - vm_compute. tauto.
  - split; [vm_compute; reflexivity|]. eexists. split; [vm_compute; reflexivity|].
    split; [vm_compute; reflexivity|]. split; [vm_compute; reflexivity|]. eexists. vm_compute. reflexivity.
Qed.
Example ex_bad_option_value_short_form : parse ex_f false (T ["x"; "-vn"; "1.5"]) = Err ValueError.
Proof.
  pose (st1 := scan_st ex_f' (T ["x"; "-vn"; "1.5"])).
  apply (bad_option_value_w ex_f ex_f' ex_far ex_fcn _ st1 (realigned ex_far ex_fcn st1) (S_ "num") (OStr (S_ "1.5")) ex_f_aug ex_f_opts_ok_w).
  - vm_compute. reflexivity.
  - vm_compute. reflexivity.
  - vm_compute. reflexivity.
  - vm_compute. tauto.
  - split; [vm_compute; reflexivity|]. eexists. split; [vm_compute; reflexivity|].
    split; [vm_compute; reflexivity|]. split; [vm_compute; reflexivity|]. eexists. vm_compute. reflexivity.
Qed.
Example ex_bad_option_value_last : parse ex_f false (T ["x"; "-v"; "--num=abc"]) = Err ValueError.
Proof.
  eapply (bad_option_value_last ex_f ex_f' ex_far ex_fcn (T ["x"; "-v"]) _ (S_ "num") (S_ "abc") _ _ _ ex_f_aug);
    try (vm_compute; reflexivity). discriminate.
Qed.
Example ex_bad_value_lenient : parse ex_f true (T ["x"; "--num=abc"; "--verbose"]) = Err ValueError.
Proof.
  pose (st1 := scan_st ex_f' (T ["x"; "--num=abc"; "--verbose"])).
  rewrite (modes_agree_after_scan ex_f ex_f' ex_far ex_fcn _ st1 (realigned ex_far ex_fcn st1) ex_f_aug);
    [exact ex_bad_option_value|vm_compute; reflexivity..].
Qed.
Example ex_lenient : parse ex_f true (T ["x"; "2"; "y"; "--nope"; "--verbose=1"; "--num"]) <> Err NoSuchOption /\
                     parse ex_f true (T ["x"; "2"; "y"; "--nope"; "--verbose=1"; "--num"]) <> Err CannotParse.
Proof. exact (lenient_no_parse_error_w ex_f ex_f' ex_far ex_fcn _ ex_f_aug ex_f_opts_ok_w). Qed.
Close Scope string_scope.

(* The options of the augmented format are the options the format lists, so the hypotheses on f' of clauses 1-3 can be
   read off the option list of f itself. *)
Definition opt_named (o : opt) (n : str) : bool :=
  str_eqb n (o_long o) || match o_short o with Some s => str_eqb n s | None => false end.
Definition shorts_of (L : list opt) (d : list (str * opt)) : list (str * opt) :=
  fold_left (fun d o => match o_short o with Some s => sset s o d | None => d end) L d.
Definition longs_of (L : list opt) : list (str * opt) := map (fun o => (o_long o, o)) L.
(* long names are distinct; a short name identifies its option among all long and short names *)
Definition names_ok (L : list opt) : Prop :=
  NoDup (map o_long L) /\
  forall o s, In o L -> o_short o = Some s ->
    forall o2, In o2 L -> (o_long o2 = s \/ o_short o2 = Some s) -> o2 = o.

Lemma shorts_of_has n L : forall d,
  shas n (shorts_of L d) = shas n d || existsb (fun o => match o_short o with Some s => str_eqb n s | None => false end) L.
Proof.
  unfold shorts_of. induction L as [|o r IH]; intros d; cbn [fold_left existsb]; [now rewrite orb_false_r|].
  rewrite IH. destruct (o_short o) as [s|]; [|reflexivity].
  rewrite shas_set. destruct (str_eqb n s); [now rewrite orb_true_r|reflexivity].
Qed.
Lemma shorts_of_get n L : forall d o, sget n (shorts_of L d) = Some o ->
  sget n d = Some o \/ (In o L /\ o_short o = Some n).
Proof.
  unfold shorts_of. induction L as [|x r IH]; intros d o; cbn [fold_left]; [auto|].
  intros H. apply IH in H as [H|[H1 H2]]; [|right; split; [now right|exact H2]].
  destruct (o_short x) as [s|] eqn:Es; [|auto].
  rewrite sget_set in H. destruct (str_eqb_spec n s) as [->|]; [|auto].
  inversion H; subst. right. split; [now left|exact Es].
Qed.
Lemma longs_of_get n L o : sget n (longs_of L) = Some o -> In o L /\ o_long o = n.
Proof. intros H. apply sget_some_in, in_map_iff in H as (x & [= <- <-] & Hin). auto. Qed.
Lemma longs_of_has n L : shas n (longs_of L) = existsb (fun o => str_eqb n (o_long o)) L.
Proof.
  unfold longs_of, shas, ahas. induction L as [|x r IH]; cbn [map aget existsb]; [reflexivity|].
  destruct (str_eqb n (o_long x)); [reflexivity|exact IH].
Qed.
Lemma longs_of_nodup_get L o : NoDup (map o_long L) -> In o L -> sget (o_long o) (longs_of L) = Some o.
Proof.
  intros Hnd Hin. apply sget_of_in; [unfold longs_of; rewrite map_map; exact Hnd|].
  exact (in_map (fun o => (o_long o, o)) L o Hin).
Qed.

(* the option fields are left alone by the addition of arguments *)
Lemma add_args_opts l : forall f f1,
  add_elements f (map (fun na : str * arg => EArg (snd na)) l) = Ok f1 -> opt_fields f1 = opt_fields f.
Proof.
  induction l as [|[k a] r IH]; intros f f1; cbn [map add_elements snd].
  - intros H. inversion H. auto.
  - unfold add_argument. destruct (has_argument f (AName (a_name a)) true); [discriminate|].
    destruct (has_multi_all f); [discriminate|]. destruct (a_required a && has_optional_all f); [discriminate|].
    destruct f as [b cn co cs' ar os oss hm ho]. cbn [bind]. intros H. apply IH in H. exact H.
Qed.

(* a name that is not taken in a format with these indexes is no long and no short name of L *)
Lemma not_taken_fresh L cn ar hm ho n :
  opt_name_taken (Fmt None cn [] [] ar (longs_of L) (shorts_of L []) hm ho) n = false ->
  (forall o2, In o2 L -> o_long o2 <> n) /\ (forall o2, In o2 L -> o_short o2 <> Some n).
Proof.
  unfold opt_name_taken. cbn [has_option_all has_command_option_all]. intros Hn.
  assert (shas n (longs_of L) = false /\ shas n (shorts_of L []) = false) as [Hn1 Hn2].
  { destruct (shas n (longs_of L)), (shas n (shorts_of L [])); cbn in Hn; auto; discriminate. }
  rewrite longs_of_has in Hn1. rewrite shorts_of_has in Hn2. cbn [shas ahas aget orb] in Hn2.
  split; intros o2 Hin Heq.
  - assert (existsb (fun o => str_eqb n (o_long o)) L = true) as Hx; [|congruence].
    apply existsb_exists. exists o2. split; [exact Hin|]. rewrite Heq. apply str_eqb_refl.
  - assert (existsb (fun o => match o_short o with Some s => str_eqb n s | None => false end) L = true) as Hx; [|congruence].
    apply existsb_exists. exists o2. split; [exact Hin|]. rewrite Heq. apply str_eqb_refl.
Qed.
(* one more option whose long name, and short name if it has one, are neither *)
Lemma names_ok_snoc L o : names_ok L ->
  (forall o2, In o2 L -> o_long o2 <> o_long o) -> (forall o2, In o2 L -> o_short o2 <> Some (o_long o)) ->
  (forall s, o_short o = Some s ->
     (forall o2, In o2 L -> o_long o2 <> s) /\ (forall o2, In o2 L -> o_short o2 <> Some s)) ->
  names_ok (L ++ [o]).
Proof.
  intros [Hnd Huniq] Fl1 Fl2 Fs. split.
  - rewrite map_app. cbn [map]. apply NoDup_snoc; [exact Hnd|].
    intros Hin. apply in_map_iff in Hin as (o2 & He & Hin). exact (Fl1 o2 Hin He).
  - intros o1 s Hin1 Es o2 Hin2 Hname.
    apply in_app_or in Hin1 as [Hin1|[<-|[]]]; apply in_app_or in Hin2 as [Hin2|[<-|[]]].
    + eapply Huniq; eauto.
    + exfalso. destruct Hname as [Hn|Hn]; [exact (Fl2 o1 Hin1 (eq_trans Es (f_equal Some (eq_sym Hn))))|].
      destruct (Fs s Hn) as [_ F2]. exact (F2 o1 Hin1 Es).
    + exfalso. destruct (Fs s Es) as [F1 F2]. destruct Hname as [Hn|Hn]; [exact (F1 o2 Hin2 Hn)|exact (F2 o2 Hin2 Hn)].
    + reflexivity.
Qed.

(* adding options one by one keeps the indexes those of the list added so far; add_option refuses a long or short
   name that is taken as either, which is what keeps names_ok *)
Lemma add_opts_inv L2 : forall f f1 L1,
  f_base f = None -> f_copts f = [] -> f_copts_short f = [] ->
  f_opts f = longs_of L1 -> f_opts_short f = shorts_of L1 [] -> names_ok L1 ->
  add_elements f (map EOpt L2) = Ok f1 ->
  f_base f1 = None /\ f_copts f1 = [] /\ f_copts_short f1 = [] /\
  f_opts f1 = longs_of (L1 ++ L2) /\ f_opts_short f1 = shorts_of (L1 ++ L2) [] /\ names_ok (L1 ++ L2).
Proof.
  induction L2 as [|o r IH]; intros f f1 L1 Hb Hco Hcs Hos Hoss Hok; cbn [map add_elements].
  - intros H. inversion H; subst. rewrite app_nil_r. auto 10.
  - unfold add_option. destruct (opt_name_taken f (o_long o)) eqn:Hl; [discriminate|].
    destruct (optname_taken f (o_short o)) eqn:Hs; [discriminate|].
    destruct f as [b cn co cs' ar os oss hm ho]. cbn [f_base f_copts f_copts_short f_opts f_opts_short] in *. subst b co cs' os oss.
    cbn [bind]. intros H.
    destruct (not_taken_fresh _ _ _ _ _ _ Hl) as [Fl1 Fl2].
    assert (sset (o_long o) o (longs_of L1) = longs_of (L1 ++ [o])) as Hset.
    { rewrite sset_new; [unfold longs_of; rewrite map_app; reflexivity|].
      apply sget_none_iff. unfold longs_of. rewrite map_map. cbn [fst]. intros Hin.
      apply in_map_iff in Hin as (o2 & He & Hin). exact (Fl1 o2 Hin He). }
    assert ((match o_short o with Some s => sset s o (shorts_of L1 []) | None => shorts_of L1 [] end) = shorts_of (L1 ++ [o]) []) as Hsh.
    { unfold shorts_of. rewrite fold_left_app. reflexivity. }
    rewrite Hset, Hsh in H.
    replace (L1 ++ o :: r) with ((L1 ++ [o]) ++ r) by (rewrite <- app_assoc; reflexivity).
    apply (IH _ _ (L1 ++ [o])) in H; auto.
    apply names_ok_snoc; auto. intros s Es. rewrite Es in Hs. exact (not_taken_fresh _ _ _ _ _ _ Hs).
Qed.

Lemma shorts_of_longs L : forall d,
  fold_left (fun d (no : str * opt) => match o_short (snd no) with Some s => sset s (snd no) d | None => d end) (longs_of L) d
  = shorts_of L d.
Proof. unfold shorts_of, longs_of. induction L as [|o r IH]; intros d; cbn [map fold_left snd]; [reflexivity|apply IH]. Qed.


(* option lookups in a format without base and command options whose indexes are those of L *)
Lemma indexed_lookups L cn ar hm ho : names_ok L ->
  let g := Fmt None cn [] [] ar (longs_of L) (shorts_of L []) hm ho in
  (forall n, has_option g n true = existsb (fun o => opt_named o n) L) /\
  (forall n o, get_option g n true = Ok o -> In o L /\ opt_named o n = true) /\
  (forall o, In o L -> has_option g (o_long o) true = true /\ get_option g (o_long o) true = Ok o) /\
  (forall o s, In o L -> o_short o = Some s -> has_option g s true = true /\ get_option g s true = Ok o).
Proof.
  intros [Hnd Huniq] g. unfold g. cbn [has_option has_option_all get_option get_option_all].
  assert (forall o s, In o L -> o_short o = Some s -> shas s (shorts_of L []) = true) as Hsh.
  { intros o s Hin Hs. rewrite shorts_of_has. cbn [shas ahas aget orb]. apply existsb_exists. exists o.
    split; [exact Hin|]. rewrite Hs. apply str_eqb_refl. }
  split; [|split; [|split]].
  - intros n. rewrite orb_false_r, longs_of_has, shorts_of_has. cbn [shas ahas aget orb].
    unfold opt_named. rewrite existsb_orb. reflexivity.
  - intros n o. unfold opt_named. destruct (sget n (longs_of L)) as [o1|] eqn:G1.
    + intros [= <-]. apply longs_of_get in G1 as [Hin <-]. split; [exact Hin|]. now rewrite str_eqb_refl.
    + destruct (sget n (shorts_of L [])) as [o2|] eqn:G2; [|discriminate].
      intros [= <-]. apply shorts_of_get in G2 as [G2|[Hin Hs]]; [discriminate|].
      split; [exact Hin|]. rewrite Hs, str_eqb_refl. apply orb_true_r.
  - intros o Hin. rewrite shas_sget, (longs_of_nodup_get L o Hnd Hin). split; reflexivity.
  - intros o s Hin Hs. pose proof (Hsh o s Hin Hs) as Hs1.
    split; [rewrite Hs1, orb_false_r; apply orb_true_r|].
    destruct (sget s (longs_of L)) as [o1|] eqn:G1.
    + apply longs_of_get in G1 as [Hin1 Hl1]. f_equal. apply (Huniq o s Hin Hs o1 Hin1). now left.
    + rewrite shas_sget in Hs1. destruct (sget s (shorts_of L [])) as [o2|] eqn:G2; [|discriminate].
      apply shorts_of_get in G2 as [G2|[Hin2 Hs2]]; [discriminate|]. f_equal. apply (Huniq o s Hin Hs o2 Hin2). now right.
Qed.

(* the option indexes of the augmented format *)
Record aug_opts_ok (f : fmt) (f' : fmt) : Prop := {
  ao_has : forall n, has_option f' n true = existsb (fun no => opt_named (snd no) n) (get_options_all f);
  ao_get : forall n o, get_option f' n true = Ok o ->
             In o (map snd (get_options_all f)) /\ opt_named o n = true;
  ao_long : forall o, In o (map snd (get_options_all f)) ->
             has_option f' (o_long o) true = true /\ get_option f' (o_long o) true = Ok o;
  ao_short : forall o s, In o (map snd (get_options_all f)) -> o_short o = Some s ->
             has_option f' s true = true /\ get_option f' s true = Ok o }.

Lemma aug_format_opts f f' ar cns : aug_format f = Ok (f', ar, cns) -> aug_opts_ok f f'.
Proof.
  intros H. destruct (aug_format_inv _ _ _ _ H) as (_ & _ & b1 & b2 & b & E1 & E2 & Eb & ->). clear H.
  apply add_cnames_keeps in E1 as (B1 & A1 & O1).
  pose proof (add_args_opts _ _ _ E2) as O2.
  assert (f_base b2 = None) as B2.
  { apply add_args_args in E2; [tauto|exact B1|]. rewrite A1. constructor. }
  rewrite O1 in O2. unfold opt_fields in O2. cbn [empty_builder f_copts f_copts_short f_opts f_opts_short] in O2.
  inversion O2 as [[C1 C2 C3 C4]]. clear O1 O2. rewrite C1 in C2. rewrite C3 in C4.
  set (L := map snd (get_options_all f)) in *.
  replace (map (fun no : str * opt => EOpt (snd no)) (get_options_all f)) with (map EOpt L) in Eb
    by (unfold L; rewrite map_map; reflexivity).
  apply (add_opts_inv L b2 b []) in Eb; auto;
    [|split; [constructor|intros ? ? []]].
  cbn [app] in Eb. destruct Eb as (Bb & Cb & Csb & Ob & Osb & Hok).
  destruct b as [bb cn co cs ar' os oss hm ho]. cbn [f_base f_copts f_copts_short f_opts f_opts_short] in *. subst bb co cs os oss.
  unfold build_format. cbn [map index_copts fold_left]. rewrite shorts_of_longs.
  destruct (indexed_lookups L cn ar' hm ho Hok) as (Hhas & Hget & Hlong & Hshort).
  constructor; [|exact Hget|exact Hlong|exact Hshort].
  intros n. rewrite Hhas. unfold L. apply existsb_map.
Qed.

(* clauses 1-3 with the hypotheses read off the option list of f *)
Definition listed (f : fmt) (o : opt) : Prop := In o (map snd (get_options_all f)).
(* n is neither the long nor the short name of any option the format lists (own or inherited) *)
Definition unknown_name (f : fmt) (n : str) : bool := negb (existsb (fun no => opt_named (snd no) n) (get_options_all f)).
(* x is the short name of a listed option that takes no value *)
Definition is_flag (f : fmt) (x : N) : bool :=
  existsb (fun no => match o_short (snd no) with Some s => str_eqb s [x] | None => false end &&
                     negb (o_accepts (snd no)) && negb (o_required (snd no)) && negb (o_multi (snd no)))
          (get_options_all f).

Lemma named_get f f' o n : aug_opts_ok f f' -> listed f o -> opt_named o n = true -> get_option f' n true = Ok o.
Proof.
  intros Hao Hl Hn. unfold opt_named in Hn. apply orb_prop in Hn as [Hn|Hn].
  - destruct (str_eqb_spec n (o_long o)) as [->|]; [|discriminate]. apply (ao_long _ _ Hao), Hl.
  - destruct (o_short o) as [s|] eqn:Es; [|discriminate].
    destruct (str_eqb_spec n s) as [->|]; [|discriminate]. apply (ao_short _ _ Hao); assumption.
Qed.
Lemma unknown_has f f' n : aug_opts_ok f f' -> unknown_name f n = true -> has_option f' n true = false.
Proof. intros Hao Hu. rewrite (ao_has _ _ Hao). now apply negb_true_iff. Qed.
Lemma flag_listed f f' x : aug_opts_ok f f' -> is_flag f x = true -> flag_ok f' x = true.
Proof.
  intros Hao Hf. unfold is_flag in Hf. apply existsb_exists in Hf as ([k o] & Hin & Hc). cbn [snd] in Hc.
  apply andb_prop in Hc as [Hc Hm]. apply andb_prop in Hc as [Hc Hr]. apply andb_prop in Hc as [Hs Ha].
  destruct (o_short o) as [s|] eqn:Es; [|discriminate]. destruct (str_eqb_spec s [x]) as [->|]; [|discriminate].
  assert (listed f o) as Hl by (apply in_map_iff; exists (k, o); auto).
  unfold flag_ok. rewrite (proj2 (ao_short _ _ Hao o [x] Hl Es)), (proj2 (ao_long _ _ Hao o Hl)), Ha, Hr, Hm. reflexivity.
Qed.
Lemma flags_listed f f' flags : aug_opts_ok f f' -> forallb (is_flag f) flags = true -> forallb (flag_ok f') flags = true.
Proof.
  intros Hao. rewrite !forallb_forall. intros H x Hx. eapply flag_listed; eauto.
Qed.

(* ONE option token at fault, in terms of the option list of f: the token, the tokens behind it, and the error the
   strict parser ends in (clause 1: NoSuchOption; clauses 2 and 3: CannotParse) *)
Inductive malformed (f : fmt) : str -> list str -> ekind -> Prop :=
| mf_unknown_long name rest :
    name <> [] -> no_eq name = true -> unknown_name f name = true ->
    malformed f (long_tok name) rest NoSuchOption
| mf_unknown_long_eq name value rest :
    no_eq name = true -> unknown_name f name = true ->
    malformed f (long_tok (name ++ EQ :: value)) rest NoSuchOption
| mf_unknown_short flags c more rest :
    starts_dash (flags ++ c :: more) = false -> forallb (is_flag f) flags = true -> unknown_name f [c] = true ->
    malformed f (short_tok (flags ++ c :: more)) rest NoSuchOption
| mf_flag_value o name value rest :
    listed f o -> opt_named o name = true -> no_eq name = true -> o_accepts o = false ->
    malformed f (long_tok (name ++ EQ :: value)) rest CannotParse
| mf_value_missing o name rest :
    listed f o -> opt_named o name = true -> name <> [] -> no_eq name = true -> o_required o = true ->
    no_value_next rest = true ->
    malformed f (long_tok name) rest CannotParse
| mf_value_empty o name rest :
    listed f o -> opt_named o name = true -> no_eq name = true -> o_required o = true ->
    malformed f (long_tok (name ++ [EQ])) rest CannotParse
| mf_short_value_missing o flags c rest :
    listed f o -> o_short o = Some [c] -> o_required o = true ->
    starts_dash (flags ++ [c]) = false -> forallb (is_flag f) flags = true -> no_value_next rest = true ->
    malformed f (short_tok (flags ++ [c])) rest CannotParse.

(* the iteration of the loop that meets such a token fails with that error, whatever the scratch state *)
Lemma malformed_step f f' len st tok rest k : aug_opts_ok f f' -> malformed f tok rest k ->
  dashy tok = true /\ step f' len true st tok rest = Err k.
Proof.
  intros Hao Hm. split; [destruct Hm; reflexivity|].
  destruct Hm as [name r Hne Hq Hu|name value r Hq Hu|flags c more r Hd Hf Hu|o name value r Hl Hn Hq Ha|
                  o name r Hl Hn Hne Hq Hr Hnv|o name r Hl Hn Hq Hr|o flags c r Hl Hs Hr Hd Hf Hnv].
  - apply step_unknown_long; [exact Hne|]. rewrite name_part_plain by exact Hq. exact (unknown_has f f' name Hao Hu).
  - apply step_unknown_long; [destruct name; discriminate|]. rewrite name_part_eq by exact Hq. exact (unknown_has f f' name Hao Hu).
  - apply step_unknown_short; [exact Hd|exact (flags_listed f f' flags Hao Hf)|exact (unknown_has f f' [c] Hao Hu)].
  - exact (step_flag_value f' len st name value r o Hq (named_get f f' o name Hao Hl Hn) Ha).
  - exact (step_value_missing_long f' len st name r o Hne Hq (named_get f f' o name Hao Hl Hn) Hr Hnv).
  - exact (step_value_missing_eq f' len st name r o Hq (named_get f f' o name Hao Hl Hn) Hr).
  - exact (step_value_missing_short f' len st flags c r o Hd (flags_listed f f' flags Hao Hf)
             (proj2 (ao_short _ _ Hao o [c] Hl Hs)) (proj2 (ao_long _ _ Hao o Hl)) Hr Hnv).
Qed.

(* clauses 1-3: the tokens before are processed without error, "--" is not among them, and the next token is at fault *)
Theorem malformed_rejected f f' ar cns pre st tok rest k :
  aug_format f = Ok (f', ar, cns) -> scans f' pre st -> existsb is_dd pre = false -> malformed f tok rest k ->
  parse f false (pre ++ tok :: rest) = Err k.
Proof.
  intros Ha Hs Hdd Hm. destruct (malformed_step f f' false st tok rest k (aug_format_opts f f' ar cns Ha) Hm) as [Hd He].
  exact (prefix_error f f' ar cns pre st tok rest k Ha Hs Hdd Hd He).
Qed.

Open Scope string_scope.
Lemma ex_scans_x : scans ex_f' (T ["x"]) (scan_st ex_f' (T ["x"])).
Proof. apply scans_scan_st. vm_compute. reflexivity. Qed.
Example ex_unknown_long_listed : parse ex_f false (T ["server"; "x"; "--opt"; "--nope"; "y"]) = Err NoSuchOption.
Proof.
  assert (scans ex_f' (T ["server"; "x"; "--opt"]) (scan_st ex_f' (T ["server"; "x"; "--opt"]))) as Hs by (apply scans_scan_st; vm_compute; reflexivity).
  refine (malformed_rejected ex_f ex_f' ex_far ex_fcn _ _ _ _ _ ex_f_aug Hs eq_refl (mf_unknown_long ex_f (S_ "nope") (T ["y"]) _ _ _));
    [discriminate|reflexivity|vm_compute; reflexivity].
Qed.
Example ex_unknown_short_listed : parse ex_f false (T ["x"; "-vqzn"; "3"]) = Err NoSuchOption.
Proof.
  refine (malformed_rejected ex_f ex_f' ex_far ex_fcn _ _ _ _ _ ex_f_aug ex_scans_x eq_refl
            (mf_unknown_short ex_f (S_ "vq") 122%N (S_ "n") (T ["3"]) _ _ _)); vm_compute; reflexivity.
Qed.
Example ex_flag_given_value_listed : parse ex_f false (T ["srv"; "add"; "x"; "--verbose=1"; "--nope"]) = Err CannotParse.
Proof.
  assert (scans ex_f' (T ["srv"; "add"; "x"]) (scan_st ex_f' (T ["srv"; "add"; "x"]))) as Hs by (apply scans_scan_st; vm_compute; reflexivity).
  refine (malformed_rejected ex_f ex_f' ex_far ex_fcn _ _ _ _ _ ex_f_aug Hs eq_refl
            (mf_flag_value ex_f (mkopt "verbose" (Some "v") 4 VNone) (S_ "verbose") (S_ "1") (T ["--nope"]) _ _ _ _));
    [vm_compute; tauto|reflexivity..].
Qed.
Example ex_option_value_missing_listed : parse ex_f false (T ["x"; "--num"; "--verbose"]) = Err CannotParse.
Proof.
  refine (malformed_rejected ex_f ex_f' ex_far ex_fcn _ _ _ _ _ ex_f_aug ex_scans_x eq_refl
            (mf_value_missing ex_f (mkopt "num" (Some "n") 520 VNone) (S_ "num") (T ["--verbose"]) _ _ _ _ _ _));
    [vm_compute; tauto|reflexivity|discriminate|reflexivity..].
Qed.
Example ex_short_option_value_missing_listed : parse ex_f false (T ["x"; "-vqn"; ""; "7"]) = Err CannotParse.
Proof.
  refine (malformed_rejected ex_f ex_f' ex_far ex_fcn _ _ _ _ _ ex_f_aug ex_scans_x eq_refl
            (mf_short_value_missing ex_f (mkopt "num" (Some "n") 520 VNone) (S_ "vq") 110%N (T [""; "7"]) _ _ _ _ _ _));
    [vm_compute; tauto|reflexivity..].
Qed.
Example ex_unknown_long_eq_listed : parse ex_f false (T ["-v"; "--num"; "3"; "--nope=1"; "--also"]) = Err NoSuchOption.
Proof.
  assert (scans ex_f' (T ["-v"; "--num"; "3"]) (scan_st ex_f' (T ["-v"; "--num"; "3"]))) as Hs by (apply scans_scan_st; vm_compute; reflexivity).
  refine (malformed_rejected ex_f ex_f' ex_far ex_fcn _ _ _ _ _ ex_f_aug Hs eq_refl
            (mf_unknown_long_eq ex_f (S_ "nope") (S_ "1") (T ["--also"]) _ _)); vm_compute; reflexivity.
Qed.
Example ex_option_value_empty_listed : parse ex_f false (T ["x"; "--num="; "3"]) = Err CannotParse.
Proof.
  refine (malformed_rejected ex_f ex_f' ex_far ex_fcn _ _ _ _ _ ex_f_aug ex_scans_x eq_refl
            (mf_value_empty ex_f (mkopt "num" (Some "n") 520 VNone) (S_ "num") (T ["3"]) _ _ _ _)); [vm_compute; tauto|reflexivity..].
Qed.
Example ex_unknown_long : parse ex_f false (T ["server"; "x"; "--opt"; "--nope"; "y"]) = Err NoSuchOption.
Proof. exact ex_unknown_long_listed. Qed.
Example ex_unknown_long_eq : parse ex_f false (T ["-v"; "--num"; "3"; "--nope=1"; "--also"]) = Err NoSuchOption.
Proof. exact ex_unknown_long_eq_listed. Qed.
Example ex_unknown_short : parse ex_f false (T ["x"; "-vqzn"; "3"]) = Err NoSuchOption.
Proof. exact ex_unknown_short_listed. Qed.
Example ex_flag_given_value : parse ex_f false (T ["srv"; "add"; "x"; "--verbose=1"; "--nope"]) = Err CannotParse.
Proof. exact ex_flag_given_value_listed. Qed.
Example ex_option_value_missing : parse ex_f false (T ["x"; "--num"; "--verbose"]) = Err CannotParse.
Proof. exact ex_option_value_missing_listed. Qed.
Example ex_option_value_empty : parse ex_f false (T ["x"; "--num="; "3"]) = Err CannotParse.
Proof. exact ex_option_value_empty_listed. Qed.
Example ex_short_option_value_missing : parse ex_f false (T ["x"; "-vqn"; ""; "7"]) = Err CannotParse.
Proof. exact ex_short_option_value_missing_listed. Qed.
Example ex_option_value_missing_last : parse ex_f false (T ["x"; "--num"]) = Err CannotParse.
Proof.
  refine (malformed_rejected ex_f ex_f' ex_far ex_fcn _ _ _ _ _ ex_f_aug ex_scans_x eq_refl
            (mf_value_missing ex_f (mkopt "num" (Some "n") 520 VNone) (S_ "num") [] _ _ _ _ _ _));
    [vm_compute; tauto|reflexivity|discriminate|reflexivity..].
Qed.
Close Scope string_scope.

(* lenient mode, clause 1: a line with an option token does not end in NoSuchOption (no line does) *)
Section Lenient.
  Context (f f' : fmt) (ar : list (str * arg)) (cns : list (str * cname)).
  Hypothesis Haug : aug_format f = Ok (f', ar, cns).
  Hypothesis Hok : opts_ok f'.
  Let never := fun toks => lenient_no_parse_error f f' ar cns toks Haug Hok.

  Theorem unknown_long_option_lenient pre body rest : parse f true (pre ++ long_tok body :: rest) <> Err NoSuchOption.
  Proof. apply never. Qed.
  Theorem unknown_short_option_lenient pre body rest : parse f true (pre ++ short_tok body :: rest) <> Err NoSuchOption.
  Proof. apply never. Qed.
End Lenient.

Open Scope string_scope.
(* ex_f plus a multi-valued option --tag/-t with the list default [] that Option.set_default gives it *)
Definition ex_h : fmt := fmt_of (ex_cnames ++ ex_args ++ ex_opts ++ [EOpt (mkopt "tag" (Some "t") 32 (VList []))]).
Definition ex_h' := fst (fst (aug_of ex_h)).  Definition ex_har := snd (fst (aug_of ex_h)).  Definition ex_hcn := snd (aug_of ex_h).
Lemma ex_h_aug : aug_format ex_h = Ok (ex_h', ex_har, ex_hcn).  Proof. vm_compute. reflexivity. Qed.
Example ex_h_not_opts_ok : ~ opts_ok ex_h'.
Proof.
  intros H. destruct (H (S_ "tag") (mkopt "tag" (Some "t") 32 (VList []))) as [_ Hc]; [vm_compute; reflexivity|].
  vm_compute in Hc. discriminate.
Qed.
Lemma ex_h_opts_ok_w : opts_ok_w ex_h'.  Proof. apply opts_ok_wb_ok. vm_compute. reflexivity. Qed.
Example ex_bad_multi_option_value : parse ex_h false (T ["x"; "-t"; "a"; "--num=abc"; "--tag"; "b"]) = Err ValueError.
Proof.
  pose (st1 := scan_st ex_h' (T ["x"; "-t"; "a"; "--num=abc"; "--tag"; "b"])).
  apply (bad_option_value_w ex_h ex_h' ex_har ex_hcn _ st1 (realigned ex_har ex_hcn st1) (S_ "num") (OStr (S_ "abc")) ex_h_aug ex_h_opts_ok_w).
  - vm_compute. reflexivity.
  - vm_compute. reflexivity.
  - vm_compute. reflexivity.
  - vm_compute. tauto.
  - split; [vm_compute; reflexivity|]. eexists. split; [vm_compute; reflexivity|].
    split; [vm_compute; reflexivity|]. split; [vm_compute; reflexivity|]. eexists. vm_compute. reflexivity.
Qed.

Example ex_lenient_w : parse ex_h true (T ["x"; "2"; "y"; "--nope"; "-t"; "--tag"]) <> Err NoSuchOption /\
                       parse ex_h true (T ["x"; "2"; "y"; "--nope"; "-t"; "--tag"]) <> Err CannotParse.
Proof. exact (lenient_no_parse_error_w ex_h ex_h' ex_har ex_hcn _ ex_h_aug ex_h_opts_ok_w). Qed.
Example ex_error_kinds_w : parse ex_h false (T ["x"; "--tag"]) = Err CannotParse /\ allowed CannotParse.
Proof.
  assert (parse ex_h false (T ["x"; "--tag"]) = Err CannotParse) as H by (vm_compute; reflexivity).
  split; [exact H|]. exact (proj1 (parse_error_kinds_w ex_h false _ ex_h' ex_har ex_hcn ex_h_aug ex_h_opts_ok_w _ H)).
Qed.

(* observations: behaviour of the parser (model = implementation on these lines, C02 tie) that the
   property text does not forbid but that may surprise *)
(* a value that does not convert is harmless when the same option is given again: the last one wins *)
Example overwritten_bad_value_accepted : exists r, parse ex_f false (T ["x"; "--num=abc"; "--num=3"]) = Ok r.
Proof. vm_compute. eexists. reflexivity. Qed.
(* a short name spelled with two dashes is a known option *)
Example short_name_with_two_dashes_accepted : exists r, parse ex_f false (T ["x"; "--v"]) = Ok r.
Proof. vm_compute. eexists. reflexivity. Qed.
(* "-" and negative numbers cannot be the value of "--num <value>" (they can with "--num=<value>") *)
Example dash_value_rejected : parse ex_f false (T ["x"; "--num"; "-5"]) = Err CannotParse /\
                              exists r, parse ex_f false (T ["x"; "--num=-5"]) = Ok r.
Proof. vm_compute. split; [reflexivity|eexists; reflexivity]. Qed.
Close Scope string_scope.
