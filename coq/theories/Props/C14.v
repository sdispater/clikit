(* C14 - tables render as a rectangle within the terminal and keep every cell's text.
   The theorems are about Model/Table.v (first the tag-free table, then - at the end - tables with style-tagged cells)
   and hold for every share-rounding function;
   textwrap is the concrete model of Model/Wrap.v (WrapLemmas: lines fit, total for widths >= 1, text kept). *)
From Coq Require Import Lia.
From Clikit Require Import Base.Prelude Base.Res Model.Markup Model.Wrap Model.Table Proofs.MarkupLemmas Proofs.WrapLemmas Proofs.TableLemmas
  Proofs.TableTaggedLemmas.
Local Open Scope Z_scope.

(* whenever every column can have one character, fitting succeeds for every list of cells, every column length,
   every rounding of the shares: no width below one is ever handed to textwrap, the column widths sum to at most
   the available width, and every line of every (wrapped) cell is at most as wide as its column *)
Theorem fit_total_and_bounded : forall (share : Z -> Z -> Z -> Z) max_total n cells,
  (1 <= n)%nat -> Z.of_nat n <= max_total ->
  exists st, fit share max_total n cells = Ok st /\ zsum (f_cols st) <= max_total /\ length (f_cols st) = n /\
             Forall (fun row => Forall2 (fun cell c => Forall (fun line => zlen line <= c) (split_on 10%N cell)) row (f_cols st)) (f_rows st).
Proof.
  intros share max_total n cells Hn Hg.
  destruct (fit_spec wrap_lines_fit_lemma wrap_total_lemma share max_total n cells Hn Hg) as (st & F & HI & Hs).
  exists st. repeat split; [exact F|exact Hs|exact (inv_len _ _ HI)|exact (inv_cells_fit _ _ HI)].
Qed.
Print Assumptions fit_total_and_bounded.

(* rendering succeeds for every table, style, width and indentation inside the property's guard *)
Theorem render_total : forall share s n header rows W ind,
  (1 <= n)%nat -> Z.of_nat n <= available_width s W ind (Z.of_nat n) -> (length (t_aligns s) <= n)%nat ->
  exists r, render_table share s n header rows W ind = Ok r.
Proof. exact (TableLemmas.render_total wrap_lines_fit_lemma wrap_total_lemma). Qed.
Print Assumptions render_total.

(* the rendered text is a sequence of lines, each the right-stripped form of a line of exactly the table's width
   (indentation + borders + columns), that width is at most the terminal's, every column has one width in all rows *)
Theorem table_rect : forall share s n header rows W ind st text,
  wf_styleb s = true -> (1 <= n)%nat -> 0 <= ind -> rows <> [] ->
  Z.of_nat n <= available_width s W ind (Z.of_nat n) ->
  render_table share s n header rows W ind = Ok (st, text) ->
  (exists ls, text = flat_map (fun l => t_rstrip l ++ [10%N]) ls /\ Forall (fun l => zlen l = full_width s (f_cols st) ind) ls) /\
  full_width s (f_cols st) ind <= W /\ length (f_cols st) = n.
Proof.
  intros share s n header rows W ind st text Hwf Hn Hi Hr Hg H.
  destruct (TableLemmas.table_rect wrap_lines_fit_lemma wrap_total_lemma share s n header rows W ind st text
              (wf_styleb_sound s Hwf) Hn Hi Hr Hg H) as (R & Hw & _ & Hl).
  exact (conj R (conj Hw Hl)).
Qed.
Print Assumptions table_rect.

(* every cell keeps its characters in order, white space aside: the wrapped rows are the right-stripped cells
   of the header and the rows, cell by cell *)
Theorem table_keeps_text : forall share s n header rows W ind st text,
  (1 <= n)%nat -> rows <> [] -> Forall (fun r => length r = n) rows -> (header = [] \/ length header = n) ->
  render_table share s n header rows W ind = Ok (st, text) ->
  Forall2 (Forall2 (fun wrapped cell => filter (fun c => negb (is_space c)) wrapped = filter (fun c => negb (is_space c)) cell))
          (f_rows st) (match header with [] => rows | _ => header :: rows end).
Proof.
  intros share s n header rows W ind st text Hn Hr Hrows Hh H.
  exact (rows_same_unstrip _ _ (table_keeps wrap_keeps_text_lemma share s n header rows W ind st text Hn Hr Hrows Hh H)).
Qed.
Print Assumptions table_keeps_text.

(* the short / long column split leaves at least one character for every column that stays long *)
Theorem short_split_leaves_room : forall n max_total cols,
  0 < n -> n <= max_total -> Forall (fun c => 0 <= c) cols -> Z.of_nat (length cols) = n ->
  exists av long, short_loop (S (length cols)) n (map Some cols) max_total = Some (av, long) /\
                  count_some long <= av /\ av = max_total - (zsum cols - sum_some long) /\
                  Forall (fun o => match o with Some x => 1 <= x | None => True end) long.
Proof.
  intros n max_total cols Hn Hg Hnn Hlen.
  destruct (short_loop_room n max_total cols Hn Hg Hnn Hlen) as (av & long & SL & _ & Hav & Ea & Hpos).
  exists av, long. auto.
Qed.
Print Assumptions short_split_leaves_room.

Definition s_ (l : list N) : str := l.
Definition ascii_border : bstyle :=
  {| b_ht := [45%N]; b_hc := [45%N]; b_hb := [45%N]; b_vl := [124%N]; b_vc := [124%N]; b_vr := [124%N];
     b_tl := [43%N]; b_tr := [43%N]; b_bl := [43%N]; b_br := [43%N]; b_cc := [43%N]; b_cl := [43%N]; b_ct := [43%N]; b_cr := [43%N]; b_cb := [43%N] |}.
Definition ascii_style : tstyle :=
  {| t_border := ascii_border; t_hpre := [32%N]; t_hsuf := [32%N]; t_cpre := [32%N]; t_csuf := [32%N]; t_pad := [32%N]; t_aligns := []; t_default := 0 |}.
Definition none_border : bstyle :=
  {| b_ht := []; b_hc := [61%N]; b_hb := []; b_vl := []; b_vc := [32%N]; b_vr := [];
     b_tl := []; b_tr := []; b_bl := []; b_br := []; b_cc := [32%N]; b_cl := []; b_ct := []; b_cr := []; b_cb := [] |}.
Definition borderless_style : tstyle :=
  {| t_border := none_border; t_hpre := []; t_hsuf := []; t_cpre := []; t_csuf := []; t_pad := [32%N]; t_aligns := [1; 2]; t_default := 0 |}.
Example presets_well_formed : wf_styleb ascii_style = true /\ wf_styleb borderless_style = true.
Proof. split; reflexivity. Qed.
(* exact half-up rounding of  len / actual * avail  as one instance of the share function *)
Definition share_exact (len actual avail : Z) : Z := (2 * len * avail + actual) / (2 * actual).
(* "aaa bbb ccc dd" | "x"   at terminal width 14: the first column is wrapped *)
Example a_table_that_wraps :
  exists st text, render_table share_exact ascii_style 2 [] [[[97;97;97;32;98;98;98;32;99;99;99;32;100;100]%N; [120%N]]] 14 0 = Ok (st, text)
                  /\ f_cols st = [6; 1] /\ f_wraps st = true /\ 2 <= available_width ascii_style 14 0 2.
Proof. eexists; eexists. split; [vm_compute; reflexivity|]. repeat split; vm_compute; congruence. Qed.

(* Tables with style-tagged cells (Proofs/TableTaggedLemmas.v).  render_table_f is the table as the code runs it:
   lengths are visible lengths (remove_format), rows hold the raw cell text, every line is read as markup once by
   the output.  The theorems are about tables whose cells are GOOD MARKUP for the formatter f (good_cell f):
   no ESC and no backslash in the cell, the formatter reads the cell (remove_format succeeds), is left as it was
   (the style stack is restored), the visible text holds no '<', and a cell holding '<' holds no line break;
   the strings of the table style hold no '<', ESC or backslash (inert_style; ascii_style: tagged_table_hypotheses); the
   formatter is not the NullFormatter; and rendering returned Ok - which, the cells being good, fails only when a
   cell holding '<' would have to be wrapped (Err (Other 20)) or outside the property's guard. *)

(* the tag-free model is the special case: on cells and style strings without '<' the formatter plays no part *)
Theorem render_f_tag_free : forall on f share s n header rows W ind,
  nolt_style s -> Forall no_lt (header ++ concat rows) ->
  render_table_f share on f s n header rows W ind = render_table share s n header rows W ind.
Proof. exact TableTaggedLemmas.render_f_tag_free. Qed.
Print Assumptions render_f_tag_free.

(* what is written is, line by line, the tag-free table of the cells' visible texts: there are lines Xs with
   text = concat Xs, and for the i-th line PL of that tag-free table (before its right-strip), Xs[i] without its
   SGR sequences is v ++ newline with PL = v ++ white space; an undecorated output writes v ++ newline itself.
   The fitted rows, column widths and flags are those of the tag-free table (vst: cell by cell the visible text) *)
Theorem table_visible_commutes : forall share on f s n header rows W ind st text,
  f_kind f <> FNull -> inert_style s -> rows <> [] -> Forall (good_cell f) (table_cells header rows) ->
  render_table_f share on f s n header rows W ind = Ok (st, text) ->
  let cs := map (vis f) (table_cells header rows) in
  exists al Xs,
    render_pure (fun _ => false) share s n header cs (map zlen cs) W ind
      = Ok (vst f st, strip_lines (table_lines s header ind (vst f st) al)) /\
    length al = length (f_cols st) /\
    text = concat Xs /\ Forall2 (line_item on f) Xs (table_lines s header ind (vst f st) al).
Proof.
  intros share on f s n header rows W ind st text Hk. exact (TableTaggedLemmas.table_visible_commutes share on f Hk s n header rows W ind st text).
Qed.
Print Assumptions table_visible_commutes.

(* a rectangle within the terminal: the visible text (SGR sequences removed) is a sequence of lines v ++ newline,
   every v followed by some white space is exactly  indentation + borders + sum (column + padding)  wide, that
   width is at most the terminal's; an output that does not decorate writes exactly that text (no ESC) *)
Theorem table_rect_tagged : forall share on f s n header rows W ind st text,
  f_kind f <> FNull -> wf_styleb s = true -> inert_style s -> (1 <= n)%nat -> 0 <= ind -> rows <> [] ->
  Z.of_nat n <= available_width s W ind (Z.of_nat n) ->
  Forall (good_cell f) (table_cells header rows) ->
  render_table_f share on f s n header rows W ind = Ok (st, text) ->
  (exists vs, strip_sgr text = flat_map (fun v => v ++ [10%N]) vs /\
              (decorated on f = false -> text = flat_map (fun v => v ++ [10%N]) vs) /\
              Forall (fun v => exists sp, Forall (fun c => is_space c = true) sp /\ zlen (v ++ sp) = full_width s (f_cols st) ind) vs) /\
  full_width s (f_cols st) ind <= W /\ length (f_cols st) = n.
Proof.
  intros share on f s n header rows W ind st text Hk Hwf. exact (TableTaggedLemmas.table_rect_tagged share on f Hk s n header rows W ind st text (wf_styleb_sound s Hwf)).
Qed.
Print Assumptions table_rect_tagged.

(* every cell keeps its visible text: the rows the wrapper holds are, cell by cell and white space aside, the
   visible texts of the table's cells, and the visible lines are (up to trailing white space) the lines of the
   tag-free table drawn from those rows - table_lines / row_line / pad_cell put the visible text of the cell of
   column j, padded to the column's width, between the j-th pair of borders *)
Theorem table_keeps_text_tagged : forall share on f s n header rows W ind st text,
  f_kind f <> FNull -> inert_style s -> (1 <= n)%nat -> rows <> [] ->
  Forall (fun r => length r = n) rows -> (header = [] \/ length header = n) ->
  Forall (good_cell f) (table_cells header rows) ->
  render_table_f share on f s n header rows W ind = Ok (st, text) ->
  Forall2 (Forall2 (fun wrapped cell => filter (fun c => negb (is_space c)) (vis f wrapped) = filter (fun c => negb (is_space c)) (vis f (t_rstrip cell))))
          (f_rows st) (match header with [] => rows | _ => header :: rows end) /\
  exists al vs, strip_sgr text = flat_map (fun v => v ++ [10%N]) vs /\
                Forall2 (fun v PL => exists sp, PL = v ++ sp /\ Forall (fun c => is_space c = true) sp) vs
                        (table_lines s header ind (vst f st) al).
Proof.
  intros share on f s n header rows W ind st text Hk. exact (TableTaggedLemmas.table_keeps_text_tagged share on f Hk s n header rows W ind st text).
Qed.
Print Assumptions table_keeps_text_tagged.

(* where a cell's (visible) line sits in a line of the tag-free table: the line of a row is, column after column,
   cell prefix ++ padding ++ the cell line ++ padding ++ cell suffix ++ separator (row_line, by definition) *)
Theorem cell_line_in_its_column : forall pre suf pad vc vr i c cells w cols a al,
  row_line pre suf pad vc vr i (c :: cells) (w :: cols) (a :: al)
  = (match pad_cell pad a w (nth i c []) with Some x => pre ++ x ++ suf ++ (match cells with [] => vr | _ => vc end) | None => [] end)
    ++ row_line pre suf pad vc vr i cells cols al
  /\ forall x, pad_cell pad a w (nth i c []) = Some x -> exists k1 k2, x = rep pad k1 ++ nth i c [] ++ rep pad k2.
Proof. intros. split; [apply row_line_unfold|]. intros x H. exact (pad_cell_holds _ _ _ _ _ H). Qed.
Print Assumptions cell_line_in_its_column.

(* a concrete tagged table:  <b>bold</b> | <fg=red>x</>  over  plain | y,  ascii style, width 30 *)
Definition b_sty : cstyle := {| c_tag := Some [98%N]; c_fg := None; c_bg := None; c_bold := true; c_italic := false; c_dark := false;
  c_underlined := false; c_blinking := false; c_inverse := false; c_hidden := false |}.
Definition fmt_of (k : fkind) : formatter :=
  match new_formatter k [b_sty] with Ok f => f | Err _ => {| f_kind := k; f_styles := []; f_stack := [] |} end.
Definition c_bold : str := ([60;98;62;98;111;108;100;60;47;98;62]%N) (* <b>bold</b> *).
Definition c_red : str := ([60;102;103;61;114;101;100;62;120;60;47;62]%N) (* <fg=red>x</> *).
Definition c_plain : str := ([112;108;97;105;110]%N) (* plain *).
Definition tagged_tbl : list (list str) := [[c_bold; c_red]; [c_plain; [121%N]]].
Ltac all_chars := repeat (apply Forall_cons; [repeat split; discriminate|]); apply Forall_nil.
Example tagged_table_hypotheses : forall k, k = FPlain \/ k = FAnsi true ->
  f_kind (fmt_of k) <> FNull /\ wf_styleb ascii_style = true /\ inert_style ascii_style /\
  2 <= available_width ascii_style 30 0 2 /\ Forall (good_cell (fmt_of k)) (table_cells [] tagged_tbl).
Proof.
  intros k Hk. split; [destruct Hk as [-> | ->]; discriminate|]. split; [reflexivity|]. split.
  { unfold inert_style, inert. cbn. repeat split; try all_chars. repeat (apply Forall_cons; [all_chars|]). apply Forall_nil. }
  split; [vm_compute; congruence|].
  assert (G : forall c v, Forall good c -> ~ In 10%N c -> remove_format (fmt_of k) c = Ok (fmt_of k, v) -> no_lt v -> good_cell (fmt_of k) c)
    by (intros c v H1 H2 H3 H4; split; [exact H1|split; [intros _; exact H2|exists v; split; assumption]]).
  assert (NL : forall c : str, forallb (fun x => negb (N.eqb x 10)) c = true -> ~ In 10%N c).
  { intros c H Hin. rewrite forallb_forall in H. specialize (H _ Hin). discriminate. }
  change (table_cells [] tagged_tbl) with (map t_rstrip [c_bold; c_red; c_plain; [121%N]]). cbn [map].
  repeat apply Forall_cons; try apply Forall_nil.
  - apply (G _ ([98;111;108;100]%N)); [vm_compute; all_chars|apply NL; reflexivity|destruct Hk as [-> | ->]; vm_compute; reflexivity|all_chars].
  - apply (G _ ([120]%N)); [vm_compute; all_chars|apply NL; reflexivity|destruct Hk as [-> | ->]; vm_compute; reflexivity|all_chars].
  - apply (G _ c_plain); [vm_compute; all_chars|apply NL; reflexivity|destruct Hk as [-> | ->]; vm_compute; reflexivity|all_chars].
  - apply (G _ ([121]%N)); [vm_compute; all_chars|apply NL; reflexivity|destruct Hk as [-> | ->]; vm_compute; reflexivity|all_chars].
Qed.
(* what is rendered: the column widths are the visible widths 5 ("plain") and 1; plain, then on a decorated output *)
Example tagged_table_rendered :
  (exists st, render_table_f share_exact false (fmt_of FPlain) ascii_style 2 [] tagged_tbl 30 0
     = Ok (st, ([43;45;45;45;45;45;45;45;43;45;45;45;43;10;124;32;98;111;108;100;32;32;124;32;120;32;124;10;124;32;112;108;97;105;110;32;124;32;121;32;124;10;43;45;45;45;45;45;45;45;43;45;45;45;43;10]%N) (* +-------+---+ / | bold  | x | / | plain | y | / +-------+---+ *))
     /\ f_cols st = [5; 1] /\ f_wraps st = false) /\
  (exists st, render_table_f share_exact true (fmt_of (FAnsi true)) ascii_style 2 [] tagged_tbl 30 0
     = Ok (st, ([43;45;45;45;45;45;45;45;43;45;45;45;43;10;124;32;27;91;49;109;98;111;108;100;27;91;48;109;32;32;124;32;27;91;51;49;109;120;27;91;48;109;32;124;10;124;32;112;108;97;105;110;32;124;32;121;32;124;10;43;45;45;45;45;45;45;45;43;45;45;45;43;10]%N) (* | ESC[1m bold ESC[0m  | ESC[31m x ESC[0m | *))
     /\ strip_sgr ([43;45;45;45;45;45;45;45;43;45;45;45;43;10;124;32;27;91;49;109;98;111;108;100;27;91;48;109;32;32;124;32;27;91;51;49;109;120;27;91;48;109;32;124;10;124;32;112;108;97;105;110;32;124;32;121;32;124;10;43;45;45;45;45;45;45;45;43;45;45;45;43;10]%N) = ([43;45;45;45;45;45;45;45;43;45;45;45;43;10;124;32;98;111;108;100;32;32;124;32;120;32;124;10;124;32;112;108;97;105;110;32;124;32;121;32;124;10;43;45;45;45;45;45;45;45;43;45;45;45;43;10]%N)).
Proof. split; eexists; (split; [vm_compute; reflexivity|]); [split; reflexivity|vm_compute; reflexivity]. Qed.

(* table_rect above proves an UPPER bound only: `text = flat_map (t_rstrip l ++ newline) ls, every l of the full width` is
   also satisfied by "ab\nc\n" with ls = ["ab" padded; "c" padded] - the lines ls may be anything that right-strips to the
   written ones, and they are not even required to be free of line breaks.  The exact reading (Proofs/TableGridLemmas.v) needs:
     nl_free_styleb s   no string of the style holds a line break (true of the presets);
     solid_rightb s     the right border b_vr ends in a non-blank character, and so does the right end of every border line
                        that is drawn (ascii and solid: true; borderless: false - its lines DO lose trailing
                        blanks, see table_rect_exact_needs_solid_right). *)
From Clikit Require Import Proofs.TableGridLemmas.

(* the lines ls hold no line break - so they are, one for one, the lines of the text before their right-strip -, and when the
   right border is solid the right-strip removes nothing: the text is LITERALLY the lines *)
Theorem table_rect_lines : forall share s n header rows W ind st text,
  wf_styleb s = true -> nl_free_styleb s = true -> (1 <= n)%nat -> 0 <= ind -> rows <> [] ->
  Z.of_nat n <= available_width s W ind (Z.of_nat n) ->
  render_table share s n header rows W ind = Ok (st, text) ->
  exists ls, text = flat_map (fun l => t_rstrip l ++ [10%N]) ls /\
             Forall (fun l => zlen l = full_width s (f_cols st) ind /\ ~ In 10%N l) ls /\
             (solid_rightb s = true -> text = flat_map (fun l => l ++ [10%N]) ls).
Proof.
  intros share s n header rows W ind st text Hwf Hnl Hn Hind Hrows Hg H.
  destruct (render_table_lines share s n header rows W ind st text Hn Hrows Hg H) as (al & _ & Hal & HI & ->).
  pose proof (wf_styleb_sound s Hwf) as Hwf'.
  exists (table_lines s header ind st al). split; [reflexivity|]. split.
  - pose proof (table_lines_width s n header ind st al Hwf' Hn Hind HI Hal) as HW. pose proof (table_lines_nlf s header ind st al Hnl) as HN.
    rewrite Forall_forall in *. intros l Hl. split; [exact (HW l Hl)|exact (nlf_not_in l (HN l Hl))].
  - intros Hs. apply strip_lines_ends, (table_lines_ends s n); assumption.
Qed.
Print Assumptions table_rect_lines.
(* ascii / solid: a rectangle, literally - every line of the text has exactly the table's width, which is at most the
   terminal's *)
Theorem table_rect_exact : forall share s n header rows W ind st text,
  wf_styleb s = true -> nl_free_styleb s = true -> solid_rightb s = true -> (1 <= n)%nat -> 0 <= ind -> rows <> [] ->
  Z.of_nat n <= available_width s W ind (Z.of_nat n) ->
  render_table share s n header rows W ind = Ok (st, text) ->
  (exists ls, text = flat_map (fun l => l ++ [10%N]) ls /\
              Forall (fun l => zlen l = full_width s (f_cols st) ind /\ ~ In 10%N l) ls) /\
  full_width s (f_cols st) ind <= W /\ length (f_cols st) = n.
Proof.
  intros share s n header rows W ind st text Hwf Hnl Hs Hn Hind Hrows Hg H.
  destruct (table_rect_lines share s n header rows W ind st text Hwf Hnl Hn Hind Hrows Hg H) as (ls & _ & HF & HE).
  destruct (table_rect share s n header rows W ind st text Hwf Hn Hind Hrows Hg H) as (_ & Hw & Hl).
  split; [exists ls; split; [exact (HE Hs)|exact HF]|split; assumption].
Qed.
Print Assumptions table_rect_exact.

(* THE GRID: "every column has the same width in every row".
   The text is the right-stripped lines of table_lines s header ind st al, which is (table_lines_reading, by definition) the
   top border, the lines of the header row and the separating border if there is a header, the lines of every body row and
   the bottom border; the lines of a row are  blanks ind ++ b_vl ++ row_line pre suf pad b_vc b_vr i cells cols al  for
   i = 0 .. (lines of its tallest cell) - 1, with pre / suf the header or the cell format.  For EVERY row of the (wrapped)
   table and every i such a line is a grid line over the SAME widths f_cols st:
     grid_line s ind cols pre suf pieces l :=  exists xs,
       l = blanks ind ++ b_vl ++ join_cells pre suf b_vc b_vr xs        (pre x1 suf vc pre x2 suf vc ... pre xn suf vr)
       /\ Forall2 (fun x w => zlen x = w) xs cols                        (cell j is padded to EXACTLY the width of column j)
       /\ Forall2 (fun x p => exists k1 k2, x = rep pad k1 ++ p ++ rep pad k2) xs pieces
                                                                         (and holds the i-th line of cell j between paddings) *)
Theorem table_grid : forall share s n header rows W ind st text,
  wf_styleb s = true -> (1 <= n)%nat -> 0 <= ind -> rows <> [] ->
  Z.of_nat n <= available_width s W ind (Z.of_nat n) ->
  render_table share s n header rows W ind = Ok (st, text) ->
  exists al, alignments s n = Ok al /\
    text = flat_map (fun l => t_rstrip l ++ [10%N]) (table_lines s header ind st al) /\
    length (f_cols st) = n /\ Forall (fun c => 0 <= c) (f_cols st) /\
    forall row, In row (f_rows st) ->
      length row = n /\
      forall pre suf i,
        grid_line s ind (f_cols st) pre suf (map (fun cell => nth i (split_on 10%N cell) []) row)
          (blanks ind ++ b_vl (t_border s) ++
           row_line pre suf (t_pad s) (b_vc (t_border s)) (b_vr (t_border s)) i (map (split_on 10%N) row) (f_cols st) al).
Proof.
  intros share s n header rows W ind st text Hwf Hn Hind Hrows Hg H.
  destruct (render_table_lines share s n header rows W ind st text Hn Hrows Hg H) as (al & Ea & Hal & HI & E).
  pose proof (wf_styleb_sound s Hwf) as (Hp & _).
  pose proof (inv_cells_fit _ _ HI) as CF. pose proof (inv_len _ _ HI) as Hlen. pose proof (inv_nonneg _ _ HI) as Hnn.
  exists al. split; [exact Ea|]. split; [exact E|]. split; [exact Hlen|]. split; [exact Hnn|].
  pose proof (inv_cols_ne _ _ HI Hn) as Hne.
  intros row Hin. destruct (cells_fit_in _ _ CF Hne Hin) as [CFr _]. split.
  - rewrite (ListLemmas.Forall2_length _ _ _ CFr). exact Hlen.
  - intros pre suf i. apply row_lines_grid; auto. congruence.
Qed.
Print Assumptions table_grid.
(* the facts behind it: a cell line that fits is padded to exactly the width ... *)
Theorem padded_cell_has_column_width : forall pad a w line, zlen pad = 1 -> zlen line <= w ->
  exists x, pad_cell pad a w line = Some x /\ zlen x = w.
Proof. exact pad_cell_len. Qed.
Print Assumptions padded_cell_has_column_width.
(* ... so a row line is as wide as the columns, their cell formats and the borders between them ... *)
Theorem row_line_width : forall pre suf pad vc vr i, zlen pad = 1 -> forall cells cols al,
  Forall2 (fun c w => zlen (nth i c []) <= w) cells cols -> length al = length cols -> cells <> [] ->
  zlen (row_line pre suf pad vc vr i cells cols al)
  = zsum (map (fun w => zlen pre + w + zlen suf) cols) + (Z.of_nat (length cols) - 1) * zlen vc + zlen vr.
Proof. exact row_line_len. Qed.
Print Assumptions row_line_width.
(* ... and is made of its cells as said *)
Theorem row_line_is_a_grid_line : forall pre suf pad vc vr i, zlen pad = 1 -> forall cells cols al,
  Forall2 (fun c w => zlen (nth i c []) <= w) cells cols -> length al = length cols ->
  exists xs, row_line pre suf pad vc vr i cells cols al = join_cells pre suf vc vr xs /\
    Forall2 (fun x w => zlen x = w) xs cols /\
    Forall2 (fun x c => exists k1 k2, x = rep pad k1 ++ nth i c [] ++ rep pad k2) xs cells.
Proof. exact row_line_grid. Qed.
Print Assumptions row_line_is_a_grid_line.
Theorem table_lines_reading : forall s header ind st al,
  table_lines s header ind st al =
  let b := t_border s in
  let bl := map (fun l => l + excess s) (f_cols st) in
  border_lines ind bl (b_ht b) (b_tl b) (b_ct b) (b_tr b) ++
  (match header with
   | [] => []
   | _ => row_lines b (t_hpre s) (t_hsuf s) (t_pad s) ind (hd [] (f_rows st)) (f_cols st) al ++
          border_lines ind bl (b_hc b) (b_cl b) (b_cc b) (b_cr b)
   end) ++
  flat_map (fun row => row_lines b (t_cpre s) (t_csuf s) (t_pad s) ind row (f_cols st) al)
           (match header with [] => f_rows st | _ => tl (f_rows st) end) ++
  border_lines ind bl (b_hb b) (b_bl b) (b_cb b) (b_br b).
Proof. reflexivity. Qed.
Print Assumptions table_lines_reading.

(* instances:  header H | IJ over  abcdefghijklmnop | x y  /  hello world | z ;  terminal width 18, indentation 2: 9 characters are left
   for the two columns, the first one is wrapped to 6 (a 16-letter word is cut, "hello world" is broken at the blank). *)
Definition g_w16 : str := [97;98;99;100;101;102;103;104;105;106;107;108;109;110;111;112]%N.
Definition g_hw : str := [104;101;108;108;111;32;119;111;114;108;100]%N.
Definition g_tbl : list (list str) := [[g_w16; [120;32;121]%N]; [g_hw; [122]%N]].
Definition g_hdr : list str := [[72]%N; [73;74]%N].
Example presets_conditions :
  nl_free_styleb ascii_style = true /\ solid_rightb ascii_style = true /\
  wf_styleb solid_style = true /\ nl_free_styleb solid_style = true /\ solid_rightb solid_style = true /\
  nl_free_styleb borderless_style = true /\ solid_rightb borderless_style = false.
Proof. repeat split; vm_compute; reflexivity. Qed.
Print Assumptions presets_conditions.
(* ascii: the hypotheses hold, and the text is literally nine lines of 18 characters *)
Example table_rect_exact_instance :
  2 <= available_width ascii_style 18 2 2 /\
  exists st text, render_table share_exact ascii_style 2 g_hdr g_tbl 18 2 = Ok (st, text) /\
    f_cols st = [6; 3] /\ f_wraps st = true /\ f_cuts st = true /\ full_width ascii_style (f_cols st) 2 = 18 /\
    (exists ls, text = flat_map (fun l => l ++ [10%N]) ls /\ length ls = 9%nat /\ Forall (fun l => zlen l = 18 /\ ~ In 10%N l) ls) /\
    nth 3 (split_on 10%N text) [] = [32;32;124;32;97;98;99;100;101;102;32;124;32;120;32;121;32;124]%N     (*   | abcdef | x y | *) /\
    nth 7 (split_on 10%N text) [] = [32;32;124;32;119;111;114;108;100;32;32;124;32;32;32;32;32;124]%N.    (*   | world  |     | *)
Proof.
  split; [vm_compute; congruence|].
  destruct (render_table share_exact ascii_style 2 g_hdr g_tbl 18 2) as [[st text]|] eqn:E; [|vm_compute in E; discriminate].
  exists st, text. split; [reflexivity|].
  destruct (table_rect_exact share_exact ascii_style 2 g_hdr g_tbl 18 2 st text eq_refl eq_refl eq_refl ltac:(lia) ltac:(lia)
              ltac:(discriminate) ltac:(vm_compute; congruence) E) as ((ls & Et & HF) & _ & _).
  vm_compute in E. injection E as <- <-.
  split; [reflexivity|]. split; [reflexivity|]. split; [reflexivity|]. split; [reflexivity|].
  split; [|split; reflexivity].
  exists ls. split; [exact Et|]. split; [|exact HF].
  (* nine line breaks in the text, one per line *)
  assert (Hc : forall ls : list str, length (filter (N.eqb 10) (flat_map (fun l => l ++ [10%N]) ls)) =
                                     (length ls + length (filter (N.eqb 10) (concat ls)))%nat).
  { clear. induction ls as [|l ls IH]; [reflexivity|]. cbn [flat_map concat length]. rewrite !filter_app, !app_length, IH. cbn. lia. }
  assert (Hz : filter (N.eqb 10) (concat ls) = []).
  { clear -HF. induction HF as [|l ls [_ Hl] _ IH]; [reflexivity|]. cbn [concat]. rewrite filter_app, IH, app_nil_r.
    clear -Hl. induction l as [|c l IHl]; [reflexivity|]. cbn [filter]. destruct (N.eqb_spec 10 c) as [<-|Hn]; [exfalso; apply Hl; now left|].
    apply IHl. intros Hi. apply Hl. now right. }
  pose proof (Hc ls) as Hcount. rewrite <- Et, Hz in Hcount. cbn [length] in Hcount. rewrite Nat.add_0_r in Hcount.
  etransitivity; [symmetry; exact Hcount|vm_compute; reflexivity].
Qed.
Print Assumptions table_rect_exact_instance.
(* borderless (right border empty, alignments right / centre): the written lines are 17, 18, 18, 14 and 17 characters wide -
   the right-strip does remove blanks, so without solid_rightb only table_rect / table_rect_lines hold *)
Example table_rect_exact_needs_solid_right :
  wf_styleb borderless_style = true /\ nl_free_styleb borderless_style = true /\ solid_rightb borderless_style = false /\
  2 <= available_width borderless_style 18 2 2 /\
  exists st text, render_table share_exact borderless_style 2 g_hdr g_tbl 18 2 = Ok (st, text) /\
    full_width borderless_style (f_cols st) 2 = 18 /\
    map zlen (split_on 10%N text) = [17; 18; 18; 14; 17; 0].
Proof.
  split; [reflexivity|]. split; [reflexivity|]. split; [reflexivity|]. split; [vm_compute; congruence|].
  eexists; eexists. split; [vm_compute; reflexivity|]. split; vm_compute; reflexivity.
Qed.
Print Assumptions table_rect_exact_needs_solid_right.
(* the grid on the same ascii table: the wrapped rows, and two of their lines taken apart *)
Example table_grid_instance :
  exists st text al, render_table share_exact ascii_style 2 g_hdr g_tbl 18 2 = Ok (st, text) /\ alignments ascii_style 2 = Ok al /\
    f_cols st = [6; 3] /\
    f_rows st = [g_hdr; [[97;98;99;100;101;102;10;103;104;105;106;107;108;10;109;110;111;112]%N; [120;32;121]%N];
                 [[104;101;108;108;111;10;119;111;114;108;100]%N; [122]%N]] /\
    (* row 1, line 1:  ghijkl |      *)
    grid_line ascii_style 2 [6; 3] [32%N] [32%N] [[103;104;105;106;107;108]%N; []]
      ([32;32]%N ++ [124%N] ++ join_cells [32%N] [32%N] [124%N] [124%N] [[103;104;105;106;107;108]%N; [32;32;32]%N]) /\
    [32;32]%N ++ [124%N] ++ join_cells [32%N] [32%N] [124%N] [124%N] [[103;104;105;106;107;108]%N; [32;32;32]%N]
      = nth 4 (split_on 10%N text) [] /\
    (* the header row:  H      | IJ   *)
    [32;32]%N ++ [124%N] ++ join_cells [32%N] [32%N] [124%N] [124%N] [[72;32;32;32;32;32]%N; [73;74;32]%N]
      = nth 1 (split_on 10%N text) [] /\
    Forall (fun l => exists pre suf i row, In row (f_rows st) /\
                     l = blanks 2 ++ b_vl (t_border ascii_style) ++
                         row_line pre suf [32%N] [124%N] [124%N] i (map (split_on 10%N) row) (f_cols st) al)
           (flat_map (fun row => row_lines ascii_border [32%N] [32%N] [32%N] 2 row (f_cols st) al) (f_rows st)).
Proof.
  destruct (render_table share_exact ascii_style 2 g_hdr g_tbl 18 2) as [[st text]|] eqn:E; [|vm_compute in E; discriminate].
  destruct (table_grid share_exact ascii_style 2 g_hdr g_tbl 18 2 st text eq_refl ltac:(lia) ltac:(lia)
              ltac:(discriminate) ltac:(vm_compute; congruence) E) as (al & A & Et & Hl & Hnn & HG).
  exists st, text, al. split; [reflexivity|]. split; [exact A|].
  vm_compute in E. injection E as <- <-. cbn [f_cols f_rows] in *.
  split; [reflexivity|]. split; [reflexivity|]. split.
  - destruct (HG _ (or_intror (or_introl eq_refl))) as [_ HG1]. specialize (HG1 [32%N] [32%N] 1%nat).
    destruct HG1 as (xs & E1 & W1 & P1). vm_compute in A. injection A as <-.
    exists [[103;104;105;106;107;108]%N; [32;32;32]%N]. split; [reflexivity|]. split; [repeat constructor|].
    constructor; [exists 0, 0; reflexivity|constructor; [exists 3, 0; reflexivity|constructor]].
  - split; [vm_compute; reflexivity|]. split; [vm_compute; reflexivity|].
    apply Forall_flat_map. apply Forall_forall. intros row Hin. unfold row_lines. apply Forall_forall. intros l Hl'.
    apply in_map_iff in Hl' as (i & <- & _). exists [32%N], [32%N], i, row. split; [exact Hin|reflexivity].
Qed.
Print Assumptions table_grid_instance.

(* render_total's hypothesis  length (t_aligns s) <= n  is NECESSARY: "any column alignment" is false when more alignments
   are set than the table has columns.  borderless_style above sets two; a one-column table inside the guard (80 columns for
   one column) fails with Err (Other 3) - faithfully: TableStyle.get_column_alignments assigns default_alignments[i] for every
   set alignment and raises IndexError (list assignment index out of range) for i >= nb_columns. *)
Example render_total_needs_alignments_refuted :
  length (t_aligns borderless_style) = 2%nat /\ (1 <= 1)%nat /\ Z.of_nat 1 <= available_width borderless_style 80 0 (Z.of_nat 1) /\
  render_table share_exact borderless_style 1 [] [[[97]%N]] 80 0 = Err (Other 3) /\
  ~ (forall share s n header rows W ind, (1 <= n)%nat -> Z.of_nat n <= available_width s W ind (Z.of_nat n) ->
       exists r, render_table share s n header rows W ind = Ok r).
Proof.
  split; [reflexivity|]. split; [lia|]. split; [vm_compute; congruence|].
  assert (E : render_table share_exact borderless_style 1 [] [[[97]%N]] 80 0 = Err (Other 3)) by (vm_compute; reflexivity).
  split; [exact E|]. intros H.
  destruct (H share_exact borderless_style 1%nat [] [[[97]%N]] 80 0 ltac:(lia) ltac:(vm_compute; congruence)) as [r Hr].
  rewrite E in Hr. discriminate.
Qed.
Print Assumptions render_total_needs_alignments_refuted.

(* The recorded finding, formally (known_findings.json, class tagged-cell-wrapped).  The theorems above stop where a cell
   holding '<' has to be wrapped: render_table_f answers Err (Other 20).  What the code does there is the third layer of
   Model/Table.v, render_table_r: CellWrapper._wrap_column hands the RAW cell to textwrap and measures with the formatter; no
   theorem is claimed for it - it is compared with the code on every such table of every run - and the property fails on it:
   the one cell  <b>bold</b>  1,5  (good markup: good_cell) in an ascii table on a terminal of 9 columns, 5 for the cell,
   inside the guard.  textwrap cuts the raw text into  <b>bo / ld</b / > / 1,5 : the opening tag is read three times (cell,
   wrapped cell, line), the closing one is cut and shown as text - the cell's text does not come back, and the style is left
   open (three times) on the output's formatter. *)
Definition c_bold15 : str := ([60;98;62;98;111;108;100;60;47;98;62;32;32;49;44;53]%N) (* <b>bold</b>  1,5 *).
Example tagged_cell_wrapped_refuted :
  good_cell (fmt_of FPlain) (t_rstrip c_bold15) /\ 1 <= available_width ascii_style 9 0 1 /\
  render_table_f share_exact false (fmt_of FPlain) ascii_style 1 [] [[c_bold15]] 9 0 = Err (Other 20) /\
  (exists f' st, render_table_r share_exact false (fmt_of FPlain) ascii_style 1 [] [[c_bold15]] 9 0
     = Ok (f', (st, ([43;45;45;45;45;45;45;45;43;10; 124;32;98;111;32;32;32;32;124;10; 124;32;108;100;60;47;98;32;124;10; 124;32;62;32;32;32;32;32;124;10;
                     124;32;49;44;53;32;32;32;124;10; 43;45;45;45;45;45;45;45;43;10]%N)
                    (* +-------+ / | bo    | / | ld</b | / | >     | / | 1,5   | / +-------+ *)))
     /\ f_rows st = [[[60;98;62;98;111;10;108;100;60;47;98;10;62;10;49;44;53]%N]] /\ f_cols st = [5]
     /\ length (f_stack f') = 3%nat /\ f_stack (fmt_of FPlain) = []).
Proof.
  split.
  { split; [vm_compute; all_chars|]. split; [intros _ H; vm_compute in H; repeat (destruct H as [H|H]; [discriminate|]); exact H|].
    exists ([98;111;108;100;32;32;49;44;53]%N). split; [vm_compute; reflexivity|all_chars]. }
  split; [vm_compute; congruence|]. split; [vm_compute; reflexivity|].
  eexists; eexists. split; [vm_compute; reflexivity|]. repeat split; vm_compute; reflexivity.
Qed.
