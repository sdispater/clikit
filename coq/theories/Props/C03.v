(* C03 - the resolver selects the deepest command named by the leading tokens.
   leading toks = the tokens before the first empty token, double dash or option-like token;
   descends named l b = following the names/aliases l from the collection named reaches command b. *)
From Coq Require Import Lia.
From Clikit Require Import Base.Prelude Base.Res Model.Conv Model.Flags Model.Format Model.Parser Model.Spell Model.Resolver
  Proofs.FormatLemmas Proofs.ResolverLemmas Proofs.ResolverAliasLemmas Proofs.SpellArgs Proofs.ParserAliasLemmas Proofs.ResolverAliasFullLemmas.

(* The walk reaches the command named by the LONGEST prefix of the leading tokens that names a path:
   a prefix l1 descends to b, and the next leading token (if any) names no sub-command of b. *)
Theorem walk_deepest : forall named names b p,
  walk named None names = Ok (Some (b, p)) ->
  exists l1 l2, names = l1 ++ l2 /\ descends named l1 b /\
                match l2 with [] => True | n :: _ => coll_contains (named_of (b_subs b)) n = false end.
Proof.
  intros named names b p H. destruct (walk_path names named None b p H) as [[Hc _]|(l1 & l2 & q & E & Hd & _ & Hn)]; [discriminate|].
  exists l1, l2. destruct (descendsP_descends _ _ _ _ Hd). auto.
Qed.
Print Assumptions walk_deepest.
(* The name path returned with it (what Application.resolve_command reports): the names - not the spellings used - of
   the commands passed on the way down, one per token of that prefix. *)
Theorem walk_reports_the_names_on_the_path : forall named names b p,
  walk named None names = Ok (Some (b, p)) ->
  exists l1 l2, names = l1 ++ l2 /\ descendsP named l1 b p /\ descends named l1 b /\ length p = length l1 /\
                match l2 with [] => True | n :: _ => coll_contains (named_of (b_subs b)) n = false end.
Proof.
  intros named names b p H. destruct (walk_path names named None b p H) as [[Hc _]|(l1 & l2 & q & E & Hd & Hp & Hn)]; [discriminate|].
  cbn in Hp. subst q. exists l1, l2. destruct (descendsP_descends _ _ _ _ Hd). auto.
Qed.
Print Assumptions walk_reports_the_names_on_the_path.
(* The walk never fails: a collection built from a list of commands never takes the KeyError branch of its lookup
   (every entry of the alias index names a command of the collection). *)
Theorem walk_never_fails : forall a toks, exists w, walk (named_of (ap_cmds a)) None (leading toks) = Ok w.
Proof. intros. unfold named_of. apply walk_total. Qed.
Print Assumptions walk_never_fails.
Theorem lookup_finds_a_sibling : forall l n, coll_contains (coll_of l) n = true ->
  exists b, coll_get (coll_of l) n = Ok b /\ In b l /\
            (b_name b = n \/ exists c, In c l /\ In n (b_aliases c) /\ b_name c = b_name b).
Proof. exact coll_get_total. Qed.
Print Assumptions lookup_finds_a_sibling.
(* No longer prefix names any path, and the path reached is unique. *)
Theorem no_longer_prefix_names_a_path : forall named l1 b, descends named l1 b ->
  forall n l3 b', coll_contains (named_of (b_subs b)) n = false -> ~ descends named (l1 ++ n :: l3) b'.
Proof.
  induction 1 as [named m b Hc Hg|named m b l b' Hc Hg Hd IH]; intros n l3 b2 Hn H2; cbn [app] in H2;
    apply descends_cons_inv in H2 as (b0 & Hg0 & [[E _]|Hd2]); rewrite Hg in Hg0; inversion Hg0; subst b0.
  - discriminate E.
  - inversion Hd2; subst; congruence.
  - symmetry in E. destruct (app_cons_not_nil _ _ _ E).
  - exact (IH n l3 b2 Hn Hd2).
Qed.
Print Assumptions no_longer_prefix_names_a_path.
Theorem path_is_unique : forall named l b, descends named l b -> forall b', descends named l b' -> b = b'.
Proof.
  induction 1 as [named n b Hc Hg|named n b l b' Hc Hg Hd IH]; intros b2 H2;
    apply descends_cons_inv in H2 as (b0 & Hg0 & [[E ->]|Hd2]); rewrite Hg in Hg0; inversion Hg0; subst b0.
  - reflexivity.
  - destruct (descends_nil _ _ Hd2).
  - subst l. destruct (descends_nil _ _ Hd).
  - apply IH, Hd2.
Qed.
Print Assumptions path_is_unique.

(* From the command reached: its first parsable default sub-command, else the first default's parse
   error, else the command itself (resolve is exactly this expression). *)
Theorem resolve_deepest : forall a toks b p,
  walk (named_of (ap_cmds a)) None (leading toks) = Ok (Some (b, p)) ->
  resolve a toks =
    (do d <- pick_default (defaults_of (b_subs b)) toks None;
     match d with
     | Some (dc, r) => do x <- r; Ok (p ++ [b_name dc], b_fmt dc, x)
     | None => do x <- parse (b_fmt b) (b_lenient b) toks; Ok (p, b_fmt b, x) end).
Proof. exact resolve_walk. Qed.
Print Assumptions resolve_deepest.
Theorem default_choice_first_parsable : forall ds1 d a ds2 toks,
  Forall (fun x => parse (b_fmt x) (b_lenient x) toks = Err CannotParse) ds1 ->
  parse (b_fmt d) (b_lenient d) toks = Ok a ->
  forall first, pick_default (ds1 ++ d :: ds2) toks first = Ok (Some (d, Ok a)).
Proof. exact pick_default_first_parsable. Qed.
Print Assumptions default_choice_first_parsable.

(* ... else (none parsable) the FIRST default with its parse error; a default whose parse fails with anything but
   CannotParseArgs (NoSuchOption, ValueError of a conversion) ends the resolution at once with that error. *)
Theorem default_choice_none_parsable : forall d ds toks,
  Forall (cannot toks) (d :: ds) -> pick_default (d :: ds) toks None = Ok (Some (d, Err CannotParse)).
Proof. intros d ds toks H. exact (pick_default_all_cannot (d :: ds) toks None H). Qed.
Print Assumptions default_choice_none_parsable.
Theorem default_choice_no_defaults : forall toks, pick_default [] toks None = Ok None.
Proof. reflexivity. Qed.
Print Assumptions default_choice_no_defaults.
Theorem default_choice_other_error_leaves : forall ds1 d ds2 toks k, Forall (cannot toks) ds1 ->
  parse (b_fmt d) (b_lenient d) toks = Err k -> k <> CannotParse ->
  pick_default (ds1 ++ d :: ds2) toks None = Err k.
Proof. intros. apply pick_default_error_leaves; assumption. Qed.
Print Assumptions default_choice_other_error_leaves.
(* Every successful selection, completely: the command reached by the walk when it has no default sub-command, else
   its first default sub-command that parses the line (the ones before it cannot). *)
Theorem selection_shape : forall a toks b p q f x,
  walk (named_of (ap_cmds a)) None (leading toks) = Ok (Some (b, p)) ->
  resolve a toks = Ok (q, f, x) ->
  (defaults_of (b_subs b) = [] /\ q = p /\ f = b_fmt b /\ parse (b_fmt b) (b_lenient b) toks = Ok x) \/
  (exists ds1 d ds2, defaults_of (b_subs b) = ds1 ++ d :: ds2 /\ Forall (cannot toks) ds1 /\
                     parse (b_fmt d) (b_lenient d) toks = Ok x /\ q = p ++ [b_name d] /\ f = b_fmt d).
Proof.
  intros a toks b p q f x Hw Hr. rewrite (resolve_walk a toks b p Hw) in Hr.
  destruct (defaults_cases (defaults_of (b_subs b)) toks) as [H|[(ds1 & d & ds2 & y & E & H1 & H2)|(ds1 & d & ds2 & k & E & H1 & H2 & H3)]].
  - rewrite (pick_default_all_cannot _ _ None H) in Hr. cbn [bind] in Hr.
    destruct (defaults_of (b_subs b)) as [|d r] eqn:Ed; [|discriminate].
    left. destruct (parse (b_fmt b) (b_lenient b) toks) as [y|k]; [|discriminate]. cbn [bind] in Hr. inversion Hr; subst. auto.
  - rewrite E, (pick_default_first_parsable ds1 d y ds2 toks H1 H2 None) in Hr. cbn [bind] in Hr. inversion Hr; subst.
    right. exists ds1, d, ds2. auto.
  - rewrite E, (pick_default_error_leaves ds1 d ds2 toks k None H1 H2 H3) in Hr. discriminate.
Qed.
Print Assumptions selection_shape.

Theorem resolve_empty : forall a toks, leading toks = [] ->
  resolve a toks =
    (do d <- pick_default (defaults_of (ap_cmds a)) toks None;
     match d with
     | Some (dc, r) => do x <- r; Ok ([b_name dc], b_fmt dc, x)
     | None => Err CannotResolve end).
Proof. intros a toks Hl. unfold resolve. rewrite Hl. reflexivity. Qed.
Print Assumptions resolve_empty.
Theorem resolve_unknown : forall a toks n r,
  leading toks = n :: r -> coll_contains (named_of (ap_cmds a)) n = false -> resolve a toks = Err CannotResolve.
Proof. intros a toks n r Hl Hc. unfold resolve. rewrite Hl, walk_cons, Hc. reflexivity. Qed.
Print Assumptions resolve_unknown.

(* Replacing a name on the path by any of its aliases.  When the names and aliases of the (non-anonymous) siblings are
   pairwise distinct at every level (the code does not enforce this: Command.add_sub_command has a TODO, and
   ConsoleApplication.add_command checks the new NAME only), the name and every alias of a sibling look up that sibling,
   so two spellings of the same path (respells: level by level any key - name or alias - of the same command) walk to the
   same command and the same reported path, whatever follows. *)
Theorem alias_looks_up_its_command : forall l b k, siblings_distinct l -> In b l -> In k (keys b) ->
  coll_contains (coll_of l) k = true /\ coll_get (coll_of l) k = Ok b.
Proof. intros l b k Hd Hb Hk. split; [apply (contains_key l b k Hb Hk)|apply (get_by_key l b k Hd Hb Hk)]. Qed.
Print Assumptions alias_looks_up_its_command.
Theorem alias_invariant : forall l names names', tree_distinct l -> respells l names names' ->
  forall cur, walk (named_of l) cur names = walk (named_of l) cur names'.
Proof. intros l names names' Ht Hr. apply walk_respelled; assumption. Qed.
Print Assumptions alias_invariant.
(* At the level of resolve the default sub-command below the command reached is chosen by parsing the whole line,
   command-name tokens included.  Here "the parser treats the two spellings alike" is a hypothesis (hence _partial);
   alias_invariant_resolve proves it of every application built by build_app. *)
Theorem alias_invariant_resolve_partial : forall a toks toks',
  tree_distinct (ap_cmds a) -> respells (ap_cmds a) (leading toks) (leading toks') ->
  (forall f len, parse f len toks = parse f len toks') ->
  resolve a toks = resolve a toks'.
Proof.
  intros a toks toks' Ht Hr Hp. unfold resolve. cbv zeta. rewrite (walk_respelled _ _ _ Hr Ht None).
  assert (forall ds, pick_default ds toks None = pick_default ds toks' None) as Hpd.
  { intros ds. apply pick_default_same_parse, Forall_forall. intros d _ len. apply Hp. }
  destruct (walk (named_of (ap_cmds a)) None (leading toks')) as [[[b p]|]|k]; cbn [bind]; [| |reflexivity].
  - rewrite Hpd. destruct (pick_default _ toks' None) as [[[dc r]|]|k]; cbn [bind]; auto. now rewrite Hp.
  - inversion Hr as [? ? E1 E2|? b k k' r r' Hb Hk Hk' Hr' E1 E2]; [|reflexivity]. now rewrite Hpd.
Qed.
Print Assumptions alias_invariant_resolve_partial.
(* The clause in full: "replacing a name on the path by any of its aliases never changes the selection" - the resolver's
   WHOLE answer: the selected name path, the format, the parsed arguments and options, or the same error.
   For every application built by build_app from a configuration whose arguments are constructed objects
   (cfg_args_valid: exactly one of REQUIRED / OPTIONAL, the normal form C07 arg_normal_form proves of every Argument), with
   distinct names and aliases among the siblings of every level (tree_distinct; necessary:
   alias_invariant_without_distinctness_refuted), every line names ++ rest and every respelling names' of the names on
   the path (respells: level by level any key - name or alias - of the same command; what follows the path, in names or in
   rest, is untouched and ARBITRARY: options, arguments, a tail), both spellings made of tokens that can be command names
   (lead_ok: not empty, not option-like; necessary: alias_must_be_a_plain_token).
   Why the parser side holds (Proofs/ParserAliasLemmas.v parse_respelled, the statement parser_treats_spellings_alike
   below): a command's format lists the command names of its path with their aliases (CommandConfig.build_args_format;
   command_formats_list_the_path: every format at or below a command on the respelled path starts with the command names
   both spellings match); DefaultArgsParser stores the leading tokens as raw text on pseudo-arguments, and
   _insert_missing_command_names only asks CommandName.match of them before Args.set_argument drops the pseudo-arguments
   again - so a leading token acts only through "matches the command name of its position". *)
Theorem alias_invariant_resolve : forall cfg a names names' rest,
  build_app cfg = Ok a -> cfg_args_valid cfg = true -> tree_distinct (ap_cmds a) ->
  respells (ap_cmds a) names names' -> forallb lead_ok names = true -> forallb lead_ok names' = true ->
  resolve a (names ++ rest) = resolve a (names' ++ rest).
Proof.
  intros cfg a names names' rest Hb Hv Ht Hr L1 L2. pose proof (build_app_cn cfg a Hb Hv) as Hcn.
  unfold resolve. cbv zeta. rewrite (leading_app names rest L1), (leading_app names' rest L2).
  rewrite <- (walk_respelled _ _ _ (respells_app _ _ _ (leading rest) Hr) Ht None).
  destruct (walk (named_of (ap_cmds a)) None (names ++ leading rest)) as [[[b p]|]|k] eqn:Hw; cbn [bind]; [| |reflexivity].
  - destruct (respelled_formats _ _ _ Hr Ht [] Hcn (leading rest) None b p Hw)
      as [->|(ks & ks' & tail & cs' & -> & -> & Hl & Hne & M1 & M2 & Hb')]; [reflexivity|].
    cbn [app] in Hb'. apply HelpSamePageLemmas.tree_ok_unfold in Hb' as [Hbf Hsubs].
    rewrite <- !app_assoc in *. rewrite forallb_app in L1, L2. apply andb_prop in L1 as [K1 _], L2 as [K2 _].
    assert (forall d, In d (defaults_of (b_subs b)) -> forall len,
              parse (b_fmt d) len (ks ++ tail ++ rest) = parse (b_fmt d) len (ks' ++ tail ++ rest)) as Hdef.
    { intros d Hd len. apply HelpSamePageLemmas.defaults_of_in in Hd. pose proof (proj1 (Forall_forall _ _) Hsubs d Hd) as Hd'.
      apply HelpSamePageLemmas.tree_ok_unfold in Hd' as [Hdf _]. now apply (parse_starts_with cs'). }
    rewrite (pick_default_same_parse _ _ _ (proj2 (Forall_forall _ _) Hdef) None).
    destruct (pick_default (defaults_of (b_subs b)) (ks' ++ tail ++ rest) None) as [[[dc r]|]|k]; cbn [bind]; try reflexivity.
    now rewrite (parse_starts_with cs' (b_fmt b) ks ks' (b_lenient b) (tail ++ rest) Hbf M1 M2 K1 K2).
  - (* nothing walked: the first token names no command - then nothing was respelled *)
    now rewrite (respelled_walks_on _ _ _ _ Hr Ht Hw).
Qed.
Print Assumptions alias_invariant_resolve.
(* the parser side on its own: a well-formed format (SpellArgs.fmt_facts: what fmt_inv / fmt_ok give, C06) parses two
   lines alike that differ only in their first tokens, when both spell - by name or alias, as plain tokens - the format's
   first command names (names_ok); any leniency, any rest *)
Theorem parser_treats_spellings_alike : forall f g A cns ks ks' len rest,
  fmt_facts f g A cns -> names_ok cns ks = true -> names_ok cns ks' = true -> length ks = length ks' ->
  parse f len (ks ++ rest) = parse f len (ks' ++ rest).
Proof. intros f g A cns ks ks' len rest FF H1 H2 H3. exact (parse_respelled f g A cns FF ks ks' H1 H2 H3 len rest). Qed.
Print Assumptions parser_treats_spellings_alike.
(* the tree side: build_app gives every command a well-formed format that lists the command names (with aliases) of its
   non-anonymous ancestors and its own (cn_tree, from the empty list at the top) *)
Theorem command_formats_list_the_path : forall cfg a, build_app cfg = Ok a -> cfg_args_valid cfg = true ->
  Forall (cn_tree []) (ap_cmds a).
Proof. exact build_app_cn. Qed.
Print Assumptions command_formats_list_the_path.
(* Without distinctness the clause is FALSE of the model (and of the code: CommandCollection's alias index is last
   writer wins): siblings add[x] and del[x] - the alias x of add selects del. *)
Theorem alias_invariant_without_distinctness_refuted :
  exists l b a, In b l /\ In a (b_aliases b) /\ coll_get (coll_of l) a <> Ok b.
Proof.
  exists [BCmd [97;100;100]%N [[120]%N] false false false (Fmt None [] [] [] [] [] [] false false) [];
          BCmd [100;101;108]%N [[120]%N] false false false (Fmt None [] [] [] [] [] [] false false) []],
         (BCmd [97;100;100]%N [[120]%N] false false false (Fmt None [] [] [] [] [] [] false false) []), [120]%N.
  split; [left; reflexivity|]. split; [left; reflexivity|]. vm_compute. intros K. discriminate K.
Qed.
Print Assumptions alias_invariant_without_distinctness_refuted.

(* Adding options after the path / anything after the double dash: the leading tokens, hence the NAMED command the
   walk reaches, do not change ... *)
Theorem options_invariant : forall l o r, forallb lead_ok l = true -> starts_dash o = true -> leading (l ++ o :: r) = l.
Proof. intros l o r Hl Ho. apply leading_cut; [exact Hl | apply option_is_stopper, Ho]. Qed.
Print Assumptions options_invariant.
Theorem options_keep_the_named_command : forall named l o r, forallb lead_ok l = true -> starts_dash o = true ->
  walk named None (leading (l ++ o :: r)) = walk named None (leading l).
Proof. intros named l o r _ Ho. now rewrite (leading_insert_stopper l o r (option_is_stopper o Ho)). Qed.
Print Assumptions options_keep_the_named_command.
Theorem tail_invariant : forall l t t', leading (l ++ [DASH; DASH] :: t) = leading (l ++ [DASH; DASH] :: t').
Proof. intros. apply leading_behind_stopper, dd_is_stopper. Qed.
Print Assumptions tail_invariant.
Theorem tail_keeps_the_named_command : forall named l (t : list str), forallb lead_ok l = true ->
  walk named None (leading (l ++ [DASH; DASH] :: t)) = walk named None (leading l).
Proof. intros named l t _. f_equal. exact (leading_insert_stopper l _ t dd_is_stopper). Qed.
Print Assumptions tail_keeps_the_named_command.
(* ... and the SELECTION does not change either when the command reached has at most one default sub-command: two lines
   with the same leading tokens that both resolve select the same command. *)
Theorem same_leading_tokens_same_selection : forall a toks toks' b p q f x q' f' x',
  leading toks = leading toks' ->
  walk (named_of (ap_cmds a)) None (leading toks) = Ok (Some (b, p)) ->
  length (defaults_of (b_subs b)) <= 1 ->
  resolve a toks = Ok (q, f, x) -> resolve a toks' = Ok (q', f', x') -> q = q' /\ f = f'.
Proof.
  intros a toks toks' b p q f x q' f' x' Hl Hw Hn H1 H2. pose proof Hw as Hw'. rewrite Hl in Hw'.
  destruct (selection_shape a toks b p q f x Hw H1) as [(E & -> & -> & _)|(ds1 & d & ds2 & E & _ & _ & -> & ->)];
  destruct (selection_shape a toks' b p q' f' x' Hw' H2) as [(E' & -> & -> & _)|(ds1' & d' & ds2' & E' & _ & _ & -> & ->)].
  - auto.
  - rewrite E in E'. destruct ds1'; discriminate.
  - rewrite E' in E. destruct ds1; discriminate.
  - (* one default at most: both lines select it *)
    rewrite E in Hn, E'. rewrite app_length in Hn. cbn [length] in Hn.
    destruct ds1 as [|? ds1]; [|cbn in Hn; lia]. destruct ds2; [|cbn in Hn; lia]. cbn [app] in E'.
    destruct ds1' as [|? ds1']; cbn [app] in E'; [inversion E'; subst; auto|].
    inversion E' as [[E1 E2]]. destruct ds1'; discriminate.
Qed.
Print Assumptions same_leading_tokens_same_selection.

(* With two default sub-commands the clause "adding options after the path never changes the selection" (and "tokens
   after -- never take part in it") is FALSE of the model, and of the code (same lines, same answers): the default
   sub-command is the first one that PARSES the line, and options / the tail decide that.
   Tree: srv [s] { add [a] <v?>, del [d], x1 (default, anonymous, --flag), x2 (default, anonymous, --flag=VALUE, <v?>) }, top (default). *)
Definition s_srv : str := [115;114;118]%N. Definition s_s : str := [115]%N.
Definition s_add : str := [97;100;100]%N.  Definition s_a : str := [97]%N.
Definition s_del : str := [100;101;108]%N. Definition s_d : str := [100]%N.
Definition s_x1 : str := [120;49]%N.       Definition s_x2 : str := [120;50]%N.
Definition s_flag : str := [102;108;97;103]%N. Definition s_top : str := [116;111;112]%N.
Definition o_nov : opt := {| o_long := s_flag; o_short := None; o_flags := opt_defaults 4 false; o_default := VNone |}.
Definition o_req : opt := {| o_long := s_flag; o_short := None; o_flags := opt_defaults 8 false; o_default := VNone |}.
Definition a_opt : arg := {| a_name := [118]%N; a_flags := arg_defaults 2; a_default := VNone |}.
Definition cfg : appcfg :=
  {| ac_opts := []; ac_args := [];
     ac_cmds := [Cmd s_srv [s_s] false false true false [] []
                   [Cmd s_add [s_a] false false true false [] [a_opt] []; Cmd s_del [s_d] false false true false [] [] [];
                    Cmd s_x1 [] true true true false [o_nov] [] []; Cmd s_x2 [] true true true false [o_req] [a_opt] []];
                 Cmd s_top [] true false true false [] [] []] |}.
Definition cmds0 : list bcmd := match build_app cfg with Ok ap => ap_cmds ap | Err _ => [] end.
Definition selected (toks : list str) : res (list str) :=
  do ap <- build_app cfg; do r <- resolve ap toks; Ok (fst (fst r)).
Definition t_flag3 : str := [45;45;102;108;97;103;61;51]%N.    (* --flag=3 *)

Theorem options_after_the_path_change_the_default_refuted :
  forallb lead_ok [s_srv] = true /\ starts_dash t_flag3 = true /\
  selected [s_srv] = Ok [s_srv; s_x1] /\ selected ([s_srv] ++ [t_flag3]) = Ok [s_srv; s_x2].
Proof. vm_compute. repeat split. Qed.
Print Assumptions options_after_the_path_change_the_default_refuted.
Theorem tail_changes_the_default_refuted :
  selected [s_srv] = Ok [s_srv; s_x1] /\ selected ([s_srv] ++ [[DASH; DASH]; [122]%N]) = Ok [s_srv; s_x2].
Proof. vm_compute. repeat split. Qed.
Print Assumptions tail_changes_the_default_refuted.

(* the hypotheses are satisfiable on that tree (depth 2, aliases, two anonymous defaults) *)
Example tree_is_distinct : cmds0 <> [] /\ tree_distinct cmds0.
Proof.
  split; [vm_compute; discriminate|].
  assert (forall l : list bcmd, l = [] -> tree_distinct l) as Leaf.
  { intros l ->. constructor; [constructor|intros b []]. }
  unfold cmds0. vm_compute build_app. constructor.
  - unfold siblings_distinct. cbn. repeat (constructor; [cbn; intuition discriminate|]). constructor.
  - intros b [<-|[<-|[]]]; cbn [b_subs]; [|apply Leaf; reflexivity]. constructor.
    + unfold siblings_distinct. cbn. repeat (constructor; [cbn; intuition discriminate|]). constructor.
    + intros b [<-|[<-|[<-|[<-|[]]]]]; apply Leaf; reflexivity.
Qed.
Example respelled_path : respells cmds0 [s_srv; s_add; [122]%N] [s_s; s_a; [122]%N].
Proof.
  unfold cmds0. vm_compute build_app.
  eapply rs_step; [left; reflexivity|left; reflexivity|right; left; reflexivity|]. cbn [b_subs].
  eapply rs_step; [left; reflexivity|left; reflexivity|right; left; reflexivity|]. apply rs_same.
Qed.
Example walk_instance : exists b, walk (named_of cmds0) None [s_s; s_a; [122]%N] = Ok (Some (b, [s_srv; s_add])) /\ b_name b = s_add.
Proof. vm_compute. eexists. split; reflexivity. Qed.
Example selections :
  selected [s_s; s_a] = Ok [s_srv; s_add] /\ selected [s_srv; s_add; [122]%N] = Ok [s_srv; s_add] /\
  selected [] = Ok [s_top] /\ selected [[122]%N] = Err CannotResolve /\ selected [s_srv; t_flag3] = Ok [s_srv; s_x2].
Proof. vm_compute. repeat split. Qed.
(* the hypotheses of the default-choice theorems on that tree: below srv the defaults are x1, x2 (in that order); the line
   srv --flag=3 cannot be parsed for x1 (its --flag takes no value) and parses for x2 *)
Example default_choice_instance :
  match walk (named_of cmds0) None [s_srv] with
  | Ok (Some (b, p)) =>
    p = [s_srv] /\
    match defaults_of (b_subs b) with
    | [d1; d2] => b_name d1 = s_x1 /\ b_name d2 = s_x2 /\ cannot [s_srv; t_flag3] d1 /\
                  (exists a, parse (b_fmt d2) (b_lenient d2) [s_srv; t_flag3] = Ok a) /\
                  (exists a, parse (b_fmt d1) (b_lenient d1) [s_srv] = Ok a)
    | _ => False end
  | _ => False end.
Proof. vm_compute. repeat split; try reflexivity; eexists; reflexivity. Qed.
(* and of same_leading_tokens_same_selection: below "top" there is no default sub-command *)
Example one_default_instance :
  match walk (named_of cmds0) None [s_top] with
  | Ok (Some (b, p)) => length (defaults_of (b_subs b)) <= 1 /\ leading [s_top; t_flag3] = leading [s_top]
  | _ => False end.
Proof. vm_compute. split; [lia|reflexivity]. Qed.

(* alias_invariant_resolve on a tree with aliases at two levels and a NAMED default sub-command:
   server [srv, s] { add [a] <v?> --flag, list [ls] (default) <w?>, del [d] }, top (default) *)
Definition s_server : str := [115;101;114;118;101;114]%N. Definition s_list : str := [108;105;115;116]%N.
Definition s_ls : str := [108;115]%N. Definition s_w : str := [119]%N. Definition s_z : str := [122]%N.
Definition t_flag : str := [45;45;102;108;97;103]%N.            (* --flag *)
Definition a_w : arg := {| a_name := s_w; a_flags := arg_defaults 2; a_default := VNone |}.
Definition cfg3 : appcfg :=
  {| ac_opts := []; ac_args := [];
     ac_cmds := [Cmd s_server [s_srv; s_s] false false true false [] []
                   [Cmd s_add [s_a] false false true false [o_nov] [a_opt] [];
                    Cmd s_list [s_ls] true false true false [] [a_w] [];
                    Cmd s_del [s_d] false false true false [] [] []];
                 Cmd s_top [] true false true false [] [] []] |}.
Definition cmds3 : list bcmd := match build_app cfg3 with Ok ap => ap_cmds ap | Err _ => [] end.
Example tree3_is_distinct : tree_distinct cmds3.
Proof.
  assert (forall l : list bcmd, l = [] -> tree_distinct l) as Leaf.
  { intros l ->. constructor; [constructor|intros b []]. }
  unfold cmds3. vm_compute build_app. constructor.
  - unfold siblings_distinct. cbn. repeat (constructor; [cbn; intuition discriminate|]). constructor.
  - intros b [<-|[<-|[]]]; cbn [b_subs]; [|apply Leaf; reflexivity]. constructor.
    + unfold siblings_distinct. cbn. repeat (constructor; [cbn; intuition discriminate|]). constructor.
    + intros b [<-|[<-|[<-|[]]]]; apply Leaf; reflexivity.
Qed.
Example respelled3 : respells cmds3 [s_server; s_add] [s_s; s_a] /\ respells cmds3 [s_server] [s_srv].
Proof.
  unfold cmds3. vm_compute build_app. split.
  - eapply rs_step; [left; reflexivity|left; reflexivity|right; right; left; reflexivity|]. cbn [b_subs].
    eapply rs_step; [left; reflexivity|left; reflexivity|right; left; reflexivity|]. apply rs_same.
  - eapply rs_step; [left; reflexivity|left; reflexivity|right; left; reflexivity|]. apply rs_same.
Qed.
(* the hypotheses hold, the theorem applies (two levels respelled; options and an argument behind the path), and the
   answers are what they should be: "server add z --flag" = "s a z --flag" selects server add with v = z and the flag;
   "server" = "srv" = "s" (and with an argument behind) select the NAMED default sub-command server list *)
Example alias_invariant_resolve_applied : forall a, build_app cfg3 = Ok a ->
  resolve a ([s_server; s_add] ++ [s_z; t_flag]) = resolve a ([s_s; s_a] ++ [s_z; t_flag]) /\
  resolve a ([s_server] ++ [[DASH; DASH]; s_z]) = resolve a ([s_srv] ++ [[DASH; DASH]; s_z]).
Proof.
  intros a Ha. assert (ap_cmds a = cmds3) as E by (unfold cmds3; now rewrite Ha).
  pose proof tree3_is_distinct as Ht. destruct respelled3 as [R1 R2]. rewrite <- E in Ht, R1, R2.
  split; apply (alias_invariant_resolve cfg3 a); try assumption; reflexivity.
Qed.
Definition selected3 (toks : list str) : res (list str * list (str * pyval) * list (str * pyval)) :=
  do ap <- build_app cfg3; do r <- resolve ap toks; Ok (fst (fst r), ar_args (snd r), ar_opts (snd r)).
Example alias_answers3 :
  cfg_args_valid cfg3 = true /\
  selected3 [s_server; s_add; s_z; t_flag] = Ok ([s_server; s_add], [([118]%N, VStr s_z)], [(s_flag, VBool true)]) /\
  selected3 [s_s; s_a; s_z; t_flag] = selected3 [s_server; s_add; s_z; t_flag] /\
  selected3 [s_server] = Ok ([s_server; s_list], [], []) /\ selected3 [s_srv] = selected3 [s_server] /\ selected3 [s_s] = selected3 [s_server] /\
  selected3 [s_srv; [DASH; DASH]; s_z] = Ok ([s_server; s_list], [(s_w, VStr s_z)], []) /\
  selected3 [s_server; s_ls; s_z] = Ok ([s_server; s_list], [(s_w, VStr s_z)], []) /\
  selected3 [s_s; s_list; s_z] = selected3 [s_server; s_ls; s_z].
Proof. vm_compute. repeat split. Qed.
(* lead_ok is needed: an alias that looks like an option is no spelling of the path - the walk stops in front of it.
   server { add [-a] }, no defaults: "server add" selects server add, "server -a" does not (NoSuchOption) *)
Definition t_dash_a : str := [45;97]%N.
Definition cfg4 : appcfg :=
  {| ac_opts := []; ac_args := [];
     ac_cmds := [Cmd s_server [] false false true false [] [] [Cmd s_add [t_dash_a] false false true false [] [] []]] |}.
Example alias_must_be_a_plain_token :
  lead_ok t_dash_a = false /\
  (do ap <- build_app cfg4; do r <- resolve ap [s_server; s_add]; Ok (fst (fst r))) = Ok [s_server; s_add] /\
  (do ap <- build_app cfg4; do r <- resolve ap [s_server; t_dash_a]; Ok (fst (fst r))) = Err NoSuchOption.
Proof. vm_compute. repeat split. Qed.
