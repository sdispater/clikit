(* C04 - a run always ends in a valid exit status and never leaks a handler failure.
   run catch debug render_ok listeners outcome; render_ok = the error-report renderer returned.  The first theorems
   take render_ok = true; below it is discharged: the renderer is C20's model (Model/Trace.v) and always returns. *)
From Clikit Require Import Base.Prelude Base.Res Model.Conv Model.Run Proofs.RunLemmas.

(* For EVERY handler outcome, verbosity and listener list: with exception catching on, a run returns an
   integer status in 0..255 and nothing escapes. *)
Theorem run_status : forall debug ls h, exists s, r_end (run true debug true ls h) = Status s /\ (0 <= s <= 255)%Z.
Proof. exact run_returns_status. Qed.
Print Assumptions run_status.

(* The handler runs exactly once - unless a pre-handle listener handled the event or failed, then never. *)
Theorem handler_once : forall catch debug ok ls h,
  (listeners_pass ls -> r_handler_calls (run catch debug ok ls h) = 1) /\
  (~ listeners_pass ls -> r_handler_calls (run catch debug ok ls h) = 0).
Proof.
  intros catch debug ok ls h. rewrite run_calls. unfold listeners_pass, do_handle.
  destruct (dispatch_pre ls None) as [[st|]|e]; split; intros H;
    try reflexivity; try discriminate H; try (destruct H; reflexivity).
  destruct h; reflexivity.
Qed.
Print Assumptions handler_once.

(* 0 exactly for a falsy result; the clamped integer otherwise; 1 plus a report when int() rejects it. *)
Theorem status_zero_iff : forall debug ls v, listeners_pass ls ->
  (r_end (run true debug true ls (Ret v)) = Status 0 <-> truthy v = false).
Proof.
  intros debug ls v Hl. split.
  - destruct (truthy v) eqn:Et; [|reflexivity]. destruct (to_int v) as [z|] eqn:Ez.
    + rewrite (ret_truthy _ _ _ _ Hl Et Ez). cbn. intros H. inversion H as [H0]. destruct (clamp_nonzero z H0).
    + rewrite (ret_unconvertible _ _ _ Hl Et Ez). cbn. discriminate.
  - intros Et. rewrite (ret_falsy _ _ _ Hl Et). reflexivity.
Qed.
Print Assumptions status_zero_iff.
Theorem status_is_clamped_result : forall debug ls v z, listeners_pass ls -> truthy v = true -> to_int v = Some z ->
  run true debug true ls (Ret v) = {| r_end := Status (clamp z); r_handler_calls := 1; r_reported := false; r_simple := false |}.
Proof. exact ret_truthy. Qed.
Print Assumptions status_is_clamped_result.
Theorem unconvertible_result_reported : forall debug ls v, listeners_pass ls -> truthy v = true -> to_int v = None ->
  run true debug true ls (Ret v) = {| r_end := Status 1; r_handler_calls := 1; r_reported := true; r_simple := false |}.
Proof. exact ret_unconvertible. Qed.
Print Assumptions unconvertible_result_reported.

(* Every exception: non-zero status together with an error report (simple for library errors);
   KeyboardInterrupt: status 1, by design without a report. *)
Theorem exception_reported : forall debug ls e, listeners_pass ls -> e_keyboard e = false ->
  run true debug true ls (Raise e) = {| r_end := Status 1; r_handler_calls := 1; r_reported := true; r_simple := e_clikit e |}.
Proof. intros debug ls e Hl He. now rewrite (run_exn _ _ _ _ _ _ _ (handle_raise debug ls e Hl He)), He. Qed.
Print Assumptions exception_reported.
Theorem keyboard_interrupt_status : forall debug ls e, listeners_pass ls -> e_keyboard e = true ->
  run true debug true ls (Raise e) = {| r_end := Status 1; r_handler_calls := 1; r_reported := false; r_simple := false |}.
Proof.
  unfold listeners_pass, run, handle, do_handle. intros debug ls e -> He. rewrite He. destruct debug; cbn; [rewrite He|]; reflexivity.
Qed.
Print Assumptions keyboard_interrupt_status.

(* The renderer hypothesis discharged.
   render_ok is not assumed from here on: it is report_ok c o x sols simple = "ExceptionTrace.render (Model/Trace.v,
   render_sol) returned", for the output o the report is written to (the io's standard output), the verbosity /
   directories c, and - inputs, universally quantified - the exn_case x of the raised exception (class name, message,
   frames with the token streams tokenize delivers for them, or the fact that tokenize / reading the file raised) and the
   solutions sols found for it.  Run.v's exn says only whether the exception is KeyboardInterrupt and whether it is a
   CliKitException (then the report is the simple one).
   Hypotheses that remain: o is an ordinary output (not a section) with an ANSI or plain formatter whose style stack is
   empty and whose style table resolves "error" and "b" (out_ok, resolvable).  The statements also ask that the texts
   hold no ESC when o decorates (inputs_ne, sol_ne); the proofs do not use it (report_ok_any), and the forms for
   clikit's own outputs (..._on_clikit_outputs) do not ask it.  NO hypothesis on tokenize: the renderer catches what
   reading / tokenizing a source raises (clikit's fix caca46b; C20: report_lines_always_exist). *)
From Clikit Require Import Model.Markup Model.OutputM Model.Trace Proofs.MarkupLemmas Proofs.OutputLemmas Proofs.TraceLemmas
  Proofs.LiteralLemmas Proofs.TraceRenderLemmas Proofs.TraceSolutionLemmas Proofs.RunTraceLemmas.

(* the renderer returns: for every exception case, solutions and report mode *)
Theorem renderer_returns : forall sty c o x sols simple,
  out_ok sty o -> resolvable sty st_error -> resolvable sty st_b ->
  (decorated o = true -> inputs_ne c x /\ Forall sol_ne sols) ->
  report_ok c o x sols simple = true.
Proof. intros sty c o x sols simple Ho Herr Hb _. exact (report_ok_any sty c o x sols simple Ho Herr Hb). Qed.
Print Assumptions renderer_returns.
(* on an output that does not decorate nothing is asked of the texts either *)
Theorem renderer_returns_undecorated : forall sty c o x sols simple,
  out_ok sty o -> resolvable sty st_error -> resolvable sty st_b -> decorated o = false ->
  report_ok c o x sols simple = true.
Proof. intros sty c o x sols simple Ho Herr Hb _. exact (report_ok_any sty c o x sols simple Ho Herr Hb). Qed.
Print Assumptions renderer_returns_undecorated.

(* THE headline.  EVERY exception that reaches run() - raised by the handler, by a pre-handle listener or by int(status) -
   other than KeyboardInterrupt, with catching on, whatever its exception case x and the solutions: the report is
   printed (simple for library errors), the status is 1, NO exception escapes; the handler was invoked as often as handle
   says (once with passing listeners). *)
Theorem exception_reported_rendered : forall sty c o x sols debug ls h e calls,
  handle debug ls h = (inr e, calls) -> e_keyboard e = false ->
  out_ok sty o -> resolvable sty st_error -> resolvable sty st_b ->
  (decorated o = true -> inputs_ne c x /\ Forall sol_ne sols) ->
  run true debug (report_ok c o x sols (e_clikit e)) ls h
  = {| r_end := Status 1; r_handler_calls := calls; r_reported := true; r_simple := e_clikit e |}.
Proof.
  intros sty c o x sols debug ls h e calls Hh Hk Ho Herr Hb Hne.
  now rewrite (run_exn _ _ _ _ _ _ _ Hh), Hk, (renderer_returns sty c o x sols _ Ho Herr Hb Hne).
Qed.
Print Assumptions exception_reported_rendered.
(* exception_reported with the renderer discharged *)
Theorem handler_exception_reported_rendered : forall sty c o x sols debug ls e,
  listeners_pass ls -> e_keyboard e = false ->
  out_ok sty o -> resolvable sty st_error -> resolvable sty st_b ->
  (decorated o = true -> inputs_ne c x /\ Forall sol_ne sols) ->
  run true debug (report_ok c o x sols (e_clikit e)) ls (Raise e)
  = {| r_end := Status 1; r_handler_calls := 1; r_reported := true; r_simple := e_clikit e |}.
Proof.
  intros sty c o x sols debug ls e Hl Hk.
  exact (exception_reported_rendered sty c o x sols debug ls (Raise e) e 1 (handle_raise debug ls e Hl Hk) Hk).
Qed.
Print Assumptions handler_exception_reported_rendered.
(* unconvertible_result_reported with the renderer discharged *)
Theorem unconvertible_result_reported_rendered : forall sty c o x sols debug ls v,
  listeners_pass ls -> truthy v = true -> to_int v = None ->
  out_ok sty o -> resolvable sty st_error -> resolvable sty st_b ->
  (decorated o = true -> inputs_ne c x /\ Forall sol_ne sols) ->
  run true debug (report_ok c o x sols false) ls (Ret v)
  = {| r_end := Status 1; r_handler_calls := 1; r_reported := true; r_simple := false |}.
Proof.
  intros sty c o x sols debug ls v Hl Ht Hi.
  exact (exception_reported_rendered sty c o x sols debug ls (Ret v) conversion_error 1 (handle_unconvertible debug ls v Hl Ht Hi) eq_refl).
Qed.
Print Assumptions unconvertible_result_reported_rendered.
(* a failing pre-handle listener: reported as well, the handler not invoked *)
Theorem listener_failure_reported_rendered : forall sty c o x sols debug ls h e,
  dispatch_pre ls None = inr e -> e_keyboard e = false ->
  out_ok sty o -> resolvable sty st_error -> resolvable sty st_b ->
  (decorated o = true -> inputs_ne c x /\ Forall sol_ne sols) ->
  run true debug (report_ok c o x sols (e_clikit e)) ls h
  = {| r_end := Status 1; r_handler_calls := 0; r_reported := true; r_simple := e_clikit e |}.
Proof.
  intros sty c o x sols debug ls h e Hl Hk.
  exact (exception_reported_rendered sty c o x sols debug ls h e 0 (handle_listener_failure debug ls h e Hl Hk) Hk).
Qed.
Print Assumptions listener_failure_reported_rendered.
(* run_status with the renderer discharged: for EVERY handler outcome, verbosity, listener list, report mode, exception
   case and solutions *)
Theorem run_status_with_renderer : forall sty c o x sols simple debug ls h,
  out_ok sty o -> resolvable sty st_error -> resolvable sty st_b ->
  (decorated o = true -> inputs_ne c x /\ Forall sol_ne sols) ->
  exists s, r_end (run true debug (report_ok c o x sols simple) ls h) = Status s /\ (0 <= s <= 255)%Z.
Proof.
  intros sty c o x sols simple debug ls h Ho Herr Hb Hne. rewrite (renderer_returns sty c o x sols simple Ho Herr Hb Hne). apply run_status.
Qed.
Print Assumptions run_status_with_renderer.
Theorem report_printed_iff_exception : forall sty c o x sols simple debug ls h,
  out_ok sty o -> resolvable sty st_error -> resolvable sty st_b ->
  (decorated o = true -> inputs_ne c x /\ Forall sol_ne sols) ->
  (r_reported (run true debug (report_ok c o x sols simple) ls h) = true
   <-> exists e calls, handle debug ls h = (inr e, calls) /\ e_keyboard e = false).
Proof.
  intros sty c o x sols simple debug ls h Ho Herr Hb Hne. rewrite (renderer_returns sty c o x sols simple Ho Herr Hb Hne). apply reported_iff.
Qed.
Print Assumptions report_printed_iff_exception.
(* The branch of run() in which the renderer raises in turn and that exception escapes is unreachable: under the
   hypotheses on the output the renderer's result is true for EVERY exception case, solutions and report mode ... *)
Theorem renderer_failure_unreachable : forall sty c o,
  out_ok sty o -> resolvable sty st_error -> resolvable sty st_b ->
  forall x sols simple, (decorated o = true -> inputs_ne c x /\ Forall sol_ne sols) -> report_ok c o x sols simple = true.
Proof. intros sty c o Ho He Hb x sols simple Hne. exact (renderer_returns sty c o x sols simple Ho He Hb Hne). Qed.
Print Assumptions renderer_failure_unreachable.
(* ... so with catching on no exception escapes run(), whatever the handler, the listeners, the exception and its sources *)
Theorem nothing_escapes_with_renderer : forall sty c o x sols simple debug ls h,
  out_ok sty o -> resolvable sty st_error -> resolvable sty st_b ->
  (decorated o = true -> inputs_ne c x /\ Forall sol_ne sols) ->
  forall e, r_end (run true debug (report_ok c o x sols simple) ls h) <> Escaped e.
Proof.
  intros sty c o x sols simple debug ls h Ho Herr Hb Hne. rewrite (renderer_returns sty c o x sols simple Ho Herr Hb Hne).
  apply run_no_escape.
Qed.
Print Assumptions nothing_escapes_with_renderer.
(* an ordinary exception none of whose frames' sources can be read or tokenized *)
Theorem unreadable_source_exception_reported : forall sty c o x sols debug ls h e calls,
  handle debug ls h = (inr e, calls) -> e_keyboard e = false -> e_clikit e = false ->
  Forall (fun f => ~ tok_ok (f_content f) /\ ~ tok_ok (f_linetoks f)) (x_frames x) ->
  out_ok sty o -> resolvable sty st_error -> resolvable sty st_b ->
  (decorated o = true -> inputs_ne c x /\ Forall sol_ne sols) ->
  run true debug (report_ok c o x sols (e_clikit e)) ls h
  = {| r_end := Status 1; r_handler_calls := calls; r_reported := true; r_simple := false |}.
Proof.
  intros sty c o x sols debug ls h e calls Hh Hk Hc _ Ho Herr Hb Hne.
  now rewrite (exception_reported_rendered sty c o x sols debug ls h e calls Hh Hk Ho Herr Hb Hne), Hc.
Qed.
Print Assumptions unreadable_source_exception_reported.

(* the hypotheses are satisfiable: a handler raising  B</error>("<b>x\")  from a.py (two frames, verbose), two solutions
   with nasty texts; on a plain output, and on a decorated one at indentation 4 *)
Import RenderExamples SolutionExamples RunTraceExamples.
Example exception_reported_rendered_plain : forall debug,
  run true debug (report_ok (demo_cfg true) (demo_out FPlain false 0) (demo_x [demo_frame; demo_frame]) [ex_s1; ex_s2] (e_clikit ex_exn)) [LPass] (Raise ex_exn)
  = {| r_end := Status 1; r_handler_calls := 1; r_reported := true; r_simple := false |}.
Proof.
  intros debug. apply (handler_exception_reported_rendered demo_sty2);
    [reflexivity|reflexivity|apply demo_out_ok; discriminate|apply demo_error|apply demo_b|].
  intros H. vm_compute in H. discriminate.
Qed.
Example exception_reported_rendered_ansi : forall debug,
  run true debug (report_ok (demo_cfg true) (demo_out (FAnsi false) true 4) (demo_x [demo_frame; demo_frame]) [ex_s1; ex_s2] (e_clikit ex_exn)) [] (Raise ex_exn)
  = {| r_end := Status 1; r_handler_calls := 1; r_reported := true; r_simple := false |}.
Proof.
  intros debug. apply (handler_exception_reported_rendered demo_sty2);
    [reflexivity|reflexivity|apply demo_out_ok; discriminate|apply demo_error|apply demo_b|].
  intros _. split; [apply ex_inputs_ne|apply ex_sols_ne].
Qed.
(* and the report really is printed: the renderer's bytes *)
Example exception_report_bytes :
  render_sol (demo_cfg false) false (demo_out FPlain false 0) (demo_x [demo_frame]) [ex_s1; ex_s2] = Ok (ex_report ++ ex_block1 ++ ex_block2).
Proof. exact ex_sol_vm. Qed.
(* where tokenize rejects the file of the last frame (TokError), or the file cannot be read (TokOtherExc): the run -
   from which, before clikit's fix caca46b, the renderer's own exception escaped - ends with status 1 and the report,
   without snippet lines *)
Example unreadable_source_reported_witness :
  run true false (report_ok (demo_cfg false) (demo_out FPlain false 0) (demo_x [bad_frame]) [] false) [] (Raise ex_exn)
  = {| r_end := Status 1; r_handler_calls := 1; r_reported := true; r_simple := false |}
  /\ run true false (report_ok (demo_cfg true) (demo_out FPlain false 0) (demo_x [bad_frame2; bad_frame]) [ex_s1] false) [] (Raise ex_exn)
  = {| r_end := Status 1; r_handler_calls := 1; r_reported := true; r_simple := false |}.
Proof. vm_compute. split; reflexivity. Qed.
Example unreadable_source_report_bytes :
  render_sol (demo_cfg false) false (demo_out FPlain false 0) (demo_x [bad_frame]) [ex_s1]
  = Ok (ex_head ++ [10;32;32;97;116;32;97;46;112;121;58;49;32;105;110;32;102;10]%N ++ ex_block1).      (*   at a.py:1 in f *)
Proof. exact ex_sol_unreadable_vm. Qed.

(* The WHOLE of ConsoleApplication.run: io creation, resolution, handling (Model/RunLine.v).
   run_cmdline catch render_ok quiet debug io_fails rs listeners handler: io_fails = the io factory raises; rs = what
   resolve_command gives (a value of ANY type A standing for "the command selected and the arguments parsed for it", or an
   exception); the handler is a FUNCTION of what it is handed and every invocation is logged with its argument (l_calls).
   run_app instantiates it with the resolver model of C03 (whose answer carries the parser model's result for the line)
   and the io settings of C09. *)
From Clikit Require Import Model.Flags Model.Format Model.Parser Model.Resolver Model.Tokenizer Model.Switches Model.RunLine
  Proofs.RunLineLemmas.

(* the theorems above carry over: with the io built and the line resolved, the whole run IS Run.run on the outcome of
   the handler applied to the resolved arguments, and the invocations logged are as many as its call counter says *)
Theorem whole_run_extends_run : forall (A : Type) catch ok quiet debug (a : A) ls h,
  let r := run_cmdline catch ok quiet debug None (inl a) ls h in
  let r0 := run catch debug ok ls (h a) in
  l_end r = r_end r0 /\ length (l_calls r) = r_handler_calls r0 /\ l_reported r = r_reported r0 /\ l_simple r = r_simple r0
  /\ l_printed r = r_reported r0 && negb quiet.
Proof. exact @run_line_is_run. Qed.
Print Assumptions whole_run_extends_run.

(* "returns an integer status in 0..255 without raising": WHICHEVER step fails - the io factory, the resolution of the
   line, a listener, the handler, int(status) *)
Theorem whole_run_status : forall (A : Type) quiet debug io (rs : A + exn) ls h,
  exists s, l_end (run_cmdline true true quiet debug io rs ls h) = Status s /\ (0 <= s <= 255)%Z.
Proof. exact @run_cmdline_returns_status. Qed.
Print Assumptions whole_run_status.

(* "The handler of the selected command is invoked exactly once with the arguments parsed for that command": the log is
   exactly [a] for the a the resolver gave - whatever the handler does with it, whatever the flags *)
Theorem handler_invoked_once_with_resolved_args : forall (A : Type) catch ok quiet debug (a : A) ls h,
  listeners_pass ls -> l_calls (run_cmdline catch ok quiet debug None (inl a) ls h) = [a].
Proof.
  intros A catch ok quiet debug a ls h. unfold listeners_pass, run_cmdline, do_handle_with. intros ->.
  destruct (status_of debug _); [reflexivity|apply on_exception_calls].
Qed.
Print Assumptions handler_invoked_once_with_resolved_args.
Theorem handler_not_invoked_when_a_listener_decides : forall (A : Type) catch ok quiet debug (a : A) ls h,
  ~ listeners_pass ls -> l_calls (run_cmdline catch ok quiet debug None (inl a) ls h) = [].
Proof.
  intros A catch ok quiet debug a ls h. unfold listeners_pass, run_cmdline, do_handle_with. intros Hn.
  destruct (dispatch_pre ls None) as [[st|]|e]; [|exfalso; apply Hn; reflexivity|];
    (destruct (status_of debug _); [reflexivity|apply on_exception_calls]).
Qed.
Print Assumptions handler_not_invoked_when_a_listener_decides.
Theorem no_handler_when_io_creation_fails : forall (A : Type) catch ok quiet debug e (rs : A + exn) ls h,
  l_calls (run_cmdline catch ok quiet debug (Some e) rs ls h) = [].
Proof. intros A catch ok quiet debug e rs ls h. unfold run_cmdline. apply on_exception_calls. Qed.
Print Assumptions no_handler_when_io_creation_fails.
Theorem no_handler_when_resolution_fails : forall (A : Type) catch ok quiet debug e ls h,
  l_calls (run_cmdline (A:=A) catch ok quiet debug None (inr e) ls h) = [].
Proof. intros A catch ok quiet debug e ls h. unfold run_cmdline. apply on_exception_calls. Qed.
Print Assumptions no_handler_when_resolution_fails.
(* "and no other handler runs": in every case the log is empty or the one invocation with the resolved arguments *)
Theorem no_other_invocation : forall (A : Type) catch ok quiet debug io (rs : A + exn) ls h,
  l_calls (run_cmdline catch ok quiet debug io rs ls h) = [] \/
  exists a, io = None /\ rs = inl a /\ listeners_pass ls /\ l_calls (run_cmdline catch ok quiet debug io rs ls h) = [a].
Proof.
  intros A catch ok quiet debug io rs ls h.
  destruct io as [e|]; [left; apply no_handler_when_io_creation_fails|].
  destruct rs as [a|e]; [|left; apply no_handler_when_resolution_fails].
  destruct (dispatch_pre ls None) as [[st|]|e] eqn:E.
  - left. apply handler_not_invoked_when_a_listener_decides. unfold listeners_pass. rewrite E. discriminate.
  - right. exists a. repeat split; [exact E|]. apply handler_invoked_once_with_resolved_args. exact E.
  - left. apply handler_not_invoked_when_a_listener_decides. unfold listeners_pass. rewrite E. discriminate.
Qed.
Print Assumptions no_other_invocation.

(* the steps before handling.  Resolution fails (unknown command or option, too many arguments, a value of the wrong
   type, a failing resolver): status 1 and the report - the simple one for library errors; printed unless the io is quiet *)
Theorem resolution_failure_reported : forall (A : Type) quiet debug e ls h, e_keyboard e = false ->
  run_cmdline (A:=A) true true quiet debug None (inr e) ls h
  = {| l_end := Status 1; l_calls := []; l_reported := true; l_simple := e_clikit e; l_printed := negb quiet |}.
Proof. intros A quiet debug e ls h He. unfold run_cmdline. apply on_exception_caught. exact He. Qed.
Print Assumptions resolution_failure_reported.
(* the io factory fails: reported on the preliminary io, which no switch silences *)
Theorem io_failure_reported : forall (A : Type) quiet debug e (rs : A + exn) ls h, e_keyboard e = false ->
  run_cmdline true true quiet debug (Some e) rs ls h
  = {| l_end := Status 1; l_calls := []; l_reported := true; l_simple := e_clikit e; l_printed := true |}.
Proof. intros A quiet debug e rs ls h He. unfold run_cmdline. apply on_exception_caught. exact He. Qed.
Print Assumptions io_failure_reported.
Theorem early_keyboard_interrupt_status : forall (A : Type) catch ok quiet debug io (rs : A + exn) e ls h,
  (io = Some e \/ (io = None /\ rs = inr e)) -> e_keyboard e = true ->
  run_cmdline catch ok quiet debug io rs ls h
  = {| l_end := Status 1; l_calls := []; l_reported := false; l_simple := false; l_printed := false |}.
Proof.
  intros A catch ok quiet debug io rs e ls h [->|[-> ->]] He; unfold run_cmdline; apply on_exception_keyboard; exact He.
Qed.
Print Assumptions early_keyboard_interrupt_status.
(* "printed": rendered, and the io in force lets it through *)
Theorem report_printed_unless_quiet : forall (A : Type) catch ok quiet debug io (rs : A + exn) ls h,
  l_printed (run_cmdline catch ok quiet debug io rs ls h)
  = l_reported (run_cmdline catch ok quiet debug io rs ls h) && (match io with Some _ => true | None => negb quiet end).
Proof.
  intros A catch ok quiet debug io rs ls h. unfold run_cmdline.
  destruct io as [e|]; [apply on_exception_printed|]. destruct rs as [a|e]; [|apply on_exception_printed].
  destruct (do_handle_with ls h a) as [r calls]. destruct (status_of debug r); [reflexivity|apply on_exception_printed].
Qed.
Print Assumptions report_printed_unless_quiet.

(* the application.  What the default resolver hands over - and so what the handler is invoked with - are the arguments
   the selected command's format parses from the very line of the run, with that command's own leniency *)
Theorem handler_given_the_arguments_parsed_for_the_command : forall catch ok ap toks ls h path f x,
  resolve ap toks = Ok (path, f, x) -> listeners_pass ls ->
  l_calls (run_app catch ok ap None RDefault toks ls h) = [(path, f, x)]
  /\ exists b, f = b_fmt b /\ parse (b_fmt b) (b_lenient b) toks = Ok x.
Proof.
  intros catch ok ap toks ls h path f x Hr Hl. split; [|exact (resolve_args_parsed ap toks path f x Hr)].
  unfold run_app, resolution. rewrite Hr. cbn [of_res]. apply handler_invoked_once_with_resolved_args. exact Hl.
Qed.
Print Assumptions handler_given_the_arguments_parsed_for_the_command.
(* a resolver of one's own that hands other tokens to the default one: the arguments parsed from THOSE, not a re-parse *)
Theorem handler_given_what_a_custom_resolver_resolved : forall catch ok ap toks toks' ls h path f x,
  resolve ap toks' = Ok (path, f, x) -> listeners_pass ls ->
  l_calls (run_app catch ok ap None (RDelegate toks') toks ls h) = [(path, f, x)].
Proof.
  intros catch ok ap toks toks' ls h path f x Hr Hl.
  unfold run_app, resolution. rewrite Hr. cbn [of_res]. apply handler_invoked_once_with_resolved_args. exact Hl.
Qed.
Print Assumptions handler_given_what_a_custom_resolver_resolved.
Theorem unresolved_line_reported : forall ap toks ls h k, resolve ap toks = Err k ->
  run_app true true ap None RDefault toks ls h
  = {| l_end := Status 1; l_calls := []; l_reported := true; l_simple := e_clikit (exn_of_kind k); l_printed := negb (line_quiet toks) |}.
Proof.
  intros ap toks ls h k Hr. unfold run_app, resolution. rewrite Hr. cbn [of_res]. apply resolution_failure_reported. reflexivity.
Qed.
Print Assumptions unresolved_line_reported.
Theorem application_run_status : forall ap io rv toks ls h,
  exists s, l_end (run_app true true ap io rv toks ls h) = Status s /\ (0 <= s <= 255)%Z.
Proof. intros ap io rv toks ls h. unfold run_app. apply whole_run_status. Qed.
Print Assumptions application_run_status.
(* the lines this model speaks about are lines on which C09's summary says "that command's handler runs" *)
Theorem whole_run_lines_are_handler_lines : forall ap toks path f x,
  in_domain ap RDefault toks = true -> resolve ap toks = Ok (path, f, x) ->
  sm_action (run_summary false ap toks) = AHandler path.
Proof. exact in_domain_handler. Qed.
Print Assumptions whole_run_lines_are_handler_lines.

(* the renderer discharged for the whole run as well *)
Theorem whole_run_status_with_renderer : forall (A : Type) sty c o x sols simple quiet debug io (rs : A + exn) ls h,
  out_ok sty o -> resolvable sty st_error -> resolvable sty st_b ->
  (TraceRenderLemmas.decorated o = true -> inputs_ne c x /\ Forall sol_ne sols) ->
  exists s, l_end (run_cmdline true (report_ok c o x sols simple) quiet debug io rs ls h) = Status s /\ (0 <= s <= 255)%Z.
Proof.
  intros A sty c o x sols simple quiet debug io rs ls h Ho Herr Hb Hne. rewrite (renderer_returns sty c o x sols simple Ho Herr Hb Hne).
  apply whole_run_status.
Qed.
Print Assumptions whole_run_status_with_renderer.

(* The rendered forms for the outputs clikit itself builds (from report_ok_clikit, Proofs/RunTraceClikitLemmas.v): "clikit_output o" - an
   ordinary output over a plain or ANSI formatter whose style set contains DefaultStyleSet - is the ONLY hypothesis on the
   output: no premise on the style table (C20 discharges it) and none on ESC bytes in the texts. *)
From Clikit Require Import Proofs.TraceEscLemmas Proofs.RunTraceClikitLemmas.
Theorem renderer_returns_on_clikit_outputs : forall c o x sols simple, clikit_output o -> report_ok c o x sols simple = true.
Proof. exact report_ok_clikit. Qed.
Print Assumptions renderer_returns_on_clikit_outputs.
Theorem exception_reported_on_clikit_outputs : forall c o x sols debug ls h e calls,
  handle debug ls h = (inr e, calls) -> e_keyboard e = false -> clikit_output o ->
  run true debug (report_ok c o x sols (e_clikit e)) ls h
  = {| r_end := Status 1; r_handler_calls := calls; r_reported := true; r_simple := e_clikit e |}.
Proof.
  intros c o x sols debug ls h e calls Hh Hk Ho.
  now rewrite (run_exn _ _ _ _ _ _ _ Hh), Hk, (renderer_returns_on_clikit_outputs c o x sols _ Ho).
Qed.
Print Assumptions exception_reported_on_clikit_outputs.
Theorem run_status_on_clikit_outputs : forall c o x sols simple debug ls h, clikit_output o ->
  exists s, r_end (run true debug (report_ok c o x sols simple) ls h) = Status s /\ (0 <= s <= 255)%Z.
Proof. intros c o x sols simple debug ls h Ho. rewrite (renderer_returns_on_clikit_outputs c o x sols simple Ho). apply run_status. Qed.
Print Assumptions run_status_on_clikit_outputs.
Theorem nothing_escapes_on_clikit_outputs : forall c o x sols simple debug ls h, clikit_output o ->
  forall e, r_end (run true debug (report_ok c o x sols simple) ls h) <> Escaped e.
Proof. intros c o x sols simple debug ls h Ho. rewrite (renderer_returns_on_clikit_outputs c o x sols simple Ho). apply run_no_escape. Qed.
Print Assumptions nothing_escapes_on_clikit_outputs.
Theorem report_printed_iff_exception_on_clikit_outputs : forall c o x sols simple debug ls h, clikit_output o ->
  (r_reported (run true debug (report_ok c o x sols simple) ls h) = true
   <-> exists e calls, handle debug ls h = (inr e, calls) /\ e_keyboard e = false).
Proof. intros c o x sols simple debug ls h Ho. rewrite (renderer_returns_on_clikit_outputs c o x sols simple Ho). apply reported_iff. Qed.
Print Assumptions report_printed_iff_exception_on_clikit_outputs.
Theorem whole_run_status_on_clikit_outputs : forall (A : Type) c o x sols simple quiet debug io (rs : A + exn) ls h,
  clikit_output o ->
  exists s, l_end (run_cmdline true (report_ok c o x sols simple) quiet debug io rs ls h) = Status s /\ (0 <= s <= 255)%Z.
Proof.
  intros A c o x sols simple quiet debug io rs ls h Ho. rewrite (renderer_returns_on_clikit_outputs c o x sols simple Ho).
  apply whole_run_status.
Qed.
Print Assumptions whole_run_status_on_clikit_outputs.
(* the hypothesis is met: the plain and the two ANSI formatters over DefaultStyleSet, on an ordinary output *)
Example clikit_output_exists : forall o k, k <> FNull -> o_sec o = false -> o_fmt o = default_formatter k -> clikit_output o.
Proof. intros o k Hk Hs Hf. split; [exact Hs|]. rewrite Hf. now apply default_formatters_are_clikit. Qed.
