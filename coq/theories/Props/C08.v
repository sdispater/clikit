(* C08 - splitting a command string never fails and inverts shell-style quoting. *)
From Clikit Require Import Base.Prelude Base.Res Model.Tokenizer Proofs.TokenizerLemmas Proofs.RawArgsLemmas.

(* For EVERY string, tokenising terminates (the fuel length+2 never runs out) and, since the
   scanner has no failing branch, returns a token list. *)
Theorem tokenize_total : forall s, exists ts, tokenize s = TOk ts.
Proof. intros s. apply toks_fuel. rewrite Nat.add_1_r. constructor. Qed.
Print Assumptions tokenize_total.

(* Unquoted text (no quote, no backslash) splits exactly at runs of whitespace. *)
Theorem unquoted_split : forall s, forallb plain_char s = true -> tokenize s = TOk (words s).
Proof. intros s H. apply toks_plain; [exact H|]. rewrite Nat.add_1_r. constructor. Qed.
Print Assumptions unquoted_split.

(* For EVERY list of expressible tokens, every per-token quote style (single, double, or bare for
   plain non-empty tokens), every run of whitespace before each token (non-empty between tokens) and
   every trailing whitespace, the rendered string tokenises back to exactly that list. *)
Theorem roundtrip : forall items trail,
  items_ok items = true -> all_space trail = true -> seps_ok items = true ->
  tokenize (render items trail) = TOk (map it_tok items).
Proof.
  intros items trail Hi Ht Hs. destruct (toks_render items trail Hi Ht Hs) as [f H]. exact (toks_tokenize f _ _ H).
Qed.
Print Assumptions roundtrip.

(* Only tokens before the first "--" are option tokens (same function for both raw-args forms). *)
Theorem option_tokens_before_ddash : forall l1 l2,
  forallb (fun t => negb (is_ddash t)) l1 = true -> option_tokens (l1 ++ [DASH; DASH] :: l2) = l1.
Proof.
  induction l1 as [|t r IH]; intros l2 H; cbn; [reflexivity|]. apply andb_prop in H as [Ht Hr].
  destruct (is_ddash t); [discriminate|]. now rewrite IH.
Qed.
Print Assumptions option_tokens_before_ddash.
Theorem option_tokens_without_ddash : forall ts,
  forallb (fun t => negb (is_ddash t)) ts = true -> option_tokens ts = ts.
Proof. exact option_tokens_all. Qed.
Print Assumptions option_tokens_without_ddash.

(* Non-vacuity: tokens with embedded quotes, an escaped backslash pair, whitespace inside quotes. *)
Example c08_roundtrip_instance :
  let t1 := [97; 39; 98; 34; 32; 99]%N in          (* a, single quote, b, double quote, space, c *)
  let t2 := [92; 92; 39]%N in                       (* two backslashes then a single quote: an even run before a quote *)
  let items := [([32]%N, Single, t1); ([9; 32]%N, Double, t2); ([32]%N, Bare, [45; 45; 120]%N)] in
  items_ok items = true /\ seps_ok items = true /\
  tokenize (render items [10]%N) = TOk [t1; t2; [45; 45; 120]%N].
Proof. vm_compute. auto. Qed.
Example c08_inexpressible : expressible [97; 92; 39]%N = false /\ expressible [97; 92]%N = false.
Proof. vm_compute. auto. Qed.

(* A command string and the argv list it spells are indistinguishable to parser, resolver and run: StringArgs(s) is
   always defined, and whatever is observed of it (parse with any format and mode, resolve and run on any application)
   is what is observed of ArgvArgs of the tokens. *)
Theorem string_args_always_defined : forall s, exists o, string_args s = Some o.
Proof. intros s. unfold string_args. destruct (tokenize_total s) as (ts & ->). eexists. reflexivity. Qed.
Print Assumptions string_args_always_defined.
Theorem string_and_argv_indistinguishable : forall s ts, tokenize s = TOk ts -> string_args s = Some (argv_args ts).
Proof. intros s ts H. unfold string_args. now rewrite H. Qed.
Print Assumptions string_and_argv_indistinguishable.
(* in particular for every spelling of a token list (any per-token quote style, any white space between) *)
Theorem every_spelling_is_the_argv_list : forall items trail,
  items_ok items = true -> all_space trail = true -> seps_ok items = true ->
  string_args (render items trail) = Some (argv_args (map it_tok items)).
Proof. intros items trail A B C. now apply string_and_argv_indistinguishable, roundtrip. Qed.
Print Assumptions every_spelling_is_the_argv_list.
