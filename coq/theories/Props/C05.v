(* C05 - parsing is a pure function of the command line, the format and the mode. *)
From Clikit Require Import Base.Prelude Base.Res Model.Format Model.Parser Proofs.ParserLemmas
                           Proofs.ParserStateLemmas.

(* WHAT IS PROVED ABOUT THE CODE.  [parse_on st0] (Model/Parser.v) is DefaultArgsParser.parse on a parser object whose
   scratch maps hold st0; it starts from empty maps because the source starts with
       self._arguments = OrderedDict(); self._options = OrderedDict()
   - a fact about the source that harness/translate_c05.py re-reads (AST, fail-closed) in every run of the C05 check,
   together with "the object carries no other state".  [parse_resets_at_entry] states that reading as an equation with
   [parse_obj], the same body run on the object's maps after the chosen ones are reset.  The two theorems after it hold
   in the model because parse_on discards st0 (the first by computation, the second from it by induction on the history).
   That the reset is what they rest on is made precise by the three theorems after them: with any other choice of maps reset at entry the same statements are FALSE (the code before
   repo fix d80c000 reset only _arguments). *)
Theorem parse_resets_at_entry : forall st0 f len toks, parse_on st0 f len toks = parse_obj RESET_BOTH st0 f len toks.
Proof. exact parse_on_is_parse_obj. Qed.
Print Assumptions parse_resets_at_entry.

(* The result of a parse on a parser object in ANY scratch state equals the result on a fresh one. *)
Theorem parse_ignores_scratch : forall st0 f len toks, snd (parse_on st0 f len toks) = parse f len toks.
Proof. exact parse_on_ignores_scratch. Qed.
Print Assumptions parse_ignores_scratch.

(* Re-using one parser for ANY history of requests - succeeding or failing, same or different formats -
   gives for each request exactly what a fresh parser gives. *)
Theorem reuse_eq_fresh : forall reqs st,
  run_history st reqs = map (fun q : request => let '(f, len, toks) := q in parse f len toks) reqs.
Proof. exact run_history_fresh. Qed.
Print Assumptions reuse_eq_fresh.

(* The parser that resets only self._arguments (the code before the repair): the statement is refuted - the history
   "--num 5" ; "" gives num = 5 for the empty line (ReuseWitness.args_only_leaks). *)
Theorem reuse_unfixed_refuted : exists reqs, run_history_obj RESET_ARGS_ONLY ps_empty reqs <> fresh_results reqs.
Proof. exists ReuseWitness.H_opts. apply reuse_refuted_unless_opts_reset. reflexivity. Qed.
Print Assumptions reuse_unfixed_refuted.

(* Re-use equals fresh for all histories from all object states EXACTLY WHEN both scratch maps are reset at entry. *)
Theorem reuse_eq_fresh_iff_both_maps_reset : forall r,
  (forall reqs st, run_history_obj r st reqs = fresh_results reqs) <-> r = RESET_BOTH.
Proof.
  intros r. split; [|intros -> reqs st; apply reuse_eq_fresh_obj].
  intros H. destruct (rs_opts r) eqn:Eo; [|destruct (reuse_refuted_unless_opts_reset r Eo); apply H].
  destruct (rs_args r) eqn:Ea; [|destruct (reuse_refuted_unless_args_reset r Ea); apply H].
  destruct r. cbn in Eo, Ea. subst. reflexivity.
Qed.
Print Assumptions reuse_eq_fresh_iff_both_maps_reset.

Theorem parse_independent_of_object_state_iff_both_maps_reset : forall r,
  (forall st0 f len toks, snd (parse_obj r st0 f len toks) = parse f len toks) <-> r = RESET_BOTH.
Proof.
  intros r. split; [|intros -> st0 f len toks; reflexivity].
  (* otherwise an object that still holds an argument, resp. an option, shows on the empty line *)
  intros H. destruct r as [a o]. destruct o.
  - destruct a; [reflexivity|]. exfalso.
    specialize (H ReuseWitness.holds_arg ReuseWitness.F false []). vm_compute in H. discriminate.
  - exfalso. specialize (H ReuseWitness.holds_opt ReuseWitness.F false []). destruct a; vm_compute in H; discriminate.
Qed.
Print Assumptions parse_independent_of_object_state_iff_both_maps_reset.

(* The entry the correspondence run uses (run_C05) asked for "both maps reset" is the entry of the code as it is. *)
Theorem run_C05_both : forall fmts reqs extra, run_C05 (L [fmts; reqs; extra; A 0%Z]) = run_C05_asis (L [fmts; reqs; extra]).
Proof.
  intros fmts reqs extra. cbn [run_C05 run_C05_asis resets_of].
  destruct (dList (dList (dList dec_element)) fmts) as [fl|]; [|reflexivity].
  destruct (dList dec_request reqs) as [rl|]; [|reflexivity].
  destruct (dList dStr extra) as [el|]; [|reflexivity].
  destruct (build_formats fl) as [fs|k]; [|reflexivity].
  rewrite run_requests_obj_both. reflexivity.
Qed.
Print Assumptions run_C05_both.
