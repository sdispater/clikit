(* C17 - what is rendered does not depend on what was processed before.
   State that survives a run: the per-command leniency overrides written by the help resolver, one per command OBJECT
   (a command is identified by its position in the built tree, Model/AppState.v).  run_on st a toks gives the new
   overrides and the summary of the run (settings + action, C09).  restores_effective st a toks: the value the help
   resolver restores on the command it was handed is the value that was effective before - which is what the
   code does (try/finally around the previous is_lenient_args_parsing_enabled()). *)
From Clikit Require Import Base.Prelude Base.Res Model.Conv Model.Format Model.Parser Model.Resolver Model.Run
     Model.Tokenizer Model.Switches Model.AppState Proofs.AppStateLemmas.
From Clikit Require Proofs.AppStateObsLemmas.

(* A run leaves the application exactly as later runs see it ... *)
Theorem leniency_restored : forall st a toks, restores_effective st a toks ->
  apply_state (fst (run_on st a toks)) a = apply_state st a.
Proof. exact run_on_state. Qed.
Print Assumptions leniency_restored.

(* ... hence EVERY history of command lines on one application gives, run by run, what a fresh application gives. *)
Theorem runs_independent : forall a lines st,
  apply_state st a = apply_state [] a ->
  (forall st' toks, apply_state st' a = apply_state [] a -> restores_effective st' a toks) ->
  runs_on st a lines = map (fun l => snd (run_on [] a l)) lines.
Proof. intros a lines st Hst _. exact (AppStateObsLemmas.runs_independent_from a lines st Hst). Qed.
Print Assumptions runs_independent.

(* restores_effective holds (Proofs/AppStateRestoreLemmas.v).
   The override the restore records is keyed by the POSITION of the command object the resolver was handed: the index,
   level by level, of the sibling the collections resolve (CommandCollection.add: the LAST sibling added under a name),
   and for a default sub-command the last default sibling of the picked name.  A position holds one command, so the
   restore is exact for EVERY application - built or not, whatever the names of the siblings: no hypothesis on names. *)
From Clikit Require Import Proofs.AppStateRestoreLemmas.

Theorem restores_effective_holds : forall st a toks, restores_effective st a toks.
Proof. exact AppStateRestoreLemmas.restores_effective_holds. Qed.
Print Assumptions restores_effective_holds.

Theorem leniency_restored_unconditional : forall st a toks,
  apply_state (fst (run_on st a toks)) a = apply_state st a.
Proof. exact run_on_state_holds. Qed.
Print Assumptions leniency_restored_unconditional.

(* every application (any value of type application: a top level with repeated names is not even excluded) *)
Theorem runs_independent_unconditional : forall a lines,
  runs_on [] a lines = map (fun l => snd (run_on [] a l)) lines.
Proof. intros a lines. now apply AppStateObsLemmas.runs_independent_from. Qed.
Print Assumptions runs_independent_unconditional.

Theorem runs_independent_unconditional_from : forall a lines st,
  apply_state st a = apply_state [] a ->
  runs_on st a lines = map (fun l => snd (run_on [] a l)) lines.
Proof. exact AppStateObsLemmas.runs_independent_from. Qed.
Print Assumptions runs_independent_unconditional_from.

(* in particular every built application, whatever the configuration *)
Theorem runs_independent_built : forall cfg a lines, build_app cfg = Ok a ->
  runs_on [] a lines = map (fun l => snd (run_on [] a l)) lines.
Proof. intros cfg a lines _. apply runs_independent_unconditional. Qed.
Print Assumptions runs_independent_built.

(* what the wire function run_C17 answers for a built application IS the list of fresh answers *)
Theorem run_C17_is_fresh : forall cfg a lines, build_app cfg = Ok a ->
  map (fun sm => (sm_settings sm, sm_action sm)) (runs_on [] a lines) =
  map (fun l => let sm := run_summary false a l in (sm_settings sm, sm_action sm)) lines.
Proof.
  intros cfg a lines _. rewrite runs_independent_unconditional, map_map. apply map_ext. intros l. unfold run_on. cbn [snd].
  now rewrite apply_state_nil.
Qed.
Print Assumptions run_C17_is_fresh.

(* The position is the right one:
   help_target (C09 / C13) is help_pick followed by the lenient parse; the position help_pick reports exists, holds
   exactly the command picked (the one the collections resolved), and the names along it are the reported path; the
   value run_on records for it is the leniency that command has in the current state. *)
Theorem help_target_is_pick : forall a toks,
  help_target a toks =
  (do t <- help_pick a toks; let '(c, pth, _) := t in do x <- help_lenient (b_fmt c) (strip_help toks); Ok pth).
Proof. exact AppStateRestoreLemmas.help_target_is_pick. Qed.
Print Assumptions help_target_is_pick.

Theorem help_pick_position : forall a toks c pth o, help_pick a toks = Ok (c, pth, o) ->
  exists p, o = Some p /\ cmd_at (ap_cmds a) p = Some c /\ names_at (ap_cmds a) p = Some pth.
Proof. exact AppStateRestoreLemmas.help_pick_position. Qed.
Print Assumptions help_pick_position.

Theorem help_target_has_position : forall a toks pth, help_target a toks = Ok pth ->
  exists c p, help_pick a toks = Ok (c, pth, Some p) /\ help_target_pos a toks = Some p /\
              cmd_at (ap_cmds a) p = Some c /\ names_at (ap_cmds a) p = Some pth.
Proof. exact AppStateRestoreLemmas.help_target_has_position. Qed.
Print Assumptions help_target_has_position.

Theorem run_on_records : forall st a toks c pth o, help_pick (apply_state st a) toks = Ok (c, pth, o) ->
  exists p, help_target_pos (apply_state st a) toks = Some p /\ eff st a p = Some (b_lenient c).
Proof. exact AppStateRestoreLemmas.run_on_records. Qed.
Print Assumptions run_on_records.

(* what a collection holds under a name is the LAST sibling filed under it (and what walk / pick_default use) *)
Theorem collection_resolves_last : forall keep l n b, coll_get (coll_of (filter keep l)) n = Ok b ->
  exists i, last_named keep (b_name b) l = Some i /\ nth_error l i = Some b /\
            forall j c, i < j -> nth_error l j = Some c -> keep c && str_eqb (b_name c) (b_name b) = false.
Proof.
  intros keep l n b H. destruct (coll_get_pos keep l n b H) as (i & Hi & Hn). exists i. repeat split; [exact Hi|exact Hn|].
  exact (last_named_last keep (b_name b) l i Hi).
Qed.
Print Assumptions collection_resolves_last.

(* non-vacuity: a built application, a history with two help requests around a strict and a lenient command *)
Definition C17_COMMAND : str := [99;111;109;109;97;110;100]%N.       (* command *)
Definition C17_GRP : str := [103;114;112]%N.                          (* grp *)
Definition C17_STRICT : str := [115]%N.                               (* s *)
Definition C17_LOOSE : str := [108]%N.                                (* l *)
Definition C17_X : str := [120]%N.                                    (* x *)
Definition C17_EXTRA : str := [101;120;116;114;97]%N.                 (* extra *)
Definition c17_o_help : opt := {| o_long := S_help; o_short := Some [104%N]; o_flags := 4 + 2 + 128; o_default := VNone |}.
Definition c17_a_command : arg := {| a_name := C17_COMMAND; a_flags := 2 + 4 + 16; a_default := VList [] |}.
Definition c17_help : cmd := Cmd S_help [] true false true false [] [c17_a_command] [].
Definition c17_grp : cmd :=
  Cmd C17_GRP [] false false true false [] []
    [Cmd C17_STRICT [] false false true false [] [] [];      (* strict: an extra token is refused *)
     Cmd C17_LOOSE [] false false true true [] [] []].       (* lenient: an extra token is let through *)
Definition c17_cfg : appcfg := {| ac_opts := [c17_o_help]; ac_args := []; ac_cmds := [c17_help; c17_grp] |}.
Definition c17_history : list (list str) :=
  [[C17_GRP; C17_STRICT; C17_EXTRA]; [C17_GRP; C17_LOOSE; C17_EXTRA];
   [S_help; C17_GRP; C17_STRICT];                                       (* help request 1: the strict command *)
   [C17_GRP; C17_STRICT; C17_EXTRA];
   [C17_GRP; C17_LOOSE; T_help];                                        (* help request 2: the lenient command *)
   [C17_GRP; C17_LOOSE; C17_EXTRA]; [C17_GRP; C17_STRICT; C17_EXTRA]].

Example ex_runs_independent_built :
  match build_app c17_cfg with
  | Ok a =>
    map sm_action (runs_on [] a c17_history) =
      [AError CannotParse; AHandler [C17_GRP; C17_LOOSE];
       AHelpCmd [C17_GRP; C17_STRICT];
       AError CannotParse;
       AHelpCmd [C17_GRP; C17_LOOSE];
       AHandler [C17_GRP; C17_LOOSE]; AError CannotParse] /\
    (* both help requests did record an override, on the position of the command, and it is the effective value *)
    fst (run_on [] a [S_help; C17_GRP; C17_STRICT]) = [([1; 0], false)] /\
    fst (run_on [([1; 0], false)] a [C17_GRP; C17_LOOSE; T_help]) = [([1; 1], true); ([1; 0], false)] /\
    runs_on [] a c17_history = map (fun l => snd (run_on [] a l)) c17_history
  | Err _ => False
  end.
Proof. vm_compute. repeat split; reflexivity. Qed.
(* the same equation, from the theorem *)
Example ex_runs_independent_built_by_theorem : forall a, build_app c17_cfg = Ok a ->
  runs_on [] a c17_history = map (fun l => snd (run_on [] a l)) c17_history /\
  (forall st toks, restores_effective st a toks).
Proof.
  intros a Hb. split.
  - exact (runs_independent_built c17_cfg a c17_history Hb).
  - intros st toks. apply restores_effective_holds.
Qed.

(* Two sub-commands with the same name and different leniency (an override keyed by the name path would be shared):
   build_cmd keeps both; the named collection (walk) resolves "grp x" to the LAST one; the help request records its
   override on THAT command (position [1; 1]) and the first sibling (position [1; 0]) is never touched.  Observed on
   ConsoleApplication (grp{x strict, x lenient}): "grp x extra" is handled by the lenient command before and after
   "help grp x" and "grp x --help", and only the second CommandConfig ever leaves _lenient_args_parsing = None;
   with the siblings the other way round (x lenient, x strict) the line is refused before and after, and the strict
   configuration ends with False.  Both orders below. *)
Definition c17_dup_grp : cmd :=
  Cmd C17_GRP [] false false true false [] []
    [Cmd C17_X [] false false true false [] [] [];
     Cmd C17_X [] false false true true [] [] []].
Definition c17_dup_cfg : appcfg := {| ac_opts := [c17_o_help]; ac_args := []; ac_cmds := [c17_help; c17_dup_grp] |}.
Definition c17_dup_grp' : cmd :=
  Cmd C17_GRP [] false false true false [] []
    [Cmd C17_X [] false false true true [] [] [];
     Cmd C17_X [] false false true false [] [] []].
Definition c17_dup_cfg' : appcfg := {| ac_opts := [c17_o_help]; ac_args := []; ac_cmds := [c17_help; c17_dup_grp'] |}.
Definition c17_dup_history : list (list str) :=
  [[C17_GRP; C17_X; C17_EXTRA]; [S_help; C17_GRP; C17_X]; [C17_GRP; C17_X; C17_EXTRA];
   [C17_GRP; C17_X; T_help]; [C17_GRP; C17_X; C17_EXTRA]].

Example runs_independent_duplicate_subcommands :
  match build_app c17_dup_cfg with
  | Ok a =>
    map b_name (match nth_error (ap_cmds a) 1 with Some g => b_subs g | None => [] end) = [C17_X; C17_X] /\
    map sm_action (runs_on [] a c17_dup_history) =
      [AHandler [C17_GRP; C17_X]; AHelpCmd [C17_GRP; C17_X]; AHandler [C17_GRP; C17_X];
       AHelpCmd [C17_GRP; C17_X]; AHandler [C17_GRP; C17_X]] /\
    fst (run_on [] a [S_help; C17_GRP; C17_X]) = [([1; 1], true)] /\
    runs_on [] a c17_dup_history = map (fun l => snd (run_on [] a l)) c17_dup_history
  | Err _ => False
  end /\
  match build_app c17_dup_cfg' with
  | Ok a =>
    map sm_action (runs_on [] a c17_dup_history) =
      [AError CannotParse; AHelpCmd [C17_GRP; C17_X]; AError CannotParse;
       AHelpCmd [C17_GRP; C17_X]; AError CannotParse] /\
    fst (run_on [] a [S_help; C17_GRP; C17_X]) = [([1; 1], false)] /\
    runs_on [] a c17_dup_history = map (fun l => snd (run_on [] a l)) c17_dup_history
  | Err _ => False
  end.
Proof. vm_compute. repeat split; reflexivity. Qed.

(* the same for that application, from the theorem *)
Example restores_effective_duplicate_subcommands : forall a, build_app c17_dup_cfg = Ok a ->
  restores_effective [] a [S_help; C17_GRP; C17_X] /\
  apply_state (fst (run_on [] a [S_help; C17_GRP; C17_X])) a = apply_state [] a.
Proof. intros a _. split; [apply restores_effective_holds|apply leniency_restored_unconditional]. Qed.

(* one name, two different command objects: a default sub-command x (reached by "help grp") and a named one
   (reached by "help grp x") have the same name path [grp; x] - only the position tells them apart *)
Definition c17_two_grp : cmd :=
  Cmd C17_GRP [] false false true false [] []
    [Cmd C17_X [] true true true false [] [] [];             (* anonymous default, strict *)
     Cmd C17_X [] false false true true [] [] []].           (* named, lenient *)
Definition c17_two_cfg : appcfg := {| ac_opts := [c17_o_help]; ac_args := []; ac_cmds := [c17_help; c17_two_grp] |}.
Example same_names_two_positions :
  match build_app c17_two_cfg with
  | Ok a =>
    sm_action (snd (run_on [] a [S_help; C17_GRP])) = AHelpCmd [C17_GRP; C17_X] /\
    fst (run_on [] a [S_help; C17_GRP]) = [([1; 0], false)] /\
    sm_action (snd (run_on [] a [S_help; C17_GRP; C17_X])) = AHelpCmd [C17_GRP; C17_X] /\
    fst (run_on [] a [S_help; C17_GRP; C17_X]) = [([1; 1], true)]
  | Err _ => False
  end.
Proof. vm_compute. repeat split; reflexivity. Qed.

(* Handler arguments (Proofs/AppStateObsLemmas.v); one raw-arguments object run twice (proved here from its obs_on lemmas).
   obs_on: the summary of the run AND the arguments its handler is given (what the resolver parsed for the selected
   command on the application as the overrides make it). *)
From Clikit Require Import Proofs.AppStateObsLemmas.

(* "the same status, output and handler arguments as a freshly built application gives for that line" *)
Theorem runs_and_handler_arguments_independent : forall a lines,
  runs_obs_on [] a lines = map (fun l => snd (obs_on [] a l)) lines.
Proof. intros a lines. now apply runs_obs_independent_from. Qed.
Print Assumptions runs_and_handler_arguments_independent.
Theorem runs_and_handler_arguments_independent_from : forall a lines st, apply_state st a = apply_state [] a ->
  runs_obs_on st a lines = map (fun l => snd (obs_on [] a l)) lines.
Proof. exact runs_obs_independent_from. Qed.
Print Assumptions runs_and_handler_arguments_independent_from.

(* a run leaves the raw arguments it was handed as they were (the help resolver works on a copy) ... *)
Theorem raw_arguments_unaltered : forall x toks, raw_after false x toks = toks.
Proof. intros x toks. destruct x, toks; reflexivity. Qed.
Print Assumptions raw_arguments_unaltered.
(* ... so ONE raw-arguments object may be handed to run() again and again: every run gives what a fresh application gives
   for the line the object was made from *)
Theorem same_raw_arguments_object_reusable : forall a toks n st, apply_state st a = apply_state [] a ->
  snd (run_same false n st a toks) = repeat (toks, snd (obs_on [] a toks)) n /\
  apply_state (fst (run_same false n st a toks)) a = apply_state [] a.
Proof.
  intros a toks. induction n as [|n IH]; intros st Hst; cbn [run_same repeat]; [split; [reflexivity|exact Hst]|].
  pose proof (obs_on_same_state st [] a toks Hst) as Ho. pose proof (obs_on_keeps st a toks) as Hk.
  destruct (obs_on st a toks) as [st1 o]. cbn [fst snd] in *. rewrite raw_arguments_unaltered.
  assert (H1 : apply_state st1 a = apply_state [] a) by congruence.
  destruct (IH st1 H1) as [Hs Hf]. destruct (run_same false n st1 a toks) as [st2 r]. cbn [fst snd] in *.
  split; [rewrite Ho, Hs; reflexivity|exact Hf].
Qed.
Print Assumptions same_raw_arguments_object_reusable.
Theorem histories_of_doubled_runs_independent : forall a lines st, apply_state st a = apply_state [] a ->
  runs_twice_on false st a lines = flat_map (fun l => [(l, snd (obs_on [] a l)); (l, snd (obs_on [] a l))]) lines.
Proof.
  intros a. induction lines as [|l r IH]; intros st Hst; cbn [runs_twice_on flat_map]; [reflexivity|].
  destruct (same_raw_arguments_object_reusable a l 2 st Hst) as [Hs Hf]. destruct (run_same false 2 st a l) as [st' os]. cbn [fst snd] in *.
  rewrite Hs. cbn [repeat app]. do 2 f_equal. apply IH. exact Hf.
Qed.
Print Assumptions histories_of_doubled_runs_independent.
(* with the deletion in place (the code before the repair) it is false: "help go" twice = help page, then go RUNS *)
Example raw_arguments_reuse_refuted_before_the_repair :
  match build_app RawArgsExample.cfg with
  | Ok a => map (fun to => (fst to, sm_action (fst (snd to)))) (snd (run_same true 2 [] a [S_help; RawArgsExample.s_go]))
            = [([S_help; RawArgsExample.s_go], AHelpCmd [RawArgsExample.s_go]); ([RawArgsExample.s_go], AHandler [RawArgsExample.s_go])]
  | Err _ => False
  end.
Proof. exact RawArgsExample.reuse_refuted_in_place. Qed.

(* Table styles: objects on a heap (Proofs/AppStateStyleLemmas.v).
   A TableStyle holds a REFERENCE to a BorderStyle object; the BorderStyle presets live in class attributes and are handed
   out as copies; borderless() / compact() edit the object they got; customisations assign through the reference.  The
   heap semantics (style_run false world0) shows, style by style, what the specification shows in which every style is a
   value of its own and an operation naming style i rewrites element i and nothing else (spec_run). *)
From Clikit Require Import Proofs.AppStateStyleLemmas.

Theorem heap_of_styles_refines_values : forall ops,
  views (fst (style_run false world0 ops)) = map Some (spec_run [] ops).
Proof. intros ops. apply inv_views_all, style_run_inv, inv_world0. Qed.
Print Assumptions heap_of_styles_refines_values.
(* "creating or customising one style object never changes how a table built with another renders": after any sequence
   of operations, an operation that does not name the existing style i (creating a style, customising another through any
   field or through its border reference, rendering) leaves what a rendering of i reads unchanged *)
Theorem styles_independent : forall ops o i,
  let w := fst (style_run false world0 ops) in
  i < length (w_styles w) -> names o <> Some i ->
  view_of (fst (style_step false w o)) i = view_of w i.
Proof.
  cbv zeta. intros ops o i Hi Hn.
  pose proof (style_run_inv ops world0 [] inv_world0) as I1. pose proof (style_step_inv _ _ o I1) as I2.
  destruct I1 as [Hl1 Hv1 _ _ _]. destruct I2 as [Hl2 Hv2 _ _ _]. rewrite Hl1 in Hi.
  rewrite Hv1 by exact Hi. rewrite <- (spec_step_other _ o i Hi Hn). apply Hv2.
  exact (Nat.lt_le_trans _ _ _ Hi (spec_step_length _ o)).
Qed.
Print Assumptions styles_independent.
(* with the presets handed out WITHOUT a copy (before fix 30a48a0) the refinement is false: borderless(), compact() *)
Example styles_independent_refuted_without_the_copy :
  nth_error (views (fst (style_run true world0 [SMk PBorderless; SMk PCompact]))) 0
  <> nth_error (map Some (spec_run [] [SMk PBorderless; SMk PCompact])) 0.
Proof. exact styles_shared_refuted. Qed.
