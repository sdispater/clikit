(* C13 - help pages: rendering succeeds, the page lists every visible command, argument and option (own and inherited,
   under the preferred and the alternative name) and never a hidden or disabled command, no line is wider than the
   terminal, and "help <path>" shows the page of "<path> --help".

   Model/Wrap.v is textwrap.wrap, Model/Help.v the elements ApplicationHelp / CommandHelp put on the block layout
   (command_page, application_page) and their rendering (render_page); both are compared with the real code on every
   run of the harness.  A layout is a list of (indentation, element); an element is a paragraph, a labelled
   paragraph (label, text, padding, aligned) or an empty line. *)
From Coq Require Import Lia Permutation Sorted.
From Clikit Require Import Base.Prelude Base.Res Model.Conv Model.Flags Model.Format Model.Markup Model.Wrap Model.Help.
From Clikit Require Import Proofs.WrapLemmas Proofs.HelpLemmas.

(* Textwrap.wrap.  For EVERY text and every width >= 1 wrapping succeeds (the loop of the model never runs out of its fuel) ... *)
Theorem wrap_total : forall text w, (1 <= w)%Z -> exists ls, wrap text w = Ok ls.
Proof. exact wrap_total_lemma. Qed.
Print Assumptions wrap_total.
(* ... and a width below 1 is the only way to fail: ValueError, as textwrap raises. *)
Theorem wrap_value_error : forall text w, wrap text w = Err ValueError <-> (w <= 0)%Z.
Proof. exact wrap_value_error_lemma. Qed.
Print Assumptions wrap_value_error.
(* No line is longer than the width, ... *)
Theorem wrap_lines_fit : forall text w ls, wrap text w = Ok ls -> Forall (fun l => (Z.of_nat (length l) <= w)%Z) ls.
Proof. exact wrap_lines_fit_lemma. Qed.
Print Assumptions wrap_lines_fit.
(* ... none is empty and none holds a newline. *)
Theorem wrap_lines_nonempty : forall text w ls, wrap text w = Ok ls -> Forall (fun l => l <> []) ls.
Proof.
  intros text w ls H. apply wrap_ok_chunks in H. destruct H as [_ H].
  apply wrap_chunks_ne in H; [exact H|apply chunks_ne|constructor].
Qed.
Print Assumptions wrap_lines_nonempty.
Theorem wrap_lines_no_newline : forall text w ls, wrap text w = Ok ls -> Forall (Forall (fun c => c <> 10%N)) ls.
Proof. exact wrap_lines_no_newline_lemma. Qed.
Print Assumptions wrap_lines_no_newline.
(* Wrapping drops or keeps white space and nothing else: without the white-space characters (str.isspace) the lines
   spell the text, in order.  (With "space" = U+0020 only this is FALSE: see wrap_drops_nbsp below.) *)
Theorem wrap_keeps_text : forall text w ls, wrap text w = Ok ls ->
  filter (fun c => negb (is_space c)) (concat ls) = filter (fun c => negb (is_space c)) (munge text).
Proof. exact wrap_keeps_text_lemma. Qed.
Print Assumptions wrap_keeps_text.

Definition ex_text : str := [104;101;108;108;111;32;119;111;114;108;100;44;32;97;32;119;101;108;108;45;107;110;111;119;110;32;116;101;120;116]%N.   (* hello world, a well-known text *)
Example wrap_example : wrap ex_text 9 =
  Ok [[104;101;108;108;111]; [119;111;114;108;100;44;32;97]; [119;101;108;108;45]; [107;110;111;119;110]; [116;101;120;116]]%N.
Proof. vm_compute. reflexivity. Qed.
(* "abc <NBSP> abcd" at width 5: the no-break space is a chunk of its own, blank for str.strip(), dropped at the end of
   the line - and the space before it stays *)
Example wrap_drops_nbsp : wrap [97;98;99;32;160;32;97;98;99;100]%N 5 = Ok [[97;98;99;32]; [97;98;99;100]]%N.
Proof. vm_compute. reflexivity. Qed.

(* What a page lists.  A command page, for EVERY configuration: every argument of the chain (own and inherited) and every option (own:
   OPTIONS, of the bases: GLOBAL OPTIONS) is on the page at indentation 2; every enabled, named, non-hidden sub-command
   contributes its whole block: its name at indentation 2, its arguments and options at indentation 4. *)
Theorem command_page_complete : forall sty app_name ch aliases help subs,
  let page := command_page sty app_name ch aliases help subs in
  (forall a, In a (chain_args ch) -> In (2, render_argument a) page)
  /\ (forall h, In h (own_opts ch) -> In (2, render_option h) page)
  /\ (forall h, In h (base_opts ch) -> In (2, render_option h) page)
  /\ (forall s, In s subs -> sb_enabled s = true -> sb_anonymous s = false -> sb_hidden s = false ->
        incl (sub_block s) page
        /\ In (2, EPara (u_tag (sb_name s))) page
        /\ (forall a, In a (sb_args s) -> In (4, render_argument a) page)
        /\ (forall h, In h (sb_opts s) -> In (4, render_option h) page)).
Proof. exact command_page_complete_lemma. Qed.
Print Assumptions command_page_complete.
(* own and inherited, said per level of the chain (application, command, sub-command ...) *)
Theorem command_page_inherited : forall sty app_name ch aliases help subs l, In l ch ->
  (forall a, In a (lv_args l) -> In (2, render_argument a) (command_page sty app_name ch aliases help subs))
  /\ (forall h, In h (lv_opts l) -> In (2, render_option h) (command_page sty app_name ch aliases help subs)).
Proof. exact HelpLemmas.command_page_inherited. Qed.
Print Assumptions command_page_inherited.
(* the block of a sub-command also carries its description and help text *)
Theorem sub_block_complete : forall s,
  In (2, EPara (u_tag (sb_name s))) (sub_block s)
  /\ (forall a, In a (sb_args s) -> In (4, render_argument a) (sub_block s))
  /\ (forall h, In h (sb_opts s) -> In (4, render_option h) (sub_block s))
  /\ (forall d, nonempty_opt (sb_desc s) = Some d -> In (4, EPara d) (sub_block s))
  /\ (forall d, nonempty_opt (sb_help s) = Some d -> In (4, EPara d) (sub_block s)).
Proof. exact sub_block_lists. Qed.
Print Assumptions sub_block_complete.

(* The label of an option spells the preferred name in the c1 style, then the alternative name in brackets;
   the label of an argument spells <name>. *)
Theorem render_option_names : forall h,
  elem_label (render_option h) =
  if bit (o_flags (h_o h)) 0      (* PREFER_LONG_NAME *)
  then C1 ++ (DASH :: DASH :: o_long (h_o h)) ++ C1E ++
       match o_short (h_o h) with Some s => [32; 40]%N ++ (DASH :: s) ++ [41]%N | None => [] end
  else C1 ++ (DASH :: match o_short (h_o h) with Some s => s | None => [] end) ++ C1E ++
       [32; 40]%N ++ (DASH :: DASH :: o_long (h_o h)) ++ [41]%N.
Proof. exact render_option_names_lemma. Qed.
Print Assumptions render_option_names.
Theorem render_argument_name : forall a,
  elem_label (render_argument a) = C1 ++ [60%N] ++ C1E ++ C1 ++ a_name (h_a a) ++ [62%N] ++ C1E.
Proof. exact render_argument_name_lemma. Qed.
Print Assumptions render_argument_name.

(* A synopsis joins one part per option - "[" preferred name ... "]" - and one or two per argument - <name> - with
   spaces: every part is in the list joined, hence a piece of the text. *)
Theorem synopsis_lists_all : forall sty app_name names opts args prefix lo,
  let t := elem_text (synopsis sty app_name names opts args prefix lo) in
  t = join_with 32%N (syn_parts sty opts args)
  /\ (forall h, In h opts -> In (syn_opt_part sty h) (syn_parts sty opts args) /\ infix_of (syn_opt_part sty h) t
                 /\ exists tail, syn_opt_part sty h = [91%N] ++ fst (opt_preferred (h_o h)) ++ tail)
  /\ (forall a, In a args -> exists p, In p (syn_arg_parts sty a) /\ infix_of ([60%N] ++ a_name (h_a a)) p
                 /\ In p (syn_parts sty opts args) /\ infix_of p t).
Proof.
  intros sty app_name names opts args prefix lo. cbv zeta.
  destruct (synopsis_lists_all_lemma sty app_name names opts args prefix lo) as [Ho Ha]. cbv zeta in Ho, Ha.
  split; [apply synopsis_text|]. split.
  - intros h Hh. destruct (Ho h Hh). repeat split; auto. apply syn_opt_part_name.
  - intros a Hin. destruct (syn_arg_part_name sty a) as (p & Hp & Hn). exists p. destruct (Ha a p Hin Hp). auto.
Qed.
Print Assumptions synopsis_lists_all.

(* USAGE holds one synopsis per usage entry (the names spelled, the options, the arguments).  The entries are: the
   command itself when it has no enabled default sub-command, else its enabled default sub-commands - HIDDEN OR NOT:
   the code prints a hidden default sub-command in USAGE -, then the enabled, non-hidden, non-default sub-commands. *)
Theorem usage_complete : forall sty app_name ch aliases help subs,
  (forall names opts args lo, In ((names, opts, args), lo) (usage_entries ch subs) ->
     exists prefix, In (2, synopsis sty app_name names opts args prefix lo) (command_page sty app_name ch aliases help subs))
  /\ ((forall s, In s subs -> sb_enabled s = true -> sb_default s = false) -> In (own_fmt ch, false) (usage_entries ch subs))
  /\ (forall s, In s subs -> sb_enabled s = true -> sb_default s = true ->
        In (sub_fmt ch s, negb (sb_anonymous s)) (usage_entries ch subs))
  /\ (forall s, In s subs -> sb_enabled s = true -> sb_default s = false -> sb_hidden s = false ->
        In (sub_fmt ch s, false) (usage_entries ch subs)).
Proof.
  intros sty app_name ch aliases help subs. split; [intros; now apply command_page_usage|].
  split; [|split; [apply usage_lists_defaults|apply usage_lists_visible]].
  intros H. unfold usage_entries. apply in_or_app. left.
  destruct (filter sb_default (filter sb_enabled subs)) as [|d ds] eqn:E; [left; reflexivity|].
  assert (Hd : In d (filter sb_default (filter sb_enabled subs))) by (rewrite E; left; reflexivity).
  apply filter_In in Hd. destruct Hd as [Hd1 Hd2]. apply filter_In in Hd1. destruct Hd1 as [Hd0 Hd1].
  rewrite (H d Hd0 Hd1) in Hd2. discriminate.
Qed.
Print Assumptions usage_complete.
(* ... and nothing else: an entry is the command's own or that of an enabled sub-command that is default or not hidden *)
Theorem usage_entries_origin : forall ch subs e, In e (usage_entries ch subs) ->
  (e = (own_fmt ch, false) /\ (forall s, In s subs -> sb_enabled s = true -> sb_default s = false))
  \/ exists s, In s subs /\ sb_enabled s = true /\ (sb_default s = true \/ sb_hidden s = false) /\ fst e = sub_fmt ch s.
Proof. exact usage_entry_origin. Qed.
Print Assumptions usage_entries_origin.

(* The application page: every global option, the two built-in arguments, the synopsis, and every enabled, named,
   non-hidden command under the label <c1>name</c1> at indentation 2. *)
Theorem application_page_complete : forall sty app_name display version gopts cmds help,
  let page := application_page sty app_name display version gopts cmds help in
  (forall h, In h gopts -> In (2, render_option h) page)
  /\ In (2, render_argument the_command_arg) page /\ In (2, render_argument the_arg_arg) page
  /\ In (2, synopsis sty app_name [] gopts [the_command_arg; the_arg_arg] [] false) page
  /\ (forall c, In c cmds -> ac_enabled c && negb (ac_anonymous c) && negb (ac_hidden c) = true ->
        In (2, ELab (C1 ++ ac_name c ++ C1E) (ac_desc c) 2 true) page).
Proof. exact application_page_complete_lemma. Qed.
Print Assumptions application_page_complete.

(* What a page never lists.  The command page is  before ++ COMMANDS section ++ after; the section is its header and the blocks of the sub-commands
   L, where L is a permutation of the enabled, named, non-hidden sub-commands (each as often as configured: once),
   sorted by name; the lines of the section at indentation 2 are exactly the names of L. *)
Theorem hidden_never_listed : forall sty app_name ch aliases help subs,
  command_page sty app_name ch aliases help subs =
    command_page_before sty app_name ch aliases subs ++ commands_section subs ++ command_page_after ch help
  /\ commands_section subs =
     match named_subs subs with [] => [] | _ => (0, EPara H_COMMANDS) :: flat_map sub_block (listed_subs subs) end
  /\ Permutation (listed_subs subs) (filter visible subs)
  /\ StronglySorted (fun a b => str_leb (sb_name a) (sb_name b) = true) (listed_subs subs)
  /\ filter (fun x => Nat.eqb (fst x) 2) (commands_section subs) = map (fun s => (2, EPara (u_tag (sb_name s)))) (listed_subs subs).
Proof.
  intros. split; [apply command_page_decomposes|]. split; [reflexivity|]. split; [apply listed_subs_perm|].
  split; [apply listed_subs_sorted|apply commands_section_names].
Qed.
Print Assumptions hidden_never_listed.
(* hence a name line in the section belongs to an enabled, named, non-hidden sub-command *)
Theorem hidden_never_listed_names : forall subs s, In (2, EPara (u_tag (sb_name s))) (commands_section subs) ->
  exists s', In s' subs /\ sb_name s' = sb_name s /\ sb_enabled s' = true /\ sb_anonymous s' = false /\ sb_hidden s' = false.
Proof.
  intros subs s H.
  assert (H2 : In (2, EPara (u_tag (sb_name s))) (at_indent 2 (commands_section subs))) by (apply filter_In; split; [exact H|reflexivity]).
  rewrite commands_section_names in H2. apply in_map_iff in H2. destruct H2 as (s' & E & Hs').
  apply listed_subs_in in Hs'. destruct Hs' as [Hin Hv]. exists s'. split; [exact Hin|].
  unfold visible in Hv. apply andb_prop in Hv. destruct Hv as [Hv H3]. apply andb_prop in Hv. destruct Hv as [H1 H2].
  apply negb_true_iff in H2, H3. unfold u_tag in E. injection E as E. apply app_inv_tail in E. auto.
Qed.
Print Assumptions hidden_never_listed_names.
(* The same for AVAILABLE COMMANDS of the application page. *)
Theorem hidden_never_listed_app : forall sty app_name display version gopts cmds help,
  application_page sty app_name display version gopts cmds help =
    application_page_before sty app_name display version gopts ++ available_section cmds ++ description_block help
  /\ available_section cmds =
     match named_cmds cmds with [] => [] | _ => (0, EPara H_AVAILABLE) :: map cmd_line (listed_cmds cmds) ++ [(0, EEmpty)] end
  /\ Permutation (listed_cmds cmds) (filter cmd_visible cmds)
  /\ StronglySorted (fun a b => str_leb (ac_name a) (ac_name b) = true) (listed_cmds cmds)
  /\ (forall name text padding aligned, In (2, ELab (C1 ++ name ++ C1E) text padding aligned) (available_section cmds) ->
        exists c, In c cmds /\ ac_name c = name /\ ac_enabled c = true /\ ac_anonymous c = false /\ ac_hidden c = false).
Proof.
  intros. split; [apply application_page_decomposes|]. split; [reflexivity|]. split; [apply listed_cmds_perm|].
  split; [apply listed_cmds_sorted|apply hidden_never_listed_app_lemma].
Qed.
Print Assumptions hidden_never_listed_app.

(* Width.  render_elem hands the formatter the text  elem_raw W off ind vis e,  vis being the visible width of the label (what
   remove_format leaves of it); apart from the formatter it fails only when there is no room to wrap: *)
Theorem render_elem_ok : forall W off f ind e,
  match e with
  | ELab label _ _ _ => forall x, remove_format f label = Ok x -> (1 <= wrap_width W off ind (zlen (snd x)) e)%Z ->
      exists raw, elem_raw W off ind (zlen (snd x)) e = Ok raw /\ render_elem W off f ind e = emit (fst x) raw
  | _ => (match e with EEmpty => True | _ => (1 <= wrap_width W off ind 0 e)%Z end) ->
      exists raw, elem_raw W off ind 0 e = Ok raw /\ render_elem W off f ind e = emit f raw
  end.
Proof. exact render_elem_ok_lemma. Qed.
Print Assumptions render_elem_ok.
(* For EVERY element, formatter result (vis), alignment offset and width: the text ends with a newline; of its lines the
   first is at most W - 1 long plus the invisible part of the label (zlen label - vis: the markup the formatter
   removes), every other one at most W - 1; a paragraph has all lines within W - 1.  (elem_raw = Ok already says the
   wrap width is >= 1.)  The label is on one line. *)
Theorem page_fits : forall W off ind vis e raw,
  elem_raw W off ind vis e = Ok raw -> (1 <= W)%Z -> (0 <= vis)%Z -> no_nl (elem_label e) ->
  exists body, raw = body ++ [10%N]
    /\ (zlen (hd [] (split_on 10%N body)) <= match e with ELab label _ _ _ => W - 1 + (zlen label - vis) | _ => W - 1 end)%Z
    /\ Forall (fun l => (zlen l <= W - 1)%Z) (tl (split_on 10%N body)).
Proof.
  intros W off ind vis e raw H HW Hv Hl. destruct (elem_raw_fits _ _ _ _ _ _ H HW Hv Hl) as (body & E & Hok).
  exists body. split; [exact E|exact (okr_split _ _ _ Hok)].
Qed.
Print Assumptions page_fits.
(* The null formatter writes the text as it is: no line of the page is wider than W - 1 ... *)
Theorem page_fits_null : forall W f l s, f_kind f = FNull -> (1 <= W)%Z -> one_line_labels l ->
  render_page W f l = Ok s -> Forall (fun ln => (zlen ln <= W - 1)%Z) (split_on 10%N s).
Proof.
  intros W f l s Hf HW Hl H. unfold render_page in H. rewrite (align_null _ Hf) in H. cbn [bind fst snd] in H.
  destruct (render_all W (align_off l 0) f l []) as [x|k] eqn:E; [|discriminate]. injection H as <-. apply lines_within_split; [lia|].
  eapply (render_all_fits W _ (fun f => f_kind f = FNull)); [intros f0 i e y; apply render_elem_null_fits, HW|exact Hf|exact Hl|exact E|now left].
Qed.
Print Assumptions page_fits_null.
(* ... and rendering succeeds on any terminal leaving room for one character behind every indentation and label
   (needed_width: the largest of  indentation + label column + 2;  the label column is the alignment offset). *)
Theorem page_renders_null : forall W f l, f_kind f = FNull -> (needed_width l <= W)%Z -> exists s, render_page W f l = Ok s.
Proof.
  intros W f l Hf HW. unfold render_page. rewrite (align_null _ Hf). cbn [bind fst snd].
  destruct (render_all_null_ok W (align_off l 0) f Hf l []) as [y ->]; [|cbn [bind]; eauto].
  apply fold_max_bound. exact HW.
Qed.
Print Assumptions page_renders_null.
(* Both, for the help pages of EVERY configuration whose names hold no newline. *)
Theorem command_help_renders_and_fits : forall W f sty app_name ch aliases help subs,
  f_kind f = FNull ->
  (match app_name with Some n => no_nl n | None => True end) -> Forall no_nl (chain_names ch) ->
  Forall arg_one_line (chain_args ch) -> Forall opt_one_line (own_opts ch) -> Forall opt_one_line (base_opts ch) ->
  Forall sub_one_line subs ->
  (needed_width (command_page sty app_name ch aliases help subs) <= W)%Z ->
  exists s, render_page W f (command_page sty app_name ch aliases help subs) = Ok s
            /\ Forall (fun ln => (zlen ln <= W - 1)%Z) (split_on 10%N s).
Proof.
  intros W f sty app_name ch aliases help subs Hf H1 H2 H3 H4 H5 H6 HW.
  destruct (page_renders_null W f _ Hf HW) as [s Hs]. exists s. split; [exact Hs|].
  eapply page_fits_null; [exact Hf| |apply command_page_one_line; eassumption|exact Hs].
  pose proof (needed_width_pos (command_page sty app_name ch aliases help subs)). lia.
Qed.
Print Assumptions command_help_renders_and_fits.
Theorem application_help_renders_and_fits : forall W f sty app_name display version gopts cmds help,
  f_kind f = FNull ->
  (match app_name with Some n => no_nl n | None => True end) -> Forall opt_one_line gopts ->
  Forall (fun c => no_nl (ac_name c)) cmds ->
  (needed_width (application_page sty app_name display version gopts cmds help) <= W)%Z ->
  exists s, render_page W f (application_page sty app_name display version gopts cmds help) = Ok s
            /\ Forall (fun ln => (zlen ln <= W - 1)%Z) (split_on 10%N s).
Proof.
  intros W f sty app_name display version gopts cmds help Hf H1 H2 H3 HW.
  destruct (page_renders_null W f _ Hf HW) as [s Hs]. exists s. split; [exact Hs|].
  eapply page_fits_null; [exact Hf| |apply application_page_one_line; eassumption|exact Hs].
  pose proof (needed_width_pos (application_page sty app_name display version gopts cmds help)). lia.
Qed.
Print Assumptions application_help_renders_and_fits.
(* With ANY formatter, rendering a page never fails otherwise than with ValueError (markup the formatter refuses in a
   configured text, or a terminal too narrow to wrap): never a TypeError / IndexError ... *)
Theorem render_error_kind : forall W f l k, render_page W f l = Err k -> k = ValueError.
Proof.
  intros W f l k H. assert (Hv : only_ve (render_page W f l)).
  { unfold render_page. apply bind_ve; [apply align_ve|]. intros a. apply bind_ve; [apply render_all_ve|intros; exact I]. }
  rewrite H in Hv. exact Hv.
Qed.
Print Assumptions render_error_kind.

(* examples: the hypotheses above are met *)
Definition FORCE : str := ([102;111;114;99;101]%N).   (* force *)
Definition LEVEL : str := ([108;101;118;101;108]%N).   (* level *)
Definition FILE : str := ([102;105;108;101]%N).   (* file *)
Definition RUN : str := ([114;117;110]%N).   (* run *)
Definition SECRET : str := ([115;101;99;114;101;116]%N).   (* secret *)
Definition OLD : str := ([111;108;100]%N).   (* old *)
Definition ADD : str := ([97;100;100]%N).   (* add *)
Definition SERVER : str := ([115;101;114;118;101;114]%N).   (* server *)
Definition APP : str := ([97;112;112]%N).   (* app *)
Definition SRV : str := ([115;114;118]%N).   (* srv *)
Definition DESC_FORCE : str := ([70;111;114;99;101;32;116;104;101;32;111;112;101;114;97;116;105;111;110;32;101;118;101;110;32;119;104;101;110;32;116;104;101;32;116;97;114;103;101;116;32;101;120;105;115;116;115;32;97;108;114;101;97;100;121]%N).   (* Force the operation even when the target exists already *)
Definition DESC_FILE : str := ([84;104;101;32;102;105;108;101;32;116;111;32;114;101;97;100;44;32;100;101;115;99;114;105;98;101;100;32;97;116;32;115;111;109;101;32;108;101;110;103;116;104;32;115;111;32;116;104;97;116;32;116;104;101;32;116;101;120;116;32;104;97;115;32;116;111;32;98;101;32;119;114;97;112;112;101;100]%N).   (* The file to read, described at some length so that the text has to be wrapped *)
Definition DESC_SUB : str := ([68;111;101;115;32;115;111;109;101;116;104;105;110;103;32;117;115;101;102;117;108]%N).   (* Does something useful *)
Definition ex_force : hopt :=
  {| h_o := {| o_long := FORCE; o_short := Some ([102]%N); o_flags := 5; o_default := VNone |};
     h_odesc := Some DESC_FORCE; h_vname := ([46;46;46]%N) |}.
Definition ex_level : hopt :=       (* short name preferred, a value with a default *)
  {| h_o := {| o_long := LEVEL; o_short := Some ([108]%N); o_flags := 8 + 512; o_default := VInt 3 |};
     h_odesc := None; h_vname := LEVEL |}.
Definition ex_file : harg := {| h_a := {| a_name := FILE; a_flags := 1; a_default := VNone |}; h_adesc := Some DESC_FILE |}.
Definition ex_sub (name : str) (hidden enabled : bool) : sub :=
  {| sb_name := name; sb_default := false; sb_anonymous := false; sb_enabled := enabled; sb_hidden := hidden;
     sb_desc := Some DESC_SUB; sb_help := None; sb_opts := [ex_level]; sb_args := [ex_file] |}.
Definition ex_subs : list sub := [ex_sub RUN false true; ex_sub SECRET true true; ex_sub OLD false false; ex_sub ADD false true].
Definition ex_chain : list level :=
  [{| lv_name := None; lv_opts := [ex_level]; lv_args := [] |}; {| lv_name := Some SERVER; lv_opts := [ex_force]; lv_args := [ex_file] |}].
Definition ex_page : layout := command_page [] (Some APP) ex_chain [SRV] (Some DESC_FILE) ex_subs.
Definition ex_null : formatter := {| f_kind := FNull; f_styles := []; f_stack := [] |}.

(* the visible sub-commands are listed, sorted; the hidden and the disabled one are not *)
Example ex_listed : filter (fun x => Nat.eqb (fst x) 2) (commands_section ex_subs) = [(2, EPara (u_tag ADD)); (2, EPara (u_tag RUN))].
Proof. vm_compute. reflexivity. Qed.
Example ex_visible : map sb_name (filter visible ex_subs) = [RUN; ADD].
Proof. vm_compute. reflexivity. Qed.
Example ex_complete : In (2, render_option ex_force) ex_page /\ In (2, render_option ex_level) ex_page
  /\ In (2, render_argument ex_file) ex_page /\ In (4, render_option ex_level) ex_page.
Proof.
  destruct (command_page_complete [] (Some APP) ex_chain [SRV] (Some DESC_FILE) ex_subs) as (A & O & B & S).
  destruct (S (ex_sub RUN false true) (or_introl eq_refl) eq_refl eq_refl eq_refl) as (_ & _ & _ & SO).
  repeat split; [apply O|apply B|apply A|apply SO]; left; reflexivity.
Qed.
Example ex_labels : elem_label (render_option ex_force) = C1 ++ ([45;45]%N) ++ FORCE ++ C1E ++ ([32;40;45;102;41]%N)
  /\ elem_label (render_option ex_level) = C1 ++ ([45;108]%N) ++ C1E ++ ([32;40;45;45]%N) ++ LEVEL ++ ([41]%N).
Proof. vm_compute. split; reflexivity. Qed.
(* a hidden default sub-command is printed in USAGE, not under COMMANDS *)
Definition ex_hidden_default : sub :=
  {| sb_name := SECRET; sb_default := true; sb_anonymous := false; sb_enabled := true; sb_hidden := true;
     sb_desc := None; sb_help := None; sb_opts := []; sb_args := [] |}.
Example ex_usage_hidden_default :
  usage_entries ex_chain [ex_hidden_default] = [(([SERVER; SECRET], [], [ex_file]), true)]
  /\ commands_section [ex_hidden_default] = [(0, EPara H_COMMANDS)].
Proof. vm_compute. split; reflexivity. Qed.
(* the page needs 44 columns: it renders at 44, wraps (more lines than elements) with every line within 43, and fails at 43 *)
Example ex_needed_width : needed_width ex_page = 44%Z.
Proof. vm_compute. reflexivity. Qed.
Example ex_one_line : one_line_labels ex_page.
Proof.
  apply command_page_one_line; cbn; repeat constructor; try nl_char.
Qed.
(* page_renders_null and page_fits_null in the terms of the examples; every element ends its line, so a page has more lines
   than elements *)
Lemma null_page_renders : forall W n f l, f_kind f = FNull -> (needed_width l <= W)%Z -> one_line_labels l -> (W - 1 <= Z.of_nat n)%Z ->
  match render_page W f l with
  | Ok s => forallb (fun ln => Nat.leb (length ln) n) (split_on 10%N s) && Nat.ltb (length l) (length (split_on 10%N s))
  | Err _ => false end = true.
Proof.
  intros W n f l Hf HW Hl Hn. destruct (page_renders_null W f l Hf HW) as [s Hs]. rewrite Hs. apply andb_true_intro. split.
  - pose proof (needed_width_pos l) as H1. pose proof (page_fits_null W f l s Hf ltac:(lia) Hl Hs) as Hfit.
    apply forallb_forall. intros ln Hin. rewrite Forall_forall in Hfit. specialize (Hfit ln Hin). unfold zlen in Hfit. apply Nat.leb_le. lia.
  - apply Nat.ltb_lt. exact (null_page_lines W f l s Hf Hs).
Qed.
Example ex_renders : match render_page 44 ex_null ex_page with
                     | Ok s => forallb (fun l => Nat.leb (length l) 43) (split_on 10%N s) && Nat.ltb (length ex_page) (length (split_on 10%N s))
                     | Err _ => false end = true.
Proof. apply null_page_renders; [reflexivity|rewrite ex_needed_width; lia|exact ex_one_line|lia]. Qed.
Example ex_too_narrow : render_page 43 ex_null ex_page = Err ValueError.
Proof. vm_compute. reflexivity. Qed.

(* one labelled paragraph at width 30, label column 14, the label 21 characters of which 12 are visible: the first line may
   be 29 + 9 long (it is 34), the others 29 (two of them are) *)
Example ex_elem_raw :
  match elem_raw 30 14 2 12 (render_option ex_force) with
  | Ok raw => map (@length N) (split_on 10%N raw) = [34; 25; 29; 29; 23; 0]
  | Err _ => False end.
Proof. vm_compute. reflexivity. Qed.
Example ex_sub_description : In (4, EPara DESC_SUB) ex_page.
Proof.
  destruct (command_page_complete [] (Some APP) ex_chain [SRV] (Some DESC_FILE) ex_subs) as (_ & _ & _ & S).
  destruct (S (ex_sub RUN false true) (or_introl eq_refl) eq_refl eq_refl eq_refl) as (Hb & _).
  destruct (sub_block_complete (ex_sub RUN false true)) as (_ & _ & _ & D & _). exact (Hb _ (D DESC_SUB eq_refl)).
Qed.
(* an application page: a visible, a hidden, a disabled and another visible command *)
Definition ex_cmds : list appcmd :=
  [{| ac_name := SERVER; ac_anonymous := false; ac_enabled := true; ac_hidden := false; ac_desc := DESC_SUB |};
   {| ac_name := SECRET; ac_anonymous := false; ac_enabled := true; ac_hidden := true; ac_desc := DESC_SUB |};
   {| ac_name := OLD; ac_anonymous := false; ac_enabled := false; ac_hidden := false; ac_desc := DESC_SUB |};
   {| ac_name := ADD; ac_anonymous := false; ac_enabled := true; ac_hidden := false; ac_desc := DESC_FILE |}].
Definition ex_app_page : layout :=
  application_page [] (Some APP) (Some APP) (Some ([49;46;50]%N)) [ex_force; ex_level] ex_cmds (Some DESC_FILE).
Example ex_available :
  map (fun x => elem_label (snd x)) (filter (fun x => Nat.eqb (fst x) 2) (available_section ex_cmds)) = [C1 ++ ADD ++ C1E; C1 ++ SERVER ++ C1E].
Proof. vm_compute. reflexivity. Qed.
Example ex_app_complete : In (2, render_option ex_force) ex_app_page /\ In (2, ELab (C1 ++ ADD ++ C1E) DESC_FILE 2 true) ex_app_page.
Proof.
  destruct (application_page_complete [] (Some APP) (Some APP) (Some ([49;46;50]%N)) [ex_force; ex_level] ex_cmds (Some DESC_FILE)) as (O & _ & _ & _ & C).
  split; [apply O; left; reflexivity|].
  apply (C {| ac_name := ADD; ac_anonymous := false; ac_enabled := true; ac_hidden := false; ac_desc := DESC_FILE |}); [do 3 right; left|]; reflexivity.
Qed.
Example ex_app_needed_width : needed_width ex_app_page = 33%Z.
Proof. vm_compute. reflexivity. Qed.
Example ex_app_one_line : one_line_labels ex_app_page.
Proof. apply application_page_one_line; cbn; repeat constructor; try nl_char. Qed.
Example ex_app_renders : match render_page 33 ex_null ex_app_page with
                         | Ok s => forallb (fun l => Nat.leb (length l) 32) (split_on 10%N s) && Nat.ltb (length ex_app_page) (length (split_on 10%N s))
                         | Err _ => false end = true.
Proof. apply null_page_renders; [reflexivity|rewrite ex_app_needed_width; lia|exact ex_app_one_line|lia]. Qed.
(* the plain formatter refuses an unknown colour in a configured text: ValueError, the error pastel raises *)
Example ex_markup_error :
  match mk_formatter false [] with
  | Ok f => render_page 80 f [(0, EPara ([60;102;103;61;122;122;62;120;60;47;62]%N))] = Err ValueError       (* <fg=zz>x</> *)
            /\ render_page 80 f [(0, EPara ([60;102;103;61;114;101;100;62;120;60;47;62]%N))] = Ok ([120; 10]%N)   (* <fg=red>x</> *)
  | Err _ => False end.
Proof. vm_compute. split; reflexivity. Qed.

From Clikit Require Import Model.Parser Model.Resolver Model.Switches Proofs.ResolverLemmas Proofs.HelpTargetLemmas.
(* The page shown is the page of the help target (C09: help_switch).  The word "help" in front is dropped ... *)
Theorem help_word_dropped : forall a toks,
  (match toks with t :: _ => str_eqb t S_help = false | [] => True end) ->
  help_target a (S_help :: toks) = help_target a toks.
Proof. exact HelpTargetLemmas.help_word_dropped. Qed.
Print Assumptions help_word_dropped.
(* ... and an option behind the names does not change the names walked: for a path of plain names reaching a command
   without default sub-commands, "help <path>" and "<path> <option> ..." (--help, -h) have the same target, the path
   walked - provided the lenient parse of either line does not raise (C02: it raises nothing but ValueError).
   PARTIAL.  The full statement would be, for every application and path,
     help_target a (S_help :: path) = help_target a (path ++ [T_help]);
   missing: commands with default sub-commands (they are probed by parsing the whole line with their own leniency, so
   the extra option token can change which default is picked or raise NoSuchOption when the configuration defines no
   such option) and the two parse hypotheses. *)
Theorem help_same_page_partial : forall a path o r b p x1 x2,
  forallb lead_ok path = true ->
  (match path with t :: _ => str_eqb t S_help = false | [] => True end) ->
  starts_dash o = true ->
  walk (named_of (ap_cmds a)) None path = Ok (Some (b, p)) ->
  defaults_of (b_subs b) = [] ->
  parse (b_fmt b) true path = Ok x1 -> parse (b_fmt b) true (path ++ o :: r) = Ok x2 ->
  help_target a (S_help :: path) = Ok p /\ help_target a (path ++ o :: r) = Ok p.
Proof. exact HelpTargetLemmas.help_same_target. Qed.
Print Assumptions help_same_page_partial.

Definition ex_cfg : appcfg :=
  {| ac_opts := [{| o_long := S_help; o_short := Some [104%N]; o_flags := 4; o_default := VNone |}]; ac_args := [];
     ac_cmds := [Cmd SERVER [] false false true false [] [] [Cmd ADD [] false false true false [] [] []]] |}.
Example ex_help_same_page :
  match build_app ex_cfg with
  | Ok a =>
    match walk (named_of (ap_cmds a)) None [SERVER; ADD] with
    | Ok (Some (b, p)) =>
      match defaults_of (b_subs b), parse (b_fmt b) true [SERVER; ADD], parse (b_fmt b) true ([SERVER; ADD] ++ [T_help]) with
      | [], Ok _, Ok _ => help_target a [S_help; SERVER; ADD] = Ok [SERVER; ADD] /\ help_target a [SERVER; ADD; T_help] = Ok [SERVER; ADD]
      | _, _, _ => False end
    | _ => False end
  | Err _ => False end.
Proof. vm_compute. split; reflexivity. Qed.

(* "help <path>" = "<path> --help" = "<path> -h": the general statement.  Proofs/HelpSamePageLemmas.v closes the full statement for every
   application built from a configuration that defines the global help option the way DefaultApplicationConfig does
   (add_option("help", "h", Option.NO_VALUE)): commands WITH default sub-commands included (also anonymous ones, lenient
   ones, and the application's own default commands when the line is empty), and with NO hypothesis on the parser - when the
   lenient parse raises (a kind other than ValueError - a value error no longer escapes the help resolver since fix 488171f),
   the three spellings raise the same error.
   The side conditions left are needed (examples below):
     - the configuration defines the help option (else a strictly parsed default sub-command refuses "--help");
     - the line consists of plain tokens (what the property calls a path);
     - its first token is not the word "help" (HelpResolver drops one leading "help" from either line).
   No condition on the command tree (distinct sibling names, aliases, depth) and none on what the path reaches. *)
From Clikit Require Import Proofs.HelpSamePageLemmas.

(* the help option of every command format; stated on the built application *)
Theorem help_same_page_app : forall a o sw path,
  Forall (tree_ok (carries o)) (ap_cmds a) -> no_value o -> help_switch_of o sw ->
  forallb lead_ok path = true ->
  (match path with t :: _ => str_eqb t S_help = false | [] => True end) ->
  help_target a (S_help :: path) = help_target a (path ++ [sw]).
Proof. exact help_same_target_app. Qed.
Print Assumptions help_same_page_app.
(* build_app makes every command format extend the global one *)
Theorem help_option_everywhere : forall cfg a o,
  build_app cfg = Ok a -> In o (ac_opts cfg) -> Forall (tree_ok (carries o)) (ap_cmds a).
Proof. exact build_app_carries. Qed.
Print Assumptions help_option_everywhere.
(* the configuration-level statement *)
Theorem help_same_page : forall cfg a path,
  build_app cfg = Ok a -> defines_help cfg = true ->
  forallb lead_ok path = true ->
  (match path with t :: _ => str_eqb t S_help = false | [] => True end) ->
  help_target a (S_help :: path) = help_target a (path ++ [T_help]) /\
  help_target a (S_help :: path) = help_target a (path ++ [T_h]).
Proof. exact HelpSamePageLemmas.help_same_target. Qed.
Print Assumptions help_same_page.
(* help_same_page_partial with "--help"/"-h" for the option, its second parse hypothesis discharged *)
Theorem help_same_page_no_defaults : forall cfg a path b p x1,
  build_app cfg = Ok a -> defines_help cfg = true ->
  forallb lead_ok path = true ->
  (match path with t :: _ => str_eqb t S_help = false | [] => True end) ->
  walk (named_of (ap_cmds a)) None path = Ok (Some (b, p)) ->
  defaults_of (b_subs b) = [] ->
  parse (b_fmt b) true path = Ok x1 ->
  help_target a (S_help :: path) = Ok p /\ help_target a (path ++ [T_help]) = Ok p /\ help_target a (path ++ [T_h]) = Ok p.
Proof. exact help_target_no_defaults. Qed.
Print Assumptions help_same_page_no_defaults.

(* a DefaultApplicationConfig-like configuration: global --help/-h and --verbose/-v, the default command "help" with
   its multi-valued argument "command", and "server" (alias srv, option --level) with the default sub-commands "add"
   (strict, requires <file>) and "run" (strict, no argument), the anonymous lenient default "old" and the plain sub-command
   "secret" (integer argument) *)
Definition COMMAND : str := [99;111;109;109;97;110;100]%N.
Definition VERBOSE : str := [118;101;114;98;111;115;101]%N.
Definition NUM : str := [110;117;109]%N.
Definition X7 : str := [55]%N.
Definition o_help : opt := {| o_long := S_help; o_short := Some [104%N]; o_flags := 4 + 2 + 128; o_default := VNone |}.
Definition o_verbose : opt := {| o_long := VERBOSE; o_short := Some [118%N]; o_flags := 16 + 2 + 128; o_default := VNone |}.
Definition o_level : opt := {| o_long := LEVEL; o_short := Some [108%N]; o_flags := 8 + 2 + 512; o_default := VNone |}.
Definition a_command : arg := {| a_name := COMMAND; a_flags := 2 + 4 + 16; a_default := VList [] |}.
Definition a_file : arg := {| a_name := FILE; a_flags := 1 + 16; a_default := VNone |}.
Definition a_num : arg := {| a_name := NUM; a_flags := 2 + 64; a_default := VNone |}.
Definition c_help : cmd := Cmd S_help [] true false true false [] [a_command] [].
Definition c_server : cmd :=
  Cmd SERVER [SRV] false false true false [o_level] []
    [Cmd ADD [] true false true false [] [a_file] [];
     Cmd RUN [] true false true false [] [] [];
     Cmd OLD [] true true true true [] [] [];
     Cmd SECRET [] false false true false [] [a_num] []].
Definition ex_dcfg : appcfg := {| ac_opts := [o_help; o_verbose]; ac_args := []; ac_cmds := [c_help; c_server] |}.

(* non-vacuity: the configuration builds, defines the help option, "server" has default sub-commands, and the line
   satisfies the hypotheses of help_same_page; the target is the first default sub-command the line parses for *)
Example ex_help_same_page_defaults :
  match build_app ex_dcfg with
  | Ok a =>
    defines_help ex_dcfg = true /\ forallb lead_ok [SERVER] = true /\ str_eqb SERVER S_help = false /\
    match walk (named_of (ap_cmds a)) None [SERVER] with
    | Ok (Some (b, _)) => map b_name (defaults_of (b_subs b)) = [ADD; RUN; OLD]
    | _ => False end /\
    help_target a [S_help; SERVER] = Ok [SERVER; RUN] /\
    help_target a [SERVER; T_help] = Ok [SERVER; RUN] /\ help_target a [SERVER; T_h] = Ok [SERVER; RUN] /\
    (* one more plain token: now "add" parses *)
    help_target a [S_help; SRV; X7] = Ok [SERVER; ADD] /\
    help_target a [SRV; X7; T_help] = Ok [SERVER; ADD] /\ help_target a [SRV; X7; T_h] = Ok [SERVER; ADD]
  | Err _ => False end.
Proof. vm_compute. repeat split; reflexivity. Qed.
(* the theorem applied to it *)
Example ex_help_same_page_applied : forall a, build_app ex_dcfg = Ok a ->
  help_target a [S_help; SERVER] = help_target a [SERVER; T_help] /\ help_target a [S_help; SERVER] = help_target a [SERVER; T_h].
Proof. intros a Ha. apply (help_same_page ex_dcfg a [SERVER] Ha); reflexivity. Qed.

(* the parse hypotheses of help_same_page_partial cannot be derived from the configuration: "secret" takes an integer, and the
   lenient parse of "server secret add" raises ValueError ("add" is no sub-command of secret, so it is the integer).  BEFORE
   fix 488171f that error escaped the help resolver - under all three spellings the run ended in a ValueError report
   (help_target_before_the_repair: the model as it was); since the fix the help resolver shows the page of "server secret"
   whatever the values on the line are (Model/Switches.v help_lenient) - under all three spellings *)
From Clikit Require Proofs.HelpAnywhereTotalLemmas.
Example ex_help_value_error_before_the_repair :
  match build_app ex_dcfg with
  | Ok a =>
    HelpAnywhereTotalLemmas.help_target_before_the_repair a [S_help; SERVER; SECRET; ADD] = Err ValueError /\
    HelpAnywhereTotalLemmas.help_target_before_the_repair a [SERVER; SECRET; ADD; T_help] = Err ValueError /\
    HelpAnywhereTotalLemmas.help_target_before_the_repair a [SERVER; SECRET; ADD; T_h] = Err ValueError /\
    match walk (named_of (ap_cmds a)) None [SERVER; SECRET; ADD] with
    | Ok (Some (b, p)) => p = [SERVER; SECRET] /\ parse (b_fmt b) true [SERVER; SECRET; ADD] = Err ValueError
    | _ => False end
  | Err _ => False end.
Proof. vm_compute. repeat split; reflexivity. Qed.
Example ex_help_value_error :
  match build_app ex_dcfg with
  | Ok a =>
    help_target a [S_help; SERVER; SECRET; ADD] = Ok [SERVER; SECRET] /\
    help_target a [SERVER; SECRET; ADD; T_help] = Ok [SERVER; SECRET] /\ help_target a [SERVER; SECRET; ADD; T_h] = Ok [SERVER; SECRET]
  | Err _ => False end.
Proof. vm_compute. repeat split; reflexivity. Qed.

(* NEEDED 1 - the help option: the same configuration without it (not a DefaultApplicationConfig).  "help server" answers,
   "server --help" and "server -h" raise NoSuchOption out of the strict probe of the default sub-command "add". *)
Definition ex_dcfg_nohelp : appcfg := {| ac_opts := [o_verbose]; ac_args := []; ac_cmds := [c_help; c_server] |}.
Example help_same_page_needs_help_option :
  match build_app ex_dcfg_nohelp with
  | Ok a =>
    defines_help ex_dcfg_nohelp = false /\
    help_target a [S_help; SERVER] = Ok [SERVER; RUN] /\
    help_target a [SERVER; T_help] = Err NoSuchOption /\ help_target a [SERVER; T_h] = Err NoSuchOption
  | Err _ => False end.
Proof. vm_compute. repeat split; reflexivity. Qed.
(* NEEDED 2 - no leading "help": "help help server" is the page of the help command, "help server --help" that of server *)
Example help_same_page_needs_no_leading_help :
  match build_app ex_dcfg with
  | Ok a =>
    help_target a [S_help; S_help; SERVER] = Ok [S_help] /\
    help_target a [S_help; SERVER; T_help] = Ok [SERVER; RUN] /\ help_target a [S_help; SERVER; T_h] = Ok [SERVER; RUN]
  | Err _ => False end.
Proof. vm_compute. repeat split; reflexivity. Qed.

(* REFUTED for the path "help" (the built-in help command itself), one level up, in what a run does (Model/Switches.v
   run_summary): the help targets agree, but "help help" prints the page of the help command while "help --help" and
   "help -h" print the APPLICATION page - the help listener parses the line with the help command's format, "help" is taken
   for the command name, and the argument "command" stays unset.  Observed alike on the Python code (ConsoleApplication over a
   DefaultApplicationConfig: "help help" starts with USAGE app help [<command1>] ..., "help --help" with the name and version). *)
Example help_same_page_refuted_help_command :
  match build_app ex_dcfg with
  | Ok a =>
    help_target a [S_help; S_help] = Ok [S_help] /\ help_target a [S_help; T_help] = Ok [S_help] /\
    help_target a [S_help; T_h] = Ok [S_help] /\
    sm_action (run_summary false a [S_help; S_help]) = AHelpCmd [S_help] /\
    sm_action (run_summary false a [S_help; T_help]) = AHelpApp /\
    sm_action (run_summary false a [S_help; T_h]) = AHelpApp /\
    (* for comparison, a path other than "help": the three runs agree *)
    sm_action (run_summary false a [S_help; SERVER]) = AHelpCmd [SERVER; RUN] /\
    sm_action (run_summary false a [SERVER; T_help]) = AHelpCmd [SERVER; RUN] /\
    sm_action (run_summary false a [SERVER; T_h]) = AHelpCmd [SERVER; RUN]
  | Err _ => False end.
Proof. vm_compute. repeat split; reflexivity. Qed.

(* Width, through the PLAIN and the ANSI formatter.  page_fits_null / page_renders_null / *_help_renders_and_fits above are for the identity formatter.  Here the real ones.
   Proofs/MarkupShrinkLemmas.v: an undecorated colorize (the plain formatter; remove_format of any formatter) only DELETES
   characters - recognised tags, the backslash of a backslash-lessthan pair - and never a line break.
   Proofs/HelpPlainLemmas.v: on the line of a label it deletes at least the markup the alignment allowed for. *)
From Clikit Require Import Proofs.MarkupLemmas Proofs.MarkupShrinkLemmas Proofs.HelpPlainLemmas Proofs.HelpCleanLemmas.

(* deletes m out: out is m with characters other than the line break deleted (Inductive: keep a character, or drop one
   that is not NL).  For EVERY style table, stack and message: *)
Theorem colorize_only_deletes : forall sty sk m sk' out, colorize sty false sk m = Ok (sk', out) -> deletes m out.
Proof. exact colorize_deletes. Qed.
Print Assumptions colorize_only_deletes.
(* hence as many lines, each at most as long as the line of the message *)
Theorem deletes_shrinks_lines : forall x y, deletes x y ->
  Forall2 (fun a b : str => length a <= length b) (split_on NL y) (split_on NL x).
Proof. exact deletes_lines. Qed.
Print Assumptions deletes_shrinks_lines.
Theorem colorize_shrinks_lines : forall sty sk m sk' out, colorize sty false sk m = Ok (sk', out) ->
  length (split_on NL out) = length (split_on NL m)
  /\ Forall2 (fun a b : str => length a <= length b) (split_on NL out) (split_on NL m).
Proof. exact colorize_lines_shrink. Qed.
Print Assumptions colorize_shrinks_lines.
(* the same for remove_format of ANY formatter (plain, ANSI, null) and format of the plain one *)
Theorem remove_format_shrinks_lines : forall f m f' out, remove_format f m = Ok (f', out) ->
  deletes m out /\ length (split_on NL out) = length (split_on NL m)
  /\ Forall2 (fun a b : str => length a <= length b) (split_on NL out) (split_on NL m).
Proof. intros f m f' out H. split; [eapply remove_format_deletes, H|eapply remove_format_lines_shrink, H]. Qed.
Print Assumptions remove_format_shrinks_lines.
Theorem format_plain_shrinks_lines : forall f m style f' out, f_kind f = FPlain -> format f m style = Ok (f', out) ->
  deletes m out /\ length (split_on NL out) = length (split_on NL m)
  /\ Forall2 (fun a b : str => length a <= length b) (split_on NL out) (split_on NL m).
Proof. intros f m style f' out Hk H. split; [eapply format_plain_deletes; eassumption|eapply format_plain_lines_shrink; eassumption]. Qed.
Print Assumptions format_plain_shrinks_lines.
(* a message that does not end with a backslash is rendered line by line (plain_of sty false: the rendering of one line) *)
Theorem colorize_acts_line_by_line : forall sty sk m sk' out, colorize sty false sk m = Ok (sk', out) -> ends_with_bsl m = false ->
  split_on 10%N out = map (plain_of sty false) (split_on 10%N m).
Proof. intros sty sk m sk' out H E. apply colorize_plain_of in H. rewrite E in H. subst out. apply plain_of_lines. Qed.
Print Assumptions colorize_acts_line_by_line.

(* page_fits_null for the plain formatter: for EVERY layout with one-line labels, every style table and every state of the
   style stack, whenever the page renders no line is wider than W - 1 ... *)
Theorem page_fits_plain : forall W f l s, f_kind f = FPlain -> (1 <= W)%Z -> one_line_labels l ->
  render_page W f l = Ok s -> Forall (fun ln => (zlen ln <= W - 1)%Z) (split_on 10%N s).
Proof.
  intros W f l s Hk HW Hl H. unfold render_page in H.
  destruct (align f l 0) as [a|k] eqn:Ea; [|discriminate]. cbn [bind] in H.
  destruct (render_all W (snd a) (fst a) l []) as [x|k] eqn:E; [|discriminate]. injection H as <-.
  apply lines_within_split; [lia|].
  eapply (render_all_fits W _ (fun f => f_kind f = FPlain)); [|eapply align_plain; eassumption|exact Hl|exact E|now left].
  intros f0 i e y Hk0 Hlab Hy. destruct (render_elem_plain_fits _ _ _ _ _ _ Hk0 HW Hlab Hy) as (H1 & _ & H2). auto.
Qed.
Print Assumptions page_fits_plain.
(* ... and it renders or fails with ValueError (markup the formatter refuses in a configured text; no room to wrap) *)
Theorem page_plain_fits_or_value_error : forall W f l, f_kind f = FPlain -> (1 <= W)%Z -> one_line_labels l ->
  match render_page W f l with
  | Ok s => Forall (fun ln => (zlen ln <= W - 1)%Z) (split_on 10%N s)
  | Err k => k = ValueError
  end.
Proof.
  intros W f l Hk HW Hl. destruct (render_page W f l) as [s|k] eqn:E; [exact (page_fits_plain W f l s Hk HW Hl E)|exact (render_error_kind W f l k E)].
Qed.
Print Assumptions page_plain_fits_or_value_error.
(* the help pages of EVERY configuration whose names hold no newline: IF the plain rendering succeeds THEN it fits *)
Theorem command_help_fits_plain : forall W f sty app_name ch aliases help subs s,
  f_kind f = FPlain -> (1 <= W)%Z ->
  (match app_name with Some n => no_nl n | None => True end) -> Forall no_nl (chain_names ch) ->
  Forall arg_one_line (chain_args ch) -> Forall opt_one_line (own_opts ch) -> Forall opt_one_line (base_opts ch) ->
  Forall sub_one_line subs ->
  render_page W f (command_page sty app_name ch aliases help subs) = Ok s ->
  Forall (fun ln => (zlen ln <= W - 1)%Z) (split_on 10%N s).
Proof.
  intros W f sty app_name ch aliases help subs s Hk HW H1 H2 H3 H4 H5 H6 Hs.
  eapply page_fits_plain; [exact Hk|exact HW|apply command_page_one_line; eassumption|exact Hs].
Qed.
Print Assumptions command_help_fits_plain.
Theorem application_help_fits_plain : forall W f sty app_name display version gopts cmds help s,
  f_kind f = FPlain -> (1 <= W)%Z ->
  (match app_name with Some n => no_nl n | None => True end) -> Forall opt_one_line gopts ->
  Forall (fun c => no_nl (ac_name c)) cmds ->
  render_page W f (application_page sty app_name display version gopts cmds help) = Ok s ->
  Forall (fun ln => (zlen ln <= W - 1)%Z) (split_on 10%N s).
Proof.
  intros W f sty app_name display version gopts cmds help s Hk HW H1 H2 H3 Hs.
  eapply page_fits_plain; [exact Hk|exact HW|apply application_page_one_line; eassumption|exact Hs].
Qed.
Print Assumptions application_help_fits_plain.

(* The ANSI formatter, the VISIBLE text (strip_sgr: SGR sequences removed).
   For EVERY style table, stack and ESC-free message the decorated colorize succeeds exactly when the undecorated one does, with
   the same stack, and its visible text v is obtained from the undecorated output BEFORE unescape (wout_of) by deleting characters
   other than the line break: all the SGR sequences can do is keep a backslash apart from its "<". *)
Theorem colorize_ansi_visible : forall sty sk m sk' o1, no_esc m -> colorize sty true sk m = Ok (sk', o1) ->
  colorize sty false sk m = Ok (sk', plain_of sty (ends_with_bsl m) m)
  /\ exists v, strips o1 v /\ deletes (wout_of sty (ends_with_bsl m) m) v.
Proof. exact colorize_visible. Qed.
Print Assumptions colorize_ansi_visible.
(* Hence page_fits_null for the ANSI formatter, for layouts without ESC whose LABELS hold no backslash (clean_layout; the
   texts may hold backslashes: json.dumps of a string default, the escaped placeholder of an argument named like a style):
   whenever the page renders, the visible text of every line is at most W - 1 long.  The condition on the labels is needed:
   page_fits_ansi_refuted below. *)
Theorem page_fits_ansi_visible : forall W f l s, is_ansi f -> (1 <= W)%Z -> one_line_labels l -> clean_layout l ->
  render_page W f l = Ok s -> Forall (fun ln => (zlen (strip_sgr ln) <= W - 1)%Z) (split_on 10%N s).
Proof. exact page_fits_ansi_clean_lemma. Qed.
Print Assumptions page_fits_ansi_visible.
(* For layouts without ESC and without ANY backslash (good_layout; the hypothesis of HelpPlainLemmas.colorize_lockstep_strips) the page
   with the SGR sequences removed IS the page of the plain formatter with the same style table and stack (as_plain). *)
Theorem ansi_page_visible : forall W f l s, is_ansi f -> good_layout l -> render_page W f l = Ok s ->
  render_page W (as_plain f) l = Ok (strip_sgr s).
Proof. exact ansi_page_visible_lemma. Qed.
Print Assumptions ansi_page_visible.
(* the help pages: IF the ANSI rendering succeeds THEN the visible text fits - clean_layout is asked of the page *)
Theorem command_help_fits_ansi_visible : forall W f sty app_name ch aliases help subs s,
  is_ansi f -> (1 <= W)%Z ->
  (match app_name with Some n => no_nl n | None => True end) -> Forall no_nl (chain_names ch) ->
  Forall arg_one_line (chain_args ch) -> Forall opt_one_line (own_opts ch) -> Forall opt_one_line (base_opts ch) ->
  Forall sub_one_line subs ->
  clean_layout (command_page sty app_name ch aliases help subs) ->
  render_page W f (command_page sty app_name ch aliases help subs) = Ok s ->
  Forall (fun ln => (zlen (strip_sgr ln) <= W - 1)%Z) (split_on 10%N s).
Proof.
  intros W f sty app_name ch aliases help subs s Hk HW H1 H2 H3 H4 H5 H6 Hg Hs.
  eapply page_fits_ansi_visible; [exact Hk|exact HW|apply command_page_one_line; eassumption|exact Hg|exact Hs].
Qed.
Print Assumptions command_help_fits_ansi_visible.
Theorem application_help_fits_ansi_visible : forall W f sty app_name display version gopts cmds help s,
  is_ansi f -> (1 <= W)%Z ->
  (match app_name with Some n => no_nl n | None => True end) -> Forall opt_one_line gopts ->
  Forall (fun c => no_nl (ac_name c)) cmds ->
  clean_layout (application_page sty app_name display version gopts cmds help) ->
  render_page W f (application_page sty app_name display version gopts cmds help) = Ok s ->
  Forall (fun ln => (zlen (strip_sgr ln) <= W - 1)%Z) (split_on 10%N s).
Proof.
  intros W f sty app_name display version gopts cmds help s Hk HW H1 H2 H3 Hg Hs.
  eapply page_fits_ansi_visible; [exact Hk|exact HW|apply application_page_one_line; eassumption|exact Hg|exact Hs].
Qed.
Print Assumptions application_help_fits_ansi_visible.
(* clean_layout from the configuration (Proofs/HelpCleanLemmas.v): names (application, commands, sub-commands, options,
   arguments: what the labels are made of) without ESC and backslash; descriptions, value names, aliases, help texts and
   the defaults as json.dumps writes them without ESC - json.dumps writes no ESC (it escapes control characters); a float
   default is carried as its text. *)
Theorem command_page_is_clean : forall sty app_name ch aliases help subs,
  (match app_name with Some n => Forall good n | None => True end) -> Forall (Forall good) (chain_names ch) ->
  Forall arg_clean (chain_args ch) -> Forall opt_clean (own_opts ch) -> Forall opt_clean (base_opts ch) ->
  Forall sub_clean subs -> Forall no_esc aliases -> no_esc (odesc help) ->
  clean_layout (command_page sty app_name ch aliases help subs).
Proof.
  intros sty app_name ch aliases help subs Ha Hc Hargs Hown Hbase Hsubs Hal Hh. apply (command_page_all (fun e => clean_elem (0, e))).
  - apply clean_empty.
  - unfold H_USAGE, H_ARGUMENTS, H_COMMANDS, H_OPTIONS, H_GLOBAL. repeat (apply Forall_cons; [apply clean_para; ch_solve|]). constructor.
  - apply (usage_section_all _ (Forall good) opt_clean arg_clean); try assumption; try ch_solve.
    + intros. now apply synopsis_clean.
    + eapply Forall_impl; [|exact Hsubs]. intros s (S1 & _ & _ & S4 & S5). auto.
  - apply clean_para. apply Forall_app. split; [ch_solve|]. apply join_comma_P; [discriminate|discriminate|exact Hal].
  - eapply Forall_impl; [|exact Hargs]. exact (render_argument_clean 0).
  - eapply Forall_impl; [|exact Hown]. exact (render_option_clean 0).
  - eapply Forall_impl; [|exact Hbase]. exact (render_option_clean 0).
  - eapply Forall_impl; [|exact Hsubs]. exact sub_block_clean.
  - now apply description_block_clean.
Qed.
Print Assumptions command_page_is_clean.
Theorem application_page_is_clean : forall sty app_name display version gopts cmds help,
  (match app_name with Some n => Forall good n | None => True end) ->
  no_esc (odesc display) -> no_esc (odesc version) -> Forall opt_clean gopts ->
  Forall (fun c => Forall good (ac_name c) /\ no_esc (ac_desc c)) cmds -> no_esc (odesc help) ->
  clean_layout (application_page sty app_name display version gopts cmds help).
Proof.
  intros sty app_name display version gopts cmds help Ha Hd Hv Hg Hc Hh.
  assert (Hargs : Forall arg_clean builtin_args) by (repeat constructor; cbn; discriminate).
  apply (application_page_all (fun e => clean_elem (0, e))).
  - apply clean_empty.
  - unfold H_USAGE, H_ARGUMENTS, H_GLOBAL, H_AVAILABLE. repeat (apply Forall_cons; [apply clean_para; ch_solve|]). constructor.
  - unfold name_version. destruct (nonempty_opt display) as [d|] eqn:E1; [|apply clean_para; ch_solve].
    apply nonempty_odesc in E1. subst d. destruct (nonempty_opt version) as [v|] eqn:E2; [|now apply clean_para].
    apply nonempty_odesc in E2. subst v. apply clean_para. ch_solve.
  - apply synopsis_clean; [exact Ha|constructor|constructor|exact Hg|exact Hargs].
  - eapply Forall_impl; [|exact Hargs]. exact (render_argument_clean 0).
  - eapply Forall_impl; [|exact Hg]. exact (render_option_clean 0).
  - eapply Forall_impl; [|exact Hc]. intros c [C1' C2']. unfold cmd_line. apply clean_lab; [unfold C1, C1E; ch_solve|exact C2'].
  - now apply description_block_clean.
Qed.
Print Assumptions application_page_is_clean.
Theorem json_writes_no_esc : forall v, pyval_clean v -> no_esc (json v).
Proof.
  intros v. destruct v as [| | | | |l]; try apply json_scalar_no_esc. cbn [pyval_clean json]. intros H.
  constructor; [discriminate|]. apply Forall_app. split; [|ch_solve].
  induction H as [|x r Hx Hr IH]; [constructor|]. destruct r as [|y r]; [now apply json_scalar_no_esc|].
  change (json_list (x :: y :: r)) with (json_scalar x ++ [44; 32]%N ++ json_list (y :: r)).
  apply Forall_app. split; [now apply json_scalar_no_esc|]. constructor; [discriminate|]. constructor; [discriminate|exact IH].
Qed.
Print Assumptions json_writes_no_esc.
Theorem strip_sgr_line_by_line : forall s, split_on 10%N (strip_sgr s) = map strip_sgr (split_on 10%N s).
Proof. exact strip_sgr_lines. Qed.
Print Assumptions strip_sgr_line_by_line.

Definition cs_of (t : str) (fg : option str) (bold underlined : bool) : cstyle :=
  {| c_tag := Some t; c_fg := fg; c_bg := None; c_bold := bold; c_italic := false; c_dark := false; c_underlined := underlined;
     c_blinking := false; c_inverse := false; c_hidden := false |}.
Definition ex_set : list cstyle :=     (* b: bold; c1: cyan; u: underlined *)
  [cs_of [98]%N None true false; cs_of [99;49]%N (Some [99;121;97;110]%N) false false; cs_of [117]%N None false true].
Definition ex_plainf : formatter := match new_formatter FPlain ex_set with Ok f => f | Err _ => ex_null end.
Definition ex_ansif : formatter := match new_formatter (FAnsi true) ex_set with Ok f => f | Err _ => ex_null end.
Definition DESC_FORCE_T : str := ([70;111;114;99;101;32;116;104;101;32;60;105;110;102;111;62;111;112;101;114;97;116;105;111;110;60;47;105;110;102;111;62;32;101;118;101;110;32;119;104;101;110;32;116;104;101;32;60;98;62;116;97;114;103;101;116;60;47;98;62;32;101;120;105;115;116;115;32;97;108;114;101;97;100;121]%N). (* Force the <info>operation</info> even when the <b>target</b> exists already *)
Definition DESC_FILE_T : str := ([84;104;101;32;60;105;110;102;111;62;102;105;108;101;60;47;105;110;102;111;62;32;116;111;32;114;101;97;100;44;32;100;101;115;99;114;105;98;101;100;32;97;116;32;60;98;62;115;111;109;101;32;108;101;110;103;116;104;60;47;98;62;32;115;111;32;116;104;97;116;32;116;104;101;32;116;101;120;116;32;104;97;115;32;116;111;32;98;101;32;119;114;97;112;112;101;100]%N). (* The <info>file</info> to read, described at <b>some length</b> so that the text has to be wrapped *)
Definition DESC_SUB_T : str := ([68;111;101;115;32;60;98;62;115;111;109;101;116;104;105;110;103;60;47;98;62;32;117;115;101;102;117;108]%N). (* Does <b>something</b> useful *)
Definition ex_force_t : hopt :=
  {| h_o := {| o_long := FORCE; o_short := Some ([102]%N); o_flags := 5; o_default := VNone |};
     h_odesc := Some DESC_FORCE_T; h_vname := ([46;46;46]%N) |}.
Definition ex_file_t : harg := {| h_a := {| a_name := FILE; a_flags := 1; a_default := VNone |}; h_adesc := Some DESC_FILE_T |}.
Definition ex_sub_t (name : str) : sub :=
  {| sb_name := name; sb_default := false; sb_anonymous := false; sb_enabled := true; sb_hidden := false;
     sb_desc := Some DESC_SUB_T; sb_help := None; sb_opts := [ex_level]; sb_args := [ex_file_t] |}.
Definition ex_chain_t : list level :=
  [{| lv_name := None; lv_opts := [ex_level]; lv_args := [] |}; {| lv_name := Some SERVER; lv_opts := [ex_force_t]; lv_args := [ex_file_t] |}].
(* a command page with tagged descriptions *)
Definition ex_tpage : layout :=
  command_page (f_styles ex_plainf) (Some APP) ex_chain_t [SRV] (Some DESC_FILE_T) [ex_sub_t RUN; ex_sub_t ADD].

(* the page at 30 columns through either formatter, rendered once *)
Definition ex_tpage_plain : str := Eval vm_compute in match render_page 30 ex_plainf ex_tpage with Ok s => s | Err _ => [] end.
Definition ex_tpage_ansi : str := Eval vm_compute in match render_page 30 ex_ansif ex_tpage with Ok s => s | Err _ => [] end.
Lemma ex_tpage_rendered : render_page 30 ex_plainf ex_tpage = Ok ex_tpage_plain /\ render_page 30 ex_ansif ex_tpage = Ok ex_tpage_ansi.
Proof. vm_compute. split; reflexivity. Qed.
(* At 30 columns the plain formatter renders the page, every line within 29 and one of them 29 long; the text as it is
   (the identity formatter) cannot be laid out below 44 columns. *)
Example ex_plain_renders :
  match render_page 30 ex_plainf ex_tpage with
  | Ok s => forallb (fun l => Nat.leb (length l) 29) (split_on 10%N s) && existsb (fun l => Nat.eqb (length l) 29) (split_on 10%N s)
  | Err _ => false end = true
  /\ render_page 30 ex_null ex_tpage = Err ValueError /\ needed_width ex_tpage = 44%Z.
Proof. destruct ex_tpage_rendered as [-> _]. vm_compute. repeat split; reflexivity. Qed.
(* the option --force at 30 columns: its label is 21 characters long, 12 of them visible; the text handed to the formatter
   (label column 18) has a first line of 38 characters - NOT within 29 - and lines of 28 and 29 that hold tags; what the
   formatter writes is within 29 on every line *)
Example ex_plain_raw_too_wide :
  match align ex_plainf ex_tpage 0 with
  | Ok a =>
    match remove_format (fst a) (elem_label (render_option ex_force_t)) with
    | Ok x =>
      match elem_raw 30 (snd a) 2 (zlen (snd x)) (render_option ex_force_t) with
      | Ok raw =>
        match emit (fst x) raw with
        | Ok y => zlen (elem_label (render_option ex_force_t)) = 21%Z /\ zlen (snd x) = 12%Z
                  /\ map (@length N) (split_on 10%N raw) = [38; 29; 28; 27; 29; 24; 24; 25; 0]
                  /\ map (@length N) (split_on 10%N (snd y)) = [29; 29; 21; 27; 26; 20; 24; 25; 0]
        | Err _ => False end
      | Err _ => False end
    | Err _ => False end
  | Err _ => False end.
Proof. vm_compute. repeat split; reflexivity. Qed.
Lemma ex_tpage_one_line : one_line_labels ex_tpage.
Proof. apply command_page_one_line; cbn; repeat constructor; try nl_char. Qed.
(* the hypotheses of command_help_fits_plain are met by this page *)
Example ex_plain_fits_applied : forall W s, (1 <= W)%Z -> render_page W ex_plainf ex_tpage = Ok s ->
  Forall (fun ln => (zlen ln <= W - 1)%Z) (split_on 10%N s).
Proof.
  intros W s HW H. apply (command_help_fits_plain W ex_plainf (f_styles ex_plainf) (Some APP) ex_chain_t [SRV] (Some DESC_FILE_T) [ex_sub_t RUN; ex_sub_t ADD] s);
    [reflexivity|exact HW|..|exact H]; cbn; repeat constructor; try nl_char.
Qed.
(* the ANSI formatter on the same page: no ESC and no backslash in it; the visible text is the plain page *)
Example ex_ansi_good : good_layout ex_tpage.
Proof. apply good_layoutb_ok. vm_compute. reflexivity. Qed.
Example ex_ansi_renders :
  match render_page 30 ex_ansif ex_tpage, render_page 30 ex_plainf ex_tpage with
  | Ok sa, Ok sp => str_eqb (strip_sgr sa) sp && Nat.ltb (length sp) (length sa)
                    && forallb (fun l => Nat.leb (length (strip_sgr l)) 29) (split_on 10%N sa)
  | _, _ => false end = true.
Proof.
  destruct ex_tpage_rendered as [-> ->]. cbv beta iota.
  (* strip_sgr appends to its output character by character: on a whole page that is slow to check, line by line it is not *)
  rewrite (strip_sgr_by_lines ex_tpage_ansi). vm_compute. reflexivity.
Qed.
Example ex_ansi_fits_applied : forall W s, (1 <= W)%Z -> render_page W ex_ansif ex_tpage = Ok s ->
  Forall (fun ln => (zlen (strip_sgr ln) <= W - 1)%Z) (split_on 10%N s).
Proof.
  intros W s HW H. apply (page_fits_ansi_visible W ex_ansif ex_tpage s); [exact I|exact HW| |exact (good_clean _ ex_ansi_good)|exact H].
  exact ex_tpage_one_line.
Qed.

(* backslashes in the TEXTS are covered: an argument named like a style (info: the synopsis holds the escaped placeholder
   \<info>) and a string default with a quote in it (json.dumps writes a backslash before the quote); no backslash in a label *)
Definition INFO : str := [105;110;102;111]%N.   (* info *)
Definition ex_quote : hopt :=
  {| h_o := {| o_long := LEVEL; o_short := Some ([108]%N); o_flags := 8 + 512; o_default := VStr [97;34;98]%N |};
     h_odesc := Some DESC_FORCE_T; h_vname := INFO |}.
Definition ex_info_arg : harg := {| h_a := {| a_name := INFO; a_flags := 1; a_default := VNone |}; h_adesc := Some DESC_FILE_T |}.
Definition ex_bpage : layout :=
  command_page (f_styles ex_ansif) (Some APP) [{| lv_name := Some SERVER; lv_opts := [ex_quote]; lv_args := [ex_info_arg] |}] [] None [].
Example ex_ansi_backslash_texts :
  clean_layoutb ex_bpage = true /\ good_layoutb ex_bpage = false /\
  elem_text (snd (nth 1 ex_bpage (0%nat, EEmpty))) = [91;45;108;160;92;60;105;110;102;111;62;93;32;92;60;105;110;102;111;62]%N (* [-l \<info>] \<info> *) /\
  match render_page 30 ex_ansif ex_bpage with
  | Ok s => forallb (fun l => Nat.leb (length (strip_sgr l)) 29) (split_on 10%N s) && existsb (N.eqb 92) (strip_sgr s)
  | Err _ => false end = true.
Proof. vm_compute. repeat split; reflexivity. Qed.
Example ex_ansi_clean_applied : forall W s, (1 <= W)%Z -> render_page W ex_ansif ex_bpage = Ok s ->
  Forall (fun ln => (zlen (strip_sgr ln) <= W - 1)%Z) (split_on 10%N s).
Proof.
  intros W s HW H. apply (page_fits_ansi_visible W ex_ansif ex_bpage s); [exact I|exact HW| | |exact H].
  - apply command_page_one_line; cbn; repeat constructor; try nl_char.
  - apply command_page_is_clean; cbn; repeat constructor; try discriminate; try (apply json_writes_no_esc; exact I).
Qed.

(* REFUTED without the hypothesis on the labels: the visible text of an ANSI line can be W long.  The label
   <b>x\<c1>y  measured on its own (remove_format, as LabelAlignment does) is  x<c1>y : the tag <b> and the backslash
   are deleted, <c1> is escaped.  Written through the ANSI formatter, the text before the escaped tag and the tag are
   wrapped in the SGR sequences of the open style <b> one by one, the backslash is no longer followed by "<", and
   str.replace leaves it: 14 visible characters on a 14-column terminal (the plain formatter: 13).  Observed alike on the
   Python code (BlockLayout + LabeledParagraph on an AnsiFormatter, width 14: the first line is
   ESC[1m x\ ESC[0m ESC[1m <c1> ESC[0m ESC[1m y abcdef). *)
Definition ex_bsl_layout : layout :=
  [(0, ELab [60;98;62;120;92;60;99;49;62;121]%N (* <b>x\<c1>y *) [97;98;99;100;101;102;32;103;104;105]%N (* abcdef ghi *) 1 true)].
Example page_fits_ansi_refuted :
  one_line_labels ex_bsl_layout /\ clean_layoutb ex_bsl_layout = false /\
  match render_page 14 ex_ansif ex_bsl_layout, render_page 14 ex_plainf ex_bsl_layout with
  | Ok sa, Ok sp => map (fun l => length (strip_sgr l)) (split_on 10%N sa) = [14; 10; 0]
                    /\ map (@length N) (split_on 10%N sp) = [13; 10; 0]
  | _, _ => False end.
Proof. split; [repeat constructor; nl_char|]. vm_compute. repeat split; reflexivity. Qed.

(* "help <path>" = "<path> --help" = "<path> -h": what the RUN does.  help_same_page equates the help targets.  What a run does with the line (Model/Switches.v run_summary) is decided before
   the target is looked up, in two different ways: for "help <path>" the resolver walks to the command "help" and parses the
   line with its format, under the command's own leniency; for "<path> --help" the PRE_RESOLVE listener parses the line
   leniently with the help command's format - there the first word lands on the pseudo-argument of the command name, is not
   "help", and the whole path is moved to the argument "command".  Proofs/HelpRunLemmas.v: both parses are instances of
   parse_spells (C01), which gives their values; in both "command" is set and the version switch is not.
   The configuration (default_help_config): the global help option (defines_help), NO global argument, and the command
   "help" as DefaultApplicationConfig.configure() defines it (is_help_command: named help, no alias, not anonymous, enabled,
   no sub-command, the single argument "command" multi-valued, optional, string; default or not, lenient or not, with or
   without options of its own).  The path: plain tokens, not empty, the first one not the word "help". *)
From Clikit Require Import Proofs.FormatLemmas Proofs.FmtOkLemmas Proofs.HelpRunLemmas.
(* each of the three runs shows the page of the help target of "help <path>" (help_page: AHelpCmd p), or reports the failure to
   find it (AHelpFail k) *)
Theorem help_same_page_run : forall cfg a debug path,
  build_app cfg = Ok a -> default_help_config cfg = true ->
  forallb lead_ok path = true -> path <> [] ->
  (match path with t :: _ => str_eqb t S_help = false | [] => True end) ->
  sm_action (run_summary debug a (S_help :: path)) = help_page a (S_help :: path) /\
  sm_action (run_summary debug a (path ++ [T_help])) = help_page a (S_help :: path) /\
  sm_action (run_summary debug a (path ++ [T_h])) = help_page a (S_help :: path).
Proof. exact help_same_run. Qed.
Print Assumptions help_same_page_run.
Theorem help_same_action_run : forall cfg a debug path,
  build_app cfg = Ok a -> default_help_config cfg = true ->
  forallb lead_ok path = true -> path <> [] ->
  (match path with t :: _ => str_eqb t S_help = false | [] => True end) ->
  sm_action (run_summary debug a (S_help :: path)) = sm_action (run_summary debug a (path ++ [T_help])) /\
  sm_action (run_summary debug a (S_help :: path)) = sm_action (run_summary debug a (path ++ [T_h])).
Proof. exact help_same_action. Qed.
Print Assumptions help_same_action_run.
(* the value of the two parses behind it, for the format f of the help command: "help <path>" under any leniency, and
   "<path> <switch>" - the arguments are the path placed on "command", the only option set is the switch *)
Theorem help_line_parses : forall f a path len, fmt_inv f -> get_arguments_all f = [(a_name a, a)] ->
  get_command_names_all f = [help_cname] -> a_multi a = true -> a_type a = TStr ->
  forallb lead_ok path = true -> path <> [] ->
  parse f len (S_help :: path) = Ok {| ar_opts := []; ar_args := help_args f path |}.
Proof. intros. now apply (parse_help_line f a). Qed.
Print Assumptions help_line_parses.
Theorem switch_line_parses : forall f o sw len path x,
  carries o f -> no_value o -> help_switch_of o sw -> forallb lead_ok path = true ->
  parse f len path = Ok x -> ar_opts x = [] ->
  parse f len (path ++ [sw]) = Ok {| ar_opts := [(S_help, VBool true)]; ar_args := ar_args x |}.
Proof. exact parse_switch_value. Qed.
Print Assumptions switch_line_parses.

(* the DefaultApplicationConfig-like ex_dcfg satisfies the hypotheses; the three runs print the page of "server run" *)
Example ex_run_hypotheses : default_help_config ex_dcfg = true /\ forallb lead_ok [SERVER] = true /\ str_eqb SERVER S_help = false.
Proof. vm_compute. repeat split; reflexivity. Qed.
Example ex_run_applied : forall a debug, build_app ex_dcfg = Ok a ->
  sm_action (run_summary debug a [S_help; SERVER]) = sm_action (run_summary debug a [SERVER; T_help]) /\
  sm_action (run_summary debug a [S_help; SERVER]) = sm_action (run_summary debug a [SERVER; T_h]).
Proof. intros a debug Ha. apply (help_same_action_run ex_dcfg a debug [SERVER] Ha); try reflexivity. discriminate. Qed.
Example ex_run_computed :
  match build_app ex_dcfg with
  | Ok a =>
    sm_action (run_summary false a [S_help; SERVER]) = AHelpCmd [SERVER; RUN] /\
    sm_action (run_summary false a [SERVER; T_help]) = AHelpCmd [SERVER; RUN] /\
    sm_action (run_summary false a [SERVER; T_h]) = AHelpCmd [SERVER; RUN] /\
    (* "secret" takes an integer and "add" is none: the same page all the same (a ValueError report before fix 488171f) *)
    sm_action (run_summary false a [S_help; SERVER; SECRET; ADD]) = AHelpCmd [SERVER; SECRET] /\
    sm_action (run_summary false a [SERVER; SECRET; ADD; T_help]) = AHelpCmd [SERVER; SECRET] /\
    sm_action (run_summary false a [SERVER; SECRET; ADD; T_h]) = AHelpCmd [SERVER; SECRET] /\
    (* a word that names no command *)
    sm_action (run_summary false a [S_help; X7]) = sm_action (run_summary false a [X7; T_help])
  | Err _ => False end.
Proof. vm_compute. repeat split; reflexivity. Qed.
(* NEEDED - the first word is not "help": help_same_page_refuted_help_command above ("help help" prints the page of the help
   command, "help --help" the application page).
   NEEDED - no global argument.  The same configuration with two REQUIRED global arguments g1, g2 (a configuration that
   extends DefaultApplicationConfig by add_argument): "help server" is parsed STRICTLY with the help command's format -
   help, g1 = server, g2 missing - and the run fails (CannotParse: Not enough arguments (missing: "g2")), while the lenient
   parse of "server --help" succeeds, leaves "command" unset, and the application page is printed.  Observed alike on the
   Python code (ConsoleApplication over a DefaultApplicationConfig with add_argument("g1", REQUIRED), add_argument("g2",
   REQUIRED): "help server" -> status 1, "server --help" / "server -h" -> name and version, status 0). *)
Definition a_g1 : arg := {| a_name := [103;49]%N; a_flags := 1 + 16; a_default := VNone |}.
Definition a_g2 : arg := {| a_name := [103;50]%N; a_flags := 1 + 16; a_default := VNone |}.
Definition ex_dcfg_gargs : appcfg := {| ac_opts := [o_help; o_verbose]; ac_args := [a_g1; a_g2]; ac_cmds := [c_help; c_server] |}.
Example help_same_run_needs_no_global_argument :
  match build_app ex_dcfg_gargs with
  | Ok a =>
    default_help_config ex_dcfg_gargs = false /\ defines_help ex_dcfg_gargs = true /\
    existsb is_help_command (ac_cmds ex_dcfg_gargs) = true /\
    sm_action (run_summary false a [S_help; SERVER]) = AError CannotParse /\
    sm_action (run_summary false a [SERVER; T_help]) = AHelpApp /\
    sm_action (run_summary false a [SERVER; T_h]) = AHelpApp /\
    (* the help targets agree all the same (help_same_page) *)
    help_target a [S_help; SERVER] = help_target a [SERVER; T_help]
  | Err _ => False end.
Proof. vm_compute. repeat split; reflexivity. Qed.

(* The plain and the ANSI formatter RENDER the page.  page_fits_plain / page_fits_ansi_visible above say: IF the page renders, it fits.  Here the success half, for the real
   formatters (Proofs/HelpRenderLemmas.v).
   What can go wrong.  Apart from the wrap width (needed_width), render_page fails only where the formatter - pastel's
   colorize - refuses a message: an inline style with an unknown colour, or a closing tag of a known style that is not on
   the (non-empty) style stack: "Incorrectly nested style tag found".  Whether it does depends on the tags the scanner finds
   and on the stack, not on the decoration: effect sty a0 m sk is the stack after the message m (colorize_is_effect), the
   same for the plain and the ANSI formatter (decoration_irrelevant).
   What the formatter sees.  BlockLayout hands it ONE message per element: indentation, label, blanks up to the text column,
   and the text as textwrap wrapped it - the lines joined by a line break and the blanks of the text column.  A tag pair that
   ends up on two lines is still in one message: harmless (the effect acts piecewise across blanks and line breaks:
   effect_across_blank).  But textwrap breaks a word that is longer than the line, and may break behind a hyphen; a word that
   holds a tag can be cut INSIDE the tag, the tag is then ordinary text, its partner stays: the stack leaks, or a closing tag
   finds nothing to close.  Rendering well-nested, registered markup therefore FAILS at some widths: page_renders_refuted
   below.
   "Good": a text is good at the wrap width w (text_ok) when it holds no "<" at all (then nothing can go wrong, whatever is
   broken), or when (a) every word of it fits w (words_fit: the chunks textwrap.wrap splits it into; nothing is broken),
   (b) no tag name holds a hyphen (no_hyphen_in_tags: no line break inside a tag) and (c) the text is neutral: the
   formatter takes it whatever the stack and leaves the stack as it was.  An element is good (elem_ok) when its label is
   neutral and does not end with a backslash, label and text are at least one blank apart, and the text is good at the
   element's wrap width.  All of it is decidable: layout_okb. *)
From Clikit Require Import Proofs.HelpRenderLemmas.

Theorem colorize_is_effect : forall sty colored sk m,
  match colorize sty colored sk m with
  | Ok x => effect sty (ends_with_bsl m) m sk = Ok (fst x)
  | Err k => effect sty (ends_with_bsl m) m sk = Err k
  end.
Proof. exact colorize_effect. Qed.
Print Assumptions colorize_is_effect.
Theorem decoration_irrelevant : forall sty sk m sk',
  (exists o, colorize sty true sk m = Ok (sk', o)) <-> (exists o, colorize sty false sk m = Ok (sk', o)).
Proof.
  intros sty sk m sk'. pose proof (colorize_is_effect sty true sk m) as H1. pose proof (colorize_is_effect sty false sk m) as H2.
  destruct (colorize sty true sk m) as [[s1 o1]|k1], (colorize sty false sk m) as [[s2 o2]|k2]; cbn [fst] in *;
    split; intros [o E]; try discriminate; inversion E; subst; try congruence.
  - exists o2. congruence.
  - exists o1. congruence.
Qed.
Print Assumptions decoration_irrelevant.
Theorem effect_across_blank : forall sty a0 a sep b sk, is_space sep = true ->
  effect sty a0 (a ++ sep :: b) sk = (do s1 <- effect sty a0 a sk; effect sty false b s1).
Proof. intros. apply effect_sep. now apply inert_space. Qed.
Print Assumptions effect_across_blank.
(* wrapping a text none of whose words has to be broken, and that has no hyphen in a tag name, keeps its effect: the lines,
   one after the other, do to the stack what the text does *)
Theorem wrap_keeps_effect : forall sty t w ls sk, wrap t w = Ok ls -> words_fit w t -> no_hyphen_in_tags (munge t) ->
  effects sty ls sk = effect sty false (munge t) sk.
Proof. intros sty t w ls sk Hw Hf Hn. apply (wrap_effect sty t w ls sk Hw Hf). now apply nh_cuts. Qed.
Print Assumptions wrap_keeps_effect.

(* For EVERY layout, width, style table and state of the style stack: a good layout renders on a terminal that leaves room for
   one character behind every indentation and VISIBLE label (needed_width_for: at most needed_width) ... *)
Theorem page_renders_plain : forall W f l, f_kind f = FPlain -> (needed_width_for (f_styles f) l <= W)%Z ->
  layout_ok (f_styles f) W l -> exists s, render_page W f l = Ok s.
Proof. intros W f l Hk. apply page_renders. congruence. Qed.
Print Assumptions page_renders_plain.
Theorem page_renders_ansi : forall W f l, is_ansi f -> (needed_width_for (f_styles f) l <= W)%Z ->
  layout_ok (f_styles f) W l -> exists s, render_page W f l = Ok s.
Proof. intros W f l Hk. apply page_renders. unfold is_ansi in Hk. destruct (f_kind f); [discriminate|contradiction|contradiction]. Qed.
Print Assumptions page_renders_ansi.
Theorem needed_width_for_at_most : forall sty l, (needed_width_for sty l <= needed_width l)%Z.
Proof.
  intros sty l. unfold needed_width_for, needed_width. pose proof (align_vis_le sty l 0 0 ltac:(lia)) as Ho.
  generalize dependent (align_off l 0). generalize (align_vis sty l 0). intros o1 o2 Ho.
  induction l as [|[ind e] r IH]; cbn [fold_right fst snd]; [lia|].
  assert (elem_width_vis sty o1 ind e <= elem_width o2 ind e)%Z; [|lia].
  destruct e as [t|label text padding aligned|]; cbn [elem_width_vis elem_width]; [lia| |lia].
  pose proof (vis_of_le sty label). destruct aligned; lia.
Qed.
Print Assumptions needed_width_for_at_most.
(* ... and fits *)
Theorem page_renders_and_fits_plain : forall W f l, f_kind f = FPlain -> one_line_labels l ->
  (needed_width_for (f_styles f) l <= W)%Z -> layout_ok (f_styles f) W l ->
  exists s, render_page W f l = Ok s /\ Forall (fun ln => (zlen ln <= W - 1)%Z) (split_on 10%N s).
Proof.
  intros W f l Hk Hl HW Hok. destruct (page_renders_plain W f l Hk HW Hok) as [s Hs]. exists s. split; [exact Hs|].
  apply (page_fits_plain W f l s Hk); [|exact Hl|exact Hs]. pose proof (needed_width_for_pos (f_styles f) l). lia.
Qed.
Print Assumptions page_renders_and_fits_plain.
Theorem page_renders_and_fits_ansi_visible : forall W f l, is_ansi f -> one_line_labels l -> clean_layout l ->
  (needed_width_for (f_styles f) l <= W)%Z -> layout_ok (f_styles f) W l ->
  exists s, render_page W f l = Ok s /\ Forall (fun ln => (zlen (strip_sgr ln) <= W - 1)%Z) (split_on 10%N s).
Proof.
  intros W f l Hk Hl Hc HW Hok. destruct (page_renders_ansi W f l Hk HW Hok) as [s Hs]. exists s. split; [exact Hs|].
  apply (page_fits_ansi_visible W f l s Hk); [|exact Hl|exact Hc|exact Hs]. pose proof (needed_width_for_pos (f_styles f) l). lia.
Qed.
Print Assumptions page_renders_and_fits_ansi_visible.
(* the hypothesis is decidable *)
Theorem layout_ok_decided : forall sty W l, layout_okb sty W l = true -> layout_ok sty W l.
Proof. exact layout_okb_ok. Qed.
Print Assumptions layout_ok_decided.
(* a text without "<" is good at every width, whatever textwrap breaks *)
Theorem tag_free_text_ok : forall sty w t, no_lt t -> text_ok sty w t.
Proof. intros. now left. Qed.
Print Assumptions tag_free_text_ok.

(* the command page with tagged descriptions (ex_tpage: <info>, <b> in the descriptions) is good from 41 columns on - the
   identity formatter needs 44 - and renders and fits through both formatters; the hypotheses by computation *)
Example ex_tpage_good : needed_width_for (f_styles ex_plainf) ex_tpage = 23%Z /\
  layout_okb (f_styles ex_plainf) 41 ex_tpage = true /\ layout_okb (f_styles ex_plainf) 40 ex_tpage = false /\
  layout_okb (f_styles ex_plainf) 80 ex_tpage = true.
Proof. vm_compute. repeat split; reflexivity. Qed.
(* the two formatters of the examples have the same style table *)
Lemma ex_styles : f_styles ex_ansif = f_styles ex_plainf.
Proof. reflexivity. Qed.
Example ex_tpage_renders_plain : forall W, W = 41%Z \/ W = 80%Z ->
  exists s, render_page W ex_plainf ex_tpage = Ok s /\ Forall (fun ln => (zlen ln <= W - 1)%Z) (split_on 10%N s).
Proof.
  intros W HW. destruct ex_tpage_good as (Hn & H41 & _ & H80). apply page_renders_and_fits_plain; [reflexivity| | |].
  - exact ex_tpage_one_line.
  - rewrite Hn. destruct HW as [-> | ->]; lia.
  - apply layout_ok_decided. destruct HW as [-> | ->]; assumption.
Qed.
Example ex_tpage_renders_ansi : forall W, W = 41%Z \/ W = 80%Z ->
  exists s, render_page W ex_ansif ex_tpage = Ok s /\ Forall (fun ln => (zlen (strip_sgr ln) <= W - 1)%Z) (split_on 10%N s).
Proof.
  intros W HW. destruct ex_tpage_good as (Hn & H41 & _ & H80).
  apply page_renders_and_fits_ansi_visible; [exact I| |exact (good_clean _ ex_ansi_good)| |]; rewrite ?ex_styles.
  - exact ex_tpage_one_line.
  - rewrite Hn. destruct HW as [-> | ->]; lia.
  - apply layout_ok_decided. destruct HW as [-> | ->]; assumption.
Qed.
(* at 30 columns the page still renders (ex_plain_renders above) though words have to be broken: the condition is sufficient,
   not necessary *)

(* REFUTED without "every word fits".  A paragraph <u>aaaaaaaaaaaaaaaaaaaaaaaaaaaaaa</u> (30 letters) and an option
   <c1>--</c1> with the text "Force the operation <b>(default: 3)</b>": every tag well nested and registered, every label and
   text neutral; 17 columns are enough for the identity formatter (needed_width), 8 for the plain one.  At 18 columns the
   paragraph is wrapped at 17: "<u>aaaaaaaaaaaaaa" / "aaaaaaaaaaaaaaaa<" / "/u>" - the closing tag is cut, the style u stays
   open; the option's text is wrapped at 11: "Force the" / "operation <" / "b>(default:" / "3)</b>" - the opening tag is cut
   (the long word "<b>(default:" is broken where the line ends), the closing one is found, and the style b is not on
   the stack [u]: ValueError.  At 17 and 19 columns the page renders.  Observed alike on the Python code (BlockLayout with a
   Paragraph and a LabeledParagraph on a BufferedIO of width 18, PlainFormatter and AnsiFormatter over the DefaultStyleSet:
   ValueError "Incorrectly nested style tag found."; widths 17 and 19: no error). *)
Definition ex_cut_layout : layout :=
  [(0%nat, EPara ([60;117;62]%N ++ repeat 97%N 30 ++ [60;47;117;62]%N));
   (2%nat, ELab [60;99;49;62;45;45;60;47;99;49;62]%N (* <c1>--</c1> *)
                [70;111;114;99;101;32;116;104;101;32;111;112;101;114;97;116;105;111;110;32;60;98;62;40;100;101;102;97;117;108;116;58;32;51;41;60;47;98;62]%N
                (* Force the operation <b>(default: 3)</b> *) 2 true)].
Example page_renders_refuted :
  needed_width ex_cut_layout = 17%Z /\ needed_width_for (f_styles ex_plainf) ex_cut_layout = 8%Z /\
  (* labels and texts are neutral, no hyphen in a tag: all that is missing at 18 columns is that the words fit *)
  forallb (fun x => neutralb (f_styles ex_plainf) (elem_label (snd x)) && neutralb (f_styles ex_plainf) (munge (elem_text (snd x)))
                    && nhb (munge (elem_text (snd x)))) ex_cut_layout = true /\
  layout_okb (f_styles ex_plainf) 18 ex_cut_layout = false /\ layout_okb (f_styles ex_plainf) 38 ex_cut_layout = true /\
  render_page 18 ex_plainf ex_cut_layout = Err ValueError /\ render_page 18 ex_ansif ex_cut_layout = Err ValueError /\
  (match render_page 17 ex_plainf ex_cut_layout, render_page 19 ex_plainf ex_cut_layout, render_page 38 ex_plainf ex_cut_layout with
   | Ok _, Ok _, Ok _ => True | _, _, _ => False end) /\
  render_page 18 ex_null ex_cut_layout <> Err ValueError.
Proof. vm_compute. repeat split; try reflexivity. discriminate. Qed.

(* The help pages render.  The labels the help model builds - <c1>--opt</c1> (-o), <c1><</c1><c1>name></c1>, <c1>command</c1>, the synopsis label
   <u>app</u> <u>cmd</u> [<u>sub</u>] - and its headings <b>...</b> are good once and for all (calm: neutral, no hyphen in a
   tag name, nothing pending behind them), whatever the style table: *)
Theorem help_labels_calm : forall sty,
  (forall h, plain (o_long (h_o h)) -> (match o_short (h_o h) with Some s => plain s | None => True end) ->
             calm sty (elem_label (render_option h)))
  /\ (forall a, plain (a_name (h_a a)) -> calm sty (elem_label (render_argument a)))
  /\ (forall n, plain n -> calm sty (C1 ++ n ++ C1E))
  /\ (forall app_name names opts args prefix lo,
        (match app_name with Some n => plain n | None => True end) -> Forall plain names -> plain prefix ->
        calm sty (elem_label (synopsis sty app_name names opts args prefix lo)))
  /\ markup_fine sty H_USAGE /\ markup_fine sty H_ARGUMENTS /\ markup_fine sty H_COMMANDS /\ markup_fine sty H_OPTIONS
  /\ markup_fine sty H_GLOBAL /\ markup_fine sty H_AVAILABLE.
Proof.
  intros sty. split; [exact (option_label_calm sty)|]. split; [exact (argument_label_calm sty)|]. split; [exact (command_label_calm sty)|].
  split; [exact (synopsis_label_calm sty)|]. repeat split; first [apply H_USAGE_fine|apply H_ARGUMENTS_fine|apply H_COMMANDS_fine|apply H_OPTIONS_fine|apply H_GLOBAL_fine|apply H_AVAILABLE_fine].
Qed.
Print Assumptions help_labels_calm.
(* calm texts one behind the other are calm; a pair of tags of a style name without hyphen and "=" around calm text is calm *)
Theorem calm_composes : forall sty a b, calm sty a -> calm sty b -> calm sty (a ++ b).
Proof. exact calm_app. Qed.
Print Assumptions calm_composes.
Theorem calm_tag_pair : forall sty nm x, simple_nm nm -> calm sty x -> calm sty (tag_str false nm ++ x ++ tag_str true nm).
Proof. exact calm_wrap. Qed.
Print Assumptions calm_tag_pair.

(* The pages.  The configuration (opt_fine, arg_fine, sub_fine): the names put between tags (application, commands, options,
   arguments, version) hold no "<" and no backslash (plain); descriptions, help texts, aliases, the display name hold no "<"
   (tag-free descriptions: the simplest good markup); a default value as json.dumps writes it holds no "<"; the names shown as
   <name> placeholders in the synopsis (value names, argument names) hold no white space and are either tag-like names without
   hyphen and "=" - escaped by the help model when they are styles - or start no tag at all ("<...>", the default value name)
   (ph_name).  The width: room for the visible labels (needed_width_for) and, for the texts the model puts tags into, no word to
   break (page_words_fit: decidable, page_words_fitb).  Then the page renders through the formatter whose style table it was
   built with, whatever the state of its style stack, and every line fits. *)
Theorem command_help_renders_and_fits_plain : forall W f app_name ch aliases help subs,
  f_kind f = FPlain ->
  (match app_name with Some n => no_nl n | None => True end) -> Forall no_nl (chain_names ch) ->
  Forall arg_one_line (chain_args ch) -> Forall opt_one_line (own_opts ch) -> Forall opt_one_line (base_opts ch) ->
  Forall sub_one_line subs ->
  (match app_name with Some n => plain n | None => True end) -> Forall plain (chain_names ch) ->
  Forall arg_fine (chain_args ch) -> Forall opt_fine (own_opts ch) -> Forall opt_fine (base_opts ch) ->
  Forall sub_fine subs -> Forall no_lt aliases -> no_lt (odesc help) ->
  (needed_width_for (f_styles f) (command_page (f_styles f) app_name ch aliases help subs) <= W)%Z ->
  page_words_fit (f_styles f) W (command_page (f_styles f) app_name ch aliases help subs) ->
  exists s, render_page W f (command_page (f_styles f) app_name ch aliases help subs) = Ok s
            /\ Forall (fun ln => (zlen ln <= W - 1)%Z) (split_on 10%N s).
Proof.
  intros W f app_name ch aliases help subs Hk O1 O2 O3 O4 O5 O6 F1 F2 F3 F4 F5 F6 F7 F8 HW Hfit.
  apply page_renders_and_fits_plain; [exact Hk|now apply command_page_one_line|exact HW|].
  apply fine_ok; [now apply command_page_fine|exact Hfit].
Qed.
Print Assumptions command_help_renders_and_fits_plain.
Theorem command_help_renders_and_fits_ansi_visible : forall W f app_name ch aliases help subs,
  is_ansi f ->
  (match app_name with Some n => no_nl n | None => True end) -> Forall no_nl (chain_names ch) ->
  Forall arg_one_line (chain_args ch) -> Forall opt_one_line (own_opts ch) -> Forall opt_one_line (base_opts ch) ->
  Forall sub_one_line subs ->
  (match app_name with Some n => plain n | None => True end) -> Forall plain (chain_names ch) ->
  Forall arg_fine (chain_args ch) -> Forall opt_fine (own_opts ch) -> Forall opt_fine (base_opts ch) ->
  Forall sub_fine subs -> Forall no_lt aliases -> no_lt (odesc help) ->
  clean_layout (command_page (f_styles f) app_name ch aliases help subs) ->
  (needed_width_for (f_styles f) (command_page (f_styles f) app_name ch aliases help subs) <= W)%Z ->
  page_words_fit (f_styles f) W (command_page (f_styles f) app_name ch aliases help subs) ->
  exists s, render_page W f (command_page (f_styles f) app_name ch aliases help subs) = Ok s
            /\ Forall (fun ln => (zlen (strip_sgr ln) <= W - 1)%Z) (split_on 10%N s).
Proof.
  intros W f app_name ch aliases help subs Hk O1 O2 O3 O4 O5 O6 F1 F2 F3 F4 F5 F6 F7 F8 Hc HW Hfit.
  apply page_renders_and_fits_ansi_visible; [exact Hk|now apply command_page_one_line|exact Hc|exact HW|].
  apply fine_ok; [now apply command_page_fine|exact Hfit].
Qed.
Print Assumptions command_help_renders_and_fits_ansi_visible.
Theorem application_help_renders_and_fits_plain : forall W f app_name display version gopts cmds help,
  f_kind f = FPlain ->
  (match app_name with Some n => no_nl n | None => True end) -> Forall opt_one_line gopts -> Forall (fun c => no_nl (ac_name c)) cmds ->
  (match app_name with Some n => plain n | None => True end) ->
  no_lt (odesc display) -> plain (odesc version) -> Forall opt_fine gopts ->
  Forall (fun c => plain (ac_name c) /\ no_lt (ac_desc c)) cmds -> no_lt (odesc help) ->
  (needed_width_for (f_styles f) (application_page (f_styles f) app_name display version gopts cmds help) <= W)%Z ->
  page_words_fit (f_styles f) W (application_page (f_styles f) app_name display version gopts cmds help) ->
  exists s, render_page W f (application_page (f_styles f) app_name display version gopts cmds help) = Ok s
            /\ Forall (fun ln => (zlen ln <= W - 1)%Z) (split_on 10%N s).
Proof.
  intros W f app_name display version gopts cmds help Hk O1 O2 O3 F1 F2 F3 F4 F5 F6 HW Hfit.
  apply page_renders_and_fits_plain; [exact Hk|now apply application_page_one_line|exact HW|].
  apply fine_ok; [now apply application_page_fine|exact Hfit].
Qed.
Print Assumptions application_help_renders_and_fits_plain.
Theorem application_help_renders_and_fits_ansi_visible : forall W f app_name display version gopts cmds help,
  is_ansi f ->
  (match app_name with Some n => no_nl n | None => True end) -> Forall opt_one_line gopts -> Forall (fun c => no_nl (ac_name c)) cmds ->
  (match app_name with Some n => plain n | None => True end) ->
  no_lt (odesc display) -> plain (odesc version) -> Forall opt_fine gopts ->
  Forall (fun c => plain (ac_name c) /\ no_lt (ac_desc c)) cmds -> no_lt (odesc help) ->
  clean_layout (application_page (f_styles f) app_name display version gopts cmds help) ->
  (needed_width_for (f_styles f) (application_page (f_styles f) app_name display version gopts cmds help) <= W)%Z ->
  page_words_fit (f_styles f) W (application_page (f_styles f) app_name display version gopts cmds help) ->
  exists s, render_page W f (application_page (f_styles f) app_name display version gopts cmds help) = Ok s
            /\ Forall (fun ln => (zlen (strip_sgr ln) <= W - 1)%Z) (split_on 10%N s).
Proof.
  intros W f app_name display version gopts cmds help Hk O1 O2 O3 F1 F2 F3 F4 F5 F6 Hc HW Hfit.
  apply page_renders_and_fits_ansi_visible; [exact Hk|now apply application_page_one_line|exact Hc|exact HW|].
  apply fine_ok; [now apply application_page_fine|exact Hfit].
Qed.
Print Assumptions application_help_renders_and_fits_ansi_visible.
(* what the model's own texts need of the width is decidable *)
Theorem page_words_fit_decided : forall sty W l, page_words_fitb sty W l = true -> page_words_fit sty W l.
Proof. exact page_words_fitb_ok. Qed.
Print Assumptions page_words_fit_decided.

(* the hypotheses are met: the command page of the examples above (tag-free descriptions, an option with the value
   name "..." and one with a default, an argument, four sub-commands), built with the styles of the formatter *)
Ltac ex_plain := split; repeat constructor; discriminate.
Ltac ex_tagname := split; [repeat constructor|left; now apply simple_nmb_ok].
Lemma ex_level_fine : opt_fine ex_level.
Proof. split; [ex_plain|]. split; [ex_plain|]. split; [constructor|]. split; [ex_tagname|repeat constructor; discriminate]. Qed.
Lemma ex_force_fine : opt_fine ex_force.
Proof.
  split; [ex_plain|]. split; [ex_plain|]. split; [apply no_ltb_ok; vm_compute; reflexivity|].
  split; [|repeat constructor; discriminate].
  split; [repeat constructor|right]. exists 46%N, [46; 46]%N. repeat split; try reflexivity; try discriminate. repeat constructor; discriminate.
Qed.
Lemma ex_file_fine : arg_fine ex_file.
Proof. split; [ex_plain|]. split; [ex_tagname|]. split; [apply no_ltb_ok; vm_compute; reflexivity|]. split; [repeat constructor; discriminate|reflexivity]. Qed.
Lemma ex_sub_fine name hidden enabled : plain name -> sub_fine (ex_sub name hidden enabled).
Proof.
  intros Hn. split; [exact Hn|]. split; [apply no_ltb_ok; vm_compute; reflexivity|]. split; [constructor|].
  split; [constructor; [exact ex_file_fine|constructor]|constructor; [exact ex_level_fine|constructor]].
Qed.
Lemma ex_config_one_line : no_nl APP /\ Forall no_nl (chain_names ex_chain) /\ Forall arg_one_line (chain_args ex_chain)
  /\ Forall opt_one_line (own_opts ex_chain) /\ Forall opt_one_line (base_opts ex_chain) /\ Forall sub_one_line ex_subs.
Proof. cbn. repeat split; repeat constructor; nl_char. Qed.
Lemma ex_config_fine : plain APP /\ Forall plain (chain_names ex_chain) /\ Forall arg_fine (chain_args ex_chain)
  /\ Forall opt_fine (own_opts ex_chain) /\ Forall opt_fine (base_opts ex_chain) /\ Forall sub_fine ex_subs
  /\ Forall no_lt [SRV] /\ no_lt (odesc (Some DESC_FILE)).
Proof.
  split; [ex_plain|]. split; [cbn; constructor; [ex_plain|constructor]|]. split; [cbn; constructor; [exact ex_file_fine|constructor]|].
  split; [cbn; constructor; [exact ex_force_fine|constructor]|]. split; [cbn; constructor; [exact ex_level_fine|constructor]|].
  split; [unfold ex_subs; repeat (constructor; [apply ex_sub_fine; ex_plain|]); constructor|].
  split; [repeat constructor; discriminate|apply no_ltb_ok; vm_compute; reflexivity].
Qed.
Definition ex_page_for (f : formatter) : layout := command_page (f_styles f) (Some APP) ex_chain [SRV] (Some DESC_FILE) ex_subs.
Example ex_page_widths : needed_width_for (f_styles ex_plainf) (ex_page_for ex_plainf) = 23%Z /\
  page_words_fitb (f_styles ex_plainf) 34 (ex_page_for ex_plainf) = true /\ page_words_fitb (f_styles ex_plainf) 33 (ex_page_for ex_plainf) = false /\
  page_words_fitb (f_styles ex_plainf) 80 (ex_page_for ex_plainf) = true.
Proof. vm_compute. repeat split; reflexivity. Qed.
Example ex_page_renders_plain : forall W, W = 34%Z \/ W = 80%Z ->
  exists s, render_page W ex_plainf (ex_page_for ex_plainf) = Ok s /\ Forall (fun ln => (zlen ln <= W - 1)%Z) (split_on 10%N s).
Proof.
  intros W HW.
  destruct ex_config_one_line as (B6 & B1 & B2 & B3 & B4 & B5). destruct ex_config_fine as (A6 & A5 & A1 & A2 & A3 & A4 & A7 & A8).
  destruct ex_page_widths as (Hn & H34 & _ & H80). unfold ex_page_for in *.
  apply (command_help_renders_and_fits_plain W ex_plainf (Some APP) ex_chain [SRV] (Some DESC_FILE) ex_subs eq_refl B6 B1 B2 B3 B4 B5 A6 A5 A1 A2 A3 A4 A7 A8).
  - rewrite Hn. destruct HW as [-> | ->]; lia.
  - apply page_words_fit_decided. destruct HW as [-> | ->]; assumption.
Qed.
(* the same page through the ANSI formatter (clean_layout by computation) *)
Example ex_page_renders_ansi : forall W, W = 34%Z \/ W = 80%Z ->
  exists s, render_page W ex_ansif (ex_page_for ex_ansif) = Ok s /\ Forall (fun ln => (zlen (strip_sgr ln) <= W - 1)%Z) (split_on 10%N s).
Proof.
  intros W HW.
  destruct ex_config_one_line as (B6 & B1 & B2 & B3 & B4 & B5). destruct ex_config_fine as (A6 & A5 & A1 & A2 & A3 & A4 & A7 & A8).
  assert (clean_layout (command_page (f_styles ex_ansif) (Some APP) ex_chain [SRV] (Some DESC_FILE) ex_subs)) as C
    by (apply clean_layoutb_ok; vm_compute; reflexivity).
  destruct ex_page_widths as (Hn & H34 & _ & H80). unfold ex_page_for in *.
  apply (command_help_renders_and_fits_ansi_visible W ex_ansif (Some APP) ex_chain [SRV] (Some DESC_FILE) ex_subs I B6 B1 B2 B3 B4 B5 A6 A5 A1 A2 A3 A4 A7 A8 C);
    rewrite ex_styles.
  - rewrite Hn. destruct HW as [-> | ->]; lia.
  - apply page_words_fit_decided. destruct HW as [-> | ->]; assumption.
Qed.
(* the application page of the examples above: needs 18 columns for its labels, 29 for the words of its tagged texts *)
Definition ex_app_page_for (f : formatter) : layout :=
  application_page (f_styles f) (Some APP) (Some APP) (Some ([49;46;50]%N)) [ex_force; ex_level] ex_cmds (Some DESC_FILE).
Example ex_app_page_renders_plain : forall W, W = 29%Z \/ W = 80%Z ->
  needed_width_for (f_styles ex_plainf) (ex_app_page_for ex_plainf) = 18%Z /\ page_words_fitb (f_styles ex_plainf) 28 (ex_app_page_for ex_plainf) = false /\
  exists s, render_page W ex_plainf (ex_app_page_for ex_plainf) = Ok s /\ Forall (fun ln => (zlen ln <= W - 1)%Z) (split_on 10%N s).
Proof.
  intros W HW. assert (needed_width_for (f_styles ex_plainf) (ex_app_page_for ex_plainf) = 18%Z) as Hn by (vm_compute; reflexivity).
  split; [exact Hn|]. split; [vm_compute; reflexivity|]. unfold ex_app_page_for in *.
  assert (Forall opt_fine [ex_force; ex_level]) as A1 by (constructor; [exact ex_force_fine|constructor; [exact ex_level_fine|constructor]]).
  assert (Forall (fun c => plain (ac_name c) /\ no_lt (ac_desc c)) ex_cmds) as A2
    by (unfold ex_cmds; repeat (constructor; [split; [ex_plain|apply no_ltb_ok; vm_compute; reflexivity]|]); constructor).
  assert (Forall opt_one_line [ex_force; ex_level]) as B1 by (cbn; repeat constructor; nl_char).
  assert (Forall (fun c => no_nl (ac_name c)) ex_cmds) as B2 by (cbn; repeat constructor; nl_char).
  assert (no_nl APP) as B3 by (repeat constructor; nl_char).
  assert (plain APP) as A3 by ex_plain.
  assert (no_lt (odesc (Some APP))) as A4 by (repeat constructor; discriminate).
  assert (plain (odesc (Some ([49;46;50]%N)))) as A5 by ex_plain.
  assert (no_lt (odesc (Some DESC_FILE))) as A6 by (apply no_ltb_ok; vm_compute; reflexivity).
  apply (application_help_renders_and_fits_plain W ex_plainf (Some APP) (Some APP) (Some ([49;46;50]%N)) [ex_force; ex_level] ex_cmds (Some DESC_FILE)
           eq_refl B3 B1 B2 A3 A4 A5 A1 A2 A6).
  - rewrite Hn. destruct HW as [-> | ->]; lia.
  - apply page_words_fit_decided. destruct HW as [-> | ->]; vm_compute; reflexivity.
Qed.

(* REFUTED for the help pages without "no word to break" (page_words_fit), when the style stack is not empty - the theorems are
   for every state of the stack.  The command "c" of the application "a" with the single option --xx (an integer, default 3,
   value name "level", description "abcdef"): tag-free, all configuration hypotheses met; the page needs 10 columns.  The style u
   is open (an earlier write("<u>x") on the same IO).  At 17 columns the option's text "abcdef <b>(default: 3)</b>" is
   wrapped at 8: "abcdef <" / "b>(defau" / "lt:" / "3)</b>" - at 17 and 18 columns the cut falls so that "<b>" is torn and
   "</b>" is not, and the closing tag does not find b on the stack [u]: ValueError.  With the empty stack, or at 16 and 19 columns, the page renders.
   Observed alike on the Python code (CommandHelp of such a command on a BufferedIO of width 17 / 18 after io.write("<u>x"),
   PlainFormatter and AnsiFormatter: ValueError "Incorrectly nested style tag found."; widths 14-16 and 19-21, or no earlier
   write: no error). *)
Definition ex_xx : hopt :=
  {| h_o := {| o_long := [120;120]%N; o_short := None; o_flags := 8 + 512 + 1; o_default := VInt 3 |};
     h_odesc := Some [97;98;99;100;101;102]%N; h_vname := LEVEL |}.
Definition ex_xx_page : layout :=
  command_page (f_styles ex_plainf) (Some [97]%N) [{| lv_name := Some [99]%N; lv_opts := [ex_xx]; lv_args := [] |}] [] None [].
Definition ex_u_open : formatter :=
  {| f_kind := FPlain; f_styles := f_styles ex_plainf;
     f_stack := match aget str_eqb [117]%N (f_styles ex_plainf) with Some p => [p] | None => [] end |}.
Lemma ex_xx_fine : opt_fine ex_xx.
Proof. split; [ex_plain|]. split; [exact I|]. split; [repeat constructor; discriminate|]. split; [ex_tagname|repeat constructor; discriminate]. Qed.
Example command_help_renders_refuted :
  length (f_stack ex_u_open) = 1%nat /\ needed_width_for (f_styles ex_plainf) ex_xx_page = 10%Z /\
  page_words_fitb (f_styles ex_plainf) 17 ex_xx_page = false /\ page_words_fitb (f_styles ex_plainf) 24 ex_xx_page = true /\
  render_page 17 ex_u_open ex_xx_page = Err ValueError /\ render_page 18 ex_u_open ex_xx_page = Err ValueError /\
  (match render_page 16 ex_u_open ex_xx_page, render_page 19 ex_u_open ex_xx_page, render_page 17 ex_plainf ex_xx_page, render_page 24 ex_u_open ex_xx_page with
   | Ok _, Ok _, Ok _, Ok _ => True | _, _, _, _ => False end).
Proof. vm_compute. repeat split; reflexivity. Qed.

(* REFUTED for the application page with the EMPTY stack.  The application "app", display name "D", a version of 22 characters
   and the single global option --xx (integer, default 3, value name "level", description "abcdefgh ij"): tag-free, all
   configuration hypotheses met; the visible labels need 15 columns (the identity formatter: 33).  At 21 columns the first
   paragraph "D version <c1>1111111111111111111111</c1>" is wrapped at 20 and its long word is broken twice - "D version
   <c1>111111" / "1111111111111111</c1" / ">": the closing tag is cut, c1 stays open.  Further down the option's text is wrapped
   at 7 - "abcdefg" / "h ij <b" / ">(defau" / "lt:" / "3)</b>": the opening tag is cut, the closing one is found, and b is not
   on the stack [c1]: ValueError.  At 20 and 22
   columns, or with a version of 21 characters, the page renders.  Observed alike on the Python code (ApplicationHelp of a
   ConsoleApplication over ApplicationConfig("app", "1" * 22) with display name "D" and that option, BufferedIO of width 21,
   PlainFormatter and AnsiFormatter: ValueError "Incorrectly nested style tag found."; widths 19, 20, 22, 23: no error). *)
Definition ex_xx2 : hopt :=
  {| h_o := {| o_long := [120;120]%N; o_short := None; o_flags := 8 + 512 + 1; o_default := VInt 3 |};
     h_odesc := Some [97;98;99;100;101;102;103;104;32;105;106]%N; h_vname := LEVEL |}.
Definition ex_long_version_page : layout :=
  application_page (f_styles ex_plainf) (Some APP) (Some [68]%N) (Some (repeat 49%N 22)) [ex_xx2] [] None.
Lemma ex_xx2_fine : opt_fine ex_xx2.
Proof. split; [ex_plain|]. split; [exact I|]. split; [repeat constructor; discriminate|]. split; [ex_tagname|repeat constructor; discriminate]. Qed.
Example application_help_renders_refuted :
  f_stack ex_plainf = [] /\ needed_width_for (f_styles ex_plainf) ex_long_version_page = 15%Z /\ needed_width ex_long_version_page = 33%Z /\
  plain (repeat 49%N 22) /\
  page_words_fitb (f_styles ex_plainf) 21 ex_long_version_page = false /\ page_words_fitb (f_styles ex_plainf) 36 ex_long_version_page = true /\
  render_page 21 ex_plainf ex_long_version_page = Err ValueError /\ render_page 21 ex_ansif ex_long_version_page = Err ValueError /\
  (match render_page 20 ex_plainf ex_long_version_page, render_page 22 ex_plainf ex_long_version_page, render_page 36 ex_plainf ex_long_version_page with
   | Ok _, Ok _, Ok _ => True | _, _, _ => False end).
Proof. split; [reflexivity|]. split; [vm_compute; reflexivity|]. split; [vm_compute; reflexivity|]. split; [ex_plain|]. vm_compute. repeat split; reflexivity. Qed.

(* The region the check asks the model about.  With every page the check gets from the model (Model/HelpRegion.v run_C13G) two flags: in_region - the terminal leaves room
   behind the labels and the layout is good at this width (layout_okb) - and words_fit_page, the part of it that the harness
   computes as well and compares (room for the labels; every text that holds a "<" has only words that fit its text column).
   A page in the region renders and fits; the known finding of this property (a help text cut inside its markup) is excused
   only where words_fit_page is false. *)
From Clikit Require Import Model.HelpRegion Proofs.HelpRegionLemmas.
Theorem in_region_renders : forall W f l, f_kind f <> FNull -> in_region (f_styles f) W l = true -> exists s, render_page W f l = Ok s.
Proof. exact in_region_renders_lemma. Qed.
Print Assumptions in_region_renders.
Theorem in_region_fits_plain : forall W f l, f_kind f = FPlain -> one_line_labels l -> in_region (f_styles f) W l = true ->
  exists s, render_page W f l = Ok s /\ Forall (fun ln => (zlen ln <= W - 1)%Z) (split_on 10%N s).
Proof. intros W f l Hk Ho H. destruct (in_region_spec _ _ _ H) as [H1 H2]. now apply page_renders_and_fits_plain. Qed.
Print Assumptions in_region_fits_plain.
Theorem in_region_fits_ansi_visible : forall W f l, is_ansi f -> one_line_labels l -> clean_layout l -> in_region (f_styles f) W l = true ->
  exists s, render_page W f l = Ok s /\ Forall (fun ln => (zlen (strip_sgr ln) <= W - 1)%Z) (split_on 10%N s).
Proof. intros W f l Hk Ho Hc H. destruct (in_region_spec _ _ _ H) as [H1 H2]. now apply page_renders_and_fits_ansi_visible. Qed.
Print Assumptions in_region_fits_ansi_visible.
Theorem in_region_words_fit : forall sty W l, in_region sty W l = true -> words_fit_page sty W l = true.
Proof.
  unfold in_region, words_fit_page, layout_okb1, page_words_fitb1. intros sty W l H. apply andb_prop in H as [H1 H2]. rewrite H1. cbn [andb].
  rewrite forallb_forall in *. intros x Hx. specialize (H2 x Hx).
  destruct (snd x) as [t|label text padding aligned|]; cbn [elem_okb elem_text elem_label] in *.
  - unfold text_okb in H2. apply orb_prop in H2 as [H2|H2]; [now rewrite H2|].
    apply andb_prop in H2 as [H2 _]. apply andb_prop in H2 as [H2 _]. cbn [wrap_width] in *. rewrite H2. now rewrite orb_true_r.
  - apply andb_prop in H2 as [_ H2]. unfold text_okb in H2. apply orb_prop in H2 as [H2|H2]; [now rewrite H2|].
    apply andb_prop in H2 as [H2 _]. apply andb_prop in H2 as [H2 _]. rewrite H2. now rewrite orb_true_r.
  - reflexivity.
Qed.
Print Assumptions in_region_words_fit.
(* the refutation above, in these terms: the layout of page_renders_refuted is outside the region at 18 columns (a word that
   holds a tag has to be broken) and inside it at 38 *)
Example ex_cut_layout_region : in_region (f_styles ex_plainf) 18 ex_cut_layout = false /\ words_fit_page (f_styles ex_plainf) 18 ex_cut_layout = false /\
  in_region (f_styles ex_plainf) 38 ex_cut_layout = true.
Proof. vm_compute. repeat split; reflexivity. Qed.

(* THE RENDERED TEXT: what the bytes of a page contain.  command_page_complete, application_page_complete and hidden_never_listed above are statements about the LAYOUT - the elements
   handed to BlockLayout.  Here the text written (the string render_page returns), through the plain formatter and - for the
   visible text, SGR sequences removed - through the ANSI one.  Proofs/HelpBytesLemmas.v, HelpBytesRegionLemmas.v,
   HelpBytesPageLemmas.v.
   on_line p s: p is a piece (infix) of one line of s.  Names are "plain": no "<", no backslash (clikit validates option,
   argument and command names against [a-zA-Z0-9-]+ style patterns; the model's configuration does not, hence the hypothesis). *)
From Clikit Require Import Proofs.LiteralLemmas Proofs.HelpBytesLemmas Proofs.HelpBytesRegionLemmas Proofs.HelpBytesPageLemmas.
From Clikit Require Proofs.TraceEscLemmas.

(* What the undecorated formatter KEEPS (colorize_only_deletes above: what it deletes).  Behind a text a that leaves no tag
   candidate pending (it ends with ">", a blank, a line break ..., or holds no "<" at all), a text n without "<" and backslash
   comes out as it is, between the rendering of what is before it and the rendering of what is behind it: for EVERY style table
   and every a, b. *)
Theorem undecorated_keeps_plain_text : forall sty a0 a n b, l_cand (scan a) = CText -> n <> [] -> no_lt n -> no_bsl n ->
  plain_of sty a0 (a ++ n ++ b) = plain_of sty a0 a ++ n ++ plain_of sty false b.
Proof. exact plain_of_kept. Qed.
Print Assumptions undecorated_keeps_plain_text.
(* The text of a page the plain formatter renders is the texts written for its elements, one behind the other; the text written
   for an element is the undecorated rendering of what elem_raw builds with the label's visible width (elem_text_for). *)
Theorem page_text_is_its_elements : forall W f l s, f_kind f = FPlain -> render_page W f l = Ok s ->
  exists off ps, Forall2 (fun x p => exists raw, elem_text_for (f_styles f) W off x = Ok raw /\ p = plain_of (f_styles f) false raw) l ps
                 /\ s = concat ps.
Proof. exact page_text_of. Qed.
Print Assumptions page_text_is_its_elements.
(* A LABEL is never wrapped: a piece n of a label (behind a part p that leaves no tag candidate pending) is a piece of the page,
   and of ONE LINE of it when it holds no line break - whatever the width, the texts and the other elements.  (ends_visible: the
   label does not end with white space, as none of the help model's does.) *)
Theorem label_piece_on_a_line : forall W f l s ind label text padding aligned p n q,
  f_kind f = FPlain -> render_page W f l = Ok s -> In (ind, ELab label text padding aligned) l ->
  ends_visible label -> label = p ++ n ++ q -> l_cand (scan p) = CText -> n <> [] -> plain n ->
  infix_of n s /\ (no_nl n -> on_line n s).
Proof. intros W f l s ind label text padding aligned p n q Hk H. exact (label_piece_written _ W l s ind (ELab label text padding aligned) p n q (page_text_of W f l s Hk H)). Qed.
Print Assumptions label_piece_on_a_line.

(* THE COMMAND PAGE.  Whenever the plain formatter renders it - at ANY width, for EVERY configuration and style table:
   - every argument of the chain (own and inherited): "name>" on a line, and "<name>" when c1 is a style of the formatter (the
     "<" is written by the element <c1><</c1>; without the style c1 the tags themselves are printed and stand in between);
   - every option (own: OPTIONS, inherited: GLOBAL OPTIONS): "--long" on a line and, when it has a short name, "-s" on a line -
     the preferred and the alternative name;
   - every enabled, named, non-hidden sub-command: its name on a line (of USAGE: the synopsis spells it in its label), its
     arguments and its options as above. *)
Theorem command_page_bytes_complete : forall W f sty app_name ch aliases help subs s,
  f_kind f = FPlain -> render_page W f (command_page sty app_name ch aliases help subs) = Ok s ->
  (forall a, In a (chain_args ch) -> plain (a_name (h_a a)) /\ no_nl (a_name (h_a a)) ->
     on_line (a_name (h_a a) ++ [GT]) s /\ (resolvable (f_styles f) NM_C1 -> on_line (LT :: a_name (h_a a) ++ [GT]) s))
  /\ (forall h, In h (own_opts ch) \/ In h (base_opts ch) ->
        (plain (o_long (h_o h)) -> no_nl (o_long (h_o h)) -> on_line (DASH :: DASH :: o_long (h_o h)) s)
        /\ (forall sh, o_short (h_o h) = Some sh -> plain sh -> no_nl sh -> on_line (DASH :: sh) s))
  /\ (forall sb, In sb subs -> sb_enabled sb = true -> sb_anonymous sb = false -> sb_hidden sb = false ->
        (name_ok (sb_name sb) -> on_line (sb_name sb) s)
        /\ (forall a, In a (sb_args sb) -> arg_name_ok a -> arg_written (f_styles f) a s)
        /\ (forall h, In h (sb_opts sb) -> opt_written h s)).
Proof. intros W f sty app_name ch aliases help subs s Hk H. exact (command_page_text_complete _ W sty app_name ch aliases help subs s (page_text_of W f _ s Hk H)). Qed.
Print Assumptions command_page_bytes_complete.
(* In the region the check asks the model about (in_region: room for the labels, no word that holds markup has to be broken)
   the page DOES render: *)
Theorem command_page_bytes_complete_in_the_region : forall W f sty app_name ch aliases help subs,
  f_kind f = FPlain -> in_region (f_styles f) W (command_page sty app_name ch aliases help subs) = true ->
  exists s, render_page W f (command_page sty app_name ch aliases help subs) = Ok s /\
  (forall a, In a (chain_args ch) -> arg_name_ok a -> arg_written (f_styles f) a s)
  /\ (forall h, In h (own_opts ch) \/ In h (base_opts ch) -> opt_written h s)
  /\ (forall sb, In sb subs -> sb_enabled sb = true -> sb_anonymous sb = false -> sb_hidden sb = false ->
        (name_ok (sb_name sb) -> on_line (sb_name sb) s)
        /\ (forall a, In a (sb_args sb) -> arg_name_ok a -> arg_written (f_styles f) a s)
        /\ (forall h, In h (sb_opts sb) -> opt_written h s)).
Proof.
  intros W f sty app_name ch aliases help subs Hk Hr. destruct (region_text_of W f _ Hk Hr) as (s & Hs & Ht). exists s.
  split; [exact Hs|exact (command_page_text_complete _ W sty app_name ch aliases help subs s Ht)].
Qed.
Print Assumptions command_page_bytes_complete_in_the_region.
(* The COMMANDS section is a piece s2 of the page, the text written for the section's elements; it holds, for every enabled,
   named, non-hidden sub-command, its arguments and options as above and its NAME - a paragraph <u>name</u>, which textwrap may
   break: (a) in general the name with white space (a line break and the indentation) put in where it was broken: spaced_in;
   (b) on one line when the name holds no white space and the paragraph - its tags included: textwrap wraps the raw text - fits
   the line.  (b) is the strongest form that is true: ex_hyphenated_name_broken below. *)
Theorem commands_section_bytes_complete : forall W f sty app_name ch aliases help subs s,
  f_kind f = FPlain -> render_page W f (command_page sty app_name ch aliases help subs) = Ok s ->
  exists s1 s2 s3, s = s1 ++ s2 ++ s3 /\ text_of (f_styles f) W (commands_section subs) s2 /\
    forall sb, In sb subs -> sb_enabled sb = true -> sb_anonymous sb = false -> sb_hidden sb = false ->
      ((plain (sb_name sb) -> spaced_in (sb_name sb) s2)
       /\ (name_ok (sb_name sb) -> spacefree (sb_name sb) -> (zlen (u_tag (sb_name sb)) <= W - 1 - 2)%Z -> on_line (sb_name sb) s2))
      /\ (forall a, In a (sb_args sb) -> arg_name_ok a -> arg_written (f_styles f) a s2)
      /\ (forall h, In h (sb_opts sb) -> opt_written h s2).
Proof. intros W f sty app_name ch aliases help subs s Hk H. exact (commands_section_text_complete _ W sty app_name ch aliases help subs s (page_text_of W f _ s Hk H)). Qed.
Print Assumptions commands_section_bytes_complete.

(* THE APPLICATION PAGE: every global option under both names, the two built-in arguments, and every enabled, named, non-hidden
   command's name on a line (the label <c1>name</c1> of AVAILABLE COMMANDS). *)
Theorem application_page_bytes_complete : forall W f sty app_name display version gopts cmds help s,
  f_kind f = FPlain -> render_page W f (application_page sty app_name display version gopts cmds help) = Ok s ->
  (forall h, In h gopts -> opt_written h s)
  /\ arg_written (f_styles f) the_command_arg s /\ arg_written (f_styles f) the_arg_arg s
  /\ (forall c, In c cmds -> ac_enabled c && negb (ac_anonymous c) && negb (ac_hidden c) = true ->
        name_ok (ac_name c) -> on_line (ac_name c) s).
Proof. intros W f sty app_name display version gopts cmds help s Hk H. exact (application_page_text_complete _ W sty app_name display version gopts cmds help s (page_text_of W f _ s Hk H)). Qed.
Print Assumptions application_page_bytes_complete.
Theorem application_page_bytes_complete_in_the_region : forall W f sty app_name display version gopts cmds help,
  f_kind f = FPlain -> in_region (f_styles f) W (application_page sty app_name display version gopts cmds help) = true ->
  exists s, render_page W f (application_page sty app_name display version gopts cmds help) = Ok s /\
  (forall h, In h gopts -> opt_written h s)
  /\ arg_written (f_styles f) the_command_arg s /\ arg_written (f_styles f) the_arg_arg s
  /\ (forall c, In c cmds -> ac_enabled c && negb (ac_anonymous c) && negb (ac_hidden c) = true ->
        name_ok (ac_name c) -> on_line (ac_name c) s).
Proof.
  intros W f sty app_name display version gopts cmds help Hk Hr. destruct (region_text_of W f _ Hk Hr) as (s & Hs & Ht). exists s.
  split; [exact Hs|exact (application_page_text_complete _ W sty app_name display version gopts cmds help s Ht)].
Qed.
Print Assumptions application_page_bytes_complete_in_the_region.
(* The ANSI formatter: the same of the visible text (strip_sgr), for pages without ESC and backslash (good_layout: the
   hypothesis of ansi_page_visible). *)
Theorem command_page_bytes_complete_ansi_visible : forall W f sty app_name ch aliases help subs s,
  is_ansi f -> good_layout (command_page sty app_name ch aliases help subs) ->
  render_page W f (command_page sty app_name ch aliases help subs) = Ok s ->
  (forall a, In a (chain_args ch) -> arg_name_ok a -> arg_written (f_styles f) a (strip_sgr s))
  /\ (forall h, In h (own_opts ch) \/ In h (base_opts ch) -> opt_written h (strip_sgr s))
  /\ (forall sb, In sb subs -> sb_enabled sb = true -> sb_anonymous sb = false -> sb_hidden sb = false ->
        (name_ok (sb_name sb) -> on_line (sb_name sb) (strip_sgr s))
        /\ (forall a, In a (sb_args sb) -> arg_name_ok a -> arg_written (f_styles f) a (strip_sgr s))
        /\ (forall h, In h (sb_opts sb) -> opt_written h (strip_sgr s))).
Proof. intros W f sty app_name ch aliases help subs s Hk Hg H. exact (command_page_text_complete _ W sty app_name ch aliases help subs _ (ansi_text_of W f _ s Hk Hg H)). Qed.
Print Assumptions command_page_bytes_complete_ansi_visible.
Theorem application_page_bytes_complete_ansi_visible : forall W f sty app_name display version gopts cmds help s,
  is_ansi f -> good_layout (application_page sty app_name display version gopts cmds help) ->
  render_page W f (application_page sty app_name display version gopts cmds help) = Ok s ->
  (forall h, In h gopts -> opt_written h (strip_sgr s))
  /\ arg_written (f_styles f) the_command_arg (strip_sgr s) /\ arg_written (f_styles f) the_arg_arg (strip_sgr s)
  /\ (forall c, In c cmds -> ac_enabled c && negb (ac_anonymous c) && negb (ac_hidden c) = true ->
        name_ok (ac_name c) -> on_line (ac_name c) (strip_sgr s)).
Proof. intros W f sty app_name display version gopts cmds help s Hk Hg H. exact (application_page_text_complete _ W sty app_name display version gopts cmds help _ (ansi_text_of W f _ s Hk Hg H)). Qed.
Print Assumptions application_page_bytes_complete_ansi_visible.
(* the formatters clikit builds (a style set that contains DefaultStyleSet's) know the style c1: "<name>" is printed *)
Theorem clikit_formatters_know_c1 : forall f, TraceEscLemmas.clikit_formatter f -> resolvable (f_styles f) NM_C1.
Proof.
  intros f (k & set & Hk & Hin & H).
  apply (TraceEscLemmas.new_formatter_resolves k set f (TraceEscLemmas.mk_style [99;49]%N (Some [99;121;97;110]%N) false false) NM_C1 H Hk); [|reflexivity|reflexivity].
  apply Hin. do 6 right. left. reflexivity.
Qed.
Print Assumptions clikit_formatters_know_c1.

(* Nothing else: the page, white space aside, IS the visible texts of its elements.  vis sty x: the undecorated rendering of x without its white space; elem_vis sty e = vis (label of e) ++ vis (text of e, as
   textwrap sees it).  In the region (layout_ok: every text that holds a "<" has only words that fit, no hyphen in a tag name)
   wrapping breaks lines at blanks - dropped or replaced by the line break and the indentation - or next to a hyphen, where the
   undecorated rendering SPLITS (safe_cut: the scanner is not inside a tag the next character continues): *)
Theorem undecorated_rendering_splits_at_a_safe_cut : forall sty X y0 Y, safe_cut (scan X) y0 = true ->
  plain_of sty false (X ++ y0 :: Y) = plain_of sty false X ++ plain_of sty false (y0 :: Y).
Proof. exact plain_of_cut. Qed.
Print Assumptions undecorated_rendering_splits_at_a_safe_cut.
Theorem wrap_keeps_the_visible_characters : forall sty t w ls, wrap t w = Ok ls -> words_fit w t -> no_hyphen_in_tags (munge t) ->
  concat (map (vis sty) ls) = vis sty (munge t).
Proof. intros sty t w ls Hw Hf Hn. apply (wrap_keeps_visible sty t w ls Hw Hf). now apply nh_cuts. Qed.
Print Assumptions wrap_keeps_the_visible_characters.
(* one element: what is written for it, white space aside, is its visible characters - nothing lost, nothing added *)
Theorem element_bytes_are_its_visible_characters : forall sty W off ind e raw, elem_ok sty W off ind e ->
  elem_raw W off ind (vis_of sty (elem_label e)) e = Ok raw -> vis sty raw = elem_vis sty e.
Proof. exact elem_written_visible. Qed.
Print Assumptions element_bytes_are_its_visible_characters.
(* the page *)
Theorem page_bytes_are_the_visible_texts_of_its_elements : forall W f l s,
  f_kind f = FPlain -> layout_ok (f_styles f) W l -> render_page W f l = Ok s ->
  filter nsp s = concat (map (fun x => elem_vis (f_styles f) (snd x)) l).
Proof. exact page_bytes_are_the_visible_texts. Qed.
Print Assumptions page_bytes_are_the_visible_texts_of_its_elements.
Theorem page_bytes_are_the_visible_texts_ansi_visible : forall W f l s, is_ansi f -> good_layout l -> layout_ok (f_styles f) W l ->
  render_page W f l = Ok s -> filter nsp (strip_sgr s) = concat (map (fun x => elem_vis (f_styles f) (snd x)) l).
Proof.
  intros W f l s Hk Hg Hok Hs. apply (ansi_page_visible W f l s Hk Hg) in Hs.
  exact (page_bytes_are_the_visible_texts W (as_plain f) l (strip_sgr s) (as_plain_kind f) Hok Hs).
Qed.
Print Assumptions page_bytes_are_the_visible_texts_ansi_visible.

(* Never a hidden or disabled command.  The clause cannot be "the name of a hidden command occurs nowhere on the page": a hidden DEFAULT sub-command is printed under
   USAGE (usage_entries_origin; ex_hidden_default_bytes below), and the name may be a word of a description.  What is true - for
   EVERY configuration in the region: the COMMANDS section is a piece s2 of the page; it is complete (section_complete: as in
   commands_section_bytes_complete); and every WORD n (no white space in it) found in s2 is a word of "COMMANDS" or of the visible
   characters of an element of the block of an ENABLED, NAMED, NON-HIDDEN sub-command (commands_word).  A hidden or disabled
   command contributes nothing: its name is on no line of the section unless a visible command's own texts spell it
   (commands_word is decidable: commands_word_is_decided; ex_secret_not_in_commands). *)
Theorem hidden_never_printed : forall W f sty app_name ch aliases help subs,
  f_kind f = FPlain -> in_region (f_styles f) W (command_page sty app_name ch aliases help subs) = true ->
  exists s s1 s2 s3, render_page W f (command_page sty app_name ch aliases help subs) = Ok s /\
    s = s1 ++ s2 ++ s3 /\ text_of (f_styles f) W (commands_section subs) s2 /\ section_complete (f_styles f) W subs s2 /\
    forall n, n <> [] -> spacefree n -> infix_of n s2 ->
      infix_of n (vis (f_styles f) H_COMMANDS)
      \/ exists sv x, In sv subs /\ visible sv = true /\ In x (sub_block sv) /\ infix_of n (elem_vis (f_styles f) (snd x)).
Proof.
  intros W f sty app_name ch aliases help subs Hk Hr.
  destruct (in_region_renders W f _ (plain_not_null f Hk) Hr) as [s Hs]. destruct (in_region_spec _ _ _ Hr) as [_ Hok].
  destruct (commands_section_words W f sty app_name ch aliases help subs s Hk Hok Hs) as (s1 & s2 & s3 & H1 & H2 & H4).
  exists s, s1, s2, s3. split; [exact Hs|]. split; [exact H1|]. split; [exact H2|]. split; [now apply commands_section_text|exact H4].
Qed.
Print Assumptions hidden_never_printed.
(* AVAILABLE COMMANDS of the application page: a word of the section is a word of the heading or of the line (name,
   description) of an enabled, named, non-hidden command *)
Theorem hidden_never_printed_app : forall W f sty app_name display version gopts cmds help,
  f_kind f = FPlain -> in_region (f_styles f) W (application_page sty app_name display version gopts cmds help) = true ->
  exists s s1 s2 s3, render_page W f (application_page sty app_name display version gopts cmds help) = Ok s /\
    s = s1 ++ s2 ++ s3 /\ text_of (f_styles f) W (available_section cmds) s2 /\
    forall n, n <> [] -> spacefree n -> infix_of n s2 ->
      infix_of n (vis (f_styles f) H_AVAILABLE)
      \/ exists c, In c cmds /\ cmd_visible c = true /\ infix_of n (elem_vis (f_styles f) (snd (cmd_line c))).
Proof.
  intros W f sty app_name display version gopts cmds help Hk Hr.
  destruct (in_region_renders W f _ (plain_not_null f Hk) Hr) as [s Hs]. destruct (in_region_spec _ _ _ Hr) as [_ Hok].
  destruct (available_section_words W f sty app_name display version gopts cmds help s Hk Hok Hs) as (s1 & s2 & s3 & H1 & H2 & H4).
  exists s, s1, s2, s3. auto.
Qed.
Print Assumptions hidden_never_printed_app.
(* the visible text of the ANSI page *)
Theorem hidden_never_printed_ansi_visible : forall W f sty app_name ch aliases help subs s,
  is_ansi f -> good_layout (command_page sty app_name ch aliases help subs) ->
  in_region (f_styles f) W (command_page sty app_name ch aliases help subs) = true ->
  render_page W f (command_page sty app_name ch aliases help subs) = Ok s ->
  exists s1 s2 s3, strip_sgr s = s1 ++ s2 ++ s3 /\ text_of (f_styles f) W (commands_section subs) s2 /\
    section_complete (f_styles f) W subs s2 /\
    forall n, n <> [] -> spacefree n -> infix_of n s2 -> commands_word (f_styles f) subs n.
Proof.
  intros W f sty app_name ch aliases help subs s Hk Hg Hr Hs. apply (ansi_page_visible W f _ s Hk Hg) in Hs. destruct (in_region_spec _ _ _ Hr) as [_ Hok].
  destruct (commands_section_words W (as_plain f) sty app_name ch aliases help subs (strip_sgr s) (as_plain_kind f) Hok Hs) as (s1 & s2 & s3 & H1 & H2 & H4).
  exists s1, s2, s3. split; [exact H1|]. split; [exact H2|]. split; [now apply (commands_section_text (f_styles f))|exact H4].
Qed.
Print Assumptions hidden_never_printed_ansi_visible.
Theorem commands_word_is_decided : forall sty subs n, commands_word sty subs n -> commands_wordb sty subs n = true.
Proof.
  unfold commands_wordb. intros sty subs n [H|(sv & x & H1 & H2 & H3 & H4)]; apply orb_true_iff; [left; now apply infixb_spec|right].
  apply existsb_exists. exists sv. split; [exact H1|]. rewrite H2. cbn [andb]. apply existsb_exists. exists x. split; [exact H3|now apply infixb_spec].
Qed.
Print Assumptions commands_word_is_decided.
Theorem infixb_decides : forall p s, infixb p s = true <-> infix_of p s.
Proof. exact infixb_spec. Qed.
Print Assumptions infixb_decides.

Definition on_lineb (p s : str) : bool := existsb (infixb p) (split_on 10%N s).
Definition T_FORCE : str := [45;45]%N ++ FORCE.      (* --force *)
Definition T_LEVEL : str := [45;45]%N ++ LEVEL.      (* --level *)
Definition T_FILE : str := [60]%N ++ FILE ++ [62]%N.  (* <file> *)
(* the label of --force through the plain formatter of the examples: the tags are gone, the names are there *)
Example ex_label_kept : plain_of (f_styles ex_plainf) false (elem_label (render_option ex_force)) = T_FORCE ++ [32;40;45;102;41]%N.   (* --force (-f) *)
Proof. vm_compute. reflexivity. Qed.
(* the command page of the examples above (ex_page_for: the options --force / -f and -l / --level, the argument <file>, the
   sub-commands run, add (visible), secret (hidden), old (disabled)) at 34 columns, in the region: every name is on a line; "secret"
   and "old" are nowhere on the page *)
Definition ex_page_plain : str := Eval vm_compute in match render_page 34 ex_plainf (ex_page_for ex_plainf) with Ok s => s | Err _ => [] end.
Lemma ex_page_rendered : render_page 34 ex_plainf (ex_page_for ex_plainf) = Ok ex_page_plain.
Proof. vm_compute. reflexivity. Qed.
Example ex_bytes_computed :
  in_region (f_styles ex_plainf) 34 (ex_page_for ex_plainf) = true /\
  match render_page 34 ex_plainf (ex_page_for ex_plainf) with
  | Ok s => on_lineb T_FORCE s && on_lineb [45;102]%N s && on_lineb T_LEVEL s && on_lineb [45;108]%N s && on_lineb T_FILE s
            && on_lineb RUN s && on_lineb ADD s && negb (infixb SECRET s) && negb (infixb OLD s)
  | Err _ => false end = true.
Proof. rewrite ex_page_rendered. vm_compute. split; reflexivity. Qed.
Lemma ex_page_in_region : forall W, W = 34%Z \/ W = 80%Z -> in_region (f_styles ex_plainf) W (ex_page_for ex_plainf) = true.
Proof. intros W [-> | ->]; vm_compute; reflexivity. Qed.
(* the hypotheses of command_page_bytes_complete_in_the_region are met by it, and the theorem gives the same *)
Example ex_bytes_applied : forall W, W = 34%Z \/ W = 80%Z ->
  exists s, render_page W ex_plainf (ex_page_for ex_plainf) = Ok s /\ on_line T_FORCE s /\ on_line [45;102]%N s /\ on_line T_FILE s /\ on_line RUN s.
Proof.
  intros W HW.
  destruct (command_page_bytes_complete_in_the_region W ex_plainf (f_styles ex_plainf) (Some APP) ex_chain [SRV] (Some DESC_FILE) ex_subs eq_refl)
    as (s & Hs & Ha & Ho & Hsub); [exact (ex_page_in_region W HW)|].
  exists s. split; [exact Hs|].
  destruct (Ho ex_force (or_introl (or_introl eq_refl))) as [Hl Hsh].
  destruct (Ha ex_file (or_introl eq_refl)) as [_ Hlt]; [split; [ex_plain|repeat constructor; nl_char]|].
  destruct (Hsub (ex_sub RUN false true) (or_introl eq_refl) eq_refl eq_refl eq_refl) as (Hn & _).
  split; [apply Hl; [ex_plain|repeat constructor; nl_char]|].
  split; [apply (Hsh [102]%N eq_refl); [ex_plain|repeat constructor; nl_char]|].
  split; [apply Hlt; eexists; vm_compute; reflexivity|].
  apply Hn. split; [discriminate|]. split; [ex_plain|repeat constructor; nl_char].
Qed.
(* (b) of commands_section_bytes_complete cannot be had without "the paragraph fits": the application "a" with the default
   sub-command "aaaa-bbbb" at 18 columns is in the region (the label of USAGE - a [aaaa-bbbb] - needs 18 columns, every word of
   <u>aaaa-bbbb</u> - textwrap breaks behind the hyphen - fits the 15 columns of the paragraph); the name is unbroken under USAGE
   and broken under COMMANDS.  The model's command page has no name of its own here (chain_names = []: a clikit command always
   has one, and its USAGE label is then wider than the paragraph); the same elements on the Python code (BlockLayout with
   Paragraph <b>USAGE</b>, LabeledParagraph <u>a</u> [<u>aaaa-bbbb</u>], EmptyLine, Paragraph <b>COMMANDS</b>, Paragraph
   <u>aaaa-bbbb</u> at indentation 2, BufferedIO of width 18, PlainFormatter) give the same text; at width 19 the name is unbroken. *)
Definition HYNAME : str := [97;97;97;97;45;98;98;98;98]%N.   (* aaaa-bbbb *)
Definition ex_hy_page : layout :=
  command_page (f_styles ex_plainf) (Some [97]%N) [{| lv_name := None; lv_opts := []; lv_args := [] |}] [] None
    [{| sb_name := HYNAME; sb_default := true; sb_anonymous := false; sb_enabled := true; sb_hidden := false;
        sb_desc := None; sb_help := None; sb_opts := []; sb_args := [] |}].
Example ex_hyphenated_name_broken :
  in_region (f_styles ex_plainf) 18 ex_hy_page = true /\ in_region (f_styles ex_plainf) 17 ex_hy_page = false /\
  render_page 18 ex_plainf ex_hy_page =
  Ok ([85;83;65;71;69;10]%N ++                                         (* USAGE *)
      [32;32;97;32;91]%N ++ HYNAME ++ [93;10]%N ++                       (*   a [aaaa-bbbb] *)
      [10]%N ++ [67;79;77;77;65;78;68;83;10]%N ++                        (* COMMANDS *)
      [32;32;97;97;97;97;45;10]%N ++ [32;32;98;98;98;98;10]%N ++ [10]%N).  (*   aaaa- / bbbb *)
Proof. vm_compute. repeat split; reflexivity. Qed.
(* a hidden DEFAULT sub-command (ex_hidden_default: "secret") is printed under USAGE and not under COMMANDS; hidden_never_printed
   applied: a word of the section is a word of "COMMANDS" *)
Definition ex_hd_page : layout := command_page (f_styles ex_plainf) (Some APP) ex_chain [] None [ex_hidden_default].
Example ex_hidden_default_bytes :
  in_region (f_styles ex_plainf) 40 ex_hd_page = true /\
  match render_page 40 ex_plainf ex_hd_page with
  | Ok s => on_lineb SECRET s && infixb ([67;79;77;77;65;78;68;83;10;79;80;84;73;79;78;83;10]%N) s   (* COMMANDS, an empty section: OPTIONS is the next line *)
  | Err _ => false end = true /\
  commands_wordb (f_styles ex_plainf) [ex_hidden_default] SECRET = false.
Proof. vm_compute. repeat split; reflexivity. Qed.
(* hidden_never_printed applied to the command page of the examples: "secret" (hidden) and "old" (disabled) are no words of the
   visible sub-commands' blocks, hence on no line of the COMMANDS section *)
Example ex_secret_not_in_commands : forall W, W = 34%Z \/ W = 80%Z ->
  exists s s1 s2 s3, render_page W ex_plainf (ex_page_for ex_plainf) = Ok s /\ s = s1 ++ s2 ++ s3 /\
    text_of (f_styles ex_plainf) W (commands_section ex_subs) s2 /\ ~ infix_of SECRET s2 /\ ~ infix_of OLD s2 /\ infix_of RUN s2.
Proof.
  intros W HW.
  destruct (hidden_never_printed W ex_plainf (f_styles ex_plainf) (Some APP) ex_chain [SRV] (Some DESC_FILE) ex_subs eq_refl)
    as (s & s1 & s2 & s3 & Hs & E & Ht & Hc & Hw); [exact (ex_page_in_region W HW)|].
  exists s, s1, s2, s3. split; [exact Hs|]. split; [exact E|]. split; [exact Ht|].
  assert (forall n, n <> [] -> spacefree n -> commands_wordb (f_styles ex_plainf) ex_subs n = false -> ~ infix_of n s2) as Hno.
  { intros n Hne Hsf Hb Hi. specialize (Hw n Hne Hsf Hi). apply (commands_word_is_decided (f_styles ex_plainf) ex_subs n) in Hw. congruence. }
  split; [apply Hno; [discriminate|repeat constructor|vm_compute; reflexivity]|].
  split; [apply Hno; [discriminate|repeat constructor|vm_compute; reflexivity]|].
  destruct (Hc (ex_sub RUN false true) (or_introl eq_refl) eq_refl eq_refl eq_refl) as ((Hsp & Hl) & _).
  apply on_line_infix, Hl.
  - split; [discriminate|]. split; [ex_plain|repeat constructor; nl_char].
  - repeat constructor.
  - destruct HW as [-> | ->]; vm_compute; discriminate.
Qed.
(* the application page of the examples: server and add are listed, secret (hidden) and old (disabled) are not words of AVAILABLE COMMANDS *)
Example ex_app_bytes_computed :
  in_region (f_styles ex_plainf) 29 (ex_app_page_for ex_plainf) = true /\
  match render_page 29 ex_plainf (ex_app_page_for ex_plainf) with
  | Ok s => on_lineb SERVER s && on_lineb ADD s && on_lineb T_FORCE s && on_lineb ([60]%N ++ COMMAND ++ [62]%N) s
            && negb (infixb SECRET s) && negb (infixb OLD s)
  | Err _ => false end = true /\
  available_wordb (f_styles ex_plainf) ex_cmds SECRET = false /\ available_wordb (f_styles ex_plainf) ex_cmds OLD = false /\
  available_wordb (f_styles ex_plainf) ex_cmds SERVER = true.
Proof. vm_compute. repeat split; reflexivity. Qed.
(* more instances: the hypotheses of undecorated_keeps_plain_text (behind "<c1>" no candidate is pending; "--force" is plain) *)
Example ex_kept_applied : forall sty b, plain_of sty false (C1 ++ T_FORCE ++ b) = plain_of sty false C1 ++ T_FORCE ++ plain_of sty false b.
Proof. intros sty b. apply undecorated_keeps_plain_text; [reflexivity|discriminate|repeat constructor; discriminate|repeat constructor; discriminate]. Qed.
(* application_page_bytes_complete_in_the_region applied to the application page of the examples at 29 and 80 columns *)
Example ex_app_bytes_applied : forall W, W = 29%Z \/ W = 80%Z ->
  exists s, render_page W ex_plainf (ex_app_page_for ex_plainf) = Ok s /\ on_line SERVER s /\ on_line T_FORCE s /\ on_line ([60]%N ++ COMMAND ++ [62]%N) s.
Proof.
  intros W HW.
  destruct (application_page_bytes_complete_in_the_region W ex_plainf (f_styles ex_plainf) (Some APP) (Some APP) (Some ([49;46;50]%N)) [ex_force; ex_level] ex_cmds (Some DESC_FILE) eq_refl)
    as (s & Hs & Ho & [_ Hc] & _ & Hn); [destruct HW as [-> | ->]; vm_compute; reflexivity|].
  exists s. split; [exact Hs|]. split; [|split].
  - apply (Hn _ (or_introl eq_refl) eq_refl). split; [discriminate|]. split; [ex_plain|repeat constructor; nl_char].
  - destruct (Ho ex_force (or_introl eq_refl)) as [Hl _]. apply Hl; [ex_plain|repeat constructor; nl_char].
  - apply Hc. eexists. vm_compute. reflexivity.
Qed.
(* the ANSI formatter on the page with tagged descriptions (ex_tpage: no ESC, no backslash): whenever it renders, the visible text
   has the names *)
Example ex_ansi_bytes_applied : forall W s, render_page W ex_ansif ex_tpage = Ok s ->
  on_line T_FORCE (strip_sgr s) /\ on_line [45;102]%N (strip_sgr s) /\ on_line RUN (strip_sgr s).
Proof.
  intros W s Hs.
  destruct (command_page_bytes_complete_ansi_visible W ex_ansif (f_styles ex_plainf) (Some APP) ex_chain_t [SRV] (Some DESC_FILE_T) [ex_sub_t RUN; ex_sub_t ADD] s I ex_ansi_good Hs)
    as (_ & Ho & Hsub).
  destruct (Ho ex_force_t (or_introl (or_introl eq_refl))) as [Hl Hsh].
  destruct (Hsub (ex_sub_t RUN) (or_introl eq_refl) eq_refl eq_refl eq_refl) as (Hn & _).
  split; [apply Hl; [ex_plain|repeat constructor; nl_char]|]. split; [apply (Hsh [102]%N eq_refl); [ex_plain|repeat constructor; nl_char]|].
  apply Hn. split; [discriminate|]. split; [ex_plain|repeat constructor; nl_char].
Qed.
(* page_bytes_are_the_visible_texts_of_its_elements, both sides computed, for the command page of the examples at 34 columns *)
Example ex_page_is_its_visible_texts :
  match render_page 34 ex_plainf (ex_page_for ex_plainf) with
  | Ok s => str_eqb (filter nsp s) (concat (map (fun x => elem_vis (f_styles ex_plainf) (snd x)) (ex_page_for ex_plainf)))
  | Err _ => false end = true.
Proof. rewrite ex_page_rendered. vm_compute. reflexivity. Qed.
