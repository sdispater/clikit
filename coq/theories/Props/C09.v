(* C09 - global switches act the same wherever they appear and whatever command runs.
   io_settings reads the option tokens (the tokens before the first double dash) exactly like
   DefaultApplicationConfig.create_io; run_summary composes it with the resolver (C03) and the help and
   version listeners into what one run does. *)
From Coq Require Import Permutation.
From Clikit Require Import Base.Prelude Base.Res Model.Conv Model.Format Model.Parser Model.Resolver Model.Run
     Model.Tokenizer Model.Gate Model.Switches Proofs.ResolverLemmas Proofs.SwitchesLemmas
     Proofs.HelpSamePageLemmas Proofs.HelpRunLemmas Proofs.SwitchesHelpLemmas Proofs.HelpAnywhereLemmas
     Proofs.HelpAnywhereErrLemmas Proofs.HelpAnywhereVersionLemmas Proofs.HelpAnywhereTotalLemmas
     Proofs.HelpNoPathLemmas Model.Question Model.QuestionText Proofs.SwitchesQuestionLemmas.

(* Placement independence: the settings depend only on which switches are among the option tokens. *)
Theorem settings_perm : forall debug l l', Permutation l l' -> io_settings debug l = io_settings debug l'.
Proof. exact io_settings_perm. Qed.
Print Assumptions settings_perm.
Theorem settings_insert : forall debug l1 s l2, io_settings debug (l1 ++ s :: l2) = io_settings debug (s :: l1 ++ l2).
Proof. exact io_settings_insert. Qed.
Print Assumptions settings_insert.
Theorem help_decision_perm : forall l l', Permutation l l' -> wants_help l = wants_help l'.
Proof. exact wants_help_perm. Qed.
Print Assumptions help_decision_perm.

(* The same at the level of the LINE: a token inserted at any position before the first double dash is an option token
   at that position, and the settings, the help decision and the version decision of the run are those of the line with
   the token put first; each switch so inserted has its effect whatever else is on the line. *)
Theorem switch_position_free_on_the_line : forall debug a l1 s l2, is_ddash s = false -> no_ddash l1 = true ->
  option_tokens (l1 ++ s :: l2) = l1 ++ s :: option_tokens l2 /\
  sm_settings (run_summary debug a (l1 ++ s :: l2)) = sm_settings (run_summary debug a (s :: l1 ++ l2)) /\
  wants_help (option_tokens (l1 ++ s :: l2)) = wants_help (option_tokens (s :: l1 ++ l2)) /\
  wants_version (option_tokens (l1 ++ s :: l2)) = wants_version (option_tokens (s :: l1 ++ l2)).
Proof.
  intros debug a l1 s l2 Hs Hl. split; [apply option_tokens_insert; assumption|]. split; [apply line_insert_settings; assumption|].
  apply line_insert_decisions; assumption.
Qed.
Print Assumptions switch_position_free_on_the_line.
Theorem switch_acts_wherever_it_stands : forall debug a l1 s l2, is_ddash s = false -> no_ddash l1 = true ->
  let st := sm_settings (run_summary debug a (l1 ++ s :: l2)) in
  ((s = T_quiet \/ s = T_q) -> s_quiet st = true) /\
  ((s = T_no_interaction \/ s = T_n) -> s_interactive st = false) /\
  (s = T_no_ansi -> s_ansi st = AnsiOff) /\
  (s = T_vvv -> s_verbosity st = DEBUG).
Proof.
  intros debug a l1 s l2 Hs Hl. cbv zeta. rewrite (line_insert_settings debug a l1 s l2 Hs Hl). unfold run_summary. cbn [sm_settings option_tokens].
  rewrite Hs. unfold io_settings. cbn [s_quiet s_interactive s_ansi s_verbosity]. unfold has_token. cbn [existsb].
  repeat split.
  - intros [-> | ->]; cbn; now rewrite ?orb_true_r.
  - intros [-> | ->]; cbn; now rewrite ?orb_true_r.
  - intros ->. reflexivity.
  - intros ->. reflexivity.
Qed.
Print Assumptions switch_acts_wherever_it_stands.

(* The same tokens after the double dash have no effect on the settings. *)
Theorem settings_tail : forall debug a l t t',
  sm_settings (run_summary debug a (l ++ [DASH; DASH] :: t)) = sm_settings (run_summary debug a (l ++ [DASH; DASH] :: t')).
Proof. intros debug a l t t'. unfold run_summary. cbn [sm_settings]. now rewrite !option_tokens_ddash. Qed.
Print Assumptions settings_tail.

(* ... stronger: a line with a tail behind the double dash has the settings and the help / version decisions of the line
   WITHOUT the tail; and when no help or version switch stands before the double dash, what the run does is what
   resolution, the PARSED options and the command selected say - a help or version token in the tail does not act. *)
Theorem tail_is_as_no_tail : forall debug a l t,
  sm_settings (run_summary debug a (l ++ [DASH; DASH] :: t)) = sm_settings (run_summary debug a l) /\
  wants_help (option_tokens (l ++ [DASH; DASH] :: t)) = wants_help (option_tokens l) /\
  wants_version (option_tokens (l ++ [DASH; DASH] :: t)) = wants_version (option_tokens l).
Proof. intros debug a l t. unfold run_summary. cbn [sm_settings]. rewrite option_tokens_ddash. auto. Qed.
Print Assumptions tail_is_as_no_tail.
Theorem switches_in_the_tail_do_not_act : forall debug a l t,
  wants_help (option_tokens l) = false -> wants_version (option_tokens l) = false ->
  sm_action (run_summary debug a (l ++ [DASH; DASH] :: t)) =
    match resolve a (l ++ [DASH; DASH] :: t) with
    | Err k => AError k
    | Ok (path, f, x) =>
      if args_is_option_set f x S_version then AVersion path
      else if match path with [p] => str_eqb p S_help | _ => false end then
        if args_is_argument_set f x (AName [99;111;109;109;97;110;100]%N)
        then match help_target a (l ++ [DASH; DASH] :: t) with Ok p => AHelpCmd p | Err k => AHelpFail k end
        else AHelpApp
      else AHandler path
    end.
Proof.
  intros debug a l t Hh Hv. unfold run_summary. cbn [sm_action]. rewrite option_tokens_ddash, Hh, Hv.
  destruct (resolve a (l ++ [DASH; DASH] :: t)) as [[[path f] x]|k]; [|reflexivity]. now rewrite orb_false_r.
Qed.
Print Assumptions switches_in_the_tail_do_not_act.

(* The table. *)
Theorem settings_table_quiet : forall debug ots, s_quiet (io_settings debug ots) = has_token T_quiet ots || has_token T_q ots.
Proof. exact quiet_table. Qed.
Print Assumptions settings_table_quiet.
Theorem settings_table_verbosity : forall ots,
  s_verbosity (io_settings false ots) =
    if has_token T_vvv ots then DEBUG else if has_token T_vv ots then VERY_VERBOSE else if has_token T_v ots then VERBOSE else NORMAL.
Proof. intros ots. now rewrite verbosity_table, orb_false_r. Qed.
Print Assumptions settings_table_verbosity.
Theorem settings_table_verbosity_debug : forall ots, s_verbosity (io_settings true ots) = DEBUG.
Proof. intros ots. now rewrite verbosity_table, orb_true_r. Qed.
Print Assumptions settings_table_verbosity_debug.
Theorem settings_table_ansi : forall debug ots stream_ansi,
  decorated (io_settings debug ots) stream_ansi =
    if has_token T_no_ansi ots then false else if has_token T_ansi ots then true else stream_ansi.
Proof. exact ansi_table. Qed.
Theorem settings_table_interaction : forall debug ots,
  s_interactive (io_settings debug ots) = negb (has_token T_no_interaction ots || has_token T_n ots).
Proof. exact interactive_table. Qed.
Print Assumptions settings_table_interaction.
Print Assumptions settings_table_ansi.

(* With C18: "the no-interaction switch makes questions return their defaults".  The interaction flag of the run's IO
   (line_interactive = s_interactive of the settings create_io computes from the line) is what Question.ask reads through
   io.is_interactive(); the question models of C18 (Model/Question.v, Model/QuestionText.v) take it as their first
   argument.  For EVERY application, EVERY line carrying "-n" or "--no-interaction" among its option tokens (anywhere
   before the first "--", whatever else is on the line, whatever the line resolves to) the flag is off, and every
   question asked with it - choice (single / multi-select), confirmation (case-insensitive and case-sensitive pattern),
   plain question with or without validator - returns its default, reads no line and writes nothing, whatever the
   input stream holds (all_questions_return_defaults).  The flag is off ONLY for such lines
   (interaction_flag_off_iff_switch), so without the switch, and with the switch behind "--", the input stays
   interactive.
   What is definitional here: settings_table_interaction (io_settings is a transcription of create_io, tied by
   settings_match_source) and the non-interactive branch of the question models (C18 non_interactive_default,
   confirmation_non_interactive, non_interactive_writes_nothing: the first test of ask()).  What the composition adds is
   the line-level quantifier and the iff.  That the handler's questions are asked on the IO create_io built is observed by
   the tie (oracle class no-interaction-question-default). *)
Theorem no_interaction_switch_makes_questions_return_defaults : forall debug a toks sw,
  sw = T_no_interaction \/ sw = T_n -> In sw (option_tokens toks) ->
  line_interactive debug a toks = false /\ all_questions_return_defaults (line_interactive debug a toks).
Proof.
  intros debug a toks sw Hsw Hin. assert (line_interactive debug a toks = false) as H.
  { apply line_interactive_iff. destruct Hsw as [-> | ->]; auto. }
  split; [exact H|]. rewrite H. exact non_interactive_all.
Qed.
Print Assumptions no_interaction_switch_makes_questions_return_defaults.
Theorem no_interaction_switch_wherever_it_stands : forall debug a l1 sw l2,
  sw = T_no_interaction \/ sw = T_n -> no_ddash l1 = true ->
  all_questions_return_defaults (line_interactive debug a (l1 ++ sw :: l2)).
Proof.
  intros debug a l1 sw l2 Hsw Hl. apply (no_interaction_switch_makes_questions_return_defaults debug a _ sw Hsw).
  assert (is_ddash sw = false) as Hd by (destruct Hsw as [-> | ->]; reflexivity).
  rewrite (option_tokens_insert l1 sw l2 Hd Hl). apply in_or_app. right. now left.
Qed.
Print Assumptions no_interaction_switch_wherever_it_stands.
Theorem interaction_flag_off_iff_switch : forall debug a toks,
  line_interactive debug a toks = false <-> In T_no_interaction (option_tokens toks) \/ In T_n (option_tokens toks).
Proof. exact line_interactive_iff. Qed.
Print Assumptions interaction_flag_off_iff_switch.
Theorem no_interaction_switch_after_ddash_does_not_act : forall debug a l (t : list str),
  ~ In T_no_interaction (option_tokens l) -> ~ In T_n (option_tokens l) ->
  line_interactive debug a l = true /\ line_interactive debug a (l ++ [DASH; DASH] :: t) = true.
Proof.
  intros debug a l t H1 H2. assert (line_interactive debug a l = true) as H.
  { destruct (line_interactive debug a l) eqn:E; [reflexivity|]. apply line_interactive_iff in E. tauto. }
  split; [exact H|]. unfold line_interactive in *. destruct (tail_is_as_no_tail debug a l t) as [E _].
  etransitivity; [exact (f_equal s_interactive E)|exact H].
Qed.
Print Assumptions no_interaction_switch_after_ddash_does_not_act.

(* With C10: under the quiet switch no write path of any output emits anything - error reports included. *)
Theorem quiet_silences : forall debug ots k a m f,
  (has_token T_quiet ots || has_token T_q ots) = true ->
  emits k a m (s_quiet (io_settings debug ots)) (s_verbosity (io_settings debug ots)) f = false.
Proof.
  intros debug ots k a m f H. rewrite quiet_table, H. unfold emits. destruct (path k a m) as [p|] eqn:E; [|reflexivity].
  destruct p as [|s p]; [destruct k, a, m; discriminate E|]. reflexivity.
Qed.
Print Assumptions quiet_silences.

(* Help switch: never a handler. Version switch: name/version instead of the selected command's handler. *)
Theorem help_switch : forall debug a toks, wants_help (option_tokens toks) = true ->
  match sm_action (run_summary debug a toks) with AHandler _ => False | _ => True end.
Proof.
  intros debug a toks H. unfold run_summary. cbn [sm_action]. rewrite H.
  destruct (find_cmd a S_help) as [hc|]; [|exact I].
  destruct (parse (b_fmt hc) true toks) as [x|k]; [|exact I].
  destruct (args_is_option_set (b_fmt hc) x S_version || wants_version (option_tokens toks)); [exact I|].
  destruct (args_is_argument_set (b_fmt hc) x _); [|exact I].
  destruct (help_target a toks); exact I.
Qed.
Print Assumptions help_switch.
(* The help switch placed right after the command path prints THAT command's help.  Configuration: what
   DefaultApplicationConfig sets up (default_help_config: the global option --help/-h, no global argument, the command
   "help" with its multi-valued argument "command"); line: path ++ [--help] or path ++ [-h], the path made of plain
   tokens, not empty, not starting with the word "help".
   - the run shows a command page or reports why the help target could not be determined - never the handler, never
     the error of resolving the line itself (the listener acts before resolution);
   - the path walks to the command b with name path p (C03: walk_deepest / walk_reports_the_names_on_the_path), b has
     no default sub-command: the page printed is p's, exactly when help_lenient accepts the lenient parse of the path
     with b's format (a value that does not convert does not count since fix 488171f - Props/C13.v ex_help_value_error;
     any other error is reported, AHelpFail);
   - with default sub-commands: the page of the first default sub-command that parses the path.
   "Status 0" = the action is AHelpCmd (prints_page), not AHelpFail / AError.
   These four speak of the line path ++ [sw] (the switch directly behind the path, nothing else on the line) and relate
   it to "help <path>"; the general case - the switch anywhere among further switches, options and arguments - is
   help_switch_anywhere_* below. *)
Theorem help_switch_after_path_shows_a_page_or_why_not : forall cfg a debug path sw,
  build_app cfg = Ok a -> default_help_config cfg = true -> forallb lead_ok path = true -> path <> [] ->
  (match path with t :: _ => str_eqb t S_help = false | [] => True end) -> sw = T_help \/ sw = T_h ->
  sm_action (run_summary debug a (path ++ [sw])) = help_page a (S_help :: path) /\
  match sm_action (run_summary debug a (path ++ [sw])) with AHelpCmd _ | AHelpFail _ => True | _ => False end.
Proof.
  intros cfg a debug path sw Hb Hc Hp Hn Hh Hs. rewrite (proj1 (help_switch_run cfg a debug path sw Hb Hc Hp Hn Hh Hs)).
  split; [reflexivity|]. unfold help_page. destruct (help_target a (S_help :: path)); exact I.
Qed.
Print Assumptions help_switch_after_path_shows_a_page_or_why_not.
Theorem help_switch_after_path_prints_that_commands_help : forall cfg a debug path sw b p,
  build_app cfg = Ok a -> default_help_config cfg = true -> forallb lead_ok path = true -> path <> [] ->
  (match path with t :: _ => str_eqb t S_help = false | [] => True end) -> sw = T_help \/ sw = T_h ->
  walk (named_of (ap_cmds a)) None path = Ok (Some (b, p)) -> defaults_of (b_subs b) = [] ->
  sm_action (run_summary debug a (path ++ [sw])) =
    match help_lenient (b_fmt b) path with Ok _ => AHelpCmd p | Err k => AHelpFail k end.
Proof.
  intros cfg a debug path sw b p Hb Hc Hp Hn Hh Hs Hw. destruct (help_switch_run cfg a debug path sw Hb Hc Hp Hn Hh Hs) as [-> ->].
  rewrite <- (leading_all _ Hp) in Hw. now apply help_page_that_command.
Qed.
Print Assumptions help_switch_after_path_prints_that_commands_help.
Theorem help_switch_after_path_status_zero : forall cfg a debug path sw b p,
  build_app cfg = Ok a -> default_help_config cfg = true -> forallb lead_ok path = true -> path <> [] ->
  (match path with t :: _ => str_eqb t S_help = false | [] => True end) -> sw = T_help \/ sw = T_h ->
  walk (named_of (ap_cmds a)) None path = Ok (Some (b, p)) -> defaults_of (b_subs b) = [] ->
  help_lenient (b_fmt b) path = Ok tt ->
  sm_action (run_summary debug a (path ++ [sw])) = AHelpCmd p /\ prints_page (sm_action (run_summary debug a (path ++ [sw]))) = true.
Proof.
  intros cfg a debug path sw b p Hb Hc Hp Hn Hh Hs Hw Hd Hy.
  rewrite (help_switch_after_path_prints_that_commands_help cfg a debug path sw b p) by assumption. rewrite Hy. auto.
Qed.
Print Assumptions help_switch_after_path_status_zero.
Theorem help_switch_after_path_default_sub_command : forall cfg a debug path sw b p ds1 d ds2 x,
  build_app cfg = Ok a -> default_help_config cfg = true -> forallb lead_ok path = true -> path <> [] ->
  (match path with t :: _ => str_eqb t S_help = false | [] => True end) -> sw = T_help \/ sw = T_h ->
  walk (named_of (ap_cmds a)) None path = Ok (Some (b, p)) ->
  defaults_of (b_subs b) = ds1 ++ d :: ds2 ->
  Forall (unfit path) ds1 ->
  parse (b_fmt d) (b_lenient d) path = Ok x -> help_lenient (b_fmt d) path = Ok tt ->
  sm_action (run_summary debug a (path ++ [sw])) = AHelpCmd (p ++ [b_name d]).
Proof.
  intros cfg a debug path sw b p ds1 d ds2 x Hb Hc Hp Hn Hh Hs Hw. destruct (help_switch_run cfg a debug path sw Hb Hc Hp Hn Hh Hs) as [-> ->].
  rewrite <- (leading_all _ Hp) in Hw. now apply help_page_default.
Qed.
Print Assumptions help_switch_after_path_default_sub_command.

(* The help switch ANYWHERE among the tokens after the command path and before "--".
   The line is path ++ rest: path = its leading plain tokens (command names and positionals written before the first
   option; not empty, not starting with the word "help"), rest = everything behind them - further global switches
   (-q, -v, --ansi ...), the command's own options with their values, more arguments, a "--" tail - with "--help" or "-h"
   somewhere among the option tokens of rest.  every_line_is_a_path_and_a_rest: EVERY line decomposes that way, with
   path = leading toks and rest starting with an option-like token, "--" or the empty token (starts_stopped), so the
   shape is no restriction.  No hypothesis on rest beyond the switch being there.

   What the code does (DefaultApplicationConfig.resolve_help_command): the PRE_RESOLVE listener sees the switch among the
   RAW option tokens and parses the whole line leniently with the format of the command "help" (help_line_parse); the
   leading plain tokens make its argument "command" set whatever follows (the proof: the token loop over arbitrary
   tokens keeps the argument scratch map a placement of the positionals read, HelpAnywhereLemmas.loop_absorbs), so
   HelpTextHandler asks HelpResolver for the command of the line (help_target) and prints its page.  Exhaustively
   (help_switch_anywhere_shows_a_page_or_why_not):
     - the help command's own lenient parse fails (only a value error of a GLOBAL option can do that): error report;
     - the version switch was given as well - parsed from the line ("-V", "--version", also grouped "-qV" or "--V":
       Examples) or as a raw option token: name and version (the PRE_HANDLE listener), status 0, no handler;
     - otherwise: the page of help_target (path ++ rest), or the report of why there is none.
   help_target walks the leading tokens to the command b (name path p; C03 walk_deepest) and takes b's first default
   sub-command that parses THE LINE AS IT STANDS under its own leniency, else the first one, else b; the command picked
   is then parsed leniently.

   SINCE FIX 488171f (the defect: help_switch_between_option_and_value_fails_before_the_repair) neither
   step lets a VALUE error escape: a default sub-command whose probe meets a value that does not convert counts as "does
   not parse the line" (help_pick_default), and the lenient parse of the command picked is only asked whether it ends in
   something else than a value error (help_lenient).  A lenient parse of a well-formed format cannot (C02), so for
   configurations of constructed objects (cfg_wf: every argument and option in C07's normal form) the page is printed for
   EVERY such line:
     - help_switch_anywhere_prints_the_page: the page of p, or of p ++ [d] for the default sub-command d chosen by
       help_choice (first one parsing the line, else the first one) - the only other outcomes are the two above (value
       error of the help command's own parse; version).  For commands with default sub-commands one side condition is
       left, probes_quietly: no default sub-command probed STRICTLY before the chosen one meets an unknown option
       (NoSuchOptionException leaves DefaultResolver's and HelpResolver's probe at once - C03 default_choice_other_error_leaves;
       lenient default sub-commands never raise it; necessity: Example anywhere_strict_default_unknown_option);
     - help_switch_anywhere_closed_form: no token spelling the version option, the help command's parse not failing:
       the action IS AHelpCmd of that command - "prints that command's help, status 0, no handler";
     - help_switch_inserted_at_any_position: the same for a line l1 ++ sw :: l2 with the switch at ANY position before
       the first "--" - between an option and its value included.  Nothing is asked of the line without the switch
       (it need not even be valid).
   Without cfg_wf: help_switch_anywhere_prints_that_commands_help (the page exactly when
   help_lenient succeeds), _status_zero, _default_sub_command, _first_default_when_none_parses.
   Still NOT true, with a witness replayed on the real code: "the page is that of the command the line without the
   switch runs" - help_switch_changes_the_default_refuted (two default sub-commands; C03's
   options_after_the_path_change_the_default_refuted for the help switch; by design of "first parsable default": a
   reading, not a defect). *)
Theorem every_line_is_a_path_and_a_rest : forall toks, exists path rest,
  toks = path ++ rest /\ forallb lead_ok path = true /\ starts_stopped rest = true /\ path = leading toks.
Proof.
  induction toks as [|t r (path & rest & E & Hp & Hr & El)].
  - exists [], []. repeat split.
  - rewrite leading_step. destruct (lead_ok t) eqn:Ht.
    + exists (t :: path), rest. subst r. cbn [app forallb]. rewrite Ht, Hp, <- El. repeat split; assumption.
    + exists [], (t :: r). cbn [app forallb starts_stopped]. unfold stopper. rewrite Ht. repeat split.
Qed.
Print Assumptions every_line_is_a_path_and_a_rest.
Theorem help_switch_anywhere_shows_a_page_or_why_not : forall cfg a debug path rest sw,
  build_app cfg = Ok a -> default_help_config cfg = true -> forallb lead_ok path = true -> path <> [] ->
  (match path with t :: _ => str_eqb t S_help = false | [] => True end) ->
  sw = T_help \/ sw = T_h -> In sw (option_tokens rest) ->
  sm_action (run_summary debug a (path ++ rest)) =
    match help_line_parse a (path ++ rest) with
    | Err k => AError k
    | Ok (fx, x) =>
      if args_is_option_set fx x S_version || wants_version (option_tokens rest) then AVersion [S_help]
      else help_page a (path ++ rest)
    end /\
  match sm_action (run_summary debug a (path ++ rest)) with AHandler _ => False | _ => True end.
Proof.
  intros cfg a debug path rest sw Hb Hc Hp Hn Hh Hs Hin. pose proof (wants_help_in sw _ Hs Hin) as Hw.
  split; [apply (help_anywhere_run cfg); assumption|]. apply help_switch. now rewrite (wants_help_line _ _ Hp).
Qed.
Print Assumptions help_switch_anywhere_shows_a_page_or_why_not.
Theorem help_switch_anywhere_prints_that_commands_help : forall cfg a debug path rest sw fx x b p,
  build_app cfg = Ok a -> default_help_config cfg = true -> forallb lead_ok path = true -> path <> [] ->
  (match path with t :: _ => str_eqb t S_help = false | [] => True end) ->
  sw = T_help \/ sw = T_h -> In sw (option_tokens rest) -> starts_stopped rest = true ->
  help_line_parse a (path ++ rest) = Ok (fx, x) -> args_is_option_set fx x S_version = false ->
  wants_version (option_tokens rest) = false ->
  walk (named_of (ap_cmds a)) None path = Ok (Some (b, p)) -> defaults_of (b_subs b) = [] ->
  sm_action (run_summary debug a (path ++ rest)) =
    match help_lenient (b_fmt b) (path ++ rest) with Ok _ => AHelpCmd p | Err k => AHelpFail k end.
Proof.
  intros cfg a debug path rest sw fx x b p Hb Hc Hp Hn Hh Hs Hin Hst Hpa Hv1 Hv2 Hw Hd.
  rewrite (help_anywhere_page cfg a debug path rest Hb Hc Hp Hn Hh (wants_help_in sw _ Hs Hin) fx x Hpa Hv1 Hv2).
  rewrite <- (leading_app_stopped _ rest Hp Hst) in Hw. exact (help_page_that_command a _ b p (not_help_app path rest Hn Hh) Hw Hd).
Qed.
Print Assumptions help_switch_anywhere_prints_that_commands_help.
Theorem help_switch_anywhere_status_zero : forall cfg a debug path rest sw fx x b p,
  build_app cfg = Ok a -> default_help_config cfg = true -> forallb lead_ok path = true -> path <> [] ->
  (match path with t :: _ => str_eqb t S_help = false | [] => True end) ->
  sw = T_help \/ sw = T_h -> In sw (option_tokens rest) -> starts_stopped rest = true ->
  help_line_parse a (path ++ rest) = Ok (fx, x) -> args_is_option_set fx x S_version = false ->
  wants_version (option_tokens rest) = false ->
  walk (named_of (ap_cmds a)) None path = Ok (Some (b, p)) -> defaults_of (b_subs b) = [] ->
  help_lenient (b_fmt b) (path ++ rest) = Ok tt ->
  sm_action (run_summary debug a (path ++ rest)) = AHelpCmd p /\
  prints_page (sm_action (run_summary debug a (path ++ rest))) = true.
Proof.
  intros cfg a debug path rest sw fx x b p Hb Hc Hp Hn Hh Hs Hin Hst Hpa Hv1 Hv2 Hw Hd Hy.
  rewrite (help_switch_anywhere_prints_that_commands_help cfg a debug path rest sw fx x b p) by assumption. rewrite Hy. auto.
Qed.
Print Assumptions help_switch_anywhere_status_zero.
Theorem help_switch_anywhere_default_sub_command : forall cfg a debug path rest sw fx x b p ds1 d ds2 y,
  build_app cfg = Ok a -> default_help_config cfg = true -> forallb lead_ok path = true -> path <> [] ->
  (match path with t :: _ => str_eqb t S_help = false | [] => True end) ->
  sw = T_help \/ sw = T_h -> In sw (option_tokens rest) -> starts_stopped rest = true ->
  help_line_parse a (path ++ rest) = Ok (fx, x) -> args_is_option_set fx x S_version = false ->
  wants_version (option_tokens rest) = false ->
  walk (named_of (ap_cmds a)) None path = Ok (Some (b, p)) ->
  defaults_of (b_subs b) = ds1 ++ d :: ds2 ->
  Forall (unfit (path ++ rest)) ds1 ->
  parse (b_fmt d) (b_lenient d) (path ++ rest) = Ok y -> help_lenient (b_fmt d) (path ++ rest) = Ok tt ->
  sm_action (run_summary debug a (path ++ rest)) = AHelpCmd (p ++ [b_name d]).
Proof.
  intros cfg a debug path rest sw fx x b p ds1 d ds2 y Hb Hc Hp Hn Hh Hs Hin Hst Hpa Hv1 Hv2 Hw Hd H1 H2 H3.
  rewrite (help_anywhere_page cfg a debug path rest Hb Hc Hp Hn Hh (wants_help_in sw _ Hs Hin) fx x Hpa Hv1 Hv2).
  rewrite <- (leading_app_stopped _ rest Hp Hst) in Hw. exact (help_page_default a _ b p (not_help_app path rest Hn Hh) Hw ds1 d ds2 y Hd H1 H2 H3).
Qed.
Print Assumptions help_switch_anywhere_default_sub_command.
Theorem help_switch_anywhere_first_default_when_none_parses : forall cfg a debug path rest sw fx x b p d ds,
  build_app cfg = Ok a -> default_help_config cfg = true -> forallb lead_ok path = true -> path <> [] ->
  (match path with t :: _ => str_eqb t S_help = false | [] => True end) ->
  sw = T_help \/ sw = T_h -> In sw (option_tokens rest) -> starts_stopped rest = true ->
  help_line_parse a (path ++ rest) = Ok (fx, x) -> args_is_option_set fx x S_version = false ->
  wants_version (option_tokens rest) = false ->
  walk (named_of (ap_cmds a)) None path = Ok (Some (b, p)) ->
  defaults_of (b_subs b) = d :: ds ->
  Forall (unfit (path ++ rest)) (d :: ds) -> help_lenient (b_fmt d) (path ++ rest) = Ok tt ->
  sm_action (run_summary debug a (path ++ rest)) = AHelpCmd (p ++ [b_name d]).
Proof.
  intros cfg a debug path rest sw fx x b p d ds Hb Hc Hp Hn Hh Hs Hin Hst Hpa Hv1 Hv2 Hw Hd H1 H3.
  rewrite (help_anywhere_page cfg a debug path rest Hb Hc Hp Hn Hh (wants_help_in sw _ Hs Hin) fx x Hpa Hv1 Hv2).
  rewrite <- (leading_app_stopped _ rest Hp Hst) in Hw. exact (help_page_default_none a _ b p (not_help_app path rest Hn Hh) Hw d ds Hd H1 H3).
Qed.
Print Assumptions help_switch_anywhere_first_default_when_none_parses.

(* The side conditions, characterised.
   (1) The help command's own lenient parse can only fail with a VALUE error, when the options its format lists are
   well-formed objects (help_options_ok; follows from cfg_wf: well_formed_configuration).  Only a typed GLOBAL option can
   cause it (Example anywhere_typed_global_option: "--level=x -h"); DefaultApplicationConfig's seven options cannot.
   (2) "The parse does not set the version option" has a syntactic criterion, for configurations whose global options
   include the version option as DefaultApplicationConfig defines it (defines_version: long name "version", short name
   "V"): no option token of the line spells it - no token "--version..." / "--V...", no single-dash token holding the
   letter V (no_version_spelling).  The parser files an option under the name it was FOUND by, so nothing else can set it,
   wherever the lenient parse stops (Proofs/HelpAnywhereVersionLemmas.v).
   (3) help_lenient never fails on the formats of a configuration of constructed objects, and its probe meets only
   refusals, value errors and unknown options (well_formed_configuration: every format of the tree is fmt_inv with
   well-formed listed options). *)
Theorem help_parse_fails_only_with_a_value_error : forall cfg a toks k,
  build_app cfg = Ok a -> default_help_config cfg = true -> help_options_ok a = true ->
  help_line_parse a toks = Err k -> k = ValueError.
Proof.
  intros cfg a toks k Hb Hc Ho. destruct (default_help_setup cfg a Hb Hc) as (hc & f & arg & o & HS).
  unfold help_options_ok in Ho. rewrite (help_setup_find HS), (help_setup_fmt HS) in Ho. rewrite (help_line_parse_setup HS).
  destruct (parse f true toks) as [x|k0] eqn:E; cbn [bind]; [discriminate|]. intros H. inversion H; subst k0.
  exact (proj2 (listed_parse_errors f true toks k (hs_inv HS) Ho E) eq_refl).
Qed.
Print Assumptions help_parse_fails_only_with_a_value_error.
Theorem help_parse_sets_version_only_when_spelled : forall cfg a toks fx x,
  build_app cfg = Ok a -> default_help_config cfg = true -> defines_version cfg = true ->
  help_line_parse a toks = Ok (fx, x) -> no_version_spelling (option_tokens toks) = true ->
  args_is_option_set fx x S_version = false.
Proof. exact help_line_version_not_set. Qed.
Print Assumptions help_parse_sets_version_only_when_spelled.
Theorem well_formed_configuration : forall cfg a, build_app cfg = Ok a -> cfg_wf cfg = true ->
  Forall (tree_ok good) (ap_cmds a) /\
  (forall f toks, good f -> help_lenient f toks = Ok tt) /\
  (default_help_config cfg = true -> help_options_ok a = true).
Proof.
  intros cfg a Hb Hw. split; [exact (build_app_good cfg a Hb Hw)|]. split; [intros f toks; apply help_lenient_good|].
  intros Hc. exact (cfg_wf_help_options cfg a Hb Hc Hw).
Qed.
Print Assumptions well_formed_configuration.

(* THE PAGE, for every line (since fix 488171f).  help_choice ds toks = the first default sub-command that parses the
   line under its own leniency, else the first one; None when there is none - then the page is b's own. *)
Theorem help_switch_anywhere_prints_the_page : forall cfg a debug path rest sw b p,
  build_app cfg = Ok a -> default_help_config cfg = true -> cfg_wf cfg = true ->
  forallb lead_ok path = true -> path <> [] ->
  (match path with t :: _ => str_eqb t S_help = false | [] => True end) ->
  sw = T_help \/ sw = T_h -> In sw (option_tokens rest) -> starts_stopped rest = true ->
  walk (named_of (ap_cmds a)) None path = Ok (Some (b, p)) ->
  probes_quietly (defaults_of (b_subs b)) (path ++ rest) ->
  help_target a (path ++ rest) =
    Ok (match help_choice (defaults_of (b_subs b)) (path ++ rest) with Some d => p ++ [b_name d] | None => p end) /\
  sm_action (run_summary debug a (path ++ rest)) =
    match help_line_parse a (path ++ rest) with
    | Err k => AError k
    | Ok (fx, x) =>
      if args_is_option_set fx x S_version || wants_version (option_tokens rest) then AVersion [S_help]
      else AHelpCmd (match help_choice (defaults_of (b_subs b)) (path ++ rest) with Some d => p ++ [b_name d] | None => p end)
    end.
Proof.
  intros cfg a debug path rest sw b p Hb Hc Hwf Hp Hn Hh Hs Hin Hst Hw Hq. pose proof (wants_help_in sw _ Hs Hin) as Hwh. split.
  - exact (help_target_total cfg a path rest Hb Hwf Hp Hh Hst b p Hw Hq).
  - exact (help_anywhere_total cfg a debug path rest Hb Hc Hwf Hp Hh Hwh Hst b p Hw Hq).
Qed.
Print Assumptions help_switch_anywhere_prints_the_page.
(* "prints that command's help, status 0, without invoking the handler": the command the path names has no default
   sub-command, no token spells the version option, the help command's own parse does not fail (it cannot with
   DefaultApplicationConfig's global options) - and NOTHING about the rest of the line *)
Theorem help_switch_anywhere_closed_form : forall cfg a debug path rest sw b p,
  build_app cfg = Ok a -> default_help_config cfg = true -> cfg_wf cfg = true -> defines_version cfg = true ->
  forallb lead_ok path = true -> path <> [] ->
  (match path with t :: _ => str_eqb t S_help = false | [] => True end) ->
  sw = T_help \/ sw = T_h -> In sw (option_tokens rest) -> no_version_spelling (option_tokens rest) = true ->
  starts_stopped rest = true -> (forall k, help_line_parse a (path ++ rest) <> Err k) ->
  walk (named_of (ap_cmds a)) None path = Ok (Some (b, p)) -> defaults_of (b_subs b) = [] ->
  sm_action (run_summary debug a (path ++ rest)) = AHelpCmd p /\
  prints_page (sm_action (run_summary debug a (path ++ rest))) = true.
Proof.
  intros cfg a debug path rest sw b p Hb Hc Hwf Hv Hp Hn Hh Hs Hin Hno Hst Hok Hw Hd.
  rewrite (help_anywhere_total_closed cfg a debug path rest Hb Hc Hwf Hp Hh (wants_help_in sw _ Hs Hin) Hst b p Hw Hv Hno);
    [|rewrite Hd; exact I|exact Hok].
  rewrite Hd. cbn. auto.
Qed.
Print Assumptions help_switch_anywhere_closed_form.
(* ... with default sub-commands: the page of the one help_choice names *)
Theorem help_switch_anywhere_closed_form_default_sub_commands : forall cfg a debug path rest sw b p,
  build_app cfg = Ok a -> default_help_config cfg = true -> cfg_wf cfg = true -> defines_version cfg = true ->
  forallb lead_ok path = true -> path <> [] ->
  (match path with t :: _ => str_eqb t S_help = false | [] => True end) ->
  sw = T_help \/ sw = T_h -> In sw (option_tokens rest) -> no_version_spelling (option_tokens rest) = true ->
  starts_stopped rest = true -> (forall k, help_line_parse a (path ++ rest) <> Err k) ->
  walk (named_of (ap_cmds a)) None path = Ok (Some (b, p)) ->
  probes_quietly (defaults_of (b_subs b)) (path ++ rest) ->
  sm_action (run_summary debug a (path ++ rest)) =
    AHelpCmd (match help_choice (defaults_of (b_subs b)) (path ++ rest) with Some d => p ++ [b_name d] | None => p end).
Proof.
  intros cfg a debug path rest sw b p Hb Hc Hwf Hv Hp Hn Hh Hs Hin Hno Hst Hok Hw Hq.
  exact (help_anywhere_total_closed cfg a debug path rest Hb Hc Hwf Hp Hh (wants_help_in sw _ Hs Hin) Hst b p Hw Hv Hno Hq Hok).
Qed.
Print Assumptions help_switch_anywhere_closed_form_default_sub_commands.
(* the switch INSERTED at any position of a line before its first "--" (between an option and its value included):
   the page of the help target of the line as it then stands.  Nothing is asked of l1 ++ l2. *)
Theorem help_switch_inserted_at_any_position : forall cfg a debug l1 sw l2 b p,
  build_app cfg = Ok a -> default_help_config cfg = true -> cfg_wf cfg = true -> defines_version cfg = true ->
  no_ddash l1 = true -> sw = T_help \/ sw = T_h ->
  (match leading l1 with t :: _ => str_eqb t S_help = false | [] => False end) ->
  no_version_spelling (option_tokens (l1 ++ sw :: l2)) = true ->
  (forall k, help_line_parse a (l1 ++ sw :: l2) <> Err k) ->
  walk (named_of (ap_cmds a)) None (leading l1) = Ok (Some (b, p)) ->
  probes_quietly (defaults_of (b_subs b)) (l1 ++ sw :: l2) ->
  sm_action (run_summary debug a (l1 ++ sw :: l2)) =
    AHelpCmd (match help_choice (defaults_of (b_subs b)) (l1 ++ sw :: l2) with Some d => p ++ [b_name d] | None => p end).
Proof.
  intros cfg a debug l1 sw l2 b p Hb Hc Hwf Hv Hnd Hsw Hlead Hno Hok Hw Hq.
  assert (stopper sw = true /\ is_ddash sw = false) as [Hst Hdd] by (destruct Hsw as [-> | ->]; split; reflexivity).
  destruct (every_line_is_a_path_and_a_rest (l1 ++ sw :: l2)) as (path & rest & E & Hp & Hr & El).
  rewrite (leading_insert_stopper l1 sw l2 Hst) in El. rewrite <- El in Hw, Hlead.
  assert (wants_help (option_tokens (l1 ++ sw :: l2)) = true) as Hwh.
  { rewrite (option_tokens_insert l1 sw l2 Hdd Hnd). apply (wants_help_in sw _ Hsw). apply in_or_app. right. now left. }
  rewrite E in *. rewrite (wants_help_line _ _ Hp) in Hwh. rewrite (no_spelling_line _ _ Hp) in Hno.
  apply (help_anywhere_total_closed cfg a debug path rest Hb Hc Hwf Hp); try assumption.
  destruct path; [destruct Hlead|exact Hlead].
Qed.
Print Assumptions help_switch_inserted_at_any_position.

(* Lines WITHOUT a leading plain token.  A line of option-like tokens only ("-h", "-q --help -vv"): no positional is
   read, the help command's argument "command" stays unset, the APPLICATION page is printed (or name and version; or the
   value error of a global option).  In general (leading toks = []: "-h cmd", "-q -h srv x") the handler asks
   HelpResolver only when the parse set "command", and the resolver, finding no leading token, explains one of the
   application's DEFAULT commands - with DefaultApplicationConfig the help command itself. *)
Theorem help_switch_alone_prints_the_application_page : forall cfg a debug toks,
  build_app cfg = Ok a -> default_help_config cfg = true -> wants_help (option_tokens toks) = true ->
  Forall (fun t => optlike t = true) toks ->
  sm_action (run_summary debug a toks) =
    match help_line_parse a toks with
    | Err k => AError k
    | Ok (fx, x) => if args_is_option_set fx x S_version || wants_version (option_tokens toks) then AVersion [S_help] else AHelpApp
    end.
Proof.
  intros cfg a debug toks Hb Hc Hsw Ht. rewrite (run_with_help_switch debug a toks Hsw).
  destruct (default_help_setup cfg a Hb Hc) as (hc & f & arg & o & HS). rewrite (help_line_parse_setup HS).
  destruct (parse f true toks) as [x|k] eqn:E; cbn [bind]; [|reflexivity].
  destruct (args_is_option_set f x S_version || wants_version (option_tokens toks)); [reflexivity|].
  (* no positional on the line: the parse sets no argument, "command" stays unset *)
  now rewrite (command_set HS), (parse_options_only f toks x (hs_inv HS) Ht E).
Qed.
Print Assumptions help_switch_alone_prints_the_application_page.
Theorem help_switch_without_a_path : forall (a : application) debug toks,
  wants_help (option_tokens toks) = true -> leading toks = [] ->
  sm_action (run_summary debug a toks) =
    match help_line_parse a toks with
    | Err k => AError k
    | Ok (fx, x) =>
      if args_is_option_set fx x S_version || wants_version (option_tokens toks) then AVersion [S_help]
      else if args_is_argument_set fx x (AName HelpRunLemmas.COMMAND) then
        match (do d <- help_pick_default (defaults_of (ap_cmds a)) toks None;
               match d with
               | Some (dc, _) => do _ <- help_lenient (b_fmt dc) toks; Ok [b_name dc]
               | None => Err CannotResolve
               end) with Ok p => AHelpCmd p | Err k => AHelpFail k end
      else AHelpApp
    end.
Proof.
  intros a debug toks Hs Hl. rewrite (run_with_help_switch debug a toks Hs). unfold help_page.
  now rewrite (help_target_no_path a toks Hl).
Qed.
Print Assumptions help_switch_without_a_path.

Theorem version_switch : forall debug a toks path f x,
  wants_help (option_tokens toks) = false -> resolve a toks = Ok (path, f, x) ->
  args_is_option_set f x S_version = true -> sm_action (run_summary debug a toks) = AVersion path.
Proof. intros debug a toks path f x Hh Hr Hv. unfold run_summary. cbn [sm_action]. rewrite Hh, Hr, Hv. reflexivity. Qed.
Print Assumptions version_switch.
(* The version switch as a token (print_version reads the option tokens since fix e9d73cf): wherever it stands among the
   option tokens, whatever else is on the line - tokens a lenient command cannot parse included - and whichever
   command the line selects, no handler runs; when the line resolves, the run prints name and version for that command;
   a version token behind "--" is no switch. *)
Theorem version_token_never_runs_handler : forall debug a toks, wants_version (option_tokens toks) = true ->
  match sm_action (run_summary debug a toks) with AHandler _ => False | _ => True end.
Proof.
  intros debug a toks H. destruct (wants_help (option_tokens toks)) eqn:Hh; [now apply help_switch|].
  unfold run_summary. cbn [sm_action]. rewrite Hh, H.
  destruct (resolve a toks) as [[[path f] x]|k]; [|exact I]. rewrite orb_true_r. exact I.
Qed.
Print Assumptions version_token_never_runs_handler.
Theorem version_token_prints_version : forall debug a toks path f x,
  wants_version (option_tokens toks) = true -> wants_help (option_tokens toks) = false ->
  resolve a toks = Ok (path, f, x) -> sm_action (run_summary debug a toks) = AVersion path.
Proof. intros debug a toks path f x H Hh Hr. unfold run_summary. cbn [sm_action]. rewrite Hh, H, Hr, orb_true_r. reflexivity. Qed.
Print Assumptions version_token_prints_version.
Theorem version_and_help_tokens : forall debug a toks,
  wants_version (option_tokens toks) = true -> wants_help (option_tokens toks) = true ->
  match sm_action (run_summary debug a toks) with AVersion _ | AError _ => True | _ => False end.
Proof.
  intros debug a toks H Hh. unfold run_summary. cbn [sm_action]. rewrite Hh, H.
  destruct (find_cmd a S_help); [|exact I]. destruct (parse (b_fmt b) true toks); [|exact I]. rewrite orb_true_r. exact I.
Qed.
Print Assumptions version_and_help_tokens.
Theorem version_token_position_free : forall l l', Permutation l l' -> wants_version l = wants_version l'.
Proof. exact wants_version_perm. Qed.
Print Assumptions version_token_position_free.
Theorem version_token_after_ddash_inert : forall l t t',
  wants_version (option_tokens (l ++ [DASH; DASH] :: t)) = wants_version (option_tokens (l ++ [DASH; DASH] :: t')).
Proof. intros l t t'. now rewrite !option_tokens_ddash. Qed.
Print Assumptions version_token_after_ddash_inert.
Theorem no_switch_runs_handler : forall debug a toks path f x,
  wants_help (option_tokens toks) = false -> wants_version (option_tokens toks) = false -> resolve a toks = Ok (path, f, x) ->
  args_is_option_set f x S_version = false -> (forall p, path = [p] -> str_eqb p S_help = false) ->
  sm_action (run_summary debug a toks) = AHandler path.
Proof. exact handler_runs_lemma. Qed.
Print Assumptions no_switch_runs_handler.

(* second tie (translator): the hand model of the switches EQUALS what harness/translate_switches.py regenerates from
   DefaultApplicationConfig.create_io / resolve_help_command / print_version on every bin/setup (Generated/GenSwitches.v):
   verbosity, quiet and interactive of the IO that create_io builds, which of its two outputs decorate, the guard of the
   help listener and the guard of the version listener - for every set of option tokens, debug flag and stream. *)
From Clikit Require Generated.GenSwitches Proofs.GenSwitchEquivLemmas.
Theorem settings_match_source : forall debug ots out_ansi err_ansi,
  let g := GenSwitches.create_io (fun t => has_token t ots) debug out_ansi err_ansi in
  let s := io_settings debug ots in
  GenSwitches.g_verbosity g = s_verbosity s /\ GenSwitches.g_quiet g = s_quiet s /\
  GenSwitches.g_interactive g = s_interactive s /\
  GenSwitchEquivLemmas.decorates (GenSwitches.g_out g) out_ansi = decorated s out_ansi /\
  GenSwitchEquivLemmas.decorates (GenSwitches.g_err g) err_ansi = decorated s err_ansi.
Proof. exact GenSwitchEquivLemmas.gen_create_io. Qed.
Print Assumptions settings_match_source.
Theorem help_guard_matches_source : forall ots,
  GenSwitches.help_listener_fires (fun t => has_token t ots) = wants_help ots.
Proof. exact GenSwitchEquivLemmas.gen_help_listener. Qed.
Print Assumptions help_guard_matches_source.
Theorem version_guard_matches_source : forall ots version_set,
  GenSwitches.version_listener_fires (fun t => has_token t ots) version_set true = version_set || wants_version ots.
Proof. exact GenSwitchEquivLemmas.gen_version_listener. Qed.
Print Assumptions version_guard_matches_source.
Theorem option_tokens_match_source : forall toks t,
  GenSwitches.option_tokens str_eqb toks = option_tokens toks /\
  GenSwitches.has_option_token str_eqb toks t = has_token t (option_tokens toks).
Proof. intros toks t. split; [apply GenSwitchEquivLemmas.gen_option_tokens|apply GenSwitchEquivLemmas.gen_has_option_token]. Qed.
Print Assumptions option_tokens_match_source.
(* non-vacuity: a DefaultApplicationConfig-like configuration (global --help/-h and --version/-V, the default command
   "help", "server" [srv] with the sub-commands "add" <file> and "del") satisfies the hypotheses of the help theorems
   with path = server add, and the runs do what the theorems say *)
Definition COMMAND : str := [99;111;109;109;97;110;100]%N.
Definition SERVER : str := [115;101;114;118;101;114]%N. Definition SRV : str := [115;114;118]%N.
Definition ADD : str := [97;100;100]%N. Definition DEL : str := [100;101;108]%N. Definition FILE : str := [102;105;108;101]%N.
Definition o_help : opt := {| o_long := S_help; o_short := Some [104%N]; o_flags := 4 + 2 + 128; o_default := VNone |}.
Definition o_version : opt := {| o_long := S_version; o_short := Some [86%N]; o_flags := 4 + 2 + 128; o_default := VNone |}.
Definition a_command : arg := {| a_name := COMMAND; a_flags := 2 + 4 + 16; a_default := VList [] |}.
Definition a_file : arg := {| a_name := FILE; a_flags := 2 + 16; a_default := VNone |}.
Definition ex_cfg : appcfg :=
  {| ac_opts := [o_help; o_version]; ac_args := [];
     ac_cmds := [Cmd S_help [] true false true false [] [a_command] [];
                 Cmd SERVER [SRV] false false true false [] []
                   [Cmd ADD [] false false true false [] [a_file] []; Cmd DEL [] false false true false [] [] []]] |}.
Example help_hypotheses_hold :
  match build_app ex_cfg with
  | Ok a =>
    default_help_config ex_cfg = true /\ forallb lead_ok [SRV; ADD] = true /\ str_eqb SRV S_help = false /\
    match walk (named_of (ap_cmds a)) None [SRV; ADD] with
    | Ok (Some (b, p)) => p = [SERVER; ADD] /\ map b_name (defaults_of (b_subs b)) = [] /\
                          match parse (b_fmt b) true [SRV; ADD] with Ok _ => True | Err _ => False end
    | _ => False end /\
    sm_action (run_summary false a [SRV; ADD; T_help]) = AHelpCmd [SERVER; ADD] /\
    sm_action (run_summary false a [SRV; ADD; T_h]) = AHelpCmd [SERVER; ADD] /\
    sm_action (run_summary false a [SRV; ADD; T_version]) = AVersion [SERVER; ADD] /\
    sm_action (run_summary false a [SRV; ADD]) = AHandler [SERVER; ADD] /\
    (* behind the double dash the same tokens do not act *)
    sm_action (run_summary false a [SRV; ADD; [DASH; DASH]; T_help]) = AHandler [SERVER; ADD] /\
    sm_settings (run_summary false a [SRV; ADD; [DASH; DASH]; T_quiet; T_vvv]) = sm_settings (run_summary false a [SRV; ADD]) /\
    s_quiet (sm_settings (run_summary false a [SRV; T_quiet; ADD])) = true
  | Err _ => False end.
Proof. vm_compute. repeat split. Qed.
Example help_theorem_applied : forall a debug, build_app ex_cfg = Ok a ->
  match sm_action (run_summary debug a ([SRV; ADD] ++ [T_help])) with AHelpCmd _ | AHelpFail _ => True | _ => False end.
Proof.
  intros a debug Ha.
  apply (help_switch_after_path_shows_a_page_or_why_not ex_cfg a debug [SRV; ADD] T_help Ha);
    [vm_compute; reflexivity|vm_compute; reflexivity|discriminate|vm_compute; reflexivity|now left].
Qed.
Example insertion_hypotheses_hold : is_ddash T_quiet = false /\ no_ddash [SRV; ADD] = true.
Proof. vm_compute. split; reflexivity. Qed.

(* non-vacuity and necessity for the help switch ANYWHERE: DefaultApplicationConfig's seven global options, the command
   "help", "cmd [--name [VALUE]] [<a1>] [<a2:int>]", "srv" with the default sub-commands "x1 [--name VALUE] [<a1>]" and
   "x2 [--name [VALUE]] [<a1>] [<a2>]" and the sub-command "add [<a1>]" *)
Definition gflag (l : str) (s : option str) : opt := {| o_long := l; o_short := s; o_flags := 4 + 2 + 128; o_default := VNone |}.
Definition QUIET : str := [113;117;105;101;116]%N. Definition VERBOSE : str := [118;101;114;98;111;115;101]%N.
Definition ANSI : str := [97;110;115;105]%N. Definition NO_ANSI : str := [110;111;45;97;110;115;105]%N.
Definition NO_INTERACTION : str := [110;111;45;105;110;116;101;114;97;99;116;105;111;110]%N.
Definition NAME : str := [110;97;109;101]%N. Definition CMD : str := [99;109;100]%N.
Definition X1 : str := [120;49]%N. Definition X2 : str := [120;50]%N. Definition A1 : str := [97;49]%N. Definition A2 : str := [97;50]%N.
Definition FOO : str := [102;111;111]%N. Definition LA : str := [97]%N.
Definition T_name : str := [45;45;110;97;109;101]%N.                       (* --name *)
Definition T_qV : str := [45;113;86]%N. Definition T_ddV : str := [45;45;86]%N.   (* -qV  --V *)
Definition global_opts : list opt :=
  [gflag S_help (Some [104%N]); gflag QUIET (Some [113%N]);
   {| o_long := VERBOSE; o_short := Some [118%N]; o_flags := 16 + 2 + 128; o_default := VNone |};
   gflag S_version (Some [86%N]); gflag ANSI None; gflag NO_ANSI None; gflag NO_INTERACTION (Some [110%N])].
Definition o_name_opt : opt := {| o_long := NAME; o_short := None; o_flags := 16 + 1 + 128; o_default := VNone |}.
Definition o_name_req : opt := {| o_long := NAME; o_short := None; o_flags := 8 + 1 + 128; o_default := VNone |}.
Definition a_str (n : str) : arg := {| a_name := n; a_flags := 2 + 16; a_default := VNone |}.
Definition a_int (n : str) : arg := {| a_name := n; a_flags := 2 + 64; a_default := VNone |}.
Definition cfg2 : appcfg :=
  {| ac_opts := global_opts; ac_args := [];
     ac_cmds := [Cmd S_help [] true false true false [] [a_command] [];
                 Cmd CMD [] false false true false [o_name_opt] [a_str A1; a_int A2] [];
                 Cmd SRV [] false false true false [] []
                   [Cmd X1 [] true false true false [o_name_req] [a_str A1] [];
                    Cmd X2 [] true false true false [o_name_opt] [a_str A1; a_str A2] [];
                    Cmd ADD [] false false true false [] [a_str A1] []]] |}.
Definition act2 (l : list str) : option action :=
  match build_app cfg2 with Ok a => Some (sm_action (run_summary false a l)) | Err _ => None end.

(* the hypotheses of help_switch_anywhere_status_zero are met by "cmd -q --name foo -h -vv" (path = cmd; behind it a global
   switch, the command's own option with its value, the help switch, another global switch) ... *)
Example anywhere_hypotheses_hold :
  match build_app cfg2 with
  | Ok a =>
    let path := [CMD] in let rest := [T_q; T_name; FOO; T_h; T_vv] in
    default_help_config cfg2 = true /\ forallb lead_ok path = true /\ str_eqb CMD S_help = false /\
    In T_h (option_tokens rest) /\ starts_stopped rest = true /\ wants_version (option_tokens rest) = false /\
    match help_line_parse a (path ++ rest) with
    | Ok (fx, x) => args_is_option_set fx x S_version = false
    | Err _ => False end /\
    match walk (named_of (ap_cmds a)) None path with
    | Ok (Some (b, p)) => p = [CMD] /\ defaults_of (b_subs b) = [] /\
                          match parse (b_fmt b) true (path ++ rest) with Ok _ => True | Err _ => False end
    | _ => False end /\
    sm_action (run_summary false a (path ++ rest)) = AHelpCmd [CMD] /\
    s_quiet (sm_settings (run_summary false a (path ++ rest))) = true
  | Err _ => False end.
Proof. vm_compute. repeat split; auto. Qed.
(* ... and the theorem applies to it *)
Example anywhere_theorem_applied : forall a debug, build_app cfg2 = Ok a ->
  match sm_action (run_summary debug a ([CMD] ++ [T_q; T_name; FOO; T_h; T_vv])) with AHandler _ => False | _ => True end.
Proof.
  intros a debug Ha.
  apply (help_switch_anywhere_shows_a_page_or_why_not cfg2 a debug [CMD] [T_q; T_name; FOO; T_h; T_vv] T_h Ha);
    [vm_compute; reflexivity|vm_compute; reflexivity|discriminate|vm_compute; reflexivity|now right|vm_compute; auto 10].
Qed.
(* the switch at other places of valid lines: behind the arguments, between two arguments, in front of a "--" tail; with
   default sub-commands; behind "--" it is an argument *)
Example anywhere_more_lines :
  act2 [CMD; T_name; FOO; LA; T_help] = Some (AHelpCmd [CMD]) /\
  act2 [CMD; LA; T_help; T_q] = Some (AHelpCmd [CMD]) /\
  act2 [SRV; ADD; LA; T_q; T_h; [DASH; DASH]; T_V] = Some (AHelpCmd [SRV; ADD]) /\
  act2 [SRV; T_name; FOO; LA; T_help] = Some (AHelpCmd [SRV; X1]) /\
  act2 [SRV; ADD; T_h] = Some (AHelpCmd [SRV; ADD]) /\
  act2 [SRV; T_h; ADD] = Some (AHelpCmd [SRV; X1]) /\        (* the path the switch stands behind is "srv" *)
  act2 [SRV; ADD; [DASH; DASH]; T_h] = Some (AHandler [SRV; ADD]).
Proof. vm_compute. repeat split. Qed.
(* each hypothesis is needed: no leading plain token - the application page, or the page of the help command itself;
   the word "help" first - the application page; the version switch given as well, also grouped ("-qV") or spelled "--V"
   (neither is the raw token -V / --version) - name and version *)
Example anywhere_needs_a_leading_token :
  act2 [T_h] = Some AHelpApp /\ act2 [T_q; T_h; SRV] = Some (AHelpCmd [S_help]).
Proof. vm_compute. split; reflexivity. Qed.
Example anywhere_needs_another_first_word : act2 [S_help; T_h] = Some AHelpApp.
Proof. vm_compute. reflexivity. Qed.
Example anywhere_needs_no_version_switch :
  act2 [SRV; T_V; T_h] = Some (AVersion [S_help]) /\
  wants_version (option_tokens [T_qV; T_h]) = false /\ act2 [SRV; T_qV; T_h] = Some (AVersion [S_help]) /\
  wants_version (option_tokens [T_ddV; T_h]) = false /\ act2 [SRV; T_ddV; T_h] = Some (AVersion [S_help]).
Proof. vm_compute. repeat split. Qed.

(* "cmd --name foo a" is valid (the handler of cmd runs: name = foo, a1 = a); with "--help" between the option and its
   value the option takes its default, "foo" and "a" move to a1 and a2, and a2 is an integer.  Before fix 488171f the
   lenient parse of the command picked raised that value error and the run ended with status 1 and a ValueError report
   (HelpAnywhereTotalLemmas.help_target_before_the_repair); since the fix the page of cmd is printed at every position of
   the switch (an instance of help_switch_inserted_at_any_position; the real code does the same). *)
Example help_switch_between_option_and_value_fails_before_the_repair :
  match build_app cfg2 with
  | Ok a => sm_action (run_summary false a [CMD; T_name; FOO; LA]) = AHandler [CMD] /\
            help_target_before_the_repair a [CMD; T_name; T_help; FOO; LA] = Err ValueError /\
            help_target a [CMD; T_name; T_help; FOO; LA] = Ok [CMD]
  | Err _ => False end.
Proof. vm_compute. repeat split. Qed.
Example help_switch_between_option_and_value_prints_the_page :
  act2 [CMD; T_help; T_name; FOO; LA] = Some (AHelpCmd [CMD]) /\ act2 [CMD; T_name; T_help; FOO; LA] = Some (AHelpCmd [CMD]) /\
  act2 [CMD; T_name; FOO; T_h; LA] = Some (AHelpCmd [CMD]) /\ act2 [CMD; T_name; FOO; LA; T_help] = Some (AHelpCmd [CMD]).
Proof. vm_compute. repeat split. Qed.
(* every hypothesis of help_switch_inserted_at_any_position holds for that line *)
Example help_switch_inserted_hypotheses_hold :
  match build_app cfg2 with
  | Ok a =>
    let l1 := [CMD; T_name] in let l2 := [FOO; LA] in
    default_help_config cfg2 = true /\ cfg_wf cfg2 = true /\ defines_version cfg2 = true /\ no_ddash l1 = true /\
    leading l1 = [CMD] /\ str_eqb CMD S_help = false /\ no_version_spelling (option_tokens (l1 ++ T_help :: l2)) = true /\
    match help_line_parse a (l1 ++ T_help :: l2) with Ok _ => True | Err _ => False end /\
    match walk (named_of (ap_cmds a)) None (leading l1) with
    | Ok (Some (b, p)) => p = [CMD] /\ defaults_of (b_subs b) = []
    | _ => False end
  | Err _ => False end.
Proof. vm_compute. repeat split. Qed.
(* probes_quietly is needed: a default sub-command probed strictly that meets an unknown option ends the help resolution
   (NoSuchOptionException leaves the probe at once, as in DefaultResolver) *)
Definition T_zz : str := [45;45;122;122]%N.                                  (* --zz *)
Example anywhere_strict_default_unknown_option :
  cfg_wf cfg2 = true /\ act2 [SRV; T_zz; T_h] = Some (AHelpFail NoSuchOption) /\ act2 [CMD; T_zz; T_h] = Some (AHelpCmd [CMD]).
Proof. vm_compute. repeat split. Qed.
(* lines without a leading plain token *)
Example no_path_lines :
  act2 [T_h] = Some AHelpApp /\ act2 [T_q; T_help; T_vv] = Some AHelpApp /\ Forall (fun t => optlike t = true) [T_q; T_help; T_vv] /\
  act2 [T_q; T_h; SRV] = Some (AHelpCmd [S_help]) /\ leading [T_q; T_h; SRV] = [].
Proof. vm_compute. repeat split; repeat constructor. Qed.

(* the application cfg2 builds, computed once: the witness of the statement below *)
Definition app2 : application :=
  Eval vm_compute in match build_app cfg2 with Ok a => a | Err _ => {| ap_global := empty_builder None; ap_cmds := [] |} end.
Lemma app2_built : build_app cfg2 = Ok app2.
Proof. vm_compute. reflexivity. Qed.
(* REFUTED: "the page printed is that of the command the line without the switch runs".  With two default sub-commands
   the probe "first default that parses the line" sees another line: "srv --name foo a" runs srv x1, and
   "srv --name --help foo a" shows the page of srv x2 (x1 requires a value for --name, x2 does not).  Model = code
   (replayed); by design of the default choice (C03 options_after_the_path_change_the_default_refuted): a reading. *)
Theorem help_switch_changes_the_default_refuted : exists cfg a path rest1 rest2 d1 d2,
  build_app cfg = Ok a /\ default_help_config cfg = true /\ d1 <> d2 /\
  sm_action (run_summary false a (path ++ rest1 ++ rest2)) = AHandler (path ++ [d1]) /\
  sm_action (run_summary false a (path ++ rest1 ++ rest2 ++ [T_help])) = AHelpCmd (path ++ [d1]) /\
  sm_action (run_summary false a (path ++ rest1 ++ T_help :: rest2)) = AHelpCmd (path ++ [d2]).
Proof.
  exists cfg2, app2, [SRV], [T_name], [FOO; LA], X1, X2. split; [exact app2_built|]. vm_compute. repeat split. discriminate.
Qed.
Print Assumptions help_switch_changes_the_default_refuted.

(* the no-interaction switch and the questions: a choice question (default "1") on the line "srv add -n x", asked on
   an input holding the line "0": the default, nothing read; without the switch, and with the switch behind "--", the
   typed answer *)
Definition ex_q : choiceq := {| q_choices := [ADD; DEL]; q_multi := false; q_default := Some [49%N]; q_attempts := None |}.
Example no_interaction_example :
  match build_app cfg2 with
  | Ok a =>
    let asks toks := ask_choice (line_interactive false a toks) ex_q [[48%N]] in
    In T_n (option_tokens [SRV; ADD; T_n; LA]) /\
    asks [SRV; ADD; T_n; LA] = {| o_end := Answered (AOne [49%N]); o_lines_read := 0; o_errors_printed := 0; o_prompts := 0 |} /\
    asks [SRV; T_no_interaction; ADD] = {| o_end := Answered (AOne [49%N]); o_lines_read := 0; o_errors_printed := 0; o_prompts := 0 |} /\
    asks [SRV; ADD; LA] = {| o_end := Answered (AOne ADD); o_lines_read := 1; o_errors_printed := 0; o_prompts := 1 |} /\
    asks [SRV; ADD; [DASH; DASH]; T_n] = {| o_end := Answered (AOne ADD); o_lines_read := 1; o_errors_printed := 0; o_prompts := 1 |}
  | Err _ => False end.
Proof. vm_compute. repeat split; auto. Qed.

(* the criteria of help_switch_anywhere_closed_form on the example configuration; a typed global option "--level INT" is
   what a value error of the help command's own parse needs *)
Definition LEVEL : str := [108;101;118;101;108]%N.
Definition T_level_x : str := [45;45;108;101;118;101;108;61;120]%N.   (* --level=x *)
Definition o_level : opt := {| o_long := LEVEL; o_short := None; o_flags := 8 + 1 + 512; o_default := VNone |}.
Definition cfg5 : appcfg := {| ac_opts := global_opts ++ [o_level]; ac_args := []; ac_cmds := ac_cmds cfg2 |}.
Example anywhere_criteria_hold :
  match build_app cfg2 with
  | Ok a => help_options_ok a = true /\ defines_version cfg2 = true /\
            no_version_spelling (option_tokens [T_q; T_name; FOO; T_h; T_vv]) = true /\
            no_version_spelling [T_qV] = false /\ no_version_spelling [T_ddV] = false /\
            no_version_spelling [T_V] = false /\ no_version_spelling [T_version] = false
  | Err _ => False end.
Proof. vm_compute. repeat split. Qed.
Example anywhere_typed_global_option :
  match build_app cfg5 with
  | Ok a => help_options_ok a = true /\ default_help_config cfg5 = true /\
            sm_action (run_summary false a [CMD; T_level_x; T_h]) = AError ValueError
  | Err _ => False end.
Proof. vm_compute. repeat split. Qed.
