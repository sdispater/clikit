(* C12 - listeners run by priority then registration order until propagation stops.
   The simulations are in Proofs/Dispatcher*Lemmas.v: DispatcherLemmas (the invariant), DispatcherQueryLemmas (every op
   answered), DispatcherOrderLemmas (reachable logs), DispatcherExtLemmas and DispatcherNestLemmas (the two further layers). *)
From Coq Require Import Permutation Sorted.
From Clikit Require Import Base.Prelude Model.Dispatcher Proofs.DispatcherLemmas Proofs.DispatcherQueryLemmas Proofs.DispatcherOrderLemmas.

(* For EVERY sequence of registrations, dispatches and queries, every dispatch,
   get_listeners(event) and has_listeners answer of the dispatcher model equals the answer
   of the specification, which keeps nothing but the log of registrations:
   dispatch ev calls  run_until_stop (spec_order regs ev). *)
Theorem dispatch_refines : forall ops, outs_agree ops (drun dinit ops) (srun [] ops).
Proof. intros ops. rewrite (qrun_sim ops _ _ Inv_keys_init). apply qrun_srun. Qed.
Print Assumptions dispatch_refines.

(* The spec order is exactly the registrations of that event, each once ... *)
Theorem spec_order_exact : forall regs ev,
  Permutation (spec_order regs ev) (map r_lid (regs_of regs ev)).
Proof. intros regs ev. unfold spec_order. apply Permutation_map, sort_perm. Qed.
Print Assumptions spec_order_exact.

(* ... highest priority first, registration order among equal priorities.  Together with
   spec_order_exact this determines the order uniquely (sorted_perm_unique). *)
Theorem spec_order_sorted : forall regs ev,
  StronglySorted (fun a b => (r_lid a < r_lid b)%N) regs ->
  StronglySorted (fun a b => (r_prio a > r_prio b)%Z \/ (r_prio a = r_prio b /\ (r_lid a < r_lid b)%N))
                 (sort_desc r_prio (regs_of regs ev)).
Proof. intros regs ev H. apply (sort_stable r_prio lid_lt), ListLemmas.StronglySorted_filter, H. Qed.
Print Assumptions spec_order_sorted.

Theorem order_unique : forall {X} (R : X -> X -> Prop),
  (forall a b, R a b -> R b a -> False) ->
  forall l1 l2, StronglySorted R l1 -> StronglySorted R l2 -> Permutation l1 l2 -> l1 = l2.
Proof. exact @sorted_perm_unique. Qed.
Print Assumptions order_unique.

(* The hypothesis of spec_order_sorted holds of every REACHABLE log (the i-th registration carries listener id i) ... *)
Theorem reachable_logs_are_sorted : forall ops ev,
  StronglySorted (fun a b => (r_prio a > r_prio b)%Z \/ (r_prio a = r_prio b /\ (r_lid a < r_lid b)%N))
                 (sort_desc r_prio (regs_of (log_of ops) ev)).
Proof. intros ops ev. apply spec_order_sorted, log_sorted. Qed.
Print Assumptions reachable_logs_are_sorted.
(* ... so, directly: the dispatch of ev after ANY history ops (registrations, dispatches, queries, in any order) calls
   run_until_stop of the list L, where L holds exactly the registrations made so far for ev (no other event's listener;
   one registered after an earlier dispatch included), each once, highest priority first and in registration order
   among equal priorities - and L is the ONLY list with these properties. *)
Theorem dispatch_after_any_history : forall ops ev,
  let regs := log_of ops in
  let L := sort_desc r_prio (regs_of regs ev) in
  snd (dstep (dafter dinit ops) (Dispatch ev)) = OCalled (run_until_stop (spec_stops regs) (map r_lid L)) /\
  Permutation L (regs_of regs ev) /\
  (forall r, In r L <-> In r regs /\ r_ev r = ev) /\
  NoDup (map r_lid L) /\
  StronglySorted before L /\
  (forall L', Permutation L' (regs_of regs ev) -> StronglySorted before L' -> L' = L).
Proof.
  intros ops ev regs L. pose proof (sort_perm r_prio (regs_of regs ev)) as HP. fold L in HP.
  split; [apply (answer_after ops (Dispatch ev)); discriminate|]. split; [exact HP|].
  split; [|split; [|split; [apply reachable_logs_are_sorted|]]].
  - intros r. rewrite <- (N.eqb_eq (r_ev r) ev). split.
    + intros Hr. apply (Permutation_in _ HP) in Hr. exact (proj1 (filter_In _ _ _) Hr).
    + intros Hr. apply (Permutation_in _ (Permutation_sym HP)). exact (proj2 (filter_In _ _ _) Hr).
  - (* each listener once: ids grow along the log *)
    apply (Permutation_NoDup (Permutation_map r_lid (Permutation_sym HP))).
    apply lid_lt_NoDup, ListLemmas.StronglySorted_filter, log_sorted.
  - intros L' HP' HS. apply (sorted_perm_unique before before_asym); [exact HS|apply reachable_logs_are_sorted|].
    eapply Permutation_trans; [exact HP'|apply Permutation_sym, HP].
Qed.
Print Assumptions dispatch_after_any_history.
(* NOT among the ops of [dop]: a dispatch of an event whose propagation was stopped BEFORE the dispatch (EventDispatcher
   checks is_propagation_stopped() before each listener, so it calls nobody) - that is XDispatchStopped of the extended
   alphabet, stopped_event_reaches_nobody below.  Not in the model at all: the arguments a listener is called with (event,
   event name, dispatcher); they are outside these theorems (the listeners of harness/props/C12.py record them). *)

(* Propagation: everything up to and including the first stopping listener, nothing after. *)
Theorem stop_cuts : forall stops l1 x l2,
  (forall y, In y l1 -> aget N.eqb y stops <> Some true) -> aget N.eqb x stops = Some true ->
  run_until_stop stops (l1 ++ x :: l2) = l1 ++ [x].
Proof.
  intros stops l1 x l2 H Hx. rewrite (run_until_stop_app _ _ _ H). cbn. now rewrite Hx.
Qed.
Print Assumptions stop_cuts.
Theorem no_stop_runs_all : forall stops l,
  (forall x, In x l -> aget N.eqb x stops <> Some true) -> run_until_stop stops l = l.
Proof.
  intros stops l H. rewrite <- (app_nil_r l) at 1. rewrite (run_until_stop_app _ _ _ H). apply app_nil_r.
Qed.
Print Assumptions no_stop_runs_all.

(* Non-vacuity: a concrete history with equal priorities, a stopper, a registration after a
   dispatch and a foreign event. *)
Example c12_history :
  drun dinit [Add 0 0 false; Add 0 5 false; Add 1 9 false; Add 0 0 true; Dispatch 0; Add 0 7 false; Dispatch 0; Dispatch 2]
  = [ONone; ONone; ONone; ONone; OCalled [1; 0; 3]; ONone; OCalled [4; 1; 0; 3]; OCalled []]%N.
Proof. vm_compute. reflexivity. Qed.

(* The query half: get_listeners() (all events), get_listener_priority, has_listeners().
   [qstep] (Proofs/DispatcherQueryLemmas.v) is a spec over the registration log plus the key
   order of the dict that get_listeners() hands out; unlike [covered] (Proofs/DispatcherLemmas.v), it answers
   EVERY op of [dop]. *)

(* For EVERY op sequence the model's outputs are, op by op, the spec's outputs:
   no op is excluded (compare [covered] in dispatch_refines). *)
Theorem queries_refine : forall ops, drun dinit ops = qrun qinit ops.
Proof. intros ops. apply qrun_sim, Inv_keys_init. Qed.
Print Assumptions queries_refine.

(* The spec keeps exactly the log of [sstep] and answers every op except get_listeners()
   with [sstep]'s answer; get_listeners() is  all_of regs (touch_all regs keys):
   cached events first (cache fill order), then the others in first-registration order,
   each with [spec_order regs ev]. *)
Theorem qspec_keeps_log : forall q o, fst (fst (qstep q o)) = fst (sstep (fst q) o).
Proof. exact qstep_log. Qed.
Print Assumptions qspec_keeps_log.
Theorem qspec_answers_as_sstep : forall q o, o <> GetAll -> snd (qstep q o) = snd (sstep (fst q) o).
Proof. exact qstep_out. Qed.
Print Assumptions qspec_answers_as_sstep.
Theorem qspec_get_all : forall regs keys,
  snd (qstep (regs, keys) GetAll) = OAll (map (fun e => (e, spec_order regs e)) (touch_all regs keys)).
Proof. reflexivity. Qed.
Print Assumptions qspec_get_all.

(* The log after an op sequence: its Add ops in order, the i-th carrying listener id i. *)
Theorem log_is_the_adds : forall ops, map reg_data (log_of ops) = adds_of ops.
Proof. intros ops. apply (log_from_adds ops []). Qed.
Print Assumptions log_is_the_adds.
Theorem log_ids_are_positions : forall ops i r, nth_error (log_of ops) i = Some r -> r_lid r = N.of_nat i.
Proof. exact log_numbered. Qed.
Print Assumptions log_ids_are_positions.

(* 1. get_listeners() after any op sequence, as a finite map: exactly the events that have
   ever had a listener registered, each once, each with the spec order of its listeners. *)
Theorem get_all_answer : forall ops d,
  snd (dstep (dafter dinit ops) GetAll) = OAll d ->
  let regs := log_of ops in
  d = map (fun e => (e, spec_order regs e)) (map fst d) /\
  NoDup (map fst d) /\
  (forall e, In e (map fst d) <-> has_reg regs e = true) /\
  (forall e, aget N.eqb e d = if has_reg regs e then Some (spec_order regs e) else None).
Proof.
  intros ops d. rewrite query_after. pose proof (reach_init ops) as (HI & Hlk & Hck & Hnd).
  rewrite <- (qafter_init_log ops).
  destruct (qafter qinit ops) as [regs keys]. cbn [fst snd qstep] in *.
  intros [= <-]. cbn zeta. fold (all_of regs (map fst (all_of regs (touch_all regs keys)))).
  assert (map fst (all_of regs (touch_all regs keys)) = touch_all regs keys) as Hk.
  { unfold all_of. rewrite map_map. cbn. apply map_id. }
  assert (forall e, In e (touch_all regs keys) <-> has_reg regs e = true) as Hin.
  { intros e. rewrite touch_all_add_keys, add_keys_In, evs_of_In.
    split; [|auto]. intros [He|He]; [|assumption].
    apply evs_of_In. rewrite <- Hlk. eapply cache_keys_registered; [exact HI|]. now rewrite Hck. }
  rewrite Hk. split; [reflexivity|]. split; [apply add_keys_NoDup, Hnd|]. split; [exact Hin|].
  intros e. rewrite aget_all_of.
  replace (mem e (touch_all regs keys)) with (has_reg regs e); [reflexivity|].
  apply eq_true_iff_eq. rewrite mem_In. symmetry. apply Hin.
Qed.
Print Assumptions get_all_answer.

(* 2. get_listener_priority(ev, lid) after any op sequence: the priority of the lid-th
   registration if that registration was for ev; None for another event's listener and for
   an id that was never registered. *)
Theorem get_listener_priority_answer : forall ops ev lid,
  snd (dstep (dafter dinit ops) (Prio ev lid)) =
  OPrio (match nth_error (log_of ops) (N.to_nat lid) with
         | Some r => if N.eqb (r_ev r) ev then Some (r_prio r) else None
         | None => None
         end).
Proof.
  intros ops ev lid. rewrite answer_after by discriminate. cbn [sstep snd].
  rewrite (find_numbered _ _ _ (log_numbered ops)).
  destruct (nth_error (log_of ops) (N.to_nat lid)) as [r|]; [|reflexivity].
  destruct (N.eqb (r_ev r) ev); reflexivity.
Qed.
Print Assumptions get_listener_priority_answer.

(* 3. has_listeners() after any op sequence: something has been registered. *)
Theorem has_listeners_any_answer : forall ops,
  snd (dstep (dafter dinit ops) (Has None)) = OBool (negb (match log_of ops with [] => true | _ => false end)).
Proof. intros ops. apply answer_after. discriminate. Qed.
Print Assumptions has_listeners_any_answer.

(* What the priority search does on ARBITRARY groups (an id in several buckets = the same
   callable registered under several priorities, which [dstep] cannot produce because every
   Add uses a fresh id): the first bucket in dict order that contains the id. *)
Theorem find_prio_first_bucket : forall g lid p,
  find_prio g lid = Some p <->
  exists g1 ls g2, g = g1 ++ (p, ls) :: g2 /\ In lid ls /\ Forall (fun pl => ~ In lid (snd pl)) g1.
Proof.
  intros g lid p. split.
  - induction g as [|[q ls] r IH]; cbn; [discriminate|].
    fold (mem lid ls). destruct (mem lid ls) eqn:E; intros H.
    + inversion H; subst. exists [], ls, r. repeat split; [apply mem_In, E | constructor].
    + destruct (IH H) as (g1 & ms & g2 & -> & Hin & Hg1).
      exists ((q, ls) :: g1), ms, g2. repeat split; [assumption|].
      constructor; [apply mem_nIn, E | exact Hg1].
  - intros (g1 & ls & g2 & -> & Hin & Hg1).
    induction g1 as [|[q ms] r IH]; cbn.
    + fold (mem lid ls). apply mem_In in Hin. now rewrite Hin.
    + inversion Hg1 as [|? ? Hq Hr]; subst. cbn in Hq.
      fold (mem lid ms). destruct (mem lid ms) eqn:E; [apply mem_In in E; contradiction | auto].
Qed.
Print Assumptions find_prio_first_bucket.
Theorem find_prio_absent : forall g lid,
  find_prio g lid = None <-> Forall (fun pl => ~ In lid (snd pl)) g.
Proof.
  intros g lid. induction g as [|[q ls] r IH]; cbn; [split; [constructor|reflexivity]|].
  fold (mem lid ls). destruct (mem lid ls) eqn:E.
  - split; [discriminate|]. intros H. inversion H; subst. cbn in *. apply mem_In in E. contradiction.
  - rewrite IH. split.
    + intros H. constructor; [apply mem_nIn, E | exact H].
    + intros H. now inversion H.
Qed.
Print Assumptions find_prio_absent.

(* [gadd] is add_listener's bucket update with a caller-chosen id ... *)
Theorem add_listener_uses_gadd : forall st ev prio stops,
  d_listeners (add_listener st ev prio stops) =
  aset N.eqb ev (gadd (match aget N.eqb ev (d_listeners st) with Some g => g | None => [] end) prio (d_next st))
       (d_listeners st).
Proof. reflexivity. Qed.
Print Assumptions add_listener_uses_gadd.
(* ... and for ANY list of (priority, id) registrations of one event, ids repeated or not,
   the answer is the first priority, in order of FIRST USE of the priorities for that event,
   under which the id was registered. *)
Theorem get_listener_priority_repeated : forall l lid,
  find_prio (gbuild l) lid = find (registered_at l lid) (prios_of l).
Proof.
  intros l lid. rewrite find_prio_keys by apply gbuild_nodup. rewrite gbuild_keys.
  apply ListLemmas.find_ext_in. intros p Hp. rewrite (gbuild_lookup _ _ Hp). apply mem_bucket.
Qed.
Print Assumptions get_listener_priority_repeated.

(* With a repeated id that answer is neither the priority of the id's first registration,
   nor of its last registration, nor its highest priority: it depends on which priorities
   OTHER listeners used first.  Listener 1 below is registered with 5 then 3; listener 0
   used priority 3 before. *)
Example prio_first_registration_refuted :
  let l := [(3%Z, 0%N); (5%Z, 1%N); (3%Z, 1%N)] in
  find_prio (gbuild l) 1 = Some 3%Z /\
  option_map fst (find (fun pl => N.eqb (snd pl) 1) l) = Some 5%Z.
Proof. vm_compute. split; reflexivity. Qed.
Example prio_highest_refuted :
  find_prio (gbuild [(3%Z, 0%N); (5%Z, 1%N); (3%Z, 1%N)]) 1 = Some 3%Z /\
  find_prio (gbuild [(5%Z, 1%N); (3%Z, 1%N)]) 1 = Some 5%Z.
Proof. vm_compute. split; reflexivity. Qed.
Example prio_last_registration_refuted :
  find_prio (gbuild [(3%Z, 1%N); (5%Z, 1%N)]) 1 = Some 3%Z.
Proof. vm_compute. reflexivity. Qed.

(* Non-vacuity of the query half: two events, three priorities (0, 5, -1), listener 2 queried
   under both events (Some 5 / None), listener 1 likewise, ids 3 and 4, an unregistered id;
   get_listeners() lists event 1 BEFORE event 0 while only event 1 is cached (Get 1), and in
   registration order after event 1's cache entry was dropped by the next registration. *)
Example c12_query_history :
  drun dinit [Add 0 0 false; Add 1 5 false; Add 0 5 false; Get 1; Add 0 (-1) true; Add 0 5 false; GetAll;
              Prio 0 2; Prio 1 2; Prio 0 1; Prio 1 1; Prio 0 3; Prio 0 4; Prio 0 5; Has None;
              Add 1 (-1) false; GetAll; Dispatch 0; GetAll]
  = [ONone; ONone; ONone; OList [1]; ONone; ONone; OAll [(1, [1]); (0, [2; 4; 0; 3])];
     OPrio (Some 5%Z); OPrio None; OPrio None; OPrio (Some 5%Z); OPrio (Some (-1)%Z); OPrio (Some 5%Z); OPrio None;
     OBool true; ONone; OAll [(0, [2; 4; 0; 3]); (1, [1; 5])]; OCalled [2; 4; 0; 3];
     OAll [(0, [2; 4; 0; 3]); (1, [1; 5])]]%N.
Proof. vm_compute. reflexivity. Qed.
Example c12_query_history_spec :
  qrun qinit [Add 0 0 false; Add 1 5 false; Add 0 5 false; Get 1; Add 0 (-1) true; Add 0 5 false; GetAll;
              Prio 0 2; Prio 1 2; Prio 0 1; Prio 1 1; Prio 0 3; Prio 0 4; Prio 0 5; Has None;
              Add 1 (-1) false; GetAll; Dispatch 0; GetAll]
  = [ONone; ONone; ONone; OList [1]; ONone; ONone; OAll [(1, [1]); (0, [2; 4; 0; 3])];
     OPrio (Some 5%Z); OPrio None; OPrio None; OPrio (Some 5%Z); OPrio (Some (-1)%Z); OPrio (Some 5%Z); OPrio None;
     OBool true; ONone; OAll [(0, [2; 4; 0; 3]); (1, [1; 5])]; OCalled [2; 4; 0; 3];
     OAll [(0, [2; 4; 0; 3]); (1, [1; 5])]]%N.
Proof. vm_compute. reflexivity. Qed.
(* the same callable (id 7) registered for one event under 0, then 5, then 0 again, among other
   listeners that opened bucket 5 first: buckets 5:[1;7], 0:[7;7], -1:[3]; answer 5 *)
Example c12_repeated_listener :
  let l := [(5%Z, 1%N); (0%Z, 7%N); ((-1)%Z, 3%N); (5%Z, 7%N); (0%Z, 7%N)] in
  gbuild l = [(5%Z, [1; 7]%N); (0%Z, [7; 7]%N); ((-1)%Z, [3]%N)] /\
  find_prio (gbuild l) 7 = Some 5%Z /\ find_prio (gbuild l) 3 = Some (-1)%Z /\ find_prio (gbuild l) 9 = None /\
  sort_listeners (gbuild l) = [1; 7; 7; 7; 3]%N.
Proof. vm_compute. repeat split; reflexivity. Qed.

(* The extended alphabet (xstep / run_C12X of Model/Dispatcher.v - what the harness drives): the same
   callable registered again, registration without a priority, a dispatch whose event is already
   stopped, a listener that registers a listener while it is being called.  The dispatcher record and
   its functions are the ones above; registrations are numbered, a table says which callable each is. *)
From Clikit Require Import Proofs.DispatcherExtLemmas.

(* For EVERY sequence of extended ops, every dispatch (stopped beforehand or not), get_listeners(event)
   and has_listeners answer of the model is the answer of a specification that keeps only the log of
   registrations (one entry per add_listener call, whoever makes it) and the behaviour tables. *)
Theorem xrun_refines : forall ops, xouts_agree ops (xrun xinit ops) (xsrun xsinit ops).
Proof. intros ops. apply xrun_sim, XR_init. Qed.
Print Assumptions xrun_refines.

(* In that specification a dispatch calls - one call per registration - the registrations of the event
   that are in the log WHEN THE DISPATCH STARTS, highest priority first, registration order within a
   priority, up to the first callable that stops; what the called listeners register meanwhile is not
   among them ... *)
Theorem dispatch_calls_the_registrations_so_far : forall q ev,
  snd (xsstep q (XOp (Dispatch ev))) =
  OCalled (map (callable_of (q_call q)) (run_until_stop (spec_stops (q_regs q)) (spec_order (q_regs q) ev))).
Proof. reflexivity. Qed.
Print Assumptions dispatch_calls_the_registrations_so_far.
(* ... it is appended to the log (nothing is ever removed), so it takes part from the next dispatch on. *)
Theorem log_only_grows : forall q o, exists more, q_regs (fst (xsstep q o)) = q_regs q ++ more.
Proof.
  assert (forall q : xspec, exists more, q_regs q = q_regs q ++ more) as Hsame by (exists []; now rewrite app_nil_r).
  assert (forall q ev p c, exists more, q_regs (qadd q ev p c) = q_regs q ++ more) as Hadd by (intros; eexists; reflexivity).
  assert (forall q ev p st rg, exists more, q_regs (qnew q ev p st rg) = q_regs q ++ more) as Hnew by (intros; eexists; reflexivity).
  intros q o.
  destruct o as [[ev prio stops|ev|e|ev| |ev c]|ev prio c|ev stops|ev prio ev2 prio2|ev]; cbn [xsstep]; unfold qdispatch; cbn [fst].
  - apply Hnew.
  - apply qeffects_log.
  - apply Hsame.
  - apply Hsame.
  - apply Hsame.
  - apply Hsame.
  - destruct (c <? q_ncall q)%N; [apply Hadd|apply Hsame].
  - apply Hnew.
  - apply Hnew.
  - apply qeffects_log.
Qed.
Print Assumptions log_only_grows.
(* An event whose propagation is already stopped reaches nobody, whatever is registered. *)
Theorem stopped_event_reaches_nobody : forall s ev, snd (xstep s (XDispatchStopped ev)) = OCalled [].
Proof. intros s ev. cbn. unfold xdispatch. destruct (get_listeners (x_d s) ev). reflexivity. Qed.
Print Assumptions stopped_event_reaches_nobody.

(* On the base alphabet the extended step function IS the old one: every theorem about [drun] above speaks
   about the entry point the harness runs. *)
Theorem xrun_base : forall ops, xrun xinit (map XOp ops) = drun dinit ops.
Proof. intros ops. apply (xrun_base_gen ops xinit base_only_init). Qed.
Print Assumptions xrun_base.

(* Non-vacuity.  Callable 0 registers, whenever it is called, a new listener for the same event with the
   HIGHER priority 5: the first dispatch calls 0 and 1 only; the second calls the late listener 2 first (and 0
   registers another one, 3, seen by get_listeners afterwards). *)
Example c12_listener_registered_during_a_dispatch :
  xrun xinit [XAddRegistrar 0 0 0 5; XOp (Add 0 0 false); XOp (Dispatch 0); XOp (Dispatch 0); XOp (Get 0)]
  = [ONone; ONone; OCalled [0; 1]; OCalled [2; 0; 1]; OList [2; 3; 0; 1]]%N.
Proof. vm_compute. reflexivity. Qed.
(* Callable 0 registered for event 0 under 0 and again under 5, and for event 1; callable 1 without a priority
   (so: 0) and stopping; callable 2 under -1: event 0 calls 0 (bucket 5), 0 and 1 (bucket 0), then stops;
   an already stopped event calls nobody; get_listener_priority(e0, callable 0) is the first bucket opened, 0. *)
Example c12_callable_registered_again :
  xrun xinit [XOp (Add 0 0 false); XAddAgain 0 5 0; XAddAgain 1 0 0; XAddDefault 0 true; XOp (Add 0 (-1) false);
              XOp (Dispatch 0); XOp (Dispatch 1); XDispatchStopped 0; XOp (Prio 0 0); XOp (Prio 1 0); XOp (Prio 0 1)]
  = [ONone; ONone; ONone; ONone; ONone; OCalled [0; 0; 1]; OCalled [0]; OCalled [];
     OPrio (Some 0%Z); OPrio (Some 0%Z); OPrio (Some 0%Z)]%N.
Proof. vm_compute. reflexivity. Qed.

(* Third layer (nstep / run_C12N of Model/Dispatcher.v): a listener that DISPATCHES while it is being called.
   The dispatcher record and its functions are still the ones above; one more table says which
   event a callable dispatches when it is called.  The call log of a dispatch is FLAT: each listener called,
   and right behind it what the dispatch it makes calls. *)
From Clikit Require Import Proofs.DispatcherNestLemmas.

(* For EVERY sequence of ops, dispatching listeners included, every dispatch (flat log), get_listeners(event)
   and has_listeners answer of the model is the answer of a specification that keeps only the log of
   registrations and the behaviour tables. *)
Theorem nrun_refines : forall ops, nouts_agree ops (nrun ninit ops) (nsrun nsinit ops).
Proof. intros ops. apply nrun_sim, NR_init. Qed.
Print Assumptions nrun_refines.

(* In that specification EVERY dispatch - made by the caller or by a listener in the middle of another
   dispatch - walks the registrations of ITS event that are in the log WHEN IT STARTS, highest priority
   first, registration order within a priority ... *)
Theorem every_dispatch_walks_the_log_as_it_is_when_it_starts : forall f m ev,
  qndispatch (S f) m ev = qnwalk (qndispatch f) m (spec_order (q_regs (m_q m)) ev).
Proof. reflexivity. Qed.
Print Assumptions every_dispatch_walks_the_log_as_it_is_when_it_starts.

(* ... and a listener acts when it is called: what it registers is in the log before the next listener - of
   this or of a nested dispatch - is called; the dispatch it makes runs to ITS end right behind it; only the
   listener's own stop ends the walk (the event of a nested dispatch is another object). *)
Theorem a_called_listener_acts_before_the_next_is_called : forall rec m i r,
  qnwalk rec m (i :: r) =
  (let c := callable_of (q_call (m_q m)) i in
   let m1 := with_q m (qnregisters (m_q m) c) in
   let '(m2, inner) := match aget N.eqb c (m_disp m1) with Some ev2 => rec m1 ev2 | None => (m1, []) end in
   if q_stops_of (m_q m) c then (m2, c :: inner)
   else let '(m3, rest) := qnwalk rec m2 r in (m3, c :: inner ++ rest)).
Proof. reflexivity. Qed.
Print Assumptions a_called_listener_acts_before_the_next_is_called.

(* The entry the harness drives sends a sequence without a dispatching listener to run_C12X: every theorem about
   xrun above still speaks about what is run on such sequences.  PARTIAL: that nrun coincides with xrun on them
   (interleaved against deferred effects of the called listeners) is not proved - Example below, and the tie. *)
Theorem run_C12XN_without_dispatching_listeners : forall s, has_op10 s = false -> run_C12XN s = run_C12X s.
Proof. intros s H. unfold run_C12XN. now rewrite H. Qed.
Print Assumptions run_C12XN_without_dispatching_listeners.

(* Non-vacuity.  Callable 0 (event 0, priority 5) dispatches event 1 when called; event 1 has the stopping
   callable 1 and, below it, callable 2; event 0 has callable 3 below callable 0.  Dispatch 0 calls 0, then -
   nested - 1 (which stops the NESTED event: 2 is not called), then goes on with 3: the outer event is not
   stopped.  (A dispatcher that keeps the running event on itself stops here: [0; 1].) *)
Example c12_nested_stop_does_not_stop_the_outer_dispatch :
  nrun ninit [NAddDispatcher 0 5 1 false; NOp (XOp (Add 1 0 true)); NOp (XOp (Add 1 (-1) false)); NOp (XOp (Add 0 0 false));
              NOp (XOp (Dispatch 0)); NOp (XOp (Dispatch 1))]
  = [ONone; ONone; ONone; ONone; OCalled [0; 1; 3]; OCalled [1]]%N.
Proof. vm_compute. reflexivity. Qed.
(* Callable 0 (event 0, priority 5) registers, when called, a new listener for event 1 at priority 9; callable 1
   (event 0, priority 0) dispatches event 1; callable 2 listens to event 1.  The nested dispatch of event 1
   starts AFTER callable 0 acted: it calls the new callable 3 first, then 2.  In the second history the
   dispatching callable 0 (event 0, priority 7) stops: it still makes its dispatch (calling 2), then ends the walk before 1. *)
Example c12_nested_dispatch_sees_what_was_registered_before_it_started :
  nrun ninit [NOp (XAddRegistrar 0 5 1 9); NAddDispatcher 0 0 1 false; NOp (XOp (Add 1 0 false)); NOp (XOp (Dispatch 0));
              NOp (XOp (Get 1))]
  = [ONone; ONone; ONone; OCalled [0; 1; 3; 2]; OList [3; 2]]%N /\
  nrun ninit [NAddDispatcher 0 7 1 true; NOp (XOp (Add 0 0 false)); NOp (XOp (Add 1 0 false)); NOp (XOp (Dispatch 0))]
  = [ONone; ONone; ONone; OCalled [0; 2]]%N.
Proof. vm_compute. split; reflexivity. Qed.
(* the specification gives the same logs (the theorem says so for all sequences; this is the instance) *)
Example c12_nested_spec_instance :
  nsrun nsinit [NAddDispatcher 0 5 1 false; NOp (XOp (Add 1 0 true)); NOp (XOp (Add 1 (-1) false)); NOp (XOp (Add 0 0 false));
                NOp (XOp (Dispatch 0)); NOp (XOp (Dispatch 1))]
  = [ONone; ONone; ONone; ONone; OCalled [0; 1; 3]; OCalled [1]]%N.
Proof. vm_compute. reflexivity. Qed.
(* on a sequence without dispatching listeners the third layer answers as the second *)
Example c12_third_layer_on_second_layer_ops :
  let ops := [XAddRegistrar 0 0 0 5; XOp (Add 0 0 false); XAddAgain 0 5 1; XOp (Dispatch 0); XOp (Dispatch 0); XOp (Get 0);
              XDispatchStopped 0; XAddDefault 1 true; XOp (Dispatch 1); XOp (Has None)] in
  nrun ninit (map NOp ops) = xrun xinit ops.
Proof. vm_compute. reflexivity. Qed.
(* a dispatching callable is registered again only for an event before the one it dispatches: op ignored otherwise *)
Example c12_no_cycles :
  nrun ninit [NAddDispatcher 0 0 1 false; NOp (XAddAgain 1 0 0); NOp (XAddAgain 0 5 0); NOp (XOp (Get 1)); NOp (XOp (Get 0))]
  = [ONone; ONone; ONone; OList []; OList [0; 0]]%N.
Proof. vm_compute. reflexivity. Qed.
