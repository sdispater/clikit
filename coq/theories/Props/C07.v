(* C07 - option and argument flags are validated and normalised consistently.
   tb f k is bit k of the flag word; bit numbers: Option 0 PREFER_LONG_NAME 1 PREFER_SHORT_NAME 2 NO_VALUE
   3 REQUIRED_VALUE 4 OPTIONAL_VALUE 5 MULTI_VALUED 7 STRING 8 BOOLEAN 9 INTEGER 10 FLOAT 11 NULLABLE;
   Argument 0 REQUIRED 1 OPTIONAL 2 MULTI_VALUED 4 STRING 5 BOOLEAN 6 INTEGER 7 FLOAT 8 NULLABLE.
   Every statement is for ALL integers f (undefined bits, negative words included). *)
From Clikit Require Import Base.Prelude Base.Res Model.Conv Model.Flags Proofs.FlagsLemmas.

(* Construction of an option succeeds exactly when the flag word is free of the documented
   contradictions (opt_flags_ok), the names are well-formed (with or without dash prefix), a
   short-name preference has a short name (inside short_ok) and the default fits the value mode. *)
Theorem opt_accept_iff : forall ln sn f d,
  is_ok (mk_option ln sn f d) = opt_flags_ok f && long_ok ln && short_ok sn f && default_ok f d.
Proof.
  intros ln sn f d. unfold mk_option, long_ok, short_ok. rewrite opt_validate_iff.
  destruct (opt_flags_ok f) eqn:Hok; cbn [bind is_ok andb]; [|reflexivity].
  destruct (validate_long_name ln); cbn [bind is_ok andb]; [|reflexivity].
  destruct (validate_short_name sn f) as [s|]; cbn [bind is_ok andb]; [|reflexivity].
  transitivity (is_ok (opt_default (opt_defaults f (match s with Some _ => true | None => false end)) d)).
  { destruct (opt_default _ d); reflexivity. }
  rewrite opt_default_rule, default_rule_accepts. unfold default_ok. norm_bits.
  apply opt_flags_ok_inv in Hok as (_ & H2 & _ & _).
  destruct (tb f 2), (tb f 3), (tb f 4), (tb f 5); try discriminate; destruct d; reflexivity.
Qed.
Print Assumptions opt_accept_iff.

Theorem opt_rejects_with_value_error : forall ln sn f d k, mk_option ln sn f d = Err k -> k = ValueError.
Proof.
  intros ln sn f d. unfold mk_option. rewrite opt_validate_iff.
  repeat (apply only_value_error_bind; [|intros ?]); intros k.
  - destruct (opt_flags_ok f); congruence.
  - destruct ln as [| |s]; cbn [validate_long_name]; try congruence.
    destruct (strip_prefix [DASH; DASH] s) as [|a [|b r]]; try congruence. destruct (name_body_ok _); congruence.
  - destruct sn as [| |t]; cbn [validate_short_name]; try congruence.
    + destruct (bit f 1); congruence.
    + destruct (strip_prefix [DASH] t) as [|c [|? ?]]; try congruence. destruct (is_ascii_alpha c); congruence.
  - rewrite opt_default_rule. unfold default_rule.
    repeat match goal with |- context [if ?c then _ else _] => destruct c end; destruct d; congruence.
  - discriminate.
Qed.
Print Assumptions opt_rejects_with_value_error.

(* A constructed option: exactly one value type, exactly one name preference, value-less =>
   takes no value and has no default, multi-valued => requires a value and has a list default,
   the default it holds is the VALUE it was given (whatever that is: '' 0 False and tuples included - the model carries
   it as an opaque payload) or, when none was given, None / the empty list of a multi-valued option (on_default_kept),
   normalisation only adds bits and only among bits 0,1,2,3,7. *)
Theorem opt_normal_form : forall ln sn f d o, mk_option ln sn f d = Ok o ->
  opt_normal f (oo_flags o) (match oo_short o with Some _ => true | None => false end) d (oo_default o).
Proof.
  intros ln sn f d o H. destruct (mk_option_flags _ _ _ _ _ H) as (Hok & Hg & Hs & Hd).
  set (hs := match oo_short o with Some _ => true | None => false end) in *.
  assert (hs = false -> tb f 1 = false) as Hpref.
  { unfold hs. destruct (oo_short o); [discriminate|]. intros _. now apply short_none_pref in Hs. }
  clearbody hs. rewrite opt_default_rule, Hg in *. clear Hg H Hs.
  apply default_rule_ok in Hd as (Hkept & Hlist & Hnone). revert Hlist Hnone. norm_bits. intros Hlist Hnone.
  apply opt_flags_ok_inv in Hok as (H01 & H2 & H45 & Htypes).
  split; norm_bits; try assumption.
  - unfold exactly_one. unfold at_most_one in *.
    destruct (tb f 7), (tb f 8), (tb f 9), (tb f 10); try discriminate; reflexivity.
  - destruct hs; [|rewrite (Hpref eq_refl) in *]; destruct (tb f 0), (tb f 1); try discriminate; reflexivity.
  - destruct hs; [reflexivity|]. rewrite (Hpref eq_refl). discriminate.
  - intros Hv. destruct (Hnone Hv) as [_ ->]. revert Hv.
    destruct (tb f 2), (tb f 3), (tb f 4), (tb f 5); try discriminate; auto.
  - destruct (tb f 2), (tb f 3), (tb f 4), (tb f 5); auto.
  - intros Hm. rewrite Hm. split; [now destruct (tb f 3)|auto].
  - intros. now apply opt_defaults_mono.
  - intros. now apply opt_defaults_other.
Qed.
Print Assumptions opt_normal_form.

Theorem arg_accept_iff : forall n f d,
  is_ok (mk_argument n f d) = is_ok (validate_arg_name n) && arg_flags_ok f && arg_default_ok f d.
Proof.
  intros n f d. unfold mk_argument. destruct (validate_arg_name n); cbn [bind is_ok andb]; [|reflexivity].
  rewrite arg_validate_iff. destruct (arg_flags_ok f) eqn:Hok; cbn [bind is_ok andb]; [|reflexivity].
  unfold arg_flags_ok in Hok. apply andb_prop in Hok as [H01 _].
  transitivity (is_ok (arg_default (arg_defaults f) d)).
  { destruct (arg_default _ d); reflexivity. }
  rewrite arg_default_rule, default_rule_accepts. unfold arg_default_ok. norm_bits.
  destruct (tb f 0), (tb f 1); try discriminate; destruct d; reflexivity.
Qed.
Print Assumptions arg_accept_iff.

(* ... a required argument was given no default and holds none; the default held is the value given (an_default_kept) *)
Theorem arg_normal_form : forall n f d o, mk_argument n f d = Ok o -> arg_normal f (ao_flags o) d (ao_default o).
Proof. exact arg_normal_form_lemma. Qed.
Print Assumptions arg_normal_form.

(* ---- names: accepted exactly when well-formed, with or without their dash prefix ----
   long_ok / short_ok above are the validators' own verdicts; these theorems say what that verdict is, character by
   character: wf_long_name s := at least two characters, the first an ASCII letter, all of [a-zA-Z0-9-]; wf_short_name := one
   ASCII letter; wf_name_body (argument names, long aliases) := non-empty, first an ASCII letter, all of [a-zA-Z0-9-].
   A leading "--" (long) / "-" (short) is removed first, and the name kept is the one without it. *)
Theorem long_name_ok_iff : forall s,
  validate_long_name (NStr s) =
  if wf_long_name (strip_prefix [DASH; DASH] s) then Ok (strip_prefix [DASH; DASH] s) else Err ValueError.
Proof.
  intros s. unfold validate_long_name, wf_long_name, wf_name_body, name_body_ok.
  destruct (strip_prefix [DASH; DASH] s) as [|a [|b r]]; cbn [length Nat.leb andb]; try reflexivity.
  - now rewrite andb_false_r.
  - now rewrite andb_true_r.
Qed.
Print Assumptions long_name_ok_iff.
Theorem short_name_ok_iff : forall s f,
  validate_short_name (NStr s) f =
  if wf_short_name (strip_prefix [DASH] s) then Ok (Some (strip_prefix [DASH] s)) else Err ValueError.
Proof.
  intros s f. unfold validate_short_name, wf_short_name. destruct (strip_prefix [DASH] s) as [|c [|? ?]]; reflexivity.
Qed.
Print Assumptions short_name_ok_iff.
Theorem arg_name_ok_iff : forall s, validate_arg_name (NStr s) = if wf_name_body s then Ok s else Err ValueError.
Proof. reflexivity. Qed.
Print Assumptions arg_name_ok_iff.
Theorem long_name_with_or_without_prefix : forall s, wf_long_name s = true ->
  validate_long_name (NStr s) = Ok s /\ validate_long_name (NStr (DASH :: DASH :: s)) = Ok s.
Proof.
  intros s H. rewrite !long_name_ok_iff.
  assert (strip_prefix [DASH; DASH] (DASH :: DASH :: s) = s) as -> by reflexivity.
  pose proof H as H'. unfold wf_long_name in H'. apply andb_prop in H' as [Hb _].
  destruct (strip_prefix_none1 s (wf_body_no_dash s Hb)) as [_ ->]. now rewrite H.
Qed.
Print Assumptions long_name_with_or_without_prefix.
Theorem short_name_with_or_without_prefix : forall c f, is_ascii_alpha c = true ->
  validate_short_name (NStr [c]) f = Ok (Some [c]) /\ validate_short_name (NStr [DASH; c]) f = Ok (Some [c]).
Proof.
  intros c f H. rewrite !short_name_ok_iff.
  assert (strip_prefix [DASH] [DASH; c] = [c]) as -> by reflexivity.
  assert (strip_prefix [DASH] [c] = [c]) as ->.
  { cbn -[N.eqb]. destruct (N.eqb_spec DASH c) as [E|E]; [subst c; discriminate|reflexivity]. }
  cbn [wf_short_name]. now rewrite H.
Qed.
Print Assumptions short_name_with_or_without_prefix.
(* aliases of a command option: "--x" must be a well-formed long name; otherwise one "-" is removed and what is left is a
   short alias when it is one letter, a long alias when it is a well-formed body of another length *)
Theorem alias_ok_iff : forall a,
  validate_alias a =
  if starts_with [DASH; DASH] a then
    (let s := strip_prefix [DASH; DASH] a in if wf_long_name s then Ok (false, s) else Err ValueError)
  else
    (let s := strip_prefix [DASH] a in
     if wf_short_name s then Ok (true, s)
     else if wf_name_body s && negb (Nat.eqb (length s) 1) then Ok (false, s) else Err ValueError).
Proof.
  intros a. unfold validate_alias, wf_long_name, wf_short_name, wf_name_body, name_body_ok.
  destruct (starts_with [DASH; DASH] a).
  - destruct (strip_prefix [DASH; DASH] a) as [|x [|y r]]; cbn [bind length Nat.leb andb]; try reflexivity.
    + destruct (is_ascii_alpha x && forallb name_char [x]); reflexivity.
    + now rewrite andb_true_r.
  - cbn [bind]. destruct (strip_prefix [DASH] a) as [|x [|y r]]; cbn [length Nat.eqb negb andb]; try reflexivity.
    + destruct (is_ascii_alpha x); reflexivity.
    + now rewrite andb_true_r.
Qed.
Print Assumptions alias_ok_iff.

(* ---- the hand model re-checked against the source on every build ----
   Generated/GenFlags.v is what harness/translate.py (a fail-closed translator of a small pure subset of Python) makes of
   the flag constants of AbstractOption / Option / Argument and of their _validate_flags and _add_default_flags in the
   source tree at hand; bin/setup regenerates it before every build.  option_validate_flags calls
   abstractoption_validate_flags where the code calls super()._validate_flags, likewise _add_default_flags; has_short is
   bool(self._short_name).  The validation and normalisation functions of the model ARE those functions, for every integer: *)
From Clikit Require Generated.GenFlags Proofs.GenEquivLemmas.
Theorem abs_validate_matches_source : forall f, GenFlags.abstractoption_validate_flags f = abs_validate f.
Proof. exact GenEquivLemmas.gen_abs_validate_eq. Qed.
Print Assumptions abs_validate_matches_source.
Theorem opt_validate_matches_source : forall f, GenFlags.option_validate_flags f = opt_validate f.
Proof. exact GenEquivLemmas.gen_opt_validate_eq. Qed.
Print Assumptions opt_validate_matches_source.
Theorem arg_validate_matches_source : forall f, GenFlags.argument_validate_flags f = arg_validate f.
Proof. exact GenEquivLemmas.gen_arg_validate_eq. Qed.
Print Assumptions arg_validate_matches_source.
Theorem abs_defaults_matches_source : forall f has_short,
  GenFlags.abstractoption_add_default_flags has_short f = abs_defaults f has_short.
Proof. exact GenEquivLemmas.gen_abs_defaults_eq. Qed.
Print Assumptions abs_defaults_matches_source.
Theorem opt_defaults_matches_source : forall f has_short,
  GenFlags.option_add_default_flags has_short f = opt_defaults f has_short.
Proof. exact GenEquivLemmas.gen_opt_defaults_eq. Qed.
Print Assumptions opt_defaults_matches_source.
Theorem arg_defaults_matches_source : forall f, GenFlags.argument_add_default_flags f = arg_defaults f.
Proof. exact GenEquivLemmas.gen_arg_defaults_eq. Qed.
Print Assumptions arg_defaults_matches_source.
(* the flag words of the classes are the bit numbers used above *)
Theorem flag_constants_match_source :
  GenFlags.AbstractOption_PREFER_LONG_NAME = (2 ^ 0)%Z /\ GenFlags.AbstractOption_PREFER_SHORT_NAME = (2 ^ 1)%Z /\
  GenFlags.Option_NO_VALUE = (2 ^ 2)%Z /\ GenFlags.Option_REQUIRED_VALUE = (2 ^ 3)%Z /\
  GenFlags.Option_OPTIONAL_VALUE = (2 ^ 4)%Z /\ GenFlags.Option_MULTI_VALUED = (2 ^ 5)%Z /\
  GenFlags.Option_STRING = (2 ^ 7)%Z /\ GenFlags.Option_BOOLEAN = (2 ^ 8)%Z /\ GenFlags.Option_INTEGER = (2 ^ 9)%Z /\
  GenFlags.Option_FLOAT = (2 ^ 10)%Z /\ GenFlags.Option_NULLABLE = (2 ^ 11)%Z /\
  GenFlags.Argument_REQUIRED = (2 ^ 0)%Z /\ GenFlags.Argument_OPTIONAL = (2 ^ 1)%Z /\
  GenFlags.Argument_MULTI_VALUED = (2 ^ 2)%Z /\ GenFlags.Argument_STRING = (2 ^ 4)%Z /\
  GenFlags.Argument_BOOLEAN = (2 ^ 5)%Z /\ GenFlags.Argument_INTEGER = (2 ^ 6)%Z /\ GenFlags.Argument_FLOAT = (2 ^ 7)%Z /\
  GenFlags.Argument_NULLABLE = (2 ^ 8)%Z.
Proof. exact GenEquivLemmas.gen_flag_constants. Qed.
Print Assumptions flag_constants_match_source.
(* ... so the acceptance condition of the flag word is a statement about the translated code itself *)
Theorem source_opt_flags_accept_iff : forall f,
  GenFlags.option_validate_flags f = if opt_flags_ok f then Ok tt else Err ValueError.
Proof. intros f. rewrite GenEquivLemmas.gen_opt_validate_eq. exact (opt_validate_iff f). Qed.
Print Assumptions source_opt_flags_accept_iff.
Theorem source_arg_flags_accept_iff : forall f,
  GenFlags.argument_validate_flags f = if arg_flags_ok f then Ok tt else Err ValueError.
Proof. intros f. rewrite GenEquivLemmas.gen_arg_validate_eq. exact (arg_validate_iff f). Qed.
Print Assumptions source_arg_flags_accept_iff.

(* Conversion by the declared type: a value of that type, or None only when nullable and the
   input is None/"null", or ValueError - never another exception (inputs None/bool/int/str). *)
Theorem conv_typed : forall t nl v, conv_input v = true ->
  match parse_typed t nl v with
  | Ok r => (r = VNone /\ nl = true /\ is_null v = true) \/ has_type t r = true
  | Err k => k = ValueError
  end.
Proof. exact conv_typed_lemma. Qed.
Print Assumptions conv_typed.

(* The text form of every integer of at most 4300 decimal digits converts back to that integer, and that is its text form;
   int_text_ok z := num_digits z <= 4300 is CPython's own criterion (sys.get_int_max_str_digits(), an interpreter default
   outside clikit): beyond it str(z) and int(text) both raise ValueError, which is what the second theorem says. *)
Theorem conv_int_roundtrip : forall z nl, int_text_ok z = true -> parse_int (VStr (dec_text z)) nl = Ok (VInt z).
Proof. intros z nl H. now rewrite parse_int_dec_text, H. Qed.
Print Assumptions conv_int_roundtrip.
Theorem conv_int_text : forall z nl, int_text_ok z = true -> parse_string (VInt z) nl = Ok (VStr (dec_text z)).
Proof. intros z nl H. now rewrite parse_string_int, H. Qed.
Print Assumptions conv_int_text.
(* the same in terms of magnitude: every integer below 10^4300 in absolute value (int_text_ok_small: such a number has at
   most 4300 digits) *)
Theorem conv_int_below_limit : forall z nl, (Z.abs z < 10 ^ 4300)%Z ->
  parse_string (VInt z) nl = Ok (VStr (dec_text z)) /\ parse_int (VStr (dec_text z)) nl = Ok (VInt z).
Proof. intros z nl H. apply int_text_ok_small in H. now rewrite parse_string_int, parse_int_dec_text, H. Qed.
Print Assumptions conv_int_below_limit.
Theorem conv_int_there_and_back : forall z nl, int_text_ok z = true ->
  bind (parse_string (VInt z) nl) (fun t => parse_int t nl) = Ok (VInt z).
Proof. intros z nl H. rewrite parse_string_int, H. cbn [bind]. now rewrite parse_int_dec_text, H. Qed.
Print Assumptions conv_int_there_and_back.
Theorem conv_int_beyond_limit : forall z nl, int_text_ok z = false ->
  parse_string (VInt z) nl = Err ValueError /\ parse_int (VStr (dec_text z)) nl = Err ValueError.
Proof. intros z nl H. now rewrite parse_string_int, parse_int_dec_text, H. Qed.
Print Assumptions conv_int_beyond_limit.
(* float(z) of an integer: ValueError (CPython's OverflowError, caught since fix c07-float-overflow) exactly when |z| rounds
   to 2^1024 or more; otherwise the float written like the integer *)
Theorem conv_float_of_int : forall z,
  parse_float (VInt z) false = if (2 ^ 1024 - 2 ^ 970 <=? Z.abs z)%Z then Err ValueError else Ok (VFloat (dec_text z)).
Proof. reflexivity. Qed.
Print Assumptions conv_float_of_int.
Theorem conv_bool_roundtrip : forall b nl,
  bind (parse_string (VBool b) nl) (fun t => parse_boolean t nl) = Ok (VBool b).
Proof. intros [] []; reflexivity. Qed.
Print Assumptions conv_bool_roundtrip.

Example c07_nonvacuous :
  is_ok (mk_option (NStr [45;45;102;111;111]%N) (NStr [45;102]%N) 32 (DList [])) = true /\
  is_ok (mk_option (NStr [102;111;111]%N) NNone 36 DNone) = false /\
  int_text_ok (-1234567890123456789012345)%Z = true /\
  parse_int (VStr (dec_text (-1234567890123456789012345)%Z)) false = Ok (VInt (-1234567890123456789012345)%Z) /\
  (* a falsy default is a default: kept by an option that takes a value, refused by a value-less one and a required argument *)
  option_map oo_default (match mk_option (NStr [102;111;111]%N) NNone 8 (DScalar (L [A 3%Z; L []])) with Ok o => Some o | Err _ => None end)
    = Some (DScalar (L [A 3%Z; L []])) /\
  is_ok (mk_option (NStr [102;111;111]%N) NNone 4 (DScalar (L [A 2%Z; A 0%Z]))) = false /\
  is_ok (mk_argument (NStr [97]%N) 1 (DList [])) = false /\
  (* non-ASCII decimal digits are digits (ARABIC-INDIC 1 2 -> 12), more than 4300 digits are refused *)
  parse_int (VStr [1633; 1634]%N) false = Ok (VInt 12) /\
  parse_int (VStr (repeat 49%N 4301)) false = Err ValueError /\
  is_ok (parse_int (VStr (repeat 49%N 4300)) false) = true.
Proof.
  (* the last two conjuncts speak of 4301 and 4300 digits: they follow from the length of the text, without reading it *)
  assert (forall n, forallb is_digit (repeat 49%N n) = true) as Hd by (induction n; [reflexivity|assumption]).
  do 8 (split; [vm_compute; reflexivity|]).
  split; [apply parse_int_digits_long|apply parse_int_digits_short]; try discriminate; try apply Hd.
  all: rewrite repeat_length; unfold MAX_STR_DIGITS; constructor.
Qed.
