(* C19 - the automatic progress indicator is well-behaved under EVERY interleaving.
   A schedule is any list of booleans: which thread (spinner / main) runs to its next stream write, sleep or join;
   when it is used up the run is completed (main whenever it can run, else the spinner).  Theorems quantify over
   all schedules, all bodies (set_message / work / raise), all clocks and intervals. *)
From Coq Require Import Lia.
From Clikit Require Import Base.Prelude Base.Res Base.Term Model.Spinner Proofs.TermLemmas Proofs.SpinnerLemmas
  Proofs.SpinnerHistoryLemmas.

(* Leaving the automatic mode always stops and joins the spinner: both threads have ended and the stop flag is set;
   whether the block was left by an exception is decided by the body alone.
   "Every body": ARaise is an exit of the body by an exception that auto()'s handler catches; the handler is
   `except BaseException` (fix 861502e), so that is every exception.  Before that fix it caught
   `(Exception, KeyboardInterrupt)` only, and a body ended by SystemExit or GeneratorExit left the thread alive with the
   flag unset (see spinner_runs_until_stopped below). *)
Theorem auto_always_stops_spinner : forall t0 iv sm em acts sched,
  let f := run_auto t0 iv sm em acts sched in
  all_done f = true /\ stop f = true /\ mphase_ f = MFinished (has_raise acts).
Proof.
  intros. destruct (auto_ends t0 iv sm em acts sched) as (Hm & Hs & Hst & Hp). unfold all_done. fold f in Hm, Hs.
  rewrite Hm, Hs. auto.
Qed.
Print Assumptions auto_always_stops_spinner.

(* A normal exit: the last two writes are the end-message frame and the line break, both by the main thread ... *)
Theorem normal_exit_last_frame : forall t0 iv sm em acts sched,
  has_raise acts = false ->
  exists pre, writes (run_auto t0 iv sm em acts sched) = pre ++ [(false, Some (frame 0 em)); (false, None)].
Proof.
  intros t0 iv sm em acts sched Hr.
  destruct (auto_ends t0 iv sm em acts sched) as (Hm & _ & _ & Hp). cbv zeta in Hm, Hp.
  destruct (run_auto_join_end t0 iv sm em acts sched) as (_ & _ & HE). rewrite Hp, Hr, Hm in HE. exact HE.
Qed.
Print Assumptions normal_exit_last_frame.
(* ... and on a terminal of any width that fits the messages, the last line shown is exactly that frame. *)
Theorem normal_exit_screen : forall w t0 iv sm em acts sched,
  1 <= w -> fits w sm -> fits w em -> Forall (act_ok (fits w)) acts -> has_raise acts = false ->
  exists R, rows (feed w term_init (flat_map (fun x => emits_of_write (snd x)) (writes (run_auto t0 iv sm em acts sched))))
            = R ++ [frame 0 em; []].
Proof.
  intros w t0 iv sm em acts sched Hw Hs He Ha Hr.
  destruct (normal_exit_last_frame t0 iv sm em acts sched Hr) as [pre Hp].
  apply (last_frame_shown w Hw _ pre _ Hp), writes_short; assumption.
Qed.
Print Assumptions normal_exit_screen.

(* The terminal line never shows a mixture of two frames.  After ANY prefix of the write history the screen is given
   exactly by screen_of (a frame replaces the current line, a line break keeps it and opens an empty one) ... *)
Theorem screen_at_every_point : forall w t0 iv sm em acts sched n,
  1 <= w -> fits w sm -> fits w em -> Forall (act_ok (fits w)) acts ->
  let ws := map snd (firstn n (writes (run_auto t0 iv sm em acts sched))) in
  rows (feed w term_init (flat_map emits_of_write ws)) = screen_of [] [] ws.
Proof.
  intros w t0 iv sm em acts sched n Hw Hs He Ha. cbv zeta. apply (screen_exact w Hw _ [] [] 0).
  rewrite <- firstn_map. apply ListLemmas.Forall_firstn, writes_short; assumption.
Qed.
Print Assumptions screen_at_every_point.
(* ... hence every row is empty or IS one of the frames written so far, whole (not "some frame of some message": a
   residue of a longer frame or two frames glued together would have to be a frame some thread wrote in one piece),
   and the current line is the most recent write: that frame, or empty after the line break. *)
Theorem line_never_mixed : forall w t0 iv sm em acts sched n,
  1 <= w -> fits w sm -> fits w em -> Forall (act_ok (fits w)) acts ->
  let ws := map snd (firstn n (writes (run_auto t0 iv sm em acts sched))) in
  let scr := rows (feed w term_init (flat_map emits_of_write ws)) in
  Forall (fun r => r = [] \/ In (Some r) ws) scr /\ exists R, scr = R ++ [latest [] ws].
Proof.
  intros w t0 iv sm em acts sched n Hw Hs He Ha. cbv zeta. rewrite (screen_at_every_point w t0 iv sm em acts sched n Hw Hs He Ha).
  split; [|apply screen_of_last].
  eapply Forall_impl; [|apply screen_of_rows]. cbn beta. intros r [[Hr|[]]|Hr]; [left; symmetry; exact Hr|exact Hr].
Qed.
Print Assumptions line_never_mixed.
(* What the frames written are.  The caller's thread: its frames show, in order, exactly the messages set - the start
   message, every set_message up to a raise, and the end message on a normal exit ... *)
Theorem caller_frames_show_the_messages_set : forall t0 iv sm em acts sched,
  mmsgs (writes (run_auto t0 iv sm em acts sched)) = sm :: until_raise acts ++ (if has_raise acts then [] else [em]).
Proof.
  intros t0 iv sm em acts sched.
  assert (caller_msgs (sm :: until_raise acts ++ (if has_raise acts then [] else [em])) (run_auto t0 iv sm em acts sched)) as HT.
  { apply run_auto_inv; [apply step_caller_msgs|reflexivity]. }
  destruct (auto_ends t0 iv sm em acts sched) as (Hm & _ & _ & Hk). cbv zeta in Hm, Hk.
  unfold caller_msgs, future in HT. rewrite Hk, Hm in HT. cbn in HT. rewrite app_nil_r in HT. exact HT.
Qed.
Print Assumptions caller_frames_show_the_messages_set.
(* ... and EVERY write, wherever the history is cut, is one indicator value and one message in a single stream write
   (erase and text together); a spinner frame shows a message that the caller had set when the spinner formatted it:
   the message of a caller frame written before it, or of the caller's next frame after it (message set, its own
   frame still on the way to the stream).  Never a message not yet set, never a text that no one set. *)
Theorem every_write_is_whole : forall t0 iv sm em acts sched pre b x post,
  writes (run_auto t0 iv sm em acts sched) = pre ++ (b, Some x) :: post ->
  exists c m, x = frame c m /\ In (indicator c) values /\
    (b = true -> In m (mmsgs pre) \/ firstm post None = Some m).
Proof.
  intros t0 iv sm em acts sched pre b x post E.
  assert (hist_ok (run_auto t0 iv sm em acts sched)) as (H1 & _) by (apply run_auto_inv; [apply step_hist_ok|apply start_hist_ok]).
  destruct (auto_ends t0 iv sm em acts sched) as (Hmp & _). cbv zeta in Hmp. rewrite Hmp in H1. cbn [pmsg] in H1.
  destruct (sp_ok_split _ _ _ H1 pre b x post E) as (c & m & Hf & Hm).
  exists c, m. split; [exact Hf|]. split; [apply indicator_in_values|exact Hm].
Qed.
Print Assumptions every_write_is_whole.
(* Why every way out of the block has to set the stop flag: while it is unset the spinner thread never ends, whatever
   the clock does (n further steps of the spinner, any n). *)
Theorem spinner_runs_until_stopped : forall n s, spinning s -> spinning (Nat.iter n step_spinner s).
Proof. induction n as [|n IH]; intros s Hs; cbn; [exact Hs|]. apply spinner_step_spinning, IH, Hs. Qed.
Print Assumptions spinner_runs_until_stopped.

(* Manual mode: redraws by advance() are at least one interval apart ... *)
Theorem manual_throttle : forall iv ops t0 m, (0 <= iv)%Z ->
  spaced iv (adv_times iv (manual_init t0 iv m) t0 ops) /\
  Forall (fun t => t0 + iv <= t)%Z (adv_times iv (manual_init t0 iv m) t0 ops).
Proof. intros iv ops t0 m H. destruct (adv_times_spaced iv H ops (manual_init t0 iv m) t0) as [F S]. split; assumption. Qed.
Print Assumptions manual_throttle.
(* adv_times are exactly the times at which advance() draws: an advance at time now adds one frame iff the interval is over *)
Theorem manual_advance_draws_iff_interval_over : forall iv s now,
  m_frames (manual_step iv s now MAdvance) =
  if (now <? m_upd s)%Z then m_frames s else m_frames s ++ [Some (frame (S (m_cur s)) (m_msg s))].
Proof. intros iv s now. cbn. destruct (now <? m_upd s)%Z; reflexivity. Qed.
Print Assumptions manual_advance_draws_iff_interval_over.
(* ... and every frame is one indicator value followed by the message current at that time: the frames are append-only;
   the operation after any history ops1 adds nothing (an advance before the interval is over), or the frame of the
   state it leaves - position m_cur, message m_msg - (and the line break, for finish); and that message is the one most
   recently set (last_set: by start, set_message or finish). *)
Theorem manual_frames_wf : forall iv t0 m ops1 dt o ops2,
  let now1 := fold_left (fun t x => t + fst x)%Z ops1 t0 in
  let s1 := manual_run iv (manual_init t0 iv m) t0 ops1 in
  let s2 := manual_step iv s1 (now1 + dt)%Z o in
  let f := manual_run iv (manual_init t0 iv m) t0 (ops1 ++ (dt, o) :: ops2) in
  m_msg s2 = last_set m (ops1 ++ [(dt, o)]) /\
  exists new later, m_frames f = m_frames s1 ++ new ++ later /\
    (new = [] /\ o = MAdvance /\ (now1 + dt < m_upd s1)%Z
     \/ new = [Some (frame (m_cur s2) (m_msg s2))]
     \/ new = [Some (frame (m_cur s2) (m_msg s2)); None] /\ exists m' r, o = MFinish m' r).
Proof.
  intros iv t0 m ops1 dt o ops2. cbv zeta. split.
  - rewrite manual_step_msg, manual_run_msg. unfold last_set. rewrite fold_left_app. reflexivity.
  - rewrite manual_run_app. cbn [manual_run].
    set (now1 := fold_left (fun t x => (t + fst x)%Z) ops1 t0).
    set (s1 := manual_run iv (manual_init t0 iv m) t0 ops1).
    destruct (manual_step_frames iv s1 (now1 + dt)%Z o) as (new & Hn & Hc). cbv zeta in Hn, Hc.
    destruct (manual_frames_append_only iv ops2 (manual_step iv s1 (now1 + dt)%Z o) (now1 + dt)%Z) as [later Hl].
    exists new, later. split; [|exact Hc]. rewrite Hl, Hn, app_assoc. reflexivity.
Qed.
Print Assumptions manual_frames_wf.
(* the first frame is the start message at position 0, and the last frame of any history shows the current state *)
Theorem manual_last_frame_current : forall iv ops t0 m,
  let f := manual_run iv (manual_init t0 iv m) t0 ops in
  m_frames (manual_init t0 iv m) = [Some (frame 0 m)] /\
  (exists pre, m_frames f = pre ++ [Some (frame (m_cur f) (m_msg f))] \/ m_frames f = pre ++ [Some (frame (m_cur f) (m_msg f)); None]) /\
  m_msg f = last_set m ops /\
  (forall c, In (indicator c) values).
Proof.
  intros. split; [reflexivity|]. split; [exact (manual_run_last_frame_current iv ops (manual_init t0 iv m) t0 (manual_init_last_frame_current t0 iv m))|].
  split; [apply manual_run_msg|exact indicator_in_values].
Qed.
Print Assumptions manual_last_frame_current.

(* the premises are satisfiable and the outcomes are not vacuous *)
Example nonvacuous :
  let body := [ASet [120%N]; AWork 250; ASet [121%N]] in
  let f := run_auto 0 100 [104%N] [100%N] body [true; true; false; true; true; false] in
  has_raise body = false /\ existsb fst (writes f) = true /\ 5 <= length (writes f).
Proof. vm_compute. repeat split. lia. Qed.

(* The same statements at the granularity of ACCESSES TO SHARED STATE (Model/Spinner2.v, driver entry run_C19F): a thread
   stops before every operation on the stop event, every read and write of _started / _update_time / _current / _message /
   _auto_thread (while both threads exist), every stream write, sleep and join; a schedule orders ALL of them.  Any list of
   indicator values, any format of literal text, {indicator} and {message}, any interval.  harness/sched.py drives the two
   real threads at exactly these points. *)
From Clikit Require Import Model.Spinner2 Proofs.Spinner2Lemmas.

(* Leaving the automatic mode always stops and joins the spinner - whichever way the accesses of the two threads interleave. *)
Theorem fine_auto_always_stops_spinner : forall c t0 sm acts sched,
  let f := run_auto2 c t0 sm acts sched in
  all_done2 f = true /\ stop2 f = true /\ sp2 f = SDone /\ ph2 f = HFinished (has_raise acts).
Proof. exact auto2_always_stops. Qed.
Print Assumptions fine_auto_always_stops_spinner.

(* Every single stream write is a line break or a WHOLE frame: the format with each {indicator} replaced by one of the
   indicator values and each {message} by the start message, the end message or a message the body set. *)
Theorem fine_every_write_is_whole : forall c t0 sm acts sched,
  let P := fun m => m = sm \/ m = c_end c \/ In (ASet m) acts in
  Forall (fun w => match snd w with Some t => frame_ok c P t | None => True end) (writes2 (run_auto2 c t0 sm acts sched)).
Proof.
  intros c t0 sm acts sched P.
  apply (all_writes2_built c P); unfold P; auto.
  apply Forall_forall. intros [m|d|] Hin; cbn; auto.
Qed.
Print Assumptions fine_every_write_is_whole.
(* ... for the built-in format " {indicator} {message}": the format filled with ONE value and ONE message. *)
Theorem fine_default_format_frames : forall c P t, c_fmt c = [PLit [32%N]; PInd; PLit [32%N]; PMsg] -> frame_ok c P t ->
  exists k m, P m /\ t = fill_fmt (c_values c) k m (c_fmt c).
Proof.
  intros c P t Hf H. unfold frame_ok in H. rewrite Hf in *. cbn in H.
  destruct H as (t1 & -> & k & t2 & -> & t3 & -> & m & t4 & Hm & -> & ->). exists k, m. split; [exact Hm|]. cbn. reflexivity.
Qed.
Print Assumptions fine_default_format_frames.

(* The terminal line never shows a mixture of two frames: after ANY prefix of the write history every row of the screen is
   empty or exactly one whole frame (messages of at most L characters, a terminal wide enough for the format). *)
Theorem fine_line_never_mixed : forall w L c t0 sm acts sched n,
  1 <= w -> fmt_width L (c_fmt c) <= w -> short_msg L sm -> short_msg L (c_end c) -> Forall (act_ok (short_msg L)) acts ->
  Forall (okQ (frame_ok c (short_msg L)))
         (rows (feed w term_init (flat_map (fun x => emits_of_write (snd x)) (firstn n (writes2 (run_auto2 c t0 sm acts sched)))))).
Proof.
  intros w L c t0 sm acts sched n Hw Hf Hs He Ha. rewrite <- ListLemmas.flat_map_map, <- firstn_map.
  apply (rows_are_Q w Hw _ _ [] [] 0); [|constructor|left; reflexivity].
  apply ListLemmas.Forall_firstn, writes2_short; assumption.
Qed.
Print Assumptions fine_line_never_mixed.

(* A normal exit: the last two writes are the end-message frame (indicator reset) and the line break, both by the caller ... *)
Theorem fine_normal_exit_last_frame : forall c t0 sm acts sched, has_raise acts = false ->
  exists pre, writes2 (run_auto2 c t0 sm acts sched) = pre ++ [(false, Some (endframe c)); (false, None)].
Proof.
  intros c t0 sm acts sched Hr. destruct (auto2_always_stops c t0 sm acts sched) as (_ & _ & _ & Hp). cbv zeta in Hp. rewrite Hr in Hp.
  assert (HE : end_frame_inv2 c (run_auto2 c t0 sm acts sched)).
  { refine (proj2 (run_auto2_inv c (fun s => join_inv2 s /\ end_frame_inv2 c s) (step2_end_frame_inv2 c) _ _ _ _ _)).
    split; [apply init2_join_inv2|]. unfold init2. apply next_action_end_frame_inv2. }
  unfold end_frame_inv2 in HE. rewrite Hp in HE. exact HE.
Qed.
Print Assumptions fine_normal_exit_last_frame.
(* ... and the last line shown on the terminal is exactly that frame. *)
Theorem fine_normal_exit_screen : forall w L c t0 sm acts sched,
  1 <= w -> fmt_width L (c_fmt c) <= w -> short_msg L sm -> short_msg L (c_end c) -> Forall (act_ok (short_msg L)) acts ->
  has_raise acts = false ->
  exists R, rows (feed w term_init (flat_map (fun x => emits_of_write (snd x)) (writes2 (run_auto2 c t0 sm acts sched)))) = R ++ [endframe c; []].
Proof.
  intros w L c t0 sm acts sched Hw Hf Hs He Ha Hr.
  destruct (fine_normal_exit_last_frame c t0 sm acts sched Hr) as [pre Hp].
  apply (last_frame_shown w Hw _ pre _ Hp), (shortQ_short w (frame_ok c (short_msg L))), writes2_short; assumption.
Qed.
Print Assumptions fine_normal_exit_screen.

(* Manual mode with any values / format / interval: redraws by advance() are at least one interval apart ... *)
Theorem manual_throttle_any_interval : forall c ops t0 m, (0 <= c_interval c)%Z ->
  spaced (c_interval c) (adv_times2 c (manual_init2 c t0 m) t0 ops) /\
  Forall (fun t => t0 + c_interval c <= t)%Z (adv_times2 c (manual_init2 c t0 m) t0 ops).
Proof. intros c ops t0 m H. destruct (adv_times2_spaced c H ops (manual_init2 c t0 m) t0) as [Fa Sp]. split; assumption. Qed.
Print Assumptions manual_throttle_any_interval.
(* ... and every frame is the format filled with one of the indicator values and the message current at that call. *)
Theorem manual_frames_any_values : forall c ops t0 m,
  let f := manual_run2 c (manual_init2 c t0 m) t0 ops in
  Forall (mframe2 c) (n_frames f) /\
  (exists pre, n_frames f = pre ++ [Some (fill_fmt (c_values c) (n_cur f) (n_msg f) (c_fmt c))] \/
               n_frames f = pre ++ [Some (fill_fmt (c_values c) (n_cur f) (n_msg f) (c_fmt c)); None]) /\
  (c_values c <> [] -> forall k, In (indicator2 (c_values c) k) (c_values c)).
Proof.
  intros. destruct (manual_run2_last_frame_current2 c ops (manual_init2 c t0 m) t0 (manual_init2_last_frame_current2 c t0 m)) as [H1 H2].
  split; [exact H1|]. split; [exact H2|]. intros Hv k. apply indicator2_in_values, Hv.
Qed.
Print Assumptions manual_frames_any_values.

(* not vacuous: two values, the format "{message} ({indicator})", a schedule that lets the spinner draw between the caller's
   write of the message and its read of the indicator position *)
Example fine_nonvacuous :
  let c := {| c_values := [97%N; 98%N]; c_fmt := [PMsg; PLit [32%N; 40%N]; PInd; PLit [41%N]]; c_interval := 100; c_nap := 100; c_end := [100%N] |} in
  let body := [AWork 150; ASet [120%N]] in
  let f := run_auto2 c 0 [115%N] body ([false] ++ repeat true 12 ++ [false] ++ repeat true 9 ++ [false]) in
  has_raise body = false /\ existsb fst (writes2 f) = true /\ 5 <= length (writes2 f) /\ skips2 f = 0.
Proof. vm_compute. repeat split; lia. Qed.
(* what these statements exclude: a line holding two frames, or the rest of a longer frame, is not a screen of any
   write history unless some thread wrote exactly that text as one frame *)
Example mixture_is_excluded :
  let body := [ASet [120%N]; AWork 250; ASet [121%N]] in
  let f := run_auto 0 100 [104%N] [100%N] body [true; true; false; true; true; false] in
  let ws := map snd (writes f) in
  ~ In (Some (frame 1 [104%N] ++ frame 2 [120%N])) ws /\ ~ In (Some (frame 2 [120%N] ++ [104%N])) ws /\
  mmsgs (writes f) = [[104%N]; [120%N]; [121%N]; [100%N]].
Proof.
  vm_compute. repeat split; intros K; repeat (destruct K as [K|K]; [discriminate K|]); exact K.
Qed.
(* a spinner frame that shows the message of the caller's NEXT frame (set, not yet written): the second disjunct of
   every_write_is_whole is needed *)
Example spinner_shows_pending_message :
  let f := run_auto 0 0 [104%N] [100%N] [ASet [120%N]] [true; true] in
  exists pre post, writes f = pre ++ (true, Some (frame 1 [120%N])) :: post /\ ~ In [120%N] (mmsgs pre) /\ firstm post None = Some [120%N].
Proof.
  exists [(false, Some (frame 0 [104%N]))], [(false, Some (frame 0 [120%N])); (false, Some (frame 0 [100%N])); (false, None)].
  split; [vm_compute; reflexivity|]. split; [|vm_compute; reflexivity]. vm_compute. intros [K|[]]. discriminate K.
Qed.
Example spinning_nonvacuous : spinning (init 0 100 [104%N] [100%N] [AWork 5]).
Proof. right. vm_compute. split; eauto. Qed.
Example manual_nonvacuous :
  let ops1 := [(150, MAdvance); (10, MSetMessage [120%N])]%Z in
  let f := manual_run 100 (manual_init 0 100 [104%N]) 0 (ops1 ++ [(20, MAdvance); (200, MAdvance); (0, MFinish [100%N] true)])%Z in
  m_frames f = [Some (frame 0 [104%N]); Some (frame 1 [104%N]); Some (frame 1 [120%N]); Some (frame 2 [120%N]); Some (frame 0 [100%N]); None]
  /\ last_set [104%N] ops1 = [120%N].
Proof. vm_compute. split; reflexivity. Qed.
(* the width hypotheses of the screen theorems hold for that run on a 20-column terminal *)
Example screen_hypotheses_hold :
  1 <= 20 /\ fits 20 [104%N] /\ fits 20 [100%N] /\ Forall (act_ok (fits 20)) [ASet [120%N]; AWork 250; ASet [121%N]].
Proof. unfold fits. cbn. repeat split; try lia. repeat constructor; cbn; lia. Qed.
Example screen_instance :
  let f := run_auto 0 100 [104%N] [100%N] [ASet [120%N]; AWork 250; ASet [121%N]] [true; true; false; true; true; false] in
  rows (feed 20 term_init (flat_map emits_of_write (map snd (writes f)))) = [frame 0 [100%N]; []].
Proof. vm_compute. reflexivity. Qed.
