(* C20 - error traces always render and show the real message and failing line.
   The proofs rest on Proofs/TraceLemmas.v (highlighter, numbering, frames; name_line / msg_line of the report shape, which is proved here) and
   Proofs/LiteralLemmas.v (text put into markup by _literal is shown as it is, decorated or not, and never makes the
   formatter fail) and Proofs/TraceRenderLemmas.v (the composition: every line the renderer writes is such a line,
   indentation keeps it one; the lines always exist - the renderer catches what reading / tokenizing a source raises,
   clikit's fix caca46b -; hence render never fails, and what the bytes say).
   tokenize / inspect / crashtest deliver the token streams and frames (or fail): they are inputs of the model;
   the hypotheses on token streams (row_wf, rows_ok, phys_line) are checked on every stream of every run by the harness. *)
From Coq Require Import Lia.
From Clikit Require Import Base.Prelude Base.Res Model.Conv Model.Markup Model.OutputM Model.Trace
  Proofs.StrLemmas Proofs.MarkupLemmas Proofs.OutputLemmas Proofs.TraceLemmas Proofs.LiteralLemmas Proofs.TraceRenderLemmas
  Proofs.TraceSolutionLemmas Proofs.TraceEscLemmas Proofs.TraceFramesLemmas Proofs.TraceBytesLemmas Proofs.TracePiecesLemmas.
From Clikit Require Proofs.MarkupPlainLemmas.

(* the code snippet numbers its lines consecutively and marks exactly the failing line *)
Theorem line_numbers_length : forall u lines mark, length (line_numbers u lines mark) = length lines.
Proof. intros u lines mark. apply number_from_length. Qed.
Print Assumptions line_numbers_length.
(* line k (from 0) carries the number k+1, right-aligned to the common width, then the delimiter, a blank and the line *)
Theorem line_numbers_consecutive : forall u lines mark k d, (k < length lines)%nat ->
  nth k (line_numbers u lines mark) d = number_line u (number_width (length lines)) mark (Z.of_nat k + 1)%Z (nth k lines []).
Proof. intros u lines mark k d Hk. unfold line_numbers. rewrite number_from_nth by exact Hk. f_equal. lia. Qed.
Print Assumptions line_numbers_consecutive.
Theorem marks_exactly_the_failing_line : forall u lines mark k d, (k < length lines)%nat ->
  (marked u (nth k (line_numbers u lines mark) d) <-> mark = (Z.of_nat k + 1)%Z).
Proof. intros u lines mark k d Hk. rewrite line_numbers_consecutive by exact Hk. apply number_line_marked. Qed.
Print Assumptions marks_exactly_the_failing_line.
(* the snippet is a window of consecutive numbered lines ... *)
Theorem snippet_is_a_window : forall u toks line before after k d,
  (0 <= before)%Z -> (0 <= after)%Z -> (Z.of_nat k < after + before + 1)%Z ->
  let off := Z.to_nat (Z.max (line - before - 1) 0) in
  (off + k < length (split_to_lines toks))%nat ->
  nth k (code_snippet u toks line before after) d
  = number_line u (number_width (length (split_to_lines toks))) line (Z.of_nat (off + k) + 1)%Z (nth (off + k) (split_to_lines toks) []).
Proof.
  intros u toks line before after k d Hb Ha Hk off Hlen. rewrite code_snippet_window. fold off.
  rewrite ListLemmas.nth_firstn_skipn by lia. apply line_numbers_consecutive. exact Hlen.
Qed.
Print Assumptions snippet_is_a_window.
(* ... that contains the failing line whenever the source has it *)
Theorem snippet_contains_failing_line : forall toks line before after,
  (0 <= before)%Z -> (0 <= after)%Z -> (1 <= line)%Z -> (line <= Z.of_nat (length (split_to_lines toks)))%Z ->
  exists k, (Z.of_nat k < after + before + 1)%Z /\
    (Z.of_nat (Z.to_nat (Z.max (line - before - 1) 0) + k) + 1)%Z = line /\
    (Z.to_nat (Z.max (line - before - 1) 0) + k < length (split_to_lines toks))%nat.
Proof. intros toks line before after Hb Ha H1 Hn. exists (Z.to_nat (line - 1 - Z.max (line - before - 1) 0)). lia. Qed.
Print Assumptions snippet_contains_failing_line.

(* the three statements above composed on code_snippet itself: whenever the source has the failing line, some line of
   the snippet IS the failing line with its own number, marked, and no other line of the snippet is marked *)
Theorem snippet_shows_the_failing_line_marked : forall u toks line before after d,
  (0 <= before)%Z -> (0 <= after)%Z -> (1 <= line)%Z -> (line <= Z.of_nat (length (split_to_lines toks)))%Z ->
  let lines := split_to_lines toks in
  let off := Z.to_nat (Z.max (line - before - 1) 0) in
  exists k, (Z.of_nat k < after + before + 1)%Z /\
    nth k (code_snippet u toks line before after) d
      = number_line u (number_width (length lines)) line line (nth (Z.to_nat (line - 1)) lines []) /\
    marked u (nth k (code_snippet u toks line before after) d) /\
    (forall j, (Z.of_nat j < after + before + 1)%Z -> (off + j < length lines)%nat ->
               marked u (nth j (code_snippet u toks line before after) d) -> j = k).
Proof.
  intros u toks line before after d Hb Ha H1 Hn. cbv zeta. destruct (snippet_contains_failing_line toks line before after Hb Ha H1 Hn) as (k & Hk & Hl & Hlen).
  exists k. split; [exact Hk|].
  pose proof (snippet_is_a_window u toks line before after k d Hb Ha Hk Hlen) as E. rewrite Hl in E.
  replace (Z.to_nat (Z.max (line - before - 1) 0) + k)%nat with (Z.to_nat (line - 1)) in E by lia.
  split; [exact E|]. split; [rewrite E; apply number_line_marked; reflexivity|].
  intros j Hj Hjl Hm. rewrite (snippet_is_a_window u toks line before after j d Hb Ha Hj Hjl) in Hm.
  apply number_line_marked in Hm. lia.
Qed.
Print Assumptions snippet_shows_the_failing_line_marked.

(* Every source line made of single-line tokens is shown verbatim, at its own number.
   pre: the tokens before row r (any rows, tokens spanning rows included); row: the tokens of row r, lying in order on
   the physical line ln, each covering its own slice; nxt: the first token after them (a later row, or the end marker).
   Then line r-1 of the highlighter's result exists and its text is ln up to trailing white space. *)
Theorem row_shown : forall pre row nxt post ln r c0,
  Forall not_end pre -> rows_ok 1 pre c0 -> (c0 < r \/ Forall (fun t => tk_srow t = 0) pre /\ r = 1)%Z -> (1 <= r)%Z ->
  row <> [] -> row_wf ln r 0 row -> has_real row -> phys_line ln ->
  tk_srow nxt <> 0%Z ->
  (tk_kind nxt = TkEnd /\ Forall (fun c => is_space c = true) (skipn (Z.to_nat (row_end 0 row)) ln)
   \/ tk_kind nxt <> TkEnd /\ (r < tk_srow nxt)%Z) ->
  exists closed, nth_error (split_chunks (pre ++ row ++ nxt :: post)) (Z.to_nat (r - 1)) = Some closed /\ closes_as ln closed.
Proof.
  intros pre row nxt post ln r c0 Hne Hrows Hbefore Hr1 Hrow Hwf Hreal Hphys Hnz Hnext.
  unfold split_chunks. rewrite hl_loop_app by exact Hne.
  destruct (rows_ok_inv pre 1 c0 hst_init init_inv eq_refl Hrows) as (Hinv & Hc).
  apply row_in_place; try assumption.
  destruct Hbefore as [Hlt|(Henc & ->)]; [left; lia|right]. split; [apply steps_encoding, Henc|reflexivity].
Qed.
Print Assumptions row_shown.
(* one line per row of the source *)
Theorem one_line_per_row : forall pre e post c0,
  Forall not_end pre -> rows_ok 1 pre c0 -> tk_kind e = TkEnd -> tk_srow e <> 0%Z ->
  Z.of_nat (length (split_chunks (pre ++ e :: post))) = c0.
Proof.
  intros pre e post c0 Hne Hrows He Hz. unfold split_chunks. rewrite hl_loop_app by exact Hne.
  destruct (rows_ok_inv pre 1 c0 hst_init init_inv eq_refl Hrows) as (Hinv & Hc).
  rewrite (hl_loop_end e post _ Hz He), app_length. cbn [length]. unfold lines_inv in Hinv. lia.
Qed.
Print Assumptions one_line_per_row.

(* non-vacuity: the token stream of  "x = 1 + \<NL>  2<NL>"  (a backslash continuation) meets the hypotheses for row 1 *)
Module Ex.
  Definition ln1 : str := [120;32;61;32;49;32;43;32;92;10]%N.
  Definition ln2 : str := [32;32;50;10]%N.
  Definition tk k s sr sc er ec ln := {| tk_kind := k; tk_kw := false; tk_bi := false; tk_str := s; tk_srow := sr; tk_scol := sc;
                                         tk_erow := er; tk_ecol := ec; tk_line := ln |}.
  Definition enc := tk TkOther [117;116;102;45;56]%N 0 0 0 0 [].
  Definition row1 := [tk TkOther [120%N] 1 0 1 1 ln1; tk TkOp [61%N] 1 2 1 3 ln1; tk TkNumber [49%N] 1 4 1 5 ln1; tk TkOp [43%N] 1 6 1 7 ln1].
  Definition two := tk TkNumber [50%N] 2 2 2 3 ln2.
  Definition rest := [tk TkNewline [10%N] 2 3 2 4 ln2; tk TkEnd [] 3 0 3 0 []].
  Example row1_shown : exists closed, nth_error (split_chunks ([enc] ++ row1 ++ two :: rest)) 0 = Some closed /\ closes_as ln1 closed.
  Proof.
    apply (row_shown [enc] row1 two rest ln1 1 1).
    - repeat constructor.
    - reflexivity.
    - right. split; [repeat constructor|reflexivity].
    - lia.
    - discriminate.
    - cbn. repeat split; try lia; try reflexivity; try discriminate.
    - exists (tk TkOp [61%N] 1 2 1 3 ln1). split; [right; left; reflexivity|discriminate].
    - intros H. cbn in H. repeat (destruct H as [H|H]; [discriminate|]). exact H.
    - discriminate.
    - right. split; [discriminate|cbn; lia].
  Qed.
  (* and the line really shows the backslash *)
  Example row1_text : option_map chunks_text (nth_error (split_chunks ([enc] ++ row1 ++ two :: rest)) 0) = Some [120;32;61;32;49;32;43;32;92]%N.
  Proof. vm_compute. reflexivity. Qed.
End Ex.

(* frames under an ignored path are left out unless the verbosity is debug *)
Theorem compact_keeps_frames : forall l f, In f (flat_map c_frames (compact l)) -> In f l.
Proof. exact compact_sub_l. Qed.
Print Assumptions compact_keeps_frames.
Theorem listed_frames_are_kept : forall c fs f,
  In f (trace_frames c fs) -> In f fs /\ (f_ignored f = false \/ t_debug c = true).
Proof. intros c fs f H. apply kept_frames_spec. apply compact_sub_l. exact H. Qed.
Print Assumptions listed_frames_are_kept.
(* below debug verbosity the stack trace is exactly what it would be if the ignored frames did not exist *)
Theorem ignored_frames_are_invisible : forall c ind fs,
  t_debug c = false -> render_trace c ind fs = render_trace c ind (filter (fun f => negb (f_ignored f)) fs).
Proof. intros c ind fs H. unfold render_trace. rewrite <- (kept_not_debug c fs H), kept_idem. reflexivity. Qed.
Print Assumptions ignored_frames_are_invisible.
Theorem debug_keeps_every_frame : forall c fs, t_debug c = true -> kept_frames c fs = fs.
Proof.
  intros c fs H. unfold kept_frames. induction fs as [|f fs IH]; [reflexivity|]. cbn [filter].
  assert (negb (f_ignored f && negb (t_debug c)) = true) as -> by (rewrite H, Bool.andb_false_r; reflexivity).
  f_equal. exact IH.
Qed.
Print Assumptions debug_keeps_every_frame.
(* when the stack trace is printed every frame that compact kept has its location line in it *)
Theorem stack_trace_lists_frames : forall c ind fs ls,
  t_verbose c = true -> (zlen (kept_frames c fs) - 1 <> 0)%Z -> render_trace c ind fs = Ok ls ->
  forall f, In f (trace_frames c fs) -> exists k w, In (loc_line c ind w f k) ls.
Proof.
  intros c ind fs ls Hv Hrem H f Hf. unfold render_trace in H. rewrite Hv in H.
  destruct (Z.eqb_spec (zlen (kept_frames c fs) - 1) 0) as [E|E]; [contradiction|]. cbn [negb andb] in H.
  destruct (colls_lines c ind _ (compact (kept_frames c fs)) _) as [l|e] eqn:EC; cbn [bind] in H; [|discriminate].
  injection H as <-. destruct (colls_lines_lists _ _ _ _ _ _ EC f Hf) as (k & Hk). exists k. eexists. right. right. exact Hk.
Qed.
Print Assumptions stack_trace_lists_frames.
(* ... and the stack trace always is printed then: whatever tokenize did on the frames' sources *)
Theorem stack_trace_always_lists_frames : forall c ind fs,
  t_verbose c = true -> (zlen (kept_frames c fs) - 1 <> 0)%Z ->
  exists ls, render_trace c ind fs = Ok ls /\ forall f, In f (trace_frames c fs) -> exists k w, In (loc_line c ind w f k) ls.
Proof.
  intros c ind fs Hv Hrem. destruct (render_trace_total c ind fs) as (ls & H). exists ls. split; [exact H|].
  apply (stack_trace_lists_frames c ind fs ls Hv Hrem H).
Qed.
Print Assumptions stack_trace_always_lists_frames.
(* The statements above are soundness ("what is listed was kept"); they also hold of a compact that lists nothing.
   Completeness: compact loses no frame - every frame of the kept stack BUT ITS LAST ONE is in some collection, up to the
   equality crashtest folds by (file, function, line number: frame_eqb) - and so has its location line in the trace. *)
Theorem compact_loses_no_frame : forall l x, In x (removelast l) ->
  exists y, In y (flat_map c_frames (compact l)) /\ frame_eqb x y = true.
Proof. exact compact_complete. Qed.
Print Assumptions compact_loses_no_frame.
Theorem kept_frames_are_listed : forall c ind fs f,
  t_verbose c = true -> (zlen (kept_frames c fs) - 1 <> 0)%Z -> In f (removelast (kept_frames c fs)) ->
  exists ls g k w, render_trace c ind fs = Ok ls /\ frame_eqb f g = true /\ In (loc_line c ind w g k) ls.
Proof.
  intros c ind fs f Hv Hn Hf. destruct (stack_trace_always_lists_frames c ind fs Hv Hn) as (ls & HR & HL).
  destruct (TraceFramesLemmas.kept_frames_are_listed c fs f Hf) as (g & Hg & E). destruct (HL g Hg) as (k & w & Hin).
  exists ls, g, k, w. auto.
Qed.
Print Assumptions kept_frames_are_listed.
(* its hypotheses on the three-frame traceback a, b, v(ignored) at -v: the stack trace is printed and a is a kept frame
   that is not the last kept one *)
Example kept_frames_are_listed_instance :
  t_verbose (RenderExamples.demo_cfg true) = true /\
  (zlen (kept_frames (RenderExamples.demo_cfg true) IgnoredLast.fs) - 1 <> 0)%Z /\
  In (IgnoredLast.fr 97 1 false) (removelast (kept_frames (RenderExamples.demo_cfg true) IgnoredLast.fs)).
Proof. vm_compute. split; [reflexivity|]. split; [discriminate|left; reflexivity]. Qed.
(* "But its last one": the listing leaves out the last KEPT frame (crashtest's compact stops before it: it is taken to be
   the frame of the snippet), while the snippet shows the last frame of the TRACEBACK, ignored or not (full_report_*
   below: render_snippet of last (x_frames x), no filter).  The two are the same frame unless the raising frame is under
   the ignored path.  Then - FALSE of the model, and of the code (same listing, same "at" line) - a kept
   frame, the caller into the ignored code, is shown nowhere, and the ignored frame is shown below debug verbosity. *)
Theorem kept_frame_lost_when_the_raising_frame_is_ignored_refuted :
  exists c fs f, t_verbose c = true /\ t_debug c = false /\ In f (kept_frames c fs) /\
    ~ In f (trace_frames c fs) /\ f <> last fs dflt_frame /\ f_ignored (last fs dflt_frame) = true.
Proof.
  exists (RenderExamples.demo_cfg true), IgnoredLast.fs, (IgnoredLast.fr 98 2 false).
  destruct IgnoredLast.kept_frame_shown_nowhere as (H1 & H2 & H3 & H4 & H5 & H6).
  split; [exact H1|]. split; [exact H2|]. split; [exact H3|]. split; [|split; [|exact H6]].
  - rewrite H4. intros [K|[]]. discriminate K.
  - rewrite H5. discriminate.
Qed.
Print Assumptions kept_frame_lost_when_the_raising_frame_is_ignored_refuted.
(* under a listed frame, below debug verbosity: its own line, highlighted - or, when tokenize raised on it (whatever it
   raised) or no line came out, as it is (frame_text, plain_code); at debug verbosity: the snippet, or nothing when the
   file cannot be read or tokenized *)
Theorem frame_line_below_debug : forall c ind w f, t_debug c = false ->
  frame_code c ind w f = Ok (render_line ind (rjust [32%N] w ++ [32; 32]%N ++ frame_text f) false 0).
Proof. exact frame_code_below_debug. Qed.
Print Assumptions frame_line_below_debug.
Theorem frame_line_falls_back_to_plain : forall f, ~ tok_ok (f_linetoks f) -> frame_text f = styled HDefault (strip (f_line f)).
Proof.
  intros f H. unfold frame_text. destruct (f_linetoks f) as [toks| |]; [|reflexivity|reflexivity]. exfalso. apply H. exists toks. reflexivity.
Qed.
Print Assumptions frame_line_falls_back_to_plain.
Theorem unreadable_source_gives_no_snippet : forall c t line before after, ~ tok_ok t -> snippet_of c t line before after = Ok [].
Proof. exact snippet_of_unreadable. Qed.
Print Assumptions unreadable_source_gives_no_snippet.

(* the report contains the class name and the message; in simple mode just the message *)
Theorem full_report_shape : forall c ind x ls,
  x_frames x <> [] -> render_exception c ind x = Ok ls ->
  exists tr sn, render_trace c ind (x_frames x) = Ok tr /\
    ls = tr ++ [(ind, []); (ind, name_line x); (ind, []); (ind, msg_line x)] ++ sn.
Proof.
  intros c ind x ls Hne H. unfold render_exception in H. destruct (x_frames x) as [|f0 fs] eqn:EF; [contradiction|].
  destruct (render_trace c ind (f0 :: fs)) as [tr|e]; cbn [bind] in H; [|discriminate].
  destruct (render_snippet c ind _) as [sn|e]; cbn [bind] in H; [|discriminate].
  injection H as <-. exists tr, sn. split; [reflexivity|]. unfold render_line, name_line, msg_line. cbn [app repeat Z.to_nat]. reflexivity.
Qed.
Print Assumptions full_report_shape.
(* and it always has that shape: the lines of a full report exist for every exception case with frames *)
Theorem full_report_always_has_its_shape : forall c ind x,
  x_frames x <> [] ->
  exists tr sn, render_trace c ind (x_frames x) = Ok tr /\
    render_exception c ind x = Ok (tr ++ [(ind, []); (ind, name_line x); (ind, []); (ind, msg_line x)] ++ sn).
Proof.
  intros c ind x Hne. destruct (render_exception_total c ind x) as (ls & H).
  destruct (full_report_shape c ind x ls Hne H) as (tr & sn & HT & ->). exists tr, sn. split; [exact HT|exact H].
Qed.
Print Assumptions full_report_always_has_its_shape.
Theorem simple_report_shape : forall c ind x,
  render_lines c true ind x = Ok [(ind, s_error_open ++ literal (x_msg x) st_error ++ s_error_close)].
Proof. intros c ind x. reflexivity. Qed.
Print Assumptions simple_report_shape.

(* text put into the markup is shown as it is, whatever it contains (shown s = s, with a blank after a trailing
   backslash); rendering never fails *)
Theorem text_is_shown_as_it_is : forall sty sk tag p s, tag_name tag -> resolve sty (py_lower tag) = Ok (Some p) ->
  colorize sty false sk (tagged tag (literal s tag)) = Ok (sk, shown s).
Proof. exact literal_plain. Qed.
Print Assumptions text_is_shown_as_it_is.
Theorem named_text_is_shown_as_it_is : forall sty sk nm p s, tag_name nm -> resolve sty (py_lower nm) = Ok (Some p) ->
  colorize sty false sk (open_tag nm ++ literal s nm ++ close_tag nm) = Ok (sk, shown s).
Proof. exact literal_named_plain. Qed.
Print Assumptions named_text_is_shown_as_it_is.
(* a whole line of literals and plain separators, undecorated ... *)
Theorem line_shows_its_texts : forall sty sk ps, pieces_ok sty ps ->
  colorize sty false sk (line_str ps) = Ok (sk, flat_map piece_shown ps).
Proof. exact line_plain. Qed.
Print Assumptions line_shows_its_texts.
(* ... and decorated: the same text under the escape codes, the style stack left as it was, no failure *)
Theorem decorated_line_shows_the_same_text : forall sty sk ps, pieces_ok sty ps -> pieces_noesc ps ->
  exists out, colorize sty true sk (line_str ps) = Ok (sk, out) /\ strip_sgr out = flat_map piece_shown ps.
Proof. exact line_decorated. Qed.
Print Assumptions decorated_line_shows_the_same_text.
(* whether colorize succeeds, and the stack it leaves, do not depend on whether it decorates (no hypothesis on ESC:
   pieces_noesc is needed only to read the text back from under the escape codes, above) *)
Theorem decorating_changes_neither_success_nor_stack : forall sty sk m sk' t,
  colorize sty false sk m = Ok (sk', t) -> exists out, colorize sty true sk m = Ok (sk', out).
Proof. exact colorize_status. Qed.
Print Assumptions decorating_changes_neither_success_nor_stack.
Theorem line_never_makes_the_formatter_fail : forall sty sk col ps, pieces_ok sty ps ->
  exists out, colorize sty col sk (line_str ps) = Ok (sk, out).
Proof. exact line_never_raises_any. Qed.
Print Assumptions line_never_makes_the_formatter_fail.
(* highlighted source code: every chunk shows its text, in every style table *)
Theorem highlighted_line_shows_the_source : forall sty sk cs,
  colorize sty false sk (render_chunks cs) = Ok (sk, flat_map (fun c => shown (snd c)) cs).
Proof. exact render_chunks_plain. Qed.
Print Assumptions highlighted_line_shows_the_source.

(* The composition: every line the renderer writes is a line of literals and safe separators.
   good_line sty l: l = line_str ps for pieces ps (safe separators, <tag>literal</>, <name>literal</name>) whose tags
   resolve in the style table sty.  The styles written inline (fg=...;options=...) resolve in every table; "error" and
   "b" must be registered. *)
Theorem every_written_line_is_literals_and_separators : forall sty, resolvable sty st_error -> resolvable sty st_b ->
  forall c simple ind x ls, render_lines c simple ind x = Ok ls -> Forall (fun wl => good_line sty (snd wl)) ls.
Proof. exact render_lines_good. Qed.
Print Assumptions every_written_line_is_literals_and_separators.
(* "error" is one of pastel's own styles: every ANSI or plain formatter clikit builds resolves it *)
Theorem every_formatter_resolves_error : forall k set f, new_formatter k set = Ok f -> k <> FNull -> resolvable (f_styles f) st_error.
Proof. exact new_formatter_error. Qed.
Print Assumptions every_formatter_resolves_error.
(* Output's indentation (blanks in front of every non-empty line of the string) maps pieces to pieces *)
Theorem indentation_keeps_a_line_good : forall sty n ps, pieces_ok sty ps ->
  indent_text n (line_str ps) = line_str (ind_pieces n true ps) /\ pieces_ok sty (ind_pieces n true ps) /\
  (pieces_noesc ps -> pieces_noesc (ind_pieces n true ps)).
Proof.
  intros sty n ps H. split; [exact (indent_text_pieces sty n ps H)|]. split; [exact (ind_pieces_ok sty n ps true H)|exact (ind_pieces_noesc n ps true)].
Qed.
Print Assumptions indentation_keeps_a_line_good.
(* one write_line on an ordinary output with an ANSI or plain formatter whose style stack is empty: no failure, the
   stack is empty again, the bytes are the shown texts of the indented pieces (under the escape codes when decorated) *)
Theorem writing_a_good_line_never_fails : forall sty o ind ps,
  out_ok sty o -> pieces_ok sty ps -> (decorated o = true -> pieces_noesc ps) ->
  exists o' text,
    write (with_indent o ind) (line_str ps) true true = Ok o' /\
    out_ok sty o' /\ o_on o' = o_on o /\ f_kind (o_fmt o') = f_kind (o_fmt o) /\
    o_buf o' = o_buf o ++ text ++ [NL] /\
    (if decorated o then strip_sgr text else text) = flat_map piece_shown (wpieces ind ps).
Proof.
  intros sty o ind ps Ho Hok Hne. destruct (write_pieces sty o ind ps Ho Hok) as (o' & text & H1 & H2 & H3 & H4 & H5 & H6).
  exists o', text. repeat (split; [assumption|]). exact (H6 Hne).
Qed.
Print Assumptions writing_a_good_line_never_fails.
(* the lines ALWAYS exist: for every configuration, report mode, indentation and exception case - any frames, any token
   streams, any failure of tokenize or of reading a file (before clikit's fix caca46b: exactly when tokenize succeeded where the
   renderer needed it) *)
Theorem report_lines_always_exist : forall c simple ind x, exists ls, render_lines c simple ind x = Ok ls.
Proof. exact render_lines_total. Qed.
Print Assumptions report_lines_always_exist.
(* writing them cannot fail ... *)
Theorem writing_good_lines_never_fails : forall sty ls o, out_ok sty o -> Forall (fun wl : wline => good_line sty (snd wl)) ls ->
  exists o', write_lines o ls = Ok o' /\ out_ok sty o' /\ o_on o' = o_on o /\ f_kind (o_fmt o') = f_kind (o_fmt o).
Proof.
  intros sty ls o Ho HG. destruct (good_lines_pieces sty ls HG) as (pls & -> & Hpls).
  destruct (write_lines_pieces sty pls o Ho Hpls) as (o' & w & H1 & H2 & H3 & H4 & _).
  exists o'. split; [exact H1|]. split; [exact H2|]. split; [exact H3|exact H4].
Qed.
Print Assumptions writing_good_lines_never_fails.
Theorem writing_the_report_never_fails : forall sty c simple o x,
  out_ok sty o -> resolvable sty st_error -> resolvable sty st_b -> exists bytes, render c simple o x = Ok bytes.
Proof. exact render_never_fails_any. Qed.
Print Assumptions writing_the_report_never_fails.
(* the lines hold no ESC when the inputs hold none (class name, message, file and function names, source text, tokens;
   the path separator is not ESC) *)
Theorem escape_free_inputs_give_escape_free_lines : forall c simple ind x ls,
  inputs_ne c x -> render_lines c simple ind x = Ok ls -> Forall (fun wl => no_esc (snd wl)) ls.
Proof. exact lines_noesc. Qed.
Print Assumptions escape_free_inputs_give_escape_free_lines.
(* THE headline.  Inputs: the exception case x (class name, message, frames with the token streams of their files and
   lines - or the fact that tokenize / reading raised), the configuration c (verbosity, UTF-8, directories), the report
   mode, the output o.  Hypotheses that remain: o is an ordinary output (not a section) with an ANSI or plain formatter
   whose style stack is empty (out_ok); its style table resolves "error" and "b".  No hypothesis on tokenize, and none
   on ESC in the inputs when the output decorates.  Then ExceptionTrace.render returns
   its bytes: it raises nothing. *)
Theorem render_never_fails_unconditionally : forall sty c simple o x,
  out_ok sty o -> resolvable sty st_error -> resolvable sty st_b -> exists bytes, render c simple o x = Ok bytes.
Proof. exact render_never_fails_any. Qed.
Print Assumptions render_never_fails_unconditionally.
(* ... and for the formatters clikit itself builds there is no premise on the style table either: a formatter made by
   new_formatter (PlainFormatter / AnsiFormatter) over a style set that contains the styles of DefaultStyleSet (what the
   formatters take when given none, and what DefaultApplicationConfig hands them) resolves "error" (pastel's own, then
   clikit's) and "b" (DefaultStyleSet's). *)
Theorem clikit_formatters_resolve_error_and_b : forall f, clikit_formatter f ->
  resolvable (f_styles f) st_error /\ resolvable (f_styles f) st_b.
Proof. exact clikit_formatter_styles. Qed.
Print Assumptions clikit_formatters_resolve_error_and_b.
Theorem any_style_set_with_b_resolves_b : forall k set f c, new_formatter k set = Ok f -> k <> FNull -> In c set -> c_tag c = Some st_b ->
  resolvable (f_styles f) st_b.
Proof. exact new_formatter_b. Qed.
Print Assumptions any_style_set_with_b_resolves_b.
Theorem render_never_fails_on_clikit_outputs : forall c simple o x, clikit_output o -> exists bytes, render c simple o x = Ok bytes.
Proof.
  intros c simple o x H. destruct (clikit_output_ok o H) as (Ho & He & Hb). exact (render_never_fails_any _ c simple o x Ho He Hb).
Qed.
Print Assumptions render_never_fails_on_clikit_outputs.
Theorem render_with_solutions_never_fails_on_clikit_outputs : forall c simple o x sols, clikit_output o ->
  exists bytes, render_sol c simple o x sols = Ok bytes.
Proof. exact render_sol_never_fails_clikit. Qed.
Print Assumptions render_with_solutions_never_fails_on_clikit_outputs.
Theorem simple_report_on_clikit_outputs : forall c o x, clikit_output o -> decorated o = false -> (o_indent o <= 0)%Z ->
  render c true o x = Ok (o_buf o ++ shown (x_msg x) ++ [NL]).
Proof. intros c o x H. destruct (clikit_output_ok o H) as (Ho & He & Hb). exact (simple_bytes_unindented _ c o x Ho He). Qed.
Print Assumptions simple_report_on_clikit_outputs.
Theorem full_report_on_clikit_outputs : forall c o x, clikit_output o -> decorated o = false -> (0 <= o_indent o)%Z -> x_frames x <> [] ->
  let ind := (o_indent o + 2)%Z in
  exists tr_p sn_p,
    render_trace c ind (x_frames x) = Ok (map pline_w tr_p) /\
    render_snippet c ind (last (x_frames x) dflt_frame) = Ok (map pline_w sn_p) /\
    render c false o x
    = Ok (o_buf o ++ flat_map shown_line tr_p
            ++ [NL] ++ spaces ind ++ shown (ind_text ind (x_name x)) ++ [NL]
            ++ [NL] ++ spaces ind ++ shown (ind_text ind (msg_text (x_msg x))) ++ [NL]
            ++ flat_map shown_line sn_p).
Proof. intros c o x H. destruct (clikit_output_ok o H) as (Ho & He & Hb). exact (full_bytes_total _ c o x Ho He Hb). Qed.
Print Assumptions full_report_on_clikit_outputs.
(* non-vacuity: the plain and both ANSI formatters over DefaultStyleSet itself are such formatters; and a DECORATED
   report of an exception whose class name and message hold ESC [ 3 1 m comes out (the case a hypothesis on ESC
   would exclude) *)
Example default_formatters_qualify : forall k, k <> FNull -> clikit_formatter (default_formatter k).
Proof. exact default_formatters_are_clikit. Qed.
Definition esc_text : str := [27;91;51;49;109;114;101;100;27;91;48;109]%N.
Definition esc_out : outp := {| o_indent := 0; o_on := true; o_sec := false; o_fmt := default_formatter (FAnsi true); o_buf := [] |}.
Example esc_out_qualifies : clikit_output esc_out /\ decorated esc_out = true.
Proof. split; [split; [reflexivity|apply default_formatters_are_clikit; discriminate]|reflexivity]. Qed.
Example decorated_report_with_escapes_in_the_message :
  exists bytes, render (RenderExamples.demo_cfg true) false esc_out
                  {| x_name := esc_text; x_msg := esc_text; x_frames := [RenderExamples.demo_frame; RenderExamples.demo_frame] |} = Ok bytes
                /\ (10 < length bytes)%nat.
Proof. eexists. split; [vm_compute; reflexivity|cbn; lia]. Qed.
(* a failure of render, if there is one (outside these hypotheses), is a failure of writing: never of producing the lines *)
Theorem render_error_is_a_write_error : forall c simple o x e,
  render c simple o x = Err e -> exists ls, render_lines c simple (o_indent o) x = Ok ls /\ write_lines o ls = Err e.
Proof.
  intros c simple o x e.
  unfold render. destruct (render_lines_total c simple (o_indent o) x) as (ls & ->). cbn [bind]. intros H.
  exists ls. split; [reflexivity|]. destruct (write_lines o ls) as [o'|e']; cbn [bind] in H; [discriminate|congruence].
Qed.
Print Assumptions render_error_is_a_write_error.
(* undecorated, the bytes are the shown texts of the (indented) pieces, line after line *)
Theorem plain_report_bytes : forall sty c simple o x ls,
  out_ok sty o -> resolvable sty st_error -> resolvable sty st_b -> decorated o = false ->
  render_lines c simple (o_indent o) x = Ok ls ->
  exists pls, ls = map pline_w pls /\ Forall (fun p => pieces_ok sty (snd p)) pls /\
    render c simple o x = Ok (o_buf o ++ flat_map shown_line pls).
Proof.
  intros sty c simple o x ls Ho Herr Hb Hd HL. destruct (good_lines_pieces sty ls (render_lines_good sty Herr Hb c simple _ x ls HL)) as (pls & -> & Hpls).
  exists pls. split; [reflexivity|]. split; [exact Hpls|].
  destruct (written_buffer sty o pls _ HL Ho Hpls) as (w & HR & HV). rewrite Hd in HV. rewrite <- HV; [exact HR|discriminate].
Qed.
Print Assumptions plain_report_bytes.
(* simple mode says the message (a blank after a trailing backslash), indented, and nothing else *)
Theorem simple_report_says_the_message : forall sty c o x, out_ok sty o -> resolvable sty st_error -> decorated o = false ->
  render c true o x
  = Ok (o_buf o ++ (if (0 <? o_indent o)%Z then spaces (o_indent o) ++ shown (ind_text (o_indent o) (x_msg x)) else shown (x_msg x)) ++ [NL]).
Proof. exact simple_bytes. Qed.
Print Assumptions simple_report_says_the_message.
Theorem simple_report_unindented : forall sty c o x, out_ok sty o -> resolvable sty st_error -> decorated o = false -> (o_indent o <= 0)%Z ->
  render c true o x = Ok (o_buf o ++ shown (x_msg x) ++ [NL]).
Proof. exact simple_bytes_unindented. Qed.
Print Assumptions simple_report_unindented.
(* the full report: stack trace, blank line, class name, blank line, message block (two more blanks after every line
   break of the message), snippet *)
Theorem full_report_says_name_and_message : forall sty c o x bytes,
  out_ok sty o -> resolvable sty st_error -> resolvable sty st_b -> decorated o = false -> (0 <= o_indent o)%Z ->
  x_frames x <> [] -> render c false o x = Ok bytes ->
  let ind := (o_indent o + 2)%Z in
  exists tr_p sn_p,
    render_trace c ind (x_frames x) = Ok (map pline_w tr_p) /\
    render_snippet c ind (last (x_frames x) dflt_frame) = Ok (map pline_w sn_p) /\
    bytes = o_buf o ++ flat_map shown_line tr_p
              ++ [NL] ++ spaces ind ++ shown (ind_text ind (x_name x)) ++ [NL]
              ++ [NL] ++ spaces ind ++ shown (ind_text ind (msg_text (x_msg x))) ++ [NL]
              ++ flat_map shown_line sn_p.
Proof. exact full_bytes. Qed.
Print Assumptions full_report_says_name_and_message.
(* and render always returns these bytes on an undecorated output: no hypothesis on the exception case but that it has frames *)
Theorem full_report_always_says_name_and_message : forall sty c o x,
  out_ok sty o -> resolvable sty st_error -> resolvable sty st_b -> decorated o = false -> (0 <= o_indent o)%Z ->
  x_frames x <> [] ->
  let ind := (o_indent o + 2)%Z in
  exists tr_p sn_p,
    render_trace c ind (x_frames x) = Ok (map pline_w tr_p) /\
    render_snippet c ind (last (x_frames x) dflt_frame) = Ok (map pline_w sn_p) /\
    render c false o x
    = Ok (o_buf o ++ flat_map shown_line tr_p
            ++ [NL] ++ spaces ind ++ shown (ind_text ind (x_name x)) ++ [NL]
            ++ [NL] ++ spaces ind ++ shown (ind_text ind (msg_text (x_msg x))) ++ [NL]
            ++ flat_map shown_line sn_p).
Proof. exact full_bytes_total. Qed.
Print Assumptions full_report_always_says_name_and_message.
(* the file of the failing frame cannot be read or tokenized: the report is produced all the same; after the message
   block come a blank line and the location line  "at file:line in function"  (at_pieces) - and no snippet lines *)
Theorem unreadable_source_report : forall sty c o x,
  out_ok sty o -> resolvable sty st_error -> resolvable sty st_b -> decorated o = false -> (0 <= o_indent o)%Z ->
  x_frames x <> [] -> ~ tok_ok (f_content (last (x_frames x) dflt_frame)) ->
  let ind := (o_indent o + 2)%Z in
  exists tr_p,
    render_trace c ind (x_frames x) = Ok (map pline_w tr_p) /\
    render c false o x
    = Ok (o_buf o ++ flat_map shown_line tr_p
            ++ [NL] ++ spaces ind ++ shown (ind_text ind (x_name x)) ++ [NL]
            ++ [NL] ++ spaces ind ++ shown (ind_text ind (msg_text (x_msg x))) ++ [NL]
            ++ [NL] ++ shown_line (ind, at_pieces c (last (x_frames x) dflt_frame))).
Proof. exact full_bytes_unreadable. Qed.
Print Assumptions unreadable_source_report.
Theorem full_report_one_line_message : forall sty c o x bytes,
  out_ok sty o -> resolvable sty st_error -> resolvable sty st_b -> decorated o = false -> (0 <= o_indent o)%Z ->
  x_frames x <> [] -> no_nl (x_name x) -> no_nl (x_msg x) -> render c false o x = Ok bytes ->
  let ind := (o_indent o + 2)%Z in
  exists pre post, (pre = [] \/ exists pre', pre = pre' ++ [NL]) /\
    bytes = o_buf o ++ pre ++ [NL] ++ spaces ind ++ shown (x_name x) ++ [NL] ++ [NL] ++ spaces ind ++ shown (x_msg x) ++ [NL] ++ post.
Proof. exact full_bytes_one_line. Qed.
Print Assumptions full_report_one_line_message.

(* The solutions (ExceptionTrace._render_solution).  The line of a solution is a line of literals and safe separators - the explicit pieces: the bullet, the title without
   its trailing dots, ": ", the description (four blanks after every line break, blanks at the ends dropped), the links *)
Theorem solution_line_is_its_pieces : forall utf8 s, solution_line utf8 s = line_str (sol_pieces utf8 s).
Proof. exact solution_line_pieces. Qed.
Print Assumptions solution_line_is_its_pieces.
(* in every style table, for EVERY title, description and links *)
Theorem solution_line_is_literals_and_separators : forall sty utf8 s, good_line sty (solution_line utf8 s).
Proof. exact solution_line_good. Qed.
Print Assumptions solution_line_is_literals_and_separators.
Theorem solution_line_escape_free : forall sty utf8 s, sol_ne s -> good_line_ne sty (solution_line utf8 s).
Proof. exact solution_line_good_ne. Qed.
Print Assumptions solution_line_escape_free.
Theorem every_written_line_with_solutions_is_literals_and_separators : forall sty, resolvable sty st_error -> resolvable sty st_b ->
  forall c simple ind x sols ls, render_lines_sol c simple ind x sols = Ok ls -> Forall (fun wl => good_line sty (snd wl)) ls.
Proof. exact render_lines_sol_good. Qed.
Print Assumptions every_written_line_with_solutions_is_literals_and_separators.
(* the solutions add no failure: the lines always exist ... *)
Theorem solutions_add_no_failure : forall c simple ind x sols, exists ls, render_lines_sol c simple ind x sols = Ok ls.
Proof. exact render_lines_sol_total. Qed.
Print Assumptions solutions_add_no_failure.
(* ... and writing them cannot fail: render with a solution provider repository never fails, decorated or not,
   for every exception case and solutions *)
Theorem writing_the_report_with_solutions_never_fails : forall sty c simple o x sols,
  out_ok sty o -> resolvable sty st_error -> resolvable sty st_b -> exists bytes, render_sol c simple o x sols = Ok bytes.
Proof. exact render_sol_never_fails_any. Qed.
Print Assumptions writing_the_report_with_solutions_never_fails.
Theorem escape_free_solutions_give_escape_free_lines : forall c simple ind x sols ls, inputs_ne c x -> Forall sol_ne sols ->
  render_lines_sol c simple ind x sols = Ok ls -> Forall (fun wl => no_esc (snd wl)) ls.
Proof.
  intros c simple ind x sols ls Hin Hs. rewrite render_lines_sol_shape. destruct (simple || match x_frames x with [] => true | _ => false end).
  - apply (lines_noesc c simple ind x ls Hin).
  - destruct (render_lines c simple ind x) as [l0|e] eqn:E; cbn [bind]; [|discriminate]. intros H. injection H as <-.
    apply Forall_app. split; [apply (lines_noesc c simple ind x l0 Hin E)|apply render_solutions_noesc, Hs].
Qed.
Print Assumptions escape_free_solutions_give_escape_free_lines.
(* the headline with solutions: hypotheses as in render_never_fails_unconditionally - none on the solution texts *)
Theorem render_with_solutions_never_fails_unconditionally : forall sty c simple o x sols,
  out_ok sty o -> resolvable sty st_error -> resolvable sty st_b -> exists bytes, render_sol c simple o x sols = Ok bytes.
Proof. exact render_sol_never_fails_any. Qed.
Print Assumptions render_with_solutions_never_fails_unconditionally.
(* undecorated, the bytes are those of the report followed by, per solution, a blank line and the block:
   sol_shown ind utf8 s = blanks, bullet, blank, shown title, ": ", shown description, the links each on its own line
   (links_shown), a line break - every text indented as Output does (ind_text) *)
Theorem solutions_follow_the_report : forall sty c o x sols bytes,
  out_ok sty o -> resolvable sty st_error -> resolvable sty st_b -> decorated o = false -> (0 <= o_indent o)%Z ->
  x_frames x <> [] -> render_sol c false o x sols = Ok bytes ->
  let ind := (o_indent o + 2)%Z in
  exists report, render c false o x = Ok report /\
    bytes = report ++ flat_map (fun s => [NL] ++ sol_shown ind (t_utf8 c) s) sols.
Proof. exact sol_bytes. Qed.
Print Assumptions solutions_follow_the_report.
Theorem solutions_always_follow_the_report : forall sty c o x sols,
  out_ok sty o -> resolvable sty st_error -> resolvable sty st_b -> decorated o = false -> (0 <= o_indent o)%Z ->
  x_frames x <> [] ->
  let ind := (o_indent o + 2)%Z in
  exists report, render c false o x = Ok report /\
    render_sol c false o x sols = Ok (report ++ flat_map (fun s => [NL] ++ sol_shown ind (t_utf8 c) s) sols).
Proof.
  intros sty c o x sols Ho Herr Hb Hd Hi Hne ind. destruct (render_sol_never_fails_any sty c false o x sols Ho Herr Hb) as (bytes & HR).
  destruct (sol_bytes sty c o x sols bytes Ho Herr Hb Hd Hi Hne HR) as (report & H1 & ->). exists report. split; [exact H1|exact HR].
Qed.
Print Assumptions solutions_always_follow_the_report.
Theorem full_report_with_solutions : forall sty c o x sols bytes,
  out_ok sty o -> resolvable sty st_error -> resolvable sty st_b -> decorated o = false -> (0 <= o_indent o)%Z ->
  x_frames x <> [] -> render_sol c false o x sols = Ok bytes ->
  let ind := (o_indent o + 2)%Z in
  exists tr_p sn_p,
    render_trace c ind (x_frames x) = Ok (map pline_w tr_p) /\
    render_snippet c ind (last (x_frames x) dflt_frame) = Ok (map pline_w sn_p) /\
    bytes = o_buf o ++ flat_map shown_line tr_p
              ++ [NL] ++ spaces ind ++ shown (ind_text ind (x_name x)) ++ [NL]
              ++ [NL] ++ spaces ind ++ shown (ind_text ind (msg_text (x_msg x))) ++ [NL]
              ++ flat_map shown_line sn_p
              ++ flat_map (fun s => [NL] ++ sol_shown ind (t_utf8 c) s) sols.
Proof.
  intros sty c o x sols bytes Ho Herr Hb Hd Hi Hne HR ind. destruct (sol_bytes sty c o x sols bytes Ho Herr Hb Hd Hi Hne HR) as (report & HRen & ->).
  destruct (full_bytes sty c o x report Ho Herr Hb Hd Hi Hne HRen) as (tr_p & sn_p & H1 & H2 & ->). fold ind in H1, H2 |- *.
  exists tr_p, sn_p. split; [exact H1|]. split; [exact H2|]. rewrite <- ?app_assoc. reflexivity.
Qed.
Print Assumptions full_report_with_solutions.
(* a solution whose texts hold no line break: the title without its trailing dots, the description without the blanks at
   its ends, every link on its own line two blanks further in, a comma after all but the last *)
Theorem solution_block_one_line_texts : forall ind utf8 s, no_nl (so_title s) -> no_nl (so_desc s) -> Forall no_nl (so_links s) ->
  sol_shown ind utf8 s
  = spaces ind ++ bullet utf8 ++ [32%N] ++ shown (rstrip_char 46 (so_title s)) ++ [58; 32]%N ++ shown (strip_char 32 (so_desc s))
      ++ join_with COMMA (map (fun l => [NL] ++ spaces ind ++ [32; 32]%N ++ shown l) (so_links s)) ++ [NL].
Proof. exact sol_shown_one_line. Qed.
Print Assumptions solution_block_one_line_texts.
(* simple mode and exceptions without frames: no solutions are printed *)
Theorem simple_report_has_no_solutions : forall c o x sols, render_sol c true o x sols = render c true o x.
Proof. intros c o x sols. reflexivity. Qed.
Print Assumptions simple_report_has_no_solutions.

(* a source that cannot be read or tokenized: the report is produced without snippet lines, on closed examples *)
Module Unreadable.
  Import RenderExamples SolutionExamples.
  (* bad_frame: tokenize raised TokenError on the file and on the line; bad_frame2: another exception (the file cannot be
     read: UnicodeDecodeError).  The write_line calls: blank, class name, blank, message, blank, location - no snippet *)
  Example token_error_lines :
    render_lines (demo_cfg false) false 0 (demo_x [bad_frame])
    = Ok [(2, []); (2, name_line (demo_x [])); (2, []); (2, msg_line (demo_x [])); (2, []);
          (2, s_at ++ location (demo_cfg false) st_green bad_frame)]%Z.
  Proof. exact ex_unreadable_lines. Qed.
  Example other_exception_lines :
    render_lines (demo_cfg false) false 0 (demo_x [bad_frame2])
    = Ok [(2, []); (2, name_line (demo_x [])); (2, []); (2, msg_line (demo_x [])); (2, []);
          (2, s_at ++ location (demo_cfg false) st_green bad_frame2)]%Z.
  Proof. vm_compute. reflexivity. Qed.
  (* the bytes: ... the message, a blank line, "  at a.py:1 in f" / "  at b.py:7 in g" and nothing after it *)
  Example token_error_bytes :
    render (demo_cfg false) false (demo_out FPlain false 0) (demo_x [bad_frame])
    = Ok (ex_head ++ [10;32;32;97;116;32;97;46;112;121;58;49;32;105;110;32;102;10]%N).
  Proof. exact ex_unreadable_vm. Qed.
  Example other_exception_bytes :
    render (demo_cfg false) false (demo_out FPlain false 0) (demo_x [bad_frame2])
    = Ok (ex_head ++ [10;32;32;97;116;32;98;46;112;121;58;55;32;105;110;32;103;10]%N).
  Proof. exact ex_unreadable_other_vm. Qed.
  (* with the stack trace (-v): the frame's own line shown plain; at -vvv nothing under a frame whose file is unreadable *)
  Example verbose_bytes :
    render (demo_cfg true) false (demo_out FPlain false 0) (demo_x [bad_frame2; demo_frame; bad_frame])
    = Ok ([10;32;32;83;116;97;99;107;32;116;114;97;99;101;58;10]%N
          ++ [10;32;32;50;32;32;98;46;112;121;58;55;32;105;110;32;103;10]%N ++ [32;32;32;32;32;121;32;60;32;49;10]%N
          ++ [10;32;32;49;32;32;97;46;112;121;58;49;32;105;110;32;60;102;62;10]%N ++ [32;32;32;32;32;120;10]%N
          ++ ex_head ++ [10;32;32;97;116;32;97;46;112;121;58;49;32;105;110;32;102;10]%N).
  Proof. exact ex_unreadable_verbose_vm. Qed.
  Example debug_bytes :
    render demo_cfg_debug false (demo_out FPlain false 0) (demo_x [bad_frame2; demo_frame; bad_frame])
    = Ok ([10;32;32;83;116;97;99;107;32;116;114;97;99;101;58;10]%N
          ++ [10;32;32;50;32;32;98;46;112;121;58;55;32;105;110;32;103;10]%N
          ++ [10;32;32;49;32;32;97;46;112;121;58;49;32;105;110;32;60;102;62;10]%N ++ [32;32;32;32;62;32;32;32;49;124;32;120;10]%N
          ++ ex_head ++ [10;32;32;97;116;32;97;46;112;121;58;49;32;105;110;32;102;10]%N).
  Proof. exact ex_unreadable_debug_vm. Qed.
  (* with a solution: the block follows the location line *)
  Example token_error_bytes_with_solution :
    render_sol (demo_cfg false) false (demo_out FPlain false 0) (demo_x [bad_frame]) [ex_s1]
    = Ok (ex_head ++ [10;32;32;97;116;32;97;46;112;121;58;49;32;105;110;32;102;10]%N ++ ex_block1).
  Proof. exact ex_sol_unreadable_vm. Qed.
End Unreadable.

(* The DECORATED report, as one whole-buffer statement.  full_report_on_clikit_outputs above characterises the bytes of an undecorated output; for a decorating one
   writing_a_good_line_never_fails says "strip_sgr text = the shown pieces" line by line.  Here the whole buffer, both cases in
   one: vis_of_out o w = w with the SGR sequences removed when o decorates, w itself otherwise.
   part_of p s: p is a piece (infix) of s. *)
(* what write_lines appends to the buffer shows, line after line, the texts of the (indented) pieces *)
Theorem written_lines_show_their_pieces : forall sty (pls : list pline) o,
  out_ok sty o -> Forall (fun p => pieces_ok sty (snd p)) pls -> (decorated o = true -> Forall (fun p => pieces_noesc (snd p)) pls) ->
  exists o' w, write_lines o (map pline_w pls) = Ok o' /\ out_ok sty o' /\ o_on o' = o_on o /\ f_kind (o_fmt o') = f_kind (o_fmt o) /\
    o_buf o' = o_buf o ++ w /\ vis_of_out o w = flat_map shown_line pls.
Proof.
  intros sty pls o Ho Hok Hne. destruct (write_lines_pieces sty pls o Ho Hok) as (o' & w & H1 & H2 & H3 & H4 & H5 & H6).
  exists o', w. repeat (split; [assumption|]). exact (H6 Hne).
Qed.
Print Assumptions written_lines_show_their_pieces.
(* THE FULL REPORT on an output clikit builds, decorated or not, for EVERY exception case with frames - when the output
   decorates: whose texts hold no ESC (inputs_ne; needed: decorated_report_of_a_message_with_escape_codes_refuted below).
   What render appends to the buffer shows (vis_of_out) exactly the report text: stack trace, blank line, class name, blank
   line, message block, snippet; that is what the SAME output writes with formatting off (undecorate); it holds every piece
   without line break - in particular every line - of the class name and of the message.  The pieces of the trace and snippet
   lines are good pieces (pieces_ok: the texts of shown_line are what the undecorated formatter writes for them,
   line_shows_its_texts), which full_report_on_clikit_outputs does not say. *)
Theorem full_report_visible_on_clikit_outputs : forall c o x, clikit_output o -> (0 <= o_indent o)%Z -> x_frames x <> [] ->
  (decorated o = true -> inputs_ne c x) ->
  let ind := (o_indent o + 2)%Z in
  let sty := f_styles (o_fmt o) in
  exists tr_p sn_p w,
    render_trace c ind (x_frames x) = Ok (map pline_w tr_p) /\ Forall (fun p => pieces_ok sty (snd p)) tr_p /\
    render_snippet c ind (last (x_frames x) dflt_frame) = Ok (map pline_w sn_p) /\ Forall (fun p => pieces_ok sty (snd p)) sn_p /\
    render c false o x = Ok (o_buf o ++ w) /\
    vis_of_out o w = flat_map shown_line tr_p
                       ++ [NL] ++ spaces ind ++ shown (ind_text ind (x_name x)) ++ [NL]
                       ++ [NL] ++ spaces ind ++ shown (ind_text ind (msg_text (x_msg x))) ++ [NL]
                       ++ flat_map shown_line sn_p /\
    render c false (undecorate o) x = Ok (o_buf o ++ vis_of_out o w) /\
    (forall l, no_nl l -> part_of l (x_name x) -> part_of l (vis_of_out o w)) /\
    (forall l, no_nl l -> part_of l (x_msg x) -> part_of l (vis_of_out o w)).
Proof.
  intros c o x H Hi Hne Hin ind sty. destruct (clikit_output_ok o H) as (Ho & Herr & Hb). fold sty in Ho, Herr, Hb.
  destruct (full_bytes_vis sty c o x Ho Herr Hb Hi Hne Hin) as (tr_p & sn_p & w & ET & Htr & ES & Hsn & HR & HV). fold ind in ET, ES, HV.
  exists tr_p, sn_p, w. split; [exact ET|]. split; [exact Htr|]. split; [exact ES|]. split; [exact Hsn|]. split; [exact HR|]. split; [exact HV|].
  destruct (report_has_name_and_message ind x tr_p sn_p) as [Hn Hm]. rewrite HV. split; [|split; [exact Hn|exact Hm]].
  destruct (full_bytes_of_pieces sty c (undecorate o) x tr_p sn_p (undecorate_ok sty o Ho) Herr Hb Hi Hne ET Htr ES Hsn) as (w' & HR' & HV');
    [discriminate|]. cbn [undecorate o_buf] in HR'. rewrite HR'. f_equal. f_equal. exact HV'.
Qed.
Print Assumptions full_report_visible_on_clikit_outputs.
(* the lines of a text are pieces without line break of it: "every line of the message" *)
Theorem every_line_is_a_piece : forall s l, In l (split_on NL s) -> no_nl l /\ part_of l s.
Proof.
  intros s l H. split.
  - pose proof (split_lines_no_nl s) as Hs. rewrite Forall_forall in Hs. exact (Hs l H).
  - rewrite <- (join_split s) at 1. now apply part_join.
Qed.
Print Assumptions every_line_is_a_piece.
(* the report text holds the class name and the message, whatever the trace and the snippet are *)
Theorem report_text_holds_name_and_message : forall ind x tr_p sn_p,
  (forall l, no_nl l -> part_of l (x_name x) -> part_of l (report_text ind x tr_p sn_p))
  /\ (forall l, no_nl l -> part_of l (x_msg x) -> part_of l (report_text ind x tr_p sn_p)).
Proof. exact report_has_name_and_message. Qed.
Print Assumptions report_text_holds_name_and_message.
(* simple mode: just the message *)
Theorem simple_report_visible_on_clikit_outputs : forall c o x, clikit_output o -> (o_indent o <= 0)%Z ->
  (decorated o = true -> no_esc (x_msg x)) ->
  exists w, render c true o x = Ok (o_buf o ++ w) /\ vis_of_out o w = shown (x_msg x) ++ [NL].
Proof.
  intros c o x H Hi Hin. destruct (clikit_output_ok o H) as (Ho & Herr & _).
  destruct (simple_bytes_vis _ c o x Ho Herr Hin) as (w & HR & HV). exists w. split; [exact HR|].
  unfold vis_of_out. rewrite HV. destruct (Z.ltb_spec 0 (o_indent o)); [lia|reflexivity].
Qed.
Print Assumptions simple_report_visible_on_clikit_outputs.
Theorem partb_decides : forall p s, partb p s = true <-> part_of p s.
Proof. (* partb and part_of are MarkupPlainLemmas' occursb and occurs, written again *) exact MarkupPlainLemmas.occursb_spec. Qed.
Print Assumptions partb_decides.

(* non-vacuity: the ANSI formatter over DefaultStyleSet, decorating, the verbose report of the demo exception (class name
   B</error>, message <b>x\ - markup-like texts, no ESC - two frames): the hypotheses hold, the bytes hold escape codes, and
   with them removed they are the bytes of the undecorated run *)
Definition ansi_out : outp := {| o_indent := 0; o_on := true; o_sec := false; o_fmt := default_formatter (FAnsi true); o_buf := [] |}.
Example full_report_visible_instance :
  clikit_output ansi_out /\ decorated ansi_out = true /\
  inputs_ne (RenderExamples.demo_cfg true) (RenderExamples.demo_x [RenderExamples.demo_frame; RenderExamples.demo_frame]) /\
  match render (RenderExamples.demo_cfg true) false ansi_out (RenderExamples.demo_x [RenderExamples.demo_frame; RenderExamples.demo_frame]),
        render (RenderExamples.demo_cfg true) false (undecorate ansi_out) (RenderExamples.demo_x [RenderExamples.demo_frame; RenderExamples.demo_frame]) with
  | Ok b, Ok p => str_eqb (strip_sgr b) p && Nat.ltb (length p) (length b) && partb RenderExamples.demo_name p && partb RenderExamples.demo_msg p
  | _, _ => false end = true.
Proof.
  split; [split; [reflexivity|apply default_formatters_are_clikit; discriminate]|]. split; [reflexivity|].
  split; [exact RenderExamples.ex_inputs_ne|vm_compute; reflexivity].
Qed.
(* REFUTED without "no ESC in the texts" - for the reading "the decorated bytes, SGR sequences removed, hold the message": the
   exception whose message is  ESC[31m red ESC[0m  on the decorating output esc_out (above): the report is produced, its bytes
   hold the message as it is, and so do the bytes of the undecorated run - but removing the SGR sequences removes the message's
   own: what is left holds "red" and not the message.  Observed alike on the Python code (ExceptionTrace(Boom(that message))
   .render on a BufferedIO with AnsiFormatter(forced=True): the message is in the output, not in the output with
   ESC[...m removed).  A reading, not a defect: "style markup aside" cannot tell the renderer's escape codes from the message's. *)
Definition esc_x : exn_case := {| x_name := [66%N]; x_msg := esc_text; x_frames := [RenderExamples.demo_frame; RenderExamples.demo_frame] |}.
Theorem decorated_report_of_a_message_with_escape_codes_refuted :
  exists c o x, clikit_output o /\ decorated o = true /\ (0 <= o_indent o)%Z /\ x_frames x <> [] /\
    exists bytes plain, render c false o x = Ok bytes /\ render c false (undecorate o) x = Ok plain /\
      part_of (x_msg x) bytes /\ part_of (x_msg x) plain /\ ~ part_of (x_msg x) (strip_sgr bytes) /\ strip_sgr bytes <> plain.
Proof.
  exists (RenderExamples.demo_cfg true), esc_out, esc_x. split; [exact (proj1 esc_out_qualifies)|]. split; [reflexivity|].
  split; [cbn; lia|]. split; [discriminate|].
  destruct (render (RenderExamples.demo_cfg true) false esc_out esc_x) as [b|e] eqn:Eb; [|vm_compute in Eb; discriminate].
  destruct (render (RenderExamples.demo_cfg true) false (undecorate esc_out) esc_x) as [p|e] eqn:Ep; [|vm_compute in Ep; discriminate].
  exists b, p. split; [reflexivity|]. split; [reflexivity|].
  assert (partb esc_text b = true /\ partb esc_text p = true /\ partb esc_text (strip_sgr b) = false /\ str_eqb (strip_sgr b) p = false) as (H1 & H2 & H3 & H4).
  { vm_compute in Eb. vm_compute in Ep. injection Eb as <-. injection Ep as <-. vm_compute. repeat split; reflexivity. }
  split; [now apply partb_decides|]. split; [now apply partb_decides|]. split.
  - intros H. apply partb_decides in H. change (x_msg esc_x) with esc_text in H. congruence.
  - intros E. rewrite E, str_eqb_refl in H4. discriminate.
Qed.
Print Assumptions decorated_report_of_a_message_with_escape_codes_refuted.

(* No piece left existential.  The byte theorems above say "there are pieces tr_p, sn_p with render_trace ... = Ok (map pline_w tr_p)".  The pieces are
   functions of the inputs: trace_plines c ind fs (the header, per collection the fold line, per frame the location line and the
   line(s) under it - the frame's own line highlighted or plain, or at debug verbosity its numbered snippet) and snippet_plines
   c ind f (blank line, "at file:line in function", the numbered highlighted lines).  The lines written ARE their strings: *)
Theorem trace_lines_are_their_pieces : forall c ind fs, render_trace c ind fs = Ok (map pline_w (trace_plines c ind fs)).
Proof.
  intros c ind fs.
  unfold render_trace, trace_plines. cbv zeta. destruct (t_verbose c && negb (zlen (kept_frames c fs) - 1 =? 0)%Z); [|reflexivity].
  rewrite colls_plines_w. cbn [bind]. rewrite map_app, rl_plines_w, stack_p_str. reflexivity.
Qed.
Print Assumptions trace_lines_are_their_pieces.
Theorem snippet_lines_are_their_pieces : forall c ind f, render_snippet c ind f = Ok (map pline_w (snippet_plines c ind f)).
Proof.
  intros c ind f.
  unfold render_snippet, snippet_plines. rewrite snippet_of_p_str. cbn [bind]. rewrite map_app, rl_plines_w, <- at_line_pieces.
  f_equal. f_equal. rewrite ListLemmas.flat_map_map, map_flat_map. apply flat_map_ext. intros lp. now rewrite rl_plines_w.
Qed.
Print Assumptions snippet_lines_are_their_pieces.
(* they are good pieces in every style table that knows "b" (the inline styles resolve everywhere) *)
Theorem trace_and_snippet_pieces_are_good : forall sty c ind fs f, resolvable sty st_b ->
  Forall (fun p : pline => pieces_ok sty (snd p)) (trace_plines c ind fs) /\
  Forall (fun p : pline => pieces_ok sty (snd p)) (snippet_plines c ind f).
Proof. intros sty c ind fs f Hb. split; [apply (trace_plines_ok sty Hb)|apply (snippet_plines_ok sty Hb)]. Qed.
Print Assumptions trace_and_snippet_pieces_are_good.
(* the full report on an output clikit builds, decorated or not: what is seen of the bytes appended is the report text of these
   pieces - a function of the exception case, the configuration and the indentation *)
Theorem full_report_explicit_on_clikit_outputs : forall c o x, clikit_output o -> (0 <= o_indent o)%Z -> x_frames x <> [] ->
  (decorated o = true -> inputs_ne c x) ->
  let ind := (o_indent o + 2)%Z in
  exists w, render c false o x = Ok (o_buf o ++ w) /\
    vis_of_out o w = report_text ind x (trace_plines c ind (x_frames x)) (snippet_plines c ind (last (x_frames x) dflt_frame)).
Proof.
  intros c o x H Hi Hne Hin ind. destruct (clikit_output_ok o H) as (Ho & Herr & Hb).
  exact (full_bytes_of_pieces _ c o x _ _ Ho Herr Hb Hi Hne (trace_lines_are_their_pieces c ind _) (trace_plines_ok _ Hb c ind _)
           (snippet_lines_are_their_pieces c ind _) (snippet_plines_ok _ Hb c ind _) Hin).
Qed.
Print Assumptions full_report_explicit_on_clikit_outputs.
(* non-vacuity: the verbose report of the demo exception with two frames: the stack trace has lines, and the undecorated bytes
   are the report text of the explicit pieces (computed on both sides) *)
Example explicit_pieces_instance :
  let c := RenderExamples.demo_cfg true in
  let x := RenderExamples.demo_x [RenderExamples.demo_frame; RenderExamples.demo_frame] in
  (0 < length (trace_plines c 2 (x_frames x)))%nat /\ (0 < length (snippet_plines c 2 RenderExamples.demo_frame))%nat /\
  match render c false (undecorate ansi_out) x with
  | Ok b => str_eqb b (report_text 2 x (trace_plines c 2 (x_frames x)) (snippet_plines c 2 RenderExamples.demo_frame))
  | Err _ => false end = true.
Proof. vm_compute. repeat split; try reflexivity; lia. Qed.
(* simple mode on the decorating output: the hypotheses of simple_report_visible_on_clikit_outputs, and the bytes computed *)
Example simple_report_visible_instance :
  clikit_output ansi_out /\ (o_indent ansi_out <= 0)%Z /\ no_esc RenderExamples.demo_msg /\
  match render (RenderExamples.demo_cfg false) true ansi_out (RenderExamples.demo_x [RenderExamples.demo_frame]) with
  | Ok b => str_eqb (strip_sgr b) (shown RenderExamples.demo_msg ++ [NL]) && Nat.ltb (length (shown RenderExamples.demo_msg ++ [NL])) (length b)
  | Err _ => false end = true.
Proof.
  split; [split; [reflexivity|apply default_formatters_are_clikit; discriminate]|]. split; [cbn; lia|].
  split; [repeat constructor; discriminate|vm_compute; reflexivity].
Qed.
