(* C10 - quiet and verbosity gate every write path identically. *)
From Clikit Require Import Base.Prelude Model.Gate Proofs.GateLemmas.

(* The gate itself: for EVERY flag word (any integer, also undefined bits and negatives)
   and every verbosity >= 0, text passes iff the output is not quiet and its verbosity is
   at least the lowest level the flags ask for. *)
Theorem gate_level : forall q v f, (0 <= v)%Z ->
  may_write q v f = negb q && (lowest_level f <=? v)%Z.
Proof. exact may_write_level. Qed.
Print Assumptions gate_level.

(* Every modelled entry point that writes text (output / section x decorated or not x
   method) emits exactly when the gate, asked with the caller's flags (None for methods
   without a flags parameter), says so. *)
Theorem gate_iff : forall k a m q v f p, path k a m = Some p ->
  emits k a m q v (if takes_flags m then f else None) = may_write q v (if takes_flags m then f else None).
Proof. exact emits_first_gate. Qed.
Print Assumptions gate_iff.

Theorem gate_monotone : forall v v' f, (0 <= v <= v')%Z ->
  may_write false v f = true -> may_write false v' f = true.
Proof. intros v v' f [_ Hv]. now apply may_write_monotone. Qed.
Print Assumptions gate_monotone.

Theorem quiet_silent : forall v f, may_write true v f = false.
Proof. reflexivity. Qed.
Print Assumptions quiet_silent.

(* The hand model re-checked against the source on every build.
   Generated/GenGate.v is what harness/translate.py (a fail-closed translator of a small pure subset of Python) makes of
   Output._may_write and of the constants of api/io/flags.py in the source tree at hand; bin/setup regenerates it before
   every build.  The gate of the model IS that function, for every quiet, verbosity and flags (None, any integer): *)
From Clikit Require Generated.GenGate Proofs.GenEquivLemmas.
Theorem may_write_matches_source : forall quiet verbosity flags,
  GenGate.may_write quiet verbosity flags = may_write quiet verbosity flags.
Proof. exact GenEquivLemmas.gen_may_write_eq. Qed.
Print Assumptions may_write_matches_source.

Theorem gate_constants_match_source :
  GenGate.NORMAL = NORMAL /\ GenGate.VERBOSE = VERBOSE /\ GenGate.VERY_VERBOSE = VERY_VERBOSE /\ GenGate.DEBUG = DEBUG.
Proof. exact GenEquivLemmas.gen_gate_constants. Qed.
Print Assumptions gate_constants_match_source.

(* ... so gate_level is a statement about the translated code itself *)
Theorem source_gate_level : forall q v f, (0 <= v)%Z ->
  GenGate.may_write q v f = negb q && (lowest_level f <=? v)%Z.
Proof. intros q v f H. rewrite GenEquivLemmas.gen_may_write_eq. exact (may_write_level q v f H). Qed.
Print Assumptions source_gate_level.

Example gate_nonvacuous :
  emits KSection true MWriteLine false VERBOSE (Some 3%Z) = true /\
  emits KSection true MWriteLine false NORMAL (Some 3%Z) = false /\
  emits KSection true MWriteLine false DEBUG (Some 8%Z) = true.
Proof. vm_compute. auto. Qed.

(* The gate composed with the section model (Model/GatedSection.v): write(text, flags) / write_line(text, flags) /
   overwrite(text) / clear(n) on sections of one stream, every section with its own quiet / verbosity settings that
   set_quiet / set_verbosity change on the way.  A refused call must not only be silent at once: it must leave no trace,
   or what it was given is printed LATER, when an older section is written to and the newer ones are printed again.
     allowed gs o        the gate of the section lets the call o through (write: the caller's flags; overwrite, clear: None)
     gstep / grun        the step / run of the code: the Section.v step iff allowed, the identity otherwise (write returns
                         before it pops or records anything; clear asks the gate before it cuts _content / _lines - fix
                         a112510; before it a refused clear cut the record)
     kept gs ops         ops without its refused calls;  erase gs ops: the Section.v operations of the allowed calls *)
From Clikit Require Import Base.Res Base.Term Model.Markup Model.Section Model.GatedSection
  Proofs.MarkupLemmas Proofs.SectionLemmas Proofs.GatedSectionLemmas.

(* (a) EVERY refused call - write, write_line (any flags), overwrite, clear, full or partial, decorated or not, whatever the
   section has on record - changes neither the stream nor any section's state (content, row count, indentation) nor the
   settings nor the formatter. *)
Theorem refused_call_is_invisible : forall ansi w st gs f o, allowed gs o = false ->
  gstep ansi w st gs f o = Ok (st, gs, f, []).
Proof. intros ansi w st gs f o H. unfold gstep. destruct (refused_has_sop gs o H) as [so ->]. now rewrite H. Qed.
Print Assumptions refused_call_is_invisible.

(* (b) For EVERY sequence of calls, from any state of sections, settings and formatter: the whole result - the emitted
   stream, every section's content and row count, the settings, the formatter, also the exception if a call raises - is
   that of the sequence with all refused calls removed.  What a refused call was given can never show up, neither at once
   nor later. *)
Theorem refused_text_never_appears : forall ansi w st gs f ops,
  grun ansi w st gs f ops = grun ansi w st gs f (kept gs ops).
Proof. intros ansi w st gs f ops. rewrite !grun_erase. now rewrite erase_kept, gates_after_kept. Qed.
Print Assumptions refused_text_never_appears.

(* ... and it is the flag-less Section.v run (C15) of the operations of the allowed calls; the settings only depend on
   the calls made *)
Theorem gated_run_is_section_run : forall ansi w ops st gs f,
  grun ansi w st gs f ops = lift (gates_after gs ops) (srun ansi w st f (erase gs ops)).
Proof. exact grun_erase. Qed.
Print Assumptions gated_run_is_section_run.

(* two sequences that differ only in what their refused calls were given (texts, flags, line counts) have the same result *)
Theorem refused_arguments_do_not_matter : forall ansi w st gs f ops ops', kept gs ops = kept gs ops' ->
  grun ansi w st gs f ops = grun ansi w st gs f ops'.
Proof.
  intros ansi w st gs f ops ops' E. rewrite (refused_text_never_appears _ _ _ _ _ ops), (refused_text_never_appears _ _ _ _ _ ops').
  now rewrite E.
Qed.
Print Assumptions refused_arguments_do_not_matter.

(* (c) The C15 screen theorem lifted.  For EVERY sequence of section creations, indentations, set_quiet / set_verbosity,
   flagged writes, overwrites and clears on a decorated output in which the texts of the ALLOWED writes are good markup
   (the refused ones may be anything), every width >= 1: no call raises, and the terminal fed with the emitted bytes shows
   exactly the stacked visible contents of the sections - which are the contents the allowed calls wrote (the Section.v
   run of erase) -, every row count is right, the style stack is empty. *)
Theorem gated_screen_is_stack : forall w, 1 <= w -> forall f0 ops, is_ansi f0 -> f_stack f0 = [] ->
  good_opsb (f_styles f0) (erase gates0 ops) = true ->
  exists st f es, grun true w [] gates0 f0 ops = Ok (st, gates_after gates0 ops, f, es) /\
    srun true w [] f0 (erase gates0 ops) = Ok (st, f, es) /\
    feed w term_init es = screen w (f_styles f0) st /\ Forall (sec_ok w (f_styles f0)) st /\ fmt_ok (f_styles f0) f.
Proof.
  intros w Hw f0 ops Ha Hs Hg.
  destruct (screen_is_stack_lemma w Hw f0 (erase gates0 ops) Ha Hs Hg) as (st & f & es & Hr & Hscr & Hok & Hf).
  exists st, f, es. rewrite grun_erase, Hr. cbn. auto.
Qed.
Print Assumptions gated_screen_is_stack.

(* (d) A section STARTS with the settings of its output: after output.section() the new section's quiet flag and verbosity
   are those the output has at that moment (and its indentation too) - so what a quiet output would refuse is refused
   through its sections as well, until set_quiet / set_verbosity are called on the section itself.  (The code before
   /repo e696a15 built every section not quiet, verbosity NORMAL.) *)
Theorem section_starts_with_its_outputs_settings : forall gs,
  g_secs (gates_step gs GCreate) = g_secs gs ++ [g_parent gs] /\ sop_of gs GCreate = Some (SCreate (g_pindent gs)).
Proof. split; reflexivity. Qed.
Print Assumptions section_starts_with_its_outputs_settings.
(* ... hence: whatever a section of a quiet output is asked to write, overwrite, clear or record before anybody touches its
   own settings leaves no trace *)
Theorem section_of_quiet_output_is_silent : forall ansi w st gs f o i,
  g_quiet (g_parent gs) = true -> i = length (g_secs gs) ->
  (match o with GWrite j _ _ _ | GOverwrite j _ | GClear j _ | GAddContent j _ => j = i | _ => False end) ->
  forall st1 gs1 f1 e1, gstep ansi w st gs f GCreate = Ok (st1, gs1, f1, e1) ->
  gstep ansi w st1 gs1 f1 o = Ok (st1, gs1, f1, []).
Proof.
  intros ansi w st gs f o i Hq Hi Ho st1 gs1 f1 e1 H1. apply refused_call_is_invisible.
  unfold gstep in H1. cbn [sop_of allowed] in H1.
  destruct (sec_step ansi w st f (SCreate (g_pindent gs))) as [[[a b] c]|]; cbn [bind fst snd] in H1; [|discriminate].
  inversion H1; subst gs1.
  assert (forall fl, asks (gates_step gs GCreate) (length (g_secs gs)) fl = false) as HA.
  { intros fl. unfold asks, gate_of. cbn [gates_step with_secs g_secs]. rewrite app_nth2 by apply le_n. rewrite PeanoNat.Nat.sub_diag. cbn [nth].
    rewrite Hq. reflexivity. }
  destruct o; try contradiction; cbn [allowed]; subst; apply HA.
Qed.
Print Assumptions section_of_quiet_output_is_silent.

(* the groups of calls the driver runs (run_C10S) are the run of their concatenation, one emit list per group *)
Theorem groups_are_one_run : forall ansi w groups st gs f st' gs' f' ess,
  grun_groups ansi w st gs f groups = Ok (st', gs', f', ess) ->
  grun ansi w st gs f (concat groups) = Ok (st', gs', f', concat ess) /\ length ess = length groups.
Proof.
  intros ansi w. induction groups as [|g r IH]; intros st gs f st' gs' f' ess H.
  - cbn in H. inversion H; subst. split; reflexivity.
  - cbn [grun_groups] in H. cbn [concat]. rewrite grun_app.
    destruct (grun ansi w st gs f g) as [[[[st1 gs1] f1] e1]|]; [|discriminate]. cbn [bind fst snd] in *.
    destruct (grun_groups ansi w st1 gs1 f1 r) as [[[[st2 gs2] f2] e2]|] eqn:E; [|discriminate]. cbn [bind fst snd] in H.
    inversion H; subst. destruct (IH _ _ _ _ _ _ _ E) as [-> Hn]. cbn. now rewrite Hn.
Qed.
Print Assumptions groups_are_one_run.

(* instances *)
Definition g_f : formatter := match new_formatter (FAnsi true) [] with Ok f => f | Err _ => {| f_kind := FAnsi true; f_styles := []; f_stack := [] |} end.
Definition t_older : str := [111;108;100;101;114]%N.          (* older *)
Definition t_mark : str := [77;65;82;75]%N.                   (* MARK *)
Definition t_later : str := [108;97;116;101;114]%N.           (* later *)
(* two sections; the NEWER one is refused a write_line (flags VERBOSE at
   verbosity NORMAL), then the OLDER one is written to, which prints the newer ones again.  The stream is that of the
   sequence without the refused call, no cell of it is an 'M', the screen shows older / later, section 1 has no content. *)
Example c10g_refused_text_absent :
  let ops := [GCreate; GCreate; GWrite 0 t_older None true; GWrite 1 t_mark (Some VERBOSE) true; GWrite 0 t_later None true] in
  match grun true 10 [] gates0 g_f ops, grun true 10 [] gates0 g_f [GCreate; GCreate; GWrite 0 t_older None true; GWrite 0 t_later None true] with
  | Ok (st, _, _, es), Ok (st', _, _, es') =>
      es = es' /\ st = st' /\ existsb (fun e => match e with Ch 77%N => true | _ => false end) es = false
      /\ rows (feed 10 term_init es) = [t_older; t_later; []] /\ map sc_content st = [[t_older; t_later]; []]
      /\ kept gates0 ops = [GCreate; GCreate; GWrite 0 t_older None true; GWrite 0 t_later None true]
  | _, _ => False
  end.
Proof. vm_compute. repeat split. Qed.
(* the same with a quiet newer section, and the allowed write when the section is verbose enough *)
Example c10g_quiet_and_verbose :
  (match grun true 10 [] gates0 g_f [GCreate; GCreate; GWrite 0 t_older None true; GSetQuiet 1 true; GWrite 1 t_mark None true;
                                 GOverwrite 1 t_mark; GSetQuiet 1 false; GWrite 0 t_later None true] with
   | Ok (st, _, _, es) => rows (feed 10 term_init es) = [t_older; t_later; []] /\ map sc_content st = [[t_older; t_later]; []]
   | Err _ => False end) /\
  (match grun true 10 [] gates0 g_f [GCreate; GCreate; GWrite 0 t_older None true; GSetVerbosity 1 LVerbose;
                                 GWrite 1 t_mark (Some VERBOSE) true; GWrite 0 t_later None true] with
   | Ok (st, _, _, es) => rows (feed 10 term_init es) = [t_older; t_later; t_mark; []] /\ map sc_content st = [[t_older; t_later]; [t_mark]]
   | Err _ => False end).
Proof. vm_compute. repeat split. Qed.
(* clear() (and overwrite, clear(1)) of a quiet decorated section emits nothing AND leaves the record alone (fix a112510).  The later write into the older section erases the row that is on the
   screen and prints it again: the screen shows older / later / MARK, the contents are older, later / MARK - no trace of
   the refused calls, the run is that of the sequence without them.  (Before that fix the record of section 1 was cut:
   screen older / MARK / later against contents older, later / nothing.) *)
Example c10_refused_clear_leaves_no_trace :
  let ops := [GCreate; GCreate; GWrite 0 t_older None true; GWrite 1 t_mark None true; GSetQuiet 1 true; GClear 1 None;
              GOverwrite 1 t_later; GClear 1 (Some 1); GSetQuiet 1 false; GWrite 0 t_later None true] in
  match grun true 10 [] gates0 g_f ops with
  | Ok (st, _, _, es) => rows (feed 10 term_init es) = [t_older; t_later; t_mark; []] /\ map sc_content st = [[t_older; t_later]; [t_mark]]
                         /\ map sc_lines st = [2; 1]
                         /\ kept gates0 ops = [GCreate; GCreate; GWrite 0 t_older None true; GWrite 1 t_mark None true; GSetQuiet 1 true;
                                          GSetQuiet 1 false; GWrite 0 t_later None true]
  | Err _ => False
  end.
Proof. vm_compute. repeat split. Qed.

(* a quiet OUTPUT, then section(), then write_line into it: nothing; the public add_content of a quiet section, then a write
   into the older section: the text is nowhere *)
Example c10_section_of_quiet_output_and_add_content :
  (match grun true 10 [] gates0 g_f [GParentQuiet true; GCreate; GWrite 0 t_mark None true] with
   | Ok (st, gs, _, es) => es = [] /\ map sc_content st = [[]] /\ map g_quiet (g_secs gs) = [true] | Err _ => False end) /\
  (match grun true 10 [] gates0 g_f [GCreate; GCreate; GWrite 0 t_older None true; GSetQuiet 1 true; GAddContent 1 t_mark;
                                     GWrite 0 t_later None true] with
   | Ok (st, _, _, es) => rows (feed 10 term_init es) = [t_older; t_later; []] /\ map sc_content st = [[t_older; t_later]; []]
                          /\ existsb (fun e => match e with Ch 77%N => true | _ => false end) es = false
   | Err _ => False end).
Proof. vm_compute. repeat split. Qed.
(* Note on gate_iff and refused_call_is_invisible above: emits is forallb may_write over the hand-written table `path`
   (transcribed from the method bodies; gate_iff needs of it that every row starts with the call that carries the flags and
   goes on without flags), gstep is "the Section.v step iff allowed, else the identity".  They are statements about the composed MODEL; that the code has this shape is what the tie validates. *)
From Clikit Require Import Proofs.GateMonoLemmas.

(* monotonicity at the level of the entry points: whatever output / section method emits at verbosity v emits at every
   verbosity v' >= v of a non-quiet output (every integer v, v'; gate_monotone above is the same for the bare gate) *)
Theorem emits_monotone : forall k a m q v v' f, (v <= v')%Z ->
  emits k a m q v f = true -> emits k a m false v' f = true.
Proof. exact emits_mono_unquiet. Qed.
Print Assumptions emits_monotone.
Theorem emits_antitone : forall k a m q v v' f, (v <= v')%Z ->
  emits k a m false v' f = false -> emits k a m q v f = false.
Proof.
  intros k a m q v v' f Hv H. destruct (emits k a m q v f) eqn:E; [|reflexivity].
  rewrite (emits_mono_unquiet k a m q v v' f Hv E) in H. discriminate.
Qed.
Print Assumptions emits_antitone.
Theorem quiet_silences_every_entry_point : forall k a m v f, emits k a m true v f = false.
Proof. exact emits_quiet_false. Qed.
Print Assumptions quiet_silences_every_entry_point.
Example emits_monotone_instance :
  emits KSection true MWriteLine false VERBOSE (Some 3%Z) = true /\ emits KSection true MWriteLine false DEBUG (Some 3%Z) = true /\
  emits KSection true MWriteLine false NORMAL (Some 3%Z) = false /\
  emits KOutput false MWriteRaw false VERY_VERBOSE (Some 6%Z) = true /\ emits KOutput false MWriteRaw false VERBOSE (Some 6%Z) = false.
Proof.
  assert (emits KSection true MWriteLine false VERBOSE (Some 3%Z) = true) as H by (vm_compute; reflexivity).
  split; [exact H|]. split; [apply (emits_mono_unquiet _ _ _ false VERBOSE DEBUG _); [vm_compute; discriminate|exact H]|].
  vm_compute. auto.
Qed.
Print Assumptions emits_monotone_instance.

(* ---- the section index of the composed model ----
   In the code the target of write / overwrite / clear is a SectionOutput OBJECT: "a call on a section that does not exist"
   cannot be written down, and no IndexError of clikit corresponds to it (the harness keeps the created sections in a Python
   list and draws indexes below the number created so far; an index beyond it would be an IndexError of the harness's own
   list, before clikit is entered).  The model totalises it:
     target o         the section index a call names (none for section());
     gate_asked o     the index and the flags a call asks the gate with (write: the caller's; overwrite, clear: None);
     gate_of gs i     uses the `nth` DEFAULT beyond the list: a fresh gate (not quiet, NORMAL);
     Section.v        returns the state unchanged for an index without section.
   So on a nonexistent index gstep is the identity and returns Ok - whether the flags would pass the default gate or not: *)
Theorem gstep_on_nonexistent_section : forall ansi w st gs f o i,
  target o = Some i -> length st <= i -> length (g_secs gs) <= i -> gstep ansi w st gs f o = Ok (st, gs, f, []).
Proof.
  intros ansi w st gs f o i Ht Hs Hg. assert (nth_error st i = None) as Es by now apply nth_error_None.
  assert (nth_error (g_secs gs) i = None) as Eg by now apply nth_error_None.
  destruct o; cbn in Ht; inversion Ht; subst; unfold gstep; cbn [sop_of gates_step]; rewrite ?Eg; try reflexivity;
    (destruct (allowed gs _); [|reflexivity]); unfold sec_step; destruct ansi;
    cbn [sstep sstep_ansi sstep_plain]; unfold add_content_step; rewrite ?Es; cbn [bind fst snd]; rewrite ?Es; reflexivity.
Qed.
Print Assumptions gstep_on_nonexistent_section.
Theorem gate_asked_out_of_range_is_the_default : forall gs o i fl, gate_asked o = Some (i, fl) -> length (g_secs gs) <= i ->
  allowed gs o = may_write false NORMAL fl.
Proof.
  intros gs o i fl Ha Hl. assert (gate_of gs i = new_gate) as Eg by (unfold gate_of; now apply nth_overflow).
  destruct o; cbn in Ha; inversion Ha; subst; cbn [allowed]; unfold asks; rewrite Eg; reflexivity.
Qed.
Print Assumptions gate_asked_out_of_range_is_the_default.
(* UNDER THE IN-RANGE GUARD (the only calls that exist in the code): the gate asked is the one of the section itself, with
   that section's own quiet / verbosity ... *)
Theorem gate_asked_is_the_sections_own : forall gs o i fl g, gate_asked o = Some (i, fl) -> nth_error (g_secs gs) i = Some g ->
  allowed gs o = may_write (g_quiet g) (g_verb g) fl.
Proof.
  intros gs o i fl g Ha Hg. assert (g = gate_of gs i) as -> by (unfold gate_of; symmetry; now apply nth_error_nth).
  destruct o; cbn in Ha; inversion Ha; subst; reflexivity.
Qed.
Print Assumptions gate_asked_is_the_sections_own.
(* ... and the step is: refused iff THAT gate refuses the flags asked, and then the identity (refused_call_is_invisible);
   otherwise the Section.v step, the settings untouched *)
Theorem gstep_in_range : forall ansi w st gs f o i fl g so, gate_asked o = Some (i, fl) -> sop_of gs o = Some so ->
  nth_error (g_secs gs) i = Some g ->
  gstep ansi w st gs f o =
    if may_write (g_quiet g) (g_verb g) fl
    then do a <- sec_step ansi w st f so; Ok (fst (fst a), gs, snd (fst a), snd a)
    else Ok (st, gs, f, []).
Proof.
  intros ansi w st gs f o i fl g so Ha Hso Hg. unfold gstep. rewrite Hso, (gate_asked_is_the_sections_own gs o i fl g Ha Hg).
  destruct (may_write (g_quiet g) (g_verb g) fl); [|reflexivity].
  destruct o; cbn in Ha; inversion Ha; subst; reflexivity.
Qed.
Print Assumptions gstep_in_range.
(* the settings stay parallel to the sections along every run that starts so (every run of the driver starts from [] and gates0),
   hence "the index names a section" and "the index names a gate" are one condition *)
Theorem run_keeps_settings_parallel : forall ansi w ops st gs f st' gs' f' es,
  grun ansi w st gs f ops = Ok (st', gs', f', es) -> length (g_secs gs) = length st -> length (g_secs gs') = length st'.
Proof.
  intros ansi w. induction ops as [|o r IH]; intros st gs f st' gs' f' es H Hl; cbn [grun] in H.
  - inversion H; subst. exact Hl.
  - destruct (gstep ansi w st gs f o) as [[[[st1 gs1] f1] e1]|] eqn:E; cbn [bind fst snd] in H; [|discriminate].
    destruct (grun ansi w st1 gs1 f1 r) as [[[[st2 gs2] f2] e2]|] eqn:E2; cbn [bind fst snd] in H; [|discriminate].
    inversion H; subst. eapply IH; [exact E2|]. eapply gstep_parallel; eauto.
Qed.
Print Assumptions run_keeps_settings_parallel.

(* Instance.  Two sections, the newer one quiet.  In range: the SAME call (write_line MARK, no flags) is performed on
   section 0 and refused on section 1 - each by its own gate.  Out of range (index 5): write_line with flags VERBOSE (the
   default gate would refuse) and without flags (it would allow), overwrite, clear, set_quiet: all the identity, all Ok. *)
Example section_index_instance :
  match grun true 10 [] gates0 g_f [GCreate; GCreate; GSetQuiet 1 true] with
  | Ok (st, gs, f, _) =>
      length st = 2 /\ length (g_secs gs) = 2 /\
      allowed gs (GWrite 0 t_mark None true) = true /\ allowed gs (GWrite 1 t_mark None true) = false /\
      (match gstep true 10 st gs f (GWrite 0 t_mark None true) with
       | Ok (st', gs', _, es) => map sc_content st' = [[t_mark]; []] /\ gs' = gs /\ es <> [] | Err _ => False end) /\
      gstep true 10 st gs f (GWrite 1 t_mark None true) = Ok (st, gs, f, []) /\
      allowed gs (GWrite 5 t_mark (Some VERBOSE) true) = false /\ allowed gs (GWrite 5 t_mark None true) = true /\
      gstep true 10 st gs f (GWrite 5 t_mark (Some VERBOSE) true) = Ok (st, gs, f, []) /\
      gstep true 10 st gs f (GWrite 5 t_mark None true) = Ok (st, gs, f, []) /\
      gstep true 10 st gs f (GOverwrite 5 t_mark) = Ok (st, gs, f, []) /\
      gstep false 10 st gs f (GOverwrite 5 t_mark) = Ok (st, gs, f, []) /\
      gstep true 10 st gs f (GClear 5 None) = Ok (st, gs, f, []) /\
      gstep true 10 st gs f (GSetQuiet 5 true) = Ok (st, gs, f, [])
  | Err _ => False
  end.
Proof. vm_compute. repeat split; try reflexivity. discriminate. Qed.
Print Assumptions section_index_instance.

(* THE IO LAYER (Model/GateIO.v).  An I/O object with its standard output and its error output, every setter
   of the I/O and of the outputs, section() at both levels, the eight writing methods of IO (which output, which method there,
   which flags: `io_delegate`, transcribed from api/io/io.py) and the text-writing methods of the output objects - as
   operations of HISTORIES, every call made on numbered objects:
     world          the outputs (quiet, verbosity, indentation, formatter kind, stream, decorated?, section?), the I/Os (their two
                    outputs), the interactive flag of the shared input, whether the class can build a section of itself
     step w op      the world after the call and what the call showed: ODone | ORaised k | OWrote stream emitted? | ONothing
     run w ops      all calls of a history, one after the other (a call that raises changes nothing; the history goes on)
     world0 k a b c the start: one I/O on outputs 0 and 1, formatter kind k, streams that support ANSI or not
   The gate law below is not "by definition": the setters go through Output.set_verbosity's validation, and the iff needs
   the invariant that every verbosity a history can produce is one of the four levels. *)
From Clikit Require Import Model.GateIO Proofs.GateIOLemmas.

(* THE PROPERTY AT IO LEVEL.  After EVERY history from the start (setters on any I/O and output in any order and repetition,
   invalid verbosities, set_formatter / set_stream, indent, set_interactive, section() of I/Os, of outputs, of sections, other
   writes), for every I/O i that exists then, every one of the eight writing methods, every flag word (None, any integer): the
   call changes nothing and its text reaches the stream of the output the method belongs to (write* the standard output's,
   error* the error output's) IF AND ONLY IF that output is not quiet and its verbosity is at least the lowest level the
   flags ask for. *)
Theorem io_gate_iff : forall k sa se cs h i m fl ab o,
  let w := fst (GateIO.run (world0 k sa se cs) h) in
  nth_error (w_ios w) i = Some ab -> nth_error (w_outs w) (pick (fst (fst (io_delegate m))) ab) = Some o ->
  GateIO.step w (IWrite i m fl) = (w, OWrote (s_sid o) (negb (s_quiet o) && (lowest_level fl <=? s_verb o)%Z)).
Proof.
  intros k sa se cs h i m fl ab o w Hi Ho. rewrite (io_write_step w i m fl ab o Hi Ho). f_equal. f_equal.
  apply may_write_level. exact (wf_verbosity_nonneg w _ o (reachable_wf k sa se cs h) Ho).
Qed.
Print Assumptions io_gate_iff.
(* ... the two hypotheses only name the objects: in every world a history reaches, an I/O's two outputs exist and differ,
   and every verbosity is one of NORMAL / VERBOSE / VERY_VERBOSE / DEBUG (so Output.section()'s own set_verbosity cannot raise) *)
Theorem reachable_worlds_are_well_formed : forall k sa se cs h,
  let w := fst (GateIO.run (world0 k sa se cs) h) in
  Forall (fun o => valid_verbosity (s_verb o) = true) (w_outs w) /\
  Forall (fun ab => fst ab < length (w_outs w) /\ snd ab < length (w_outs w) /\ fst ab <> snd ab) (w_ios w).
Proof. exact reachable_wf. Qed.
Print Assumptions reachable_worlds_are_well_formed.
(* which output each method writes to, as transcribed *)
Example io_delegation_table :
  map (fun m => fst (fst (io_delegate m))) [IoWrite; IoWriteLine; IoWriteRaw; IoWriteLineRaw] = [WOut; WOut; WOut; WOut] /\
  map (fun m => fst (fst (io_delegate m))) [IoError; IoErrorLine; IoErrorRaw; IoErrorLineRaw] = [WErr; WErr; WErr; WErr] /\
  map (fun m => snd (fst (io_delegate m))) [IoWrite; IoWriteLine; IoWriteRaw; IoWriteLineRaw; IoError; IoErrorLine; IoErrorRaw; IoErrorLineRaw]
    = [MWrite; MWriteLine; MWriteRaw; MWriteLineRaw; MWrite; MWriteLine; MWriteRaw; MWriteLineRaw].
Proof. repeat split. Qed.

(* in ANY world - every integer verbosity, also one no setter accepts - the answer is Output._may_write of that output *)
Theorem io_write_asks_the_gate_of_its_output : forall w i m fl ab o,
  nth_error (w_ios w) i = Some ab -> nth_error (w_outs w) (pick (fst (fst (io_delegate m))) ab) = Some o ->
  GateIO.step w (IWrite i m fl) = (w, OWrote (s_sid o) (may_write (s_quiet o) (s_verb o) fl)).
Proof. exact io_write_step. Qed.
Print Assumptions io_write_asks_the_gate_of_its_output.
(* ... and so does every text-writing method called on an output object itself: an output, a section, a section of a section *)
Theorem output_write_asks_its_own_gate : forall w j m fl o,
  nth_error (w_outs w) j = Some o -> has_method o (meth_of_wm m) = true ->
  GateIO.step w (OWrite j m fl) =
    (w, OWrote (s_sid o) (may_write (s_quiet o) (s_verb o) (if takes_flags (meth_of_wm m) then fl else None))).
Proof. intros w j m fl o Ho Hm. cbn [GateIO.step]. rewrite Ho, Hm. now rewrite out_emits_gate. Qed.
Print Assumptions output_write_asks_its_own_gate.

(* set_stream / set_formatter between calls.  The gate does not look at them: two output objects with the same quiet flag
   and verbosity answer every text-writing method alike - whatever their streams, formatters, indentation, decorated or not,
   output or section ... *)
Theorem gate_does_not_depend_on_stream_or_formatter : forall o o' m fl,
  s_quiet o = s_quiet o' -> s_verb o = s_verb o' ->
  has_method o (meth_of_wm m) = true -> has_method o' (meth_of_wm m) = true ->
  out_emits o (meth_of_wm m) fl = out_emits o' (meth_of_wm m) fl.
Proof. intros o o' m fl Hq Hv H1 H2. rewrite !out_emits_gate by assumption. now rewrite Hq, Hv. Qed.
Print Assumptions gate_does_not_depend_on_stream_or_formatter.

(* WHAT THE SETTERS OF THE I/O REACH.  io.set_quiet(q) / io.set_verbosity(v), on any I/O of any world: BOTH outputs of that I/O
   get the value (nothing else about them changes), EVERY other output - the sections made from them BEFORE included - is left
   exactly as it was, and a section made AFTERWARDS (io.section()) starts with the value on both of its outputs (cf. /repo
   e696a15).  An invalid verbosity raises ValueError and changes nothing. *)
Theorem io_setters_reach_both_outputs : forall w i a b oa ob,
  nth_error (w_ios w) i = Some (a, b) -> nth_error (w_outs w) a = Some oa -> nth_error (w_outs w) b = Some ob ->
  (forall q, let r := GateIO.step w (ISetQuiet i q) in let w' := fst r in
     snd r = ODone /\ nth_error (w_outs w') a = Some (put_quiet q oa) /\ nth_error (w_outs w') b = Some (put_quiet q ob) /\
     (forall j, j <> a -> j <> b -> nth_error (w_outs w') j = nth_error (w_outs w) j) /\
     w_ios w' = w_ios w /\ length (w_outs w') = length (w_outs w) /\
     (w_cansec w = true ->
      let w2 := fst (GateIO.step w' (ISection i)) in
      snd (GateIO.step w' (ISection i)) = ODone /\
      nth_error (w_ios w2) (length (w_ios w)) = Some (length (w_outs w), S (length (w_outs w))) /\
      nth_error (w_outs w2) (length (w_outs w)) = Some (section_of (put_quiet q oa)) /\
      nth_error (w_outs w2) (S (length (w_outs w))) = Some (section_of (put_quiet q ob)))) /\
  (forall v, valid_verbosity v = true -> let r := GateIO.step w (ISetVerbosity i v) in let w' := fst r in
     snd r = ODone /\ nth_error (w_outs w') a = Some (put_verb v oa) /\ nth_error (w_outs w') b = Some (put_verb v ob) /\
     (forall j, j <> a -> j <> b -> nth_error (w_outs w') j = nth_error (w_outs w) j) /\
     w_ios w' = w_ios w /\ length (w_outs w') = length (w_outs w) /\
     (w_cansec w = true ->
      let w2 := fst (GateIO.step w' (ISection i)) in
      snd (GateIO.step w' (ISection i)) = ODone /\
      nth_error (w_ios w2) (length (w_ios w)) = Some (length (w_outs w), S (length (w_outs w))) /\
      nth_error (w_outs w2) (length (w_outs w)) = Some (section_of (put_verb v oa)) /\
      nth_error (w_outs w2) (S (length (w_outs w))) = Some (section_of (put_verb v ob)))) /\
  (forall v, valid_verbosity v = false -> GateIO.step w (ISetVerbosity i v) = (w, ORaised ValueError)).
Proof.
  intros w i a b oa ob Hi Ha Hb. split; [|split].
  - intros q. exact (io_setter_both w i a b oa ob (put_quiet q) (put_quiet_idem q) Hi Ha Hb).
  - intros v Hv. cbn zeta. rewrite (io_set_verbosity_valid w i (a, b) v Hi Hv).
    exact (io_setter_both w i a b oa ob (put_verb v) (put_verb_idem v) Hi Ha Hb).
  - intros v Hv. exact (io_set_verbosity_invalid w i (a, b) v Hi Hv).
Qed.
Print Assumptions io_setters_reach_both_outputs.
(* ... in particular a section made BEFORE the I/O is silenced (or turned up) keeps what it started with: the setters of an
   I/O do not reach the sections made from it earlier (they are objects of their own; their own setters do) *)
Theorem older_sections_keep_their_settings : forall w i a b oa ob s,
  nth_error (w_ios w) i = Some (a, b) -> nth_error (w_outs w) a = Some oa -> nth_error (w_outs w) b = Some ob ->
  w_cansec w = true -> (exists q, s = ISetQuiet i q) \/ (exists v, s = ISetVerbosity i v) ->
  let w1 := fst (GateIO.step w (ISection i)) in
  let w2 := fst (GateIO.step w1 s) in
  nth_error (w_ios w2) (length (w_ios w)) = Some (length (w_outs w), S (length (w_outs w))) /\
  nth_error (w_outs w2) (length (w_outs w)) = Some (section_of oa) /\
  nth_error (w_outs w2) (S (length (w_outs w))) = Some (section_of ob).
Proof.
  intros w i a b oa ob s Hi Ha Hb Hc Hs. cbn zeta. rewrite (io_section_step w i a b oa ob Hi Ha Hb Hc). cbn [fst].
  set (w1 := {| w_outs := _; w_ios := _; w_inter := _; w_cansec := _ |}).
  assert (a < length (w_outs w)) as La by (apply nth_error_Some; congruence).
  assert (b < length (w_outs w)) as Lb by (apply nth_error_Some; congruence).
  assert (nth_error (w_ios w1) i = Some (a, b)) as Hi1.
  { cbn [w1 w_ios]. rewrite nth_error_app1; [assumption|]. apply nth_error_Some. congruence. }
  assert (is_quiet_setter s || is_verb_setter s = true) as G by (destruct Hs as [[q ->]|[v ->]]; reflexivity).
  pose proof (setter_effect w1 s G) as (A & _ & _ & D). cbn zeta in *.
  (* the setter reaches a and b, which are older than the two new outputs *)
  assert (forall j, length (w_outs w) <= j -> setter_touch w1 s j = false) as Ht.
  { intros j Hj. destruct Hs as [[q ->]|[v ->]]; cbn [setter_touch]; rewrite Hi1;
      rewrite (proj2 (PeanoNat.Nat.eqb_neq a j)), (proj2 (PeanoNat.Nat.eqb_neq b j)) by Lia.lia; reflexivity. }
  split; [|split].
  - rewrite A. cbn [w1 w_ios]. apply nth_error_app_at.
  - rewrite D, Ht by Lia.lia. cbn [w1 w_outs]. apply nth_error_app_at.
  - rewrite D, Ht by Lia.lia. cbn [w1 w_outs]. apply nth_error_app_at1.
Qed.
Print Assumptions older_sections_keep_their_settings.

(* SECTIONS OF SECTIONS exist in the code: SectionOutput inherits Output.section().  Called on ANY output object x - an output,
   a section, a section of a section - it makes a section output on x's stream that starts with x's quiet flag, verbosity and
   indentation (and x's formatter); afterwards the two are independent objects.  (The new object keeps its own, fresh list of
   sections - `self._section_outputs` of x, not the list x itself lives in -, so the STACKING of C15 does not extend to it:
   Model/GatedSection.v and C15 do not model a section of a section; the gate does.) *)
Theorem section_of_any_output_starts_with_its_settings : forall w j x, nth_error (w_outs w) j = Some x ->
  GateIO.step w (OSection j) =
    ({| w_outs := w_outs w ++ [section_of x]; w_ios := w_ios w; w_inter := w_inter w; w_cansec := w_cansec w |}, ODone) /\
  s_quiet (section_of x) = s_quiet x /\ s_verb (section_of x) = s_verb x /\ s_indent (section_of x) = s_indent x /\
  s_sid (section_of x) = s_sid x /\ s_fk (section_of x) = s_fk x /\ s_sec (section_of x) = true.
Proof. intros w j x H. cbn [GateIO.step]. rewrite H. repeat split. Qed.
Print Assumptions section_of_any_output_starts_with_its_settings.

(* ONLY THE LAST VALUE COUNTS.  gives_quiet w op j / gives_verb w op j: the quiet value / the (valid) verbosity the call op gives
   to output j - io.set_quiet / set_verbosity when j is one of the two outputs of that I/O, output.set_quiet / set_verbosity
   when it is that output; every other call, and set_verbosity with an invalid level, gives none.  After ANY history h -
   setters in any order and repetition, set_stream, set_formatter, indent, set_interactive, section() at every level, writes,
   calls that raise - an output that existed at the start has the LAST quiet value and the LAST verbosity a call of h gave it,
   or what it had when no call gave it one. *)
Theorem settings_are_the_last_values_given : forall w j o, nth_error (w_outs w) j = Some o -> forall h,
  option_map s_quiet (nth_error (w_outs (GateIO.exec w h)) j) = Some (or_else (last_given (fun op => gives_quiet w op j) h) (s_quiet o)) /\
  option_map s_verb (nth_error (w_outs (GateIO.exec w h)) j) = Some (or_else (last_given (fun op => gives_verb w op j) h) (s_verb o)).
Proof.
  intros w j o Ho. assert (j < length (w_outs w)) as Hj by (apply nth_error_Some; congruence).
  induction h as [|op h IH] using rev_ind.
  - cbn. rewrite Ho. split; reflexivity.
  - (* the world before the last call is reached from w: one more call, seen from output j *)
    destruct IH as [IHq IHv]. rewrite exec_snoc, !last_given_snoc.
    pose proof (ext_exec h w w (ext_refl w)) as He. split.
    + rewrite (step_quiet_of w _ op j He Hj), IHq. cbn [field_after]. destruct (gives_quiet w op j); reflexivity.
    + rewrite (step_verb_of w _ op j He Hj), IHv. cbn [field_after]. destruct (gives_verb w op j); reflexivity.
Qed.
Print Assumptions settings_are_the_last_values_given.
Theorem run_ends_where_exec_ends : forall h w, fst (GateIO.run w h) = GateIO.exec w h.
Proof. exact run_exec. Qed.
Print Assumptions run_ends_where_exec_ends.
(* ... hence two histories that give the two outputs of an I/O the same last values leave each of its eight writing methods
   with the same answer, for every flag word - whatever else the histories did and in whatever order *)
Theorem gate_depends_only_on_the_last_values_given : forall w i a b h1 h2,
  wf w -> nth_error (w_ios w) i = Some (a, b) ->
  (forall j, j = a \/ j = b ->
     last_given (fun op => gives_quiet w op j) h1 = last_given (fun op => gives_quiet w op j) h2 /\
     last_given (fun op => gives_verb w op j) h1 = last_given (fun op => gives_verb w op j) h2) ->
  forall m fl, emitted (snd (GateIO.step (GateIO.exec w h1) (IWrite i m fl))) = emitted (snd (GateIO.step (GateIO.exec w h2) (IWrite i m fl))).
Proof.
  intros w i a b h1 h2 Hw Hi Hl m fl.
  destruct (wf_io_outputs w i a b Hw Hi) as ([oa Ha] & [ob Hb] & _).
  set (j := pick (fst (fst (io_delegate m))) (a, b)).
  assert (j = a \/ j = b) as Hj by (unfold j, pick; destruct (fst (fst (io_delegate m))); cbn; auto).
  assert (exists o, nth_error (w_outs w) j = Some o) as [o Ho] by (destruct Hj as [-> | ->]; eauto).
  destruct (Hl j Hj) as [Lq Lv].
  destruct (settings_are_the_last_values_given w j o Ho h1) as [Q1 V1]. destruct (settings_are_the_last_values_given w j o Ho h2) as [Q2 V2].
  assert (forall h, nth_error (w_ios (GateIO.exec w h)) i = Some (a, b)) as Hio.
  { intros h. apply (ext_ios_old w). apply ext_exec, ext_refl. assumption. }
  destruct (nth_error (w_outs (GateIO.exec w h1)) j) as [o1|] eqn:E1; [|discriminate].
  destruct (nth_error (w_outs (GateIO.exec w h2)) j) as [o2|] eqn:E2; [|discriminate].
  rewrite (io_write_step _ i m fl (a, b) o1 (Hio h1) E1), (io_write_step _ i m fl (a, b) o2 (Hio h2) E2).
  cbn [snd emitted option_map] in *. injection Q1 as Q1. injection Q2 as Q2. injection V1 as V1. injection V2 as V2.
  now rewrite Q1, Q2, V1, V2, Lq, Lv.
Qed.
Print Assumptions gate_depends_only_on_the_last_values_given.
(* ... and a set_quiet and a set_verbosity - each on an I/O or on one output, the same objects or different ones, a valid
   level or one that raises - leave the SAME WORLD in either order *)
Theorem set_quiet_and_set_verbosity_commute : forall w s1 s2, is_quiet_setter s1 = true -> is_verb_setter s2 = true ->
  GateIO.exec w [s1; s2] = GateIO.exec w [s2; s1].
Proof.
  intros w s1 s2 H1 H2. unfold GateIO.exec. cbn [fold_left].
  assert (is_quiet_setter s1 || is_verb_setter s1 = true) as G1 by now rewrite H1.
  assert (is_quiet_setter s2 || is_verb_setter s2 = true) as G2 by (rewrite H2; apply orb_true_r).
  pose proof (setter_effect w s1 G1) as (A1 & B1 & C1 & D1). pose proof (setter_effect (fst (GateIO.step w s1)) s2 G2) as (A2 & B2 & C2 & D2).
  pose proof (setter_effect w s2 G2) as (A3 & B3 & C3 & D3). pose proof (setter_effect (fst (GateIO.step w s2)) s1 G1) as (A4 & B4 & C4 & D4).
  (* output by output: both setters reach it or not in either order, and what they do to it commutes *)
  apply world_ext; try congruence. apply nth_error_ext. intros j. rewrite D2, D1, D4, D3.
  rewrite (setter_touch_ios _ w s2 j A1), (setter_touch_ios _ w s1 j A3).
  destruct (setter_touch w s2 j), (setter_touch w s1 j); try reflexivity.
  destruct (nth_error (w_outs w) j); cbn [option_map]; [|reflexivity]. now rewrite quiet_verb_fn_commute.
Qed.
Print Assumptions set_quiet_and_set_verbosity_commute.

(* MONOTONE ALONG HISTORIES.  raises op op': op' is op itself, or the same set_quiet leaving quiet mode where op entered it
   (q' = true -> q = true), or the same set_verbosity with a level at least as high (both valid).  obs_le x x': the two calls
   showed the same, except that a writing call whose text did not reach the stream in x may reach it in x' - never the other
   way round.  For every pair of histories related call by call: every text shown by the first is shown by the second, on the
   same stream.  Raising the verbosity or leaving quiet mode ANYWHERE in a history never removes a write ANYWHERE later. *)
Theorem io_monotone : forall k sa se cs h h', Forall2 raises h h' ->
  Forall2 obs_le (snd (GateIO.run (world0 k sa se cs) h)) (snd (GateIO.run (world0 k sa se cs) h')).
Proof. intros k sa se cs h h' H. exact (proj1 (run_le h h' H _ _ (le_world_refl _))). Qed.
Print Assumptions io_monotone.
(* the same from any two worlds of which the second is at least as permissive, output by output (le_world) *)
Theorem io_monotone_from_any_worlds : forall h h', Forall2 raises h h' -> forall w w', le_world w w' ->
  Forall2 obs_le (snd (GateIO.run w h)) (snd (GateIO.run w' h')) /\ le_world (fst (GateIO.run w h)) (fst (GateIO.run w' h')).
Proof. exact run_le. Qed.
Print Assumptions io_monotone_from_any_worlds.

(* instances: the hypotheses above are inhabited *)
Definition w_plain : world := world0 FPlain false false true.
(* "set_verbosity; write; set_quiet; write" and "set_quiet; write; set_verbosity; write": in BOTH orders *)
Example setters_in_both_orders :
  snd (GateIO.run w_plain [ISetVerbosity 0 VERBOSE; IWrite 0 IoWriteLine (Some VERBOSE); ISetQuiet 0 true;
                           IWrite 0 IoWriteLine (Some VERBOSE); IWrite 0 IoErrorLine None])
    = [ODone; OWrote 0 true; ODone; OWrote 0 false; OWrote 1 false] /\
  snd (GateIO.run w_plain [ISetQuiet 0 true; IWrite 0 IoWriteLine (Some VERBOSE); ISetVerbosity 0 VERBOSE;
                           IWrite 0 IoWriteLine (Some VERBOSE); ISetQuiet 0 false; IWrite 0 IoErrorLine (Some VERBOSE);
                           IWrite 0 IoErrorRaw (Some VERY_VERBOSE)])
    = [ODone; OWrote 0 false; ODone; OWrote 0 false; ODone; OWrote 1 true; OWrote 1 false] /\
  GateIO.exec w_plain [ISetQuiet 0 true; ISetVerbosity 0 DEBUG] = GateIO.exec w_plain [ISetVerbosity 0 DEBUG; ISetQuiet 0 true].
Proof. vm_compute. repeat split. Qed.
(* a section made before the I/O is silenced still writes (I/O 1, outputs 2 and 3); the I/O itself does not; a section made
   afterwards (I/O 2, outputs 4 and 5) starts quiet and stays so when the parent leaves quiet mode; a section of that section
   (output 6) starts quiet too, until it is told otherwise itself - and then overwrite, which takes no flags, writes *)
Example io_setters_and_sections :
  snd (GateIO.run w_plain [ISection 0; ISetQuiet 0 true; IWrite 1 IoWriteLine None; IWrite 1 IoError None; IWrite 0 IoWriteLine None;
                           ISection 0; IWrite 2 IoErrorLine None; ISetQuiet 0 false; IWrite 2 IoErrorLine None; IWrite 0 IoErrorLine None;
                           OSection 4; OWrite 6 WmWriteLine None; OSetQuiet 6 false; OWrite 6 WmOverwrite None; OWrite 4 WmWriteLine None])
    = [ODone; ODone; OWrote 0 true; OWrote 1 true; OWrote 0 false;
       ODone; OWrote 1 false; ODone; OWrote 1 false; OWrote 1 true;
       ODone; OWrote 0 false; ODone; OWrote 0 true; OWrote 0 false].
Proof. vm_compute. reflexivity. Qed.
(* an invalid level raises and changes nothing; NullIO cannot make a section; set_stream moves the text, set_formatter and
   set_stream change `decorated`, neither changes the gate; an Output has no overwrite *)
Example invalid_level_null_io_streams :
  GateIO.step w_plain (ISetVerbosity 0 3) = (w_plain, ORaised ValueError) /\
  GateIO.step w_plain (OSetVerbosity 1 (-1)) = (w_plain, ORaised ValueError) /\
  GateIO.step (world0 FNull false false false) (ISection 0) = (world0 FNull false false false, ORaised TYPE_ERROR) /\
  GateIO.step w_plain (OWrite 0 WmOverwrite None) = (w_plain, ORaised ATTRIBUTE_ERROR) /\
  snd (GateIO.run w_plain [ISetVerbosity 0 VERBOSE; OSetStream 1 2 true; ISetFormatter 0 (FAnsi false); IWrite 0 IoError (Some VERBOSE);
                           IWrite 0 IoError (Some DEBUG); IWrite 0 IoWrite (Some VERBOSE)])
    = [ODone; ODone; ODone; OWrote 2 true; OWrote 2 false; OWrote 0 true] /\
  map s_fo (w_outs (GateIO.exec w_plain [OSetStream 1 2 true; ISetFormatter 0 FPlain])) = [false; true] /\
  map s_fo (w_outs (GateIO.exec (world0 FPlain true true true) [])) = [false; false].
Proof. vm_compute. repeat split. Qed.
(* io_monotone is not vacuous: two related histories, the second leaves quiet mode and raises the verbosity; a text refused
   in the first is shown in the second *)
Example io_monotone_instance :
  let h := [ISetQuiet 0 true; ISetVerbosity 0 NORMAL; ISection 0; IWrite 1 IoErrorLine (Some VERY_VERBOSE); IWrite 0 IoWrite None] in
  let h' := [ISetQuiet 0 false; ISetVerbosity 0 VERY_VERBOSE; ISection 0; IWrite 1 IoErrorLine (Some VERY_VERBOSE); IWrite 0 IoWrite None] in
  Forall2 raises h h' /\
  snd (GateIO.run w_plain h) = [ODone; ODone; ODone; OWrote 1 false; OWrote 0 false] /\
  snd (GateIO.run w_plain h') = [ODone; ODone; ODone; OWrote 1 true; OWrote 0 true].
Proof.
  split; [|vm_compute; split; reflexivity].
  repeat constructor; try discriminate; try reflexivity; unfold NORMAL, VERY_VERBOSE; discriminate.
Qed.
(* the last values given: output 1 (the error output) is reached by io.set_quiet and by its own setter, not by output 0's;
   an invalid level gives nothing *)
Example last_values_instance :
  let h := [ISetQuiet 0 true; ISetVerbosity 0 DEBUG; OSetQuiet 0 false; OSetVerbosity 0 VERBOSE; ISetVerbosity 0 3; IWrite 0 IoError None] in
  last_given (fun op => gives_quiet w_plain op 1) h = Some true /\ last_given (fun op => gives_verb w_plain op 1) h = Some DEBUG /\
  last_given (fun op => gives_quiet w_plain op 0) h = Some false /\ last_given (fun op => gives_verb w_plain op 0) h = Some VERBOSE /\
  map (fun o => (s_quiet o, s_verb o)) (w_outs (GateIO.exec w_plain h)) = [(false, VERBOSE); (true, DEBUG)] /\ wf w_plain.
Proof. split; [|split; [|split; [|split; [|split]]]]; try (vm_compute; reflexivity). apply wf_world0. Qed.
