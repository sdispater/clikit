(* C06 - an args format can never be built into an inconsistent state.
   wf f = names_wf f /\ args_wf f :
     names_wf : every long name, short name and alias denotes at most one option across the format and its bases;
     args_wf  : at most one multi-valued argument and it is last, no required argument after an optional one
                (order_ok over base arguments followed by own), and the builder's flags agree with the arguments. *)
From Clikit Require Import Base.Prelude Base.Res Model.Conv Model.Format Proofs.FormatLemmas Proofs.FormatAgreeLemmas.

(* Each single addition is either rejected - and then the builder is exactly the old one - ...
   (This is fst (lift (Err k) f) = f, true by the definition of lift; its content is the SHAPE of the model - every add_*
   checks before it mutates - which is the shape of ArgsFormatBuilder.add_option / add_argument / add_command_option:
   all checks precede the first assignment.) *)
Theorem rejected_add_leaves_builder_unchanged : forall f o k,
  match o with AddOption _ | AddCommandOption _ | AddArgument _ | AddCommandName _ => True | _ => False end ->
  snd (bstep f o) = Some k -> fst (bstep f o) = f.
Proof.
  intros f o k. destruct o; try contradiction; intros _; cbn [bstep];
    match goal with |- context [lift ?r f] => destruct r end; cbn; congruence.
Qed.
Print Assumptions rejected_add_leaves_builder_unchanged.

(* ... or leaves a well-formed builder; replacements (the set operations) keep well-formedness too. *)
Theorem step_keeps_wf : forall f o, wf f -> bop_valid o = true -> wf (fst (bstep f o)).
Proof. exact (bstep_preserves wf_invariant). Qed.
Print Assumptions step_keeps_wf.

(* Whatever sequence of additions and replacements is applied on top of any well-formed base. *)
Theorem reachable_wf : forall ops f, wf f -> forallb bop_valid ops = true -> wf (brun f ops).
Proof. exact (brun_preserves wf_invariant). Qed.
Print Assumptions reachable_wf.
Theorem empty_builder_wf : wf (empty_builder None) /\ forall bf, wf bf -> wf (empty_builder (Some bf)).
Proof. split; [exact empty_builder_wf_none | exact empty_builder_wf_some]. Qed.
Print Assumptions empty_builder_wf.

(* The finished format answers the argument / listing / predicate queries exactly as the builder, for every
   builder state whatsoever (these fields are copied).  The option queries, which go through the rebuilt
   short-name and command-option indexes, need the builder invariant idx_inv: see
   format_agrees_with_builder below, which covers every query. *)
Theorem format_agrees_with_builder_partial : forall f r incl,
  has_argument (build_format f) r incl = has_argument f r incl /\
  get_argument (build_format f) r incl = get_argument f r incl /\
  get_arguments (build_format f) incl = get_arguments f incl /\
  has_multi (build_format f) incl = has_multi f incl /\ has_optional (build_format f) incl = has_optional f incl /\
  has_required (build_format f) incl = has_required f incl /\
  get_command_names (build_format f) incl = get_command_names f incl /\
  get_options (build_format f) incl = get_options f incl.
Proof. exact build_format_arg_queries. Qed.
Print Assumptions format_agrees_with_builder_partial.
Theorem format_args_wf : forall f, args_wf f -> args_wf (build_format f).
Proof. exact build_format_args_wf. Qed.
Print Assumptions format_args_wf.

(* queries are sound w.r.t. the listing: the flags say what the listed arguments imply *)
Theorem predicates_sound : forall f, args_inv f ->
  has_multi_all f = existsb a_multi (args_of f) /\ has_optional_all f = existsb a_optional (args_of f).
Proof. intros f H. split; [apply has_multi_all_spec | apply has_optional_all_spec]; exact H. Qed.
Print Assumptions predicates_sound.

(* ---- FULL agreement of the finished format with its builder ----
   ArgsFormat(builder) copies base, command names, arguments, options and flags, and REBUILDS the option
   short-name index and both command-option indexes (long names + long aliases, short names + short aliases)
   from the listings.  idx_inv f says that the builder's own indexes are exactly the rebuilt ones:
     f_opts_short f = short_index (f_opts f)                      (short_index: the loop of ArgsFormat.__init__)
     (f_copts f, f_copts_short f) = index_copts (map snd (f_copts f))
   ask f q is the answer of f to the public query q (every has_* / get_* of the model, with its name /
   position argument and its include_base flag, and base_format). *)
Theorem format_agrees_with_builder : forall f, idx_inv f -> forall q, ask (build_format f) q = ask f q.
Proof. intros f Hi q. now rewrite (idx_inv_build f Hi). Qed.
Print Assumptions format_agrees_with_builder.

(* in fact the built format IS the builder state, field by field *)
Theorem built_format_is_builder_state : forall f, idx_inv f -> build_format f = f.
Proof. exact idx_inv_build. Qed.
Print Assumptions built_format_is_builder_state.

(* idx_inv is an invariant of reachable builders: it holds for the empty builder over ANY base (no hypothesis
   on the base, on the added elements or on the success of the additions) and every operation keeps it *)
Theorem idx_inv_empty_builder : forall base, idx_inv (empty_builder base).
Proof. exact empty_builder_idx. Qed.
Print Assumptions idx_inv_empty_builder.
Theorem step_keeps_idx_inv : forall f o, idx_inv f -> idx_inv (fst (bstep f o)).
Proof. intros f o Hi. exact (bstep_preserves idx_invariant f o Hi (ops_ok_any o)). Qed.
Print Assumptions step_keeps_idx_inv.
Theorem reachable_idx_inv : forall ops f, idx_inv f -> idx_inv (brun f ops).
Proof. exact brun_keeps_idx. Qed.
Print Assumptions reachable_idx_inv.

(* hence: whatever was added or replaced, accepted or rejected, over whatever base *)
Theorem reachable_format_agrees_with_builder : forall base ops q,
  ask (build_format (brun (empty_builder base) ops)) q = ask (brun (empty_builder base) ops) q.
Proof. intros base ops q. now rewrite reachable_build_id. Qed.
Print Assumptions reachable_format_agrees_with_builder.

(* ArgsFormat(elements, base): the format answers as the builder that received the elements *)
Theorem format_of_elements_agrees_with_builder : forall es base f b,
  add_elements (empty_builder base) es = Ok b -> format_of_elements es base = Ok f ->
  forall q, ask f q = ask b q.
Proof.
  intros es base f b Hb Hf q. unfold format_of_elements in Hf. rewrite Hb in Hf. injection Hf as <-.
  now rewrite idx_inv_build by (eapply add_elements_keeps_idx; [apply empty_builder_idx|exact Hb]).
Qed.
Print Assumptions format_of_elements_agrees_with_builder.

(* the option queries of the statement spelled out (n ranges over long names, short names and aliases alike) *)
Theorem format_agrees_with_builder_options : forall f, idx_inv f -> forall n incl,
  has_option (build_format f) n incl = has_option f n incl /\
  get_option (build_format f) n incl = get_option f n incl /\
  has_command_option (build_format f) n incl = has_command_option f n incl /\
  get_command_option (build_format f) n incl = get_command_option f n incl /\
  get_command_options (build_format f) incl = get_command_options f incl /\
  has_command_options (build_format f) incl = has_command_options f incl /\
  has_options (build_format f) incl = has_options f incl /\
  has_arguments (build_format f) incl = has_arguments f incl /\
  has_command_names (build_format f) incl = has_command_names f incl.
Proof. intros f Hi n incl. rewrite (idx_inv_build f Hi). repeat split; reflexivity. Qed.
Print Assumptions format_agrees_with_builder_options.

(* reading of the rebuilt short-name index: it holds exactly the short names of the listed options *)
Theorem short_index_reading : forall os,
  (forall s o, sget s (short_index os) = Some o -> In o (map snd os) /\ o_short o = Some s) /\
  (forall o s, In o (map snd os) -> o_short o = Some s ->
     exists o', sget s (short_index os) = Some o' /\ o_short o' = Some s).
Proof. intros os. split; [apply short_index_sound | apply short_index_complete]. Qed.
Print Assumptions short_index_reading.

(* Instance: base format { --verbose/-v ; command option help/-h, long alias usage, short alias -? };
   builder over it: --force/-f, --quiet/-q, command option add/-a with long aliases new, create and short
   alias -n, argument file, then --v (rejected: the name is taken in the base).
   The invariant holds, and the built format answers by long name, short name and alias, own and inherited. *)
Example format_agrees_instance :
  let verbose := {| o_long := [118;101;114;98;111;115;101]%N; o_short := Some [118]%N; o_flags := 4; o_default := VNone |} in
  let help := {| co_long := [104;101;108;112]%N; co_short := Some [104]%N; co_lals := [[117;115;97;103;101]%N]; co_sals := [[63]%N] |} in
  let force := {| o_long := [102;111;114;99;101]%N; o_short := Some [102]%N; o_flags := 4; o_default := VNone |} in
  let quiet := {| o_long := [113;117;105;101;116]%N; o_short := Some [113]%N; o_flags := 4; o_default := VNone |} in
  let add := {| co_long := [97;100;100]%N; co_short := Some [97]%N;
                co_lals := [[110;101;119]%N; [99;114;101;97;116;101]%N]; co_sals := [[110]%N] |} in
  let file := {| a_name := [102;105;108;101]%N; a_flags := 1; a_default := VNone |} in
  let clash := {| o_long := [118]%N; o_short := None; o_flags := 4; o_default := VNone |} in
  match format_of_elements [EOpt verbose; ECOpt help] None with Err _ => False | Ok base =>
  let ops := [AddOption force; AddOption quiet; AddCommandOption add; AddArgument file; AddOption clash] in
  let b := brun (empty_builder (Some base)) ops in
  let F := build_format b in
  idx_inv b /\ F = b /\
  snd (bstep (brun (empty_builder (Some base)) (removelast ops)) (AddOption clash)) = Some CannotAddOption /\
  map fst (f_opts_short F) = [[102]%N; [113]%N] /\
  map fst (f_copts F) = [[97;100;100]%N; [110;101;119]%N; [99;114;101;97;116;101]%N] /\
  map fst (f_copts_short F) = [[97]%N; [110]%N] /\
  get_option F [102;111;114;99;101]%N false = Ok force /\ get_option F [102]%N false = Ok force /\
  get_option F [113]%N true = Ok quiet /\
  get_option F [118]%N true = Ok verbose /\ get_option F [118]%N false = Err NoSuchOption /\
  has_option F [118]%N true = true /\ has_option F [118]%N false = false /\
  get_command_option F [97;100;100]%N false = Ok add /\ get_command_option F [97]%N false = Ok add /\
  get_command_option F [99;114;101;97;116;101]%N false = Ok add /\ get_command_option F [110]%N false = Ok add /\
  get_command_option F [117;115;97;103;101]%N true = Ok help /\ get_command_option F [63]%N true = Ok help /\
  get_command_option F [63]%N false = Err NoSuchOption /\
  has_command_option F [110;101;119]%N false = true /\ has_command_option F [104]%N true = true /\
  has_command_option F [104]%N false = false /\
  get_command_options F false = [add; add; add] /\ get_command_options F true = [add; add; add; help; help] /\
  get_command_options b true = [add; add; add; help; help]
  end.
Proof. vm_compute. repeat split; reflexivity. Qed.

From Clikit Require Import Model.Flags Proofs.FmtOkLemmas Proofs.FormatWfLemmas.

(* "constructing directly enforces the same rules": ArgsFormat(elements, base) is well-formed ... *)
Theorem format_of_elements_wf : forall es base f,
  match base with Some b => wf b | None => True end -> forallb element_valid es = true ->
  format_of_elements es base = Ok f -> wf f.
Proof. exact format_of_elements_wf_lemma. Qed.
Print Assumptions format_of_elements_wf.
(* ... because it IS the builder route *)
Theorem format_of_elements_is_built : forall es base f,
  format_of_elements es base = Ok f -> f = build_format (brun (empty_builder base) (map op_of_element es)).
Proof. exact format_of_elements_built. Qed.
Print Assumptions format_of_elements_is_built.
(* a builder over a well-formed (or no) base, any valid operations, then .format: well-formed *)
Theorem built_format_wf : forall base ops,
  match base with Some b => wf b | None => True end -> forallb bop_valid ops = true ->
  wf (build_format (brun (empty_builder base) ops)).
Proof. exact built_format_wf_lemma. Qed.
Print Assumptions built_format_wf.
(* an API-built format used as a base and built on again *)
Theorem stacked_wf : forall ops0 ops1,
  forallb bop_valid ops0 = true -> forallb bop_valid ops1 = true ->
  wf (build_format (brun (empty_builder (Some (build_format (brun (empty_builder None) ops0)))) ops1)).
Proof. intros ops0 ops1 H0 H1. apply (built_format_wf (Some _)); [|exact H1]. now apply (built_format_wf None). Qed.
Print Assumptions stacked_wf.
(* any depth of stacking (api_format: Proofs/FmtOkLemmas.v) *)
Theorem api_format_wf : forall f, api_format f -> wf f.
Proof. induction 1; [now apply (built_format_wf None)|now apply (built_format_wf (Some bf))]. Qed.
Print Assumptions api_format_wf.

(* the hypothesis bop_valid / element_valid - an added argument carries exactly one of REQUIRED / OPTIONAL - is what the
   constructor Argument() of C07 guarantees (mk_argument: Model/Flags.v; the default value plays no role) *)
Theorem constructed_arg_valid : forall n f d o dv,
  mk_argument n f d = Ok o -> arg_valid (arg_of_obj o dv) = true.
Proof. exact constructed_arg_valid_lemma. Qed.
Print Assumptions constructed_arg_valid.
Theorem constructed_arg_bop_valid : forall n f d o dv,
  mk_argument n f d = Ok o -> bop_valid (AddArgument (arg_of_obj o dv)) = true /\ element_valid (EArg (arg_of_obj o dv)) = true.
Proof. intros n f d o dv H. split; exact (constructed_arg_valid n f d o dv H). Qed.
Print Assumptions constructed_arg_bop_valid.
(* the hypothesis is necessary: an object no constructor yields (neither REQUIRED nor OPTIONAL) breaks the order rule *)
Example unvalidated_argument_breaks_order :
  let a0 := {| a_name := [97]%N; a_flags := 0; a_default := VNone |} in
  let a1 := {| a_name := [98]%N; a_flags := 1; a_default := VNone |} in
  arg_valid a0 = false /\
  snd (bstep (fst (bstep (empty_builder None) (AddArgument a0))) (AddArgument a1)) = None /\
  order_ok (args_of (brun (empty_builder None) [AddArgument a0; AddArgument a1])) = false.
Proof. exact FormatWfExamples.unvalidated_argument_breaks_order. Qed.
Print Assumptions unvalidated_argument_breaks_order.
Example constructed_arg_instance :
  match mk_argument (NStr [112;111;114;116]%N) 66 DNone with
  | Ok o => ao_flags o = 66%Z /\ arg_valid (arg_of_obj o VNone) = true /\ bop_valid (AddArgument (arg_of_obj o VNone)) = true
  | Err _ => False end /\
  match mk_argument (NStr [120]%N) 0 DNone with
  | Ok o => ao_flags o = 18%Z /\ arg_valid (arg_of_obj o VNone) = true | Err _ => False end /\
  mk_argument (NStr [120]%N) 3 DNone = Err ValueError.
Proof. exact FormatWfExamples.constructed_instance. Qed.
Print Assumptions constructed_arg_instance.

(* "as the listed elements imply": the listings are in insertion order.
   fmt_inv (Proofs/FmtOkLemmas.v; kept by every builder operation, C01.fmt_inv_step / reachable_fmt_ok) is wf's args_wf
   plus: arguments and options are listed under their own (long) names and no listed option shares a name with another,
   also across the base chain.  With include_base: arguments and command names list the BASE's first, options and command
   options the OWN first (ArgsFormat.get_arguments: base.update(own); get_options: own.update(base)). *)
Theorem listing_order : forall f, fmt_inv f ->
  get_arguments f true = match f_base f with Some bf => get_arguments bf true | None => [] end ++ get_arguments f false /\
  get_command_names f true = match f_base f with Some bf => get_command_names bf true | None => [] end ++ get_command_names f false /\
  get_options f true = get_options f false ++ match f_base f with Some bf => get_options bf true | None => [] end /\
  get_command_options f true = get_command_options f false ++ match f_base f with Some bf => get_command_options bf true | None => [] end.
Proof. intros f ([Hai _] & _ & Ho). exact (listing_order_lemma f Hai Ho). Qed.
Print Assumptions listing_order.
(* an accepted addition goes to the end of the own listing and leaves the other listings alone (any builder state) *)
Theorem accepted_argument_is_listed_last : forall f a f', add_argument f a = Ok f' ->
  get_arguments f' false = get_arguments f false ++ [(a_name a, a)] /\ get_options f' false = get_options f false /\
  get_command_names f' false = get_command_names f false.
Proof. exact add_argument_appends. Qed.
Print Assumptions accepted_argument_is_listed_last.
Theorem accepted_option_is_listed_last : forall f o f', add_option f o = Ok f' ->
  get_options f' false = get_options f false ++ [(o_long o, o)] /\ get_arguments f' false = get_arguments f false /\
  get_command_names f' false = get_command_names f false.
Proof. exact add_option_appends. Qed.
Print Assumptions accepted_option_is_listed_last.
Theorem accepted_command_name_is_listed_last : forall f c f', add_command_name f c = Ok f' ->
  get_command_names f' false = get_command_names f false ++ [c] /\ get_arguments f' false = get_arguments f false /\
  get_options f' false = get_options f false.
Proof. exact add_cname_appends. Qed.
Print Assumptions accepted_command_name_is_listed_last.
(* ArgsFormat(elements, base): the own listings are exactly the arguments / options / command names among the elements, in
   the order given (args_in, opts_in, cnames_in: the sublists of es, keyed by name / long name) *)
Theorem format_of_elements_lists : forall es base f,
  match base with Some bf => fmt_inv bf | None => True end -> forallb element_valid es = true ->
  format_of_elements es base = Ok f ->
  get_arguments f false = args_in es /\ get_options f false = opts_in es /\ get_command_names f false = cnames_in es /\
  get_arguments f true = match base with Some bf => get_arguments bf true | None => [] end ++ args_in es /\
  get_options f true = opts_in es ++ match base with Some bf => get_options bf true | None => [] end /\
  get_command_names f true = match base with Some bf => get_command_names bf true | None => [] end ++ cnames_in es.
Proof. exact format_of_elements_lists_lemma. Qed.
Print Assumptions format_of_elements_lists.

(* Instance.  B = ArgsFormat([server/srv, <host>, --verbose/-v, command option help/-h]);
   F = ArgsFormat([--force/-f, add, [<port:int>], --quiet/-q, [<files>...]], B).  Both are well-formed, the listings
   interleave as stated, and the rules are enforced against the base: a required argument after the optional ones, an
   argument after the inherited-required / own-multi order is broken, an option whose short name the base uses. *)
Example stacked_format_instance :
  let B := FormatWfExamples.B in let F := FormatWfExamples.F in
  wf B /\ wf F /\ f_base F = Some B /\
  map fst (get_arguments F false) = [a_name FormatWfExamples.port; a_name FormatWfExamples.files] /\
  map fst (get_arguments F true) = [a_name FormatWfExamples.host; a_name FormatWfExamples.port; a_name FormatWfExamples.files] /\
  map fst (get_options F false) = [o_long FormatWfExamples.force; o_long FormatWfExamples.quiet] /\
  map fst (get_options F true) = [o_long FormatWfExamples.force; o_long FormatWfExamples.quiet; o_long FormatWfExamples.verbose] /\
  get_command_names F true = [FormatWfExamples.server; FormatWfExamples.add] /\
  format_of_elements (FormatWfExamples.own_es ++ [EArg {| a_name := [120]%N; a_flags := 17; a_default := VNone |}]) (Some B) = Err CannotAddArgument /\
  format_of_elements [EArg FormatWfExamples.port; EArg FormatWfExamples.host] (Some B) = Err CannotAddArgument /\
  format_of_elements [EOpt {| o_long := [118;118]%N; o_short := Some [118]%N; o_flags := 134; o_default := VNone |}] (Some B) = Err CannotAddOption.
Proof. exact FormatWfExamples.stacked_instance. Qed.
Print Assumptions stacked_format_instance.
(* A negative position names no argument: has_argument(-1) is False and get_argument(-1) raises NoSuchArgumentException
   (since fix c06-finished-format; before it get_argument fell through to Python's negative indexing - the LAST argument,
   IndexError below -len).  The C06 generator asks positions -2..6. *)
Example negative_position_is_no_argument :
  has_argument FormatWfExamples.F (APos (-1)) true = false /\ get_argument FormatWfExamples.F (APos (-1)) true = Err NoSuchArgument /\
  get_argument FormatWfExamples.F (APos 3) true = Err NoSuchArgument /\
  get_argument FormatWfExamples.F (APos 2) true = Ok FormatWfExamples.files.
Proof. vm_compute. repeat split; reflexivity. Qed.
Print Assumptions negative_position_is_no_argument.

(* lookup by position, for EVERY integer position (negative ones included): existence and lookup agree and both are
   the listing's answer - position i names the i-th listed argument when 0 <= i < number of arguments and nothing
   otherwise (NoSuchArgument; since fix c06-finished-format also for negative positions, where the code used to fall
   through to Python's negative indexing) *)
Theorem position_lookup_reads_the_listing : forall f i incl,
  get_argument f (APos i) incl = match nth_arg (get_arguments f incl) i with Some a => Ok a | None => Err NoSuchArgument end /\
  has_argument f (APos i) incl = match nth_arg (get_arguments f incl) i with Some _ => true | None => false end.
Proof. intros. split; [apply get_argument_pos | apply has_argument_pos]. Qed.
Print Assumptions position_lookup_reads_the_listing.
Example negative_position_names_nothing :
  let a1 := {| a_name := [98]%N; a_flags := 1; a_default := VNone |} in
  let b := brun (empty_builder None) [AddArgument a1] in
  get_argument b (APos (-1)) true = Err NoSuchArgument /\ has_argument b (APos (-1)) true = false /\
  get_argument b (APos (-2)) true = Err NoSuchArgument /\ get_argument b (APos 0) true = Ok a1 /\
  get_argument b (APos 1) true = Err NoSuchArgument.
Proof. vm_compute. repeat split; reflexivity. Qed.
