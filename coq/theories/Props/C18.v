(* C18 - questions return only valid answers, count attempts exactly and terminate.
   The input is a script of typed lines followed by end of input. entry_invalid q line: the validator
   rejects what reaches it for that line (the stripped text, or the default for an empty line). *)
From Coq Require Import Lia.
From Clikit Require Import Base.Prelude Base.Res Model.Conv Model.Question Proofs.QuestionLemmas Proofs.QuestionAskLemmas Proofs.QuestionConfirmLemmas.

(* For EVERY choice list and script: an answer is a member of the choices (a list of members when multi-select). *)
Theorem answer_is_member : forall q script a, o_end (ask_choice true q script) = Answered a ->
  match a with AOne v => In v (q_choices q) | AMany l => Forall (fun x => In x (q_choices q)) l | ANone => False end.
Proof. intros q script a H. destruct (ask_choice_answer q script a H) as [s Hs]. eapply validate_member, Hs. Qed.
Print Assumptions answer_is_member.

(* ... one value for a single-select question, a list for a multi-select one. *)
Theorem answer_shape : forall q script a, o_end (ask_choice true q script) = Answered a ->
  if q_multi q then exists l, a = AMany l else exists v, a = AOne v.
Proof. intros q script a H. destruct (ask_choice_answer q script a H) as [s Hs]. eapply validate_shape, Hs. Qed.
Print Assumptions answer_shape.

(* An index and the value it denotes are interchangeable (value occurring once, index text not itself a choice). *)
Theorem index_and_value_interchangeable : forall q i c,
  q_multi q = false -> nth_error (q_choices q) i = Some c ->
  positions (q_choices q) c 0 = [i] -> positions (q_choices q) (dec_text (Z.of_nat i)) 0 = [] ->
  validate q (Some (dec_text (Z.of_nat i))) = inr (AOne c) /\ validate q (Some c) = inr (AOne c).
Proof. exact index_and_value_validate. Qed.
Print Assumptions index_and_value_interchangeable.

(* The same at the level of ask(): l1 is the line typed for the index, l2 the line typed for the value - blanks around
   them or not (the answer is stripped before it is validated).  Hypotheses: single-select, at least one attempt, the
   value occurs once among the choices, is not empty and is not changed by stripping, and the index text is not itself
   a choice.  Both dialogues answer the value at once: one line read, one prompt, no error printed. *)
Theorem index_and_value_interchangeable_when_asked : forall q i c l1 l2 rest1 rest2,
  q_multi q = false -> q_attempts q <> Some 0 -> nth_error (q_choices q) i = Some c ->
  positions (q_choices q) c 0 = [i] -> positions (q_choices q) (dec_text (Z.of_nat i)) 0 = [] ->
  strip_ws l1 = dec_text (Z.of_nat i) -> strip_ws l2 = c -> c <> [] ->
  ask_choice true q (l1 :: rest1) = {| o_end := Answered (AOne c); o_lines_read := 1; o_errors_printed := 0; o_prompts := 1 |} /\
  ask_choice true q (l2 :: rest2) = {| o_end := Answered (AOne c); o_lines_read := 1; o_errors_printed := 0; o_prompts := 1 |}.
Proof.
  intros q i c l1 l2 rest1 rest2 Hm Hk Hn Hp Hi E1 E2 Hc. destruct (index_and_value_validate q i c Hm Hn Hp Hi) as [V1 V2].
  split; apply ask_first_valid; try exact Hk; unfold effective_answer.
  - rewrite E1. pose proof (dec_text_nonempty (Z.of_nat i)) as Hd. destruct (dec_text (Z.of_nat i)); [congruence|exact V1].
  - rewrite E2. destruct c; [congruence|]. exact V2.
Qed.
Print Assumptions index_and_value_interchangeable_when_asked.
(* "Not changed by stripping" is needed: the clause is FALSE of the model - and of the code, same dialogues, same answers -
   for a choice with a blank at an end (typing 0 answers " a", typing " a" is invalid: it reaches the
   validator as "a"), and for a multi-select choice holding a blank anywhere (all blanks are removed from the entry). *)
Theorem index_and_value_spaced_choice_refuted :
  exists q i c, q_multi q = false /\ nth_error (q_choices q) i = Some c /\ positions (q_choices q) c 0 = [i] /\
    o_end (ask_choice true q [dec_text (Z.of_nat i)]) = Answered (AOne c) /\ o_end (ask_choice true q [c]) = Failed VInvalid.
Proof.
  exists Spaced.q1, 0, [Spaced.sp; Spaced.a_]. destruct Spaced.index_works_value_does_not as [H1 H2].
  split; [reflexivity|]. split; [reflexivity|]. split; [reflexivity|]. split; [exact H1|exact H2].
Qed.
Print Assumptions index_and_value_spaced_choice_refuted.
Theorem index_and_value_multi_select_blank_refuted :
  exists q i c, q_multi q = true /\ nth_error (q_choices q) i = Some c /\ positions (q_choices q) c 0 = [i] /\
    o_end (ask_choice true q [dec_text (Z.of_nat i)]) = Answered (AMany [c]) /\ o_end (ask_choice true q [c]) = Failed VInvalid.
Proof.
  exists Spaced.q2, 0, [Spaced.a_; Spaced.sp; Spaced.b_]. destruct Spaced.multi_index_works_value_does_not as [H1 H2].
  split; [reflexivity|]. split; [reflexivity|]. split; [reflexivity|]. split; [exact H1|exact H2].
Qed.
Print Assumptions index_and_value_multi_select_blank_refuted.

(* Every invalid entry consumes exactly one attempt (one line read, one error printed): n invalid entries then a
   valid one answer after n + 1 lines with n errors printed ... *)
Theorem invalid_entries_then_answer : forall q bad good rest a,
  Forall (entry_invalid q) bad -> validate q (effective_answer q good) = inr a ->
  (match q_attempts q with Some k => length bad < k | None => True end) ->
  let o := ask_choice true q (bad ++ good :: rest) in
  o_end o = Answered a /\ o_lines_read o = length bad + 1 /\ o_errors_printed o = length bad.
Proof.
  intros q bad good rest a Hb Hg Hk. unfold ask_choice. cbn [negb].
  rewrite (ask_loop_until_valid q bad good rest (q_attempts q) None 0 0 0 a Hb Hg Hk). cbn. repeat split; lia.
Qed.
Print Assumptions invalid_entries_then_answer.
(* ... and the question fails after exactly the configured number of attempts. *)
Theorem attempts_exact : forall q bad rest,
  Forall (entry_invalid q) bad -> bad <> [] -> q_attempts q = Some (length bad) ->
  let o := ask_choice true q (bad ++ rest) in
  (exists er, o_end o = Failed er) /\ o_lines_read o = length bad /\ o_errors_printed o = length bad - 1.
Proof.
  intros q bad rest Hb Hne Ha. destruct (invalid_snoc q bad Hb) as [->|(pre & l & er & -> & Hp & Hl)]; [contradiction|].
  unfold ask_choice. cbn [negb]. rewrite Ha, (ask_loop_exhaust q pre l er) by assumption. rewrite last_length. cbn. split; [eauto|]. split; lia.
Qed.
Print Assumptions attempts_exact.

(* ... with the error of the LAST entry it was allowed (the earlier ones were printed, this one is raised): *)
Theorem attempts_exact_last_error : forall q pre l rest er,
  Forall (entry_invalid q) pre -> validate q (effective_answer q l) = inl er -> q_attempts q = Some (length (pre ++ [l])) ->
  let o := ask_choice true q ((pre ++ [l]) ++ rest) in
  o_end o = Failed er /\ o_lines_read o = length pre + 1 /\ o_errors_printed o = length pre.
Proof.
  intros q pre l rest er Hb Hl Ha. unfold ask_choice. cbn [negb]. rewrite Ha, (ask_loop_exhaust q pre l er) by assumption.
  cbn. repeat split; lia.
Qed.
Print Assumptions attempts_exact_last_error.
(* a budget of zero attempts: nothing read, nothing printed, the question fails at once *)
Theorem zero_attempts_fail_without_reading : forall q script, q_attempts q = Some 0 ->
  ask_choice true q script = {| o_end := Failed VOther; o_lines_read := 0; o_errors_printed := 0; o_prompts := 0 |}.
Proof. intros q script H. unfold ask_choice. cbn [negb]. rewrite H. apply ask_loop_zero. Qed.
Print Assumptions zero_attempts_fail_without_reading.

(* It gives up at end of input instead of asking forever - with or without an attempt limit. *)
Theorem gives_up_at_end_of_input : forall q bad,
  Forall (entry_invalid q) bad -> (match q_attempts q with Some k => length bad < k | None => True end) ->
  o_end (ask_choice true q bad) = Aborted /\ o_lines_read (ask_choice true q bad) = length bad.
Proof.
  intros q bad Hb Hk. unfold ask_choice. cbn [negb].
  exact (ask_loop_eof q bad (q_attempts q) None 0 0 0 Hb Hk).
Qed.
Print Assumptions gives_up_at_end_of_input.

(* Non-interactive: the default, nothing read, nothing written (no prompt, no error) - whatever the script holds.  This
   and confirmation_non_interactive hold by the definition of the model (ask() tests io.is_interactive() first); the
   content is in the tie: lines consumed from the stream and bytes on the error output are observed. *)
Theorem non_interactive_default : forall q script,
  ask_choice false q script = {| o_end := Answered (default_answer q); o_lines_read := 0; o_errors_printed := 0; o_prompts := 0 |}.
Proof. reflexivity. Qed.
Print Assumptions non_interactive_default.

(* Confirmation: true exactly for answers matching the pattern, the default on an empty answer.
   PARTIAL: patterns of the form (?i)^<literal prefix> only (the default "(?i)^y" is one); the regular expression
   engine is not modelled - a pattern with metacharacters (".", "[yj]") is outside this statement. *)
Theorem confirmation_table : forall dflt prefix line rest,
  ask_confirm true dflt prefix (line :: rest) = (CBool (match strip_ws line with [] => dflt | t => starts_with_ci prefix t end), 1).
Proof. exact (confirm_table_g true). Qed.
Print Assumptions confirmation_table.
Theorem confirmation_non_interactive : forall dflt prefix script, ask_confirm false dflt prefix script = (CBool dflt, 0).
Proof. reflexivity. Qed.
Print Assumptions confirmation_non_interactive.

(* The same table for patterns WITH and WITHOUT the (?i) flag (ask_confirm_g ci; ask_confirm is ci = true),
   and "the answer matches the pattern" said on the strings themselves: without the flag the stripped answer literally begins
   with the prefix, with the flag it begins with a string that equals the prefix after lower-casing both.  Still PARTIAL in the
   sense above: literal prefix patterns only. *)
Theorem confirmation_is_the_case_insensitive_table : forall inter dflt prefix script,
  ask_confirm inter dflt prefix script = ask_confirm_g true inter dflt prefix script.
Proof. reflexivity. Qed.
Print Assumptions confirmation_is_the_case_insensitive_table.
Theorem confirmation_table_with_and_without_the_flag : forall ci dflt prefix line rest,
  ask_confirm_g ci true dflt prefix (line :: rest)
  = (CBool (match strip_ws line with [] => dflt | t => (if ci then starts_with_ci else starts_with_cs) prefix t end), 1).
Proof. exact confirm_table_g. Qed.
Print Assumptions confirmation_table_with_and_without_the_flag.
Theorem confirmation_true_exactly_for_matching_answers : forall ci dflt prefix line rest,
  fst (ask_confirm_g ci true dflt prefix (line :: rest)) = CBool true <->
  (strip_ws line = [] /\ dflt = true) \/
  (strip_ws line <> [] /\
   if ci then exists u t, strip_ws line = u ++ t /\ map lower_char u = map lower_char prefix
   else exists t, strip_ws line = prefix ++ t).
Proof.
  intros ci dflt prefix line rest. rewrite confirm_table_g. cbn [fst]. destruct (strip_ws line) as [|c l] eqn:E.
  - split.
    + intros H. injection H as ->. left. split; reflexivity.
    + intros [[_ ->] | [H _]]; [reflexivity | contradiction H; reflexivity].
  - split.
    + intros H. injection H as H. right. split; [discriminate |].
      destruct ci; [apply starts_with_ci_iff | apply starts_with_cs_iff]; exact H.
    + intros [[H _] | [_ H]]; [discriminate H |].
      f_equal. destruct ci; [apply starts_with_ci_iff | apply starts_with_cs_iff]; exact H.
Qed.
Print Assumptions confirmation_true_exactly_for_matching_answers.
Theorem case_sensitive_match_is_a_case_insensitive_match : forall p s, starts_with_cs p s = true -> starts_with_ci p s = true.
Proof. intros p s. rewrite starts_with_cs_iff, starts_with_ci_iff. intros [t ->]. exists p, t. split; reflexivity. Qed.
Print Assumptions case_sensitive_match_is_a_case_insensitive_match.
Theorem confirmation_any_flag_non_interactive : forall ci dflt prefix script, ask_confirm_g ci false dflt prefix script = (CBool dflt, 0).
Proof. reflexivity. Qed.
Print Assumptions confirmation_any_flag_non_interactive.
Theorem confirmation_any_flag_end_of_input : forall ci dflt prefix, ask_confirm_g ci true dflt prefix [] = (CAborted, 0).
Proof. reflexivity. Qed.
Print Assumptions confirmation_any_flag_end_of_input.
Example the_case_matters_without_the_flag :
  fst (ask_confirm_g false true false [89%N] ([121%N] :: [])) = CBool false /\
  fst (ask_confirm_g true true false [89%N] ([121%N] :: [])) = CBool true /\
  fst (ask_confirm_g false true false [89%N] ([89%N; 101%N; 115%N] :: [])) = CBool true.
Proof. exact case_matters_without_the_flag. Qed.

(* What is WRITTEN (Model/QuestionText.v; the driver's entry run_C18T compares the whole text of the error output with
   the implementation's).  The outcome is still decided by ask_choice / ask_confirm above; these theorems tie the text
   layer to it. *)
From Clikit Require Import Model.QuestionText Proofs.Question2Lemmas.

(* The validator has an error message exactly for the entries it rejects. *)
Theorem validator_message_iff_rejected : forall q s,
  match validate q s with inr _ => validate_msg q s = None | inl _ => exists m, validate_msg q s = Some m end.
Proof. exact validate_msg_agrees. Qed.
Print Assumptions validator_message_iff_rejected.

(* Every invalid entry prints ONE error, and nothing else is written: the whole error output is the prompt followed, for
   every error counted by the outcome layer, by one error line and the prompt again; the number of prompts is one more. *)
Theorem error_output_is_a_dialogue : forall q prompt script, q_attempts q <> Some 0 ->
  exists msgs, fst (choice_text true q prompt script) = dialogue prompt msgs /\
               length msgs = o_errors_printed (ask_choice true q script) /\
               S (length msgs) = o_prompts (ask_choice true q script).
Proof.
  intros q prompt script Ha. unfold choice_text, ask_choice. cbn [negb].
  destruct (ask_text_dialogue q prompt script (q_attempts q) None None 0 0 0 Ha) as (msgs & H1 & H2 & H3).
  exists msgs. rewrite H1, H2, H3. cbn. repeat split; lia.
Qed.
Print Assumptions error_output_is_a_dialogue.

(* A question that fails raises the message of an entry (the one that used up the budget). *)
Theorem failure_carries_a_message : forall q prompt script er, q_attempts q <> Some 0 ->
  o_end (ask_choice true q script) = Failed er -> exists m, snd (choice_text true q prompt script) = Some m.
Proof.
  intros q prompt script er Ha He. unfold choice_text, ask_choice in *. cbn [negb] in *.
  apply (ask_text_failure q prompt script (q_attempts q) None None 0 0 0 er He). intros H. contradiction.
Qed.
Print Assumptions failure_carries_a_message.

(* ANY question on a non-interactive input writes nothing and reads nothing (choice, confirmation, plain). *)
Theorem non_interactive_writes_nothing : forall q prompt question dflt p script,
  choice_text false q prompt script = ([], None) /\ confirm_text false question dflt = [] /\
  pt_text (ask_plain false question p script) = [] /\ pt_read (ask_plain false question p script) = 0 /\
  pt_end (ask_plain false question p script) = Answered (plain_answer (p_default p)).
Proof. intros. repeat split. Qed.
Print Assumptions non_interactive_writes_nothing.

(* The plain question with a validator counts attempts the same way: n rejected entries then an accepted one ... *)
Theorem plain_question_rejected_then_accepted : forall question p acc bad good rest,
  p_accept p = Some acc -> Forall (plain_rejected p acc) bad -> plain_check acc (plain_value p good) = None ->
  (match p_attempts p with Some k => length bad < k | None => True end) ->
  let r := ask_plain true question p (bad ++ good :: rest) in
  pt_end r = Answered (plain_answer (plain_value p good)) /\ pt_read r = length bad + 1.
Proof.
  intros question p acc bad good rest Ha Hb Hg Hk. unfold ask_plain. cbn [negb]. rewrite Ha.
  exact (plain_loop_until_valid p acc _ bad good rest (p_attempts p) None 0 Hb Hg Hk).
Qed.
Print Assumptions plain_question_rejected_then_accepted.
(* ... and it fails after exactly the configured number of attempts, with the validator's message. *)
Theorem plain_question_attempts_exact : forall question p acc bad rest,
  p_accept p = Some acc -> Forall (plain_rejected p acc) bad -> bad <> [] -> p_attempts p = Some (length bad) ->
  let r := ask_plain true question p (bad ++ rest) in
  pt_end r = Failed VInvalid /\ pt_read r = length bad /\ pt_msg r <> None.
Proof.
  intros question p acc bad rest Ha Hb Hne Hk. unfold ask_plain. cbn [negb]. rewrite Ha, Hk.
  exact (plain_loop_budget p acc _ bad rest None 0 Hb Hne).
Qed.
Print Assumptions plain_question_attempts_exact.

(* not vacuous: a three-entry script against a limit of three, with the text it writes *)
Example dialogue_nonvacuous :
  let q := {| q_choices := [[97%N]; [98%N]]; q_multi := false; q_default := None; q_attempts := Some 3 |} in
  let script := [[120%N]; []; [55%N]; [48%N]] in
  o_end (ask_choice true q script) = Failed VInvalid /\ o_lines_read (ask_choice true q script) = 3 /\
  snd (choice_text true q [63%N] script) = Some (msg_invalid [55%N]) /\
  fst (choice_text true q [63%N] script) = dialogue [63%N] [msg_invalid [120%N]; msg_none].
Proof. vm_compute. repeat split. Qed.
Theorem confirmation_end_of_input : forall dflt prefix, ask_confirm true dflt prefix [] = (CAborted, 0).
Proof. reflexivity. Qed.
Print Assumptions confirmation_end_of_input.

(* ---- non-vacuity: choices yes / no / maybe, two attempts resp. unlimited ---- *)
Definition YES : str := [121;101;115]%N. Definition NO : str := [110;111]%N. Definition MAYBE : str := [109;97;121;98;101]%N.
Definition ex_q (att : option nat) : choiceq := {| q_choices := [YES; NO; MAYBE]; q_multi := false; q_default := None; q_attempts := att |}.
Definition X9 : str := [57]%N. Definition XX : str := [120]%N. Definition ONE_SP : str := [32;49;32]%N.
Example invalid_entries_hypotheses_hold :
  Forall (entry_invalid (ex_q None)) [X9; XX; []] /\ validate (ex_q None) (effective_answer (ex_q None) ONE_SP) = inr (AOne NO) /\
  ask_choice true (ex_q None) ([X9; XX; []] ++ ONE_SP :: [YES]) = {| o_end := Answered (AOne NO); o_lines_read := 4; o_errors_printed := 3; o_prompts := 4 |}.
Proof.
  split; [|split; vm_compute; reflexivity].
  repeat constructor; eexists; vm_compute; reflexivity.
Qed.
Example attempts_hypotheses_hold :
  Forall (entry_invalid (ex_q (Some 2))) [X9] /\ validate (ex_q (Some 2)) (effective_answer (ex_q (Some 2)) XX) = inl VInvalid /\
  ask_choice true (ex_q (Some 2)) (([X9] ++ [XX]) ++ [YES]) = {| o_end := Failed VInvalid; o_lines_read := 2; o_errors_printed := 1; o_prompts := 2 |}.
Proof. split; [|split; vm_compute; reflexivity]. repeat constructor; eexists; vm_compute; reflexivity. Qed.
Example end_of_input_instance :
  ask_choice true (ex_q None) [X9; XX] = {| o_end := Aborted; o_lines_read := 2; o_errors_printed := 2; o_prompts := 3 |}.
Proof. vm_compute. reflexivity. Qed.
Example interchange_hypotheses_hold :
  positions (q_choices (ex_q None)) NO 0 = [1] /\ positions (q_choices (ex_q None)) (dec_text 1) 0 = [] /\
  strip_ws ONE_SP = dec_text (Z.of_nat 1) /\ strip_ws NO = NO.
Proof. vm_compute. repeat split; reflexivity. Qed.
Example ambiguous_entry : validate {| q_choices := [YES; YES]; q_multi := false; q_default := None; q_attempts := None |} (Some YES) = inl VAmbiguous.
Proof. vm_compute. reflexivity. Qed.
