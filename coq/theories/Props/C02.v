(* C02 - malformed command lines are rejected with the documented errors and only those.
   allowed k := k = CannotParse \/ k = NoSuchOption \/ k = ValueError.
   Hypotheses: the format can be augmented with the command-name pseudo-arguments (true of every
   format built through ArgsFormat, C06) and its options are valid objects: opts_ok (ParserLemmas) asks of every
   option that multi-valued => requires a value and that the default is None/bool/int/str.  A multi-valued option
   keeps the list [] as default, so no format with one meets opts_ok; the _w theorems at the end of the first part
   ask the default condition only of the options whose value may be omitted, and cover those formats. *)
From Clikit Require Import Base.Prelude Base.Res Model.Conv Model.Format Model.Parser Proofs.ParserLemmas
     Proofs.ClassifyLemmas.

(* For EVERY token list (no length bound) and both modes: a parse either succeeds or ends in one of the
   three documented kinds - no other kind of exception - and in lenient mode never in a parse error. *)
Theorem strict_error_kinds : forall f len toks f' arguments cns,
  aug_format f = Ok (f', arguments, cns) -> opts_ok f' ->
  forall k, parse f len toks = Err k -> allowed k /\ (len = true -> k = ValueError).
Proof. intros f len toks f' a c Ha Ho. exact (parse_error_kinds_w f len toks f' a c Ha (opts_ok_weaken f' Ho)). Qed.
Print Assumptions strict_error_kinds.

Theorem lenient_total : forall f toks f' arguments cns,
  aug_format f = Ok (f', arguments, cns) -> opts_ok f' ->
  forall k, parse f true toks = Err k -> k <> CannotParse /\ k <> NoSuchOption.
Proof.
  intros f toks f' a c Ha Ho k H. destruct (strict_error_kinds f true toks f' a c Ha Ho k H) as [_ Hv].
  rewrite (Hv eq_refl). split; discriminate.
Qed.
Print Assumptions lenient_total.

(* Whenever strict parsing succeeds, lenient parsing returns the identical result (no hypothesis). *)
Theorem lenient_extends_strict : forall f toks r, parse f false toks = Ok r -> parse f true toks = Ok r.
Proof. exact lenient_extends_strict_lemma. Qed.
Print Assumptions lenient_extends_strict.

(* The classification clauses: WHICH line gives WHICH error.
   Vocabulary (Proofs/ClassifyLemmas.v):
     long_tok b = "--" ++ b, short_tok b = "-" ++ b;  no_eq s: no "=" in s;
     scans f' pre st: the strict token loop processes all of pre without error and ends in scratch state st
       ("every token before is processed without error");  existsb is_dd pre = false: no "--" among them;
     listed f o: o is among the options the format lists (own and inherited);  opt_named o n: n is the long or
       the short name of o;  unknown_name f n: n names no listed option;  is_flag f x: x is the short name of a
       listed option that takes no value;
     no_value_next rest: nothing follows, or an empty token, or a token that starts with "-";
     plain tok: empty, "-", or not starting with "-";  positional p tok: read as a positional argument when the
       parse_options switch is p;  no_multi ar: no multi-valued argument;
     ar: the argument slots of f' - one per command name first, then the declared arguments;  cns: the
       command-name slots;  skip_names vals cns 0 = (vals', _, _): vals' are the positionals that remain once the
       leading ones that spell the command names, in order, are set aside;
     args_named l: every argument is listed under its own name (true of every format built through the API);
     bad_arg / bad_opt f n v: v is stored for argument / option n of f and its typed conversion fails.
   In strict mode the first failing iteration of the token loop decides the result: *)
Theorem first_failing_token_decides : forall f f' ar cns toks p st tok rest k,
  aug_format f = Ok (f', ar, cns) ->
  reach f' false true ps_empty toks p st (tok :: rest) ->
  step f' false p st tok rest = Err k ->
  parse f false toks = Err k.
Proof. exact strict_error_at. Qed.
Print Assumptions first_failing_token_decides.

(* clause 1: an unknown option -> NoSuchOptionException *)
Theorem unknown_long_option_rejected : forall f f' ar cns pre st,
  aug_format f = Ok (f', ar, cns) -> scans f' pre st -> existsb is_dd pre = false ->
  forall name rest, name <> [] -> no_eq name = true -> unknown_name f name = true ->
  parse f false (pre ++ long_tok name :: rest) = Err NoSuchOption.
Proof.
  intros f f' ar cns pre st Ha Hs Hdd name rest Hne Hq Hu.
  exact (malformed_rejected f f' ar cns pre st _ _ _ Ha Hs Hdd (mf_unknown_long f name rest Hne Hq Hu)).
Qed.
Print Assumptions unknown_long_option_rejected.
Theorem unknown_long_option_with_value_rejected : forall f f' ar cns pre st,
  aug_format f = Ok (f', ar, cns) -> scans f' pre st -> existsb is_dd pre = false ->
  forall name value rest, no_eq name = true -> unknown_name f name = true ->
  parse f false (pre ++ long_tok (name ++ EQ :: value) :: rest) = Err NoSuchOption.
Proof.
  intros f f' ar cns pre st Ha Hs Hdd name value rest Hq Hu.
  exact (malformed_rejected f f' ar cns pre st _ _ _ Ha Hs Hdd (mf_unknown_long_eq f name value rest Hq Hu)).
Qed.
Print Assumptions unknown_long_option_with_value_rejected.
(* "-x..." and, behind known flags, "-abx..." *)
Theorem unknown_short_option_rejected : forall f f' ar cns pre st,
  aug_format f = Ok (f', ar, cns) -> scans f' pre st -> existsb is_dd pre = false ->
  forall flags c more rest,
  starts_dash (flags ++ c :: more) = false -> forallb (is_flag f) flags = true -> unknown_name f [c] = true ->
  parse f false (pre ++ short_tok (flags ++ c :: more) :: rest) = Err NoSuchOption.
Proof.
  intros f f' ar cns pre st Ha Hs Hdd flags c more rest Hd Hf Hu.
  exact (malformed_rejected f f' ar cns pre st _ _ _ Ha Hs Hdd (mf_unknown_short f flags c more rest Hd Hf Hu)).
Qed.
Print Assumptions unknown_short_option_rejected.
Theorem unknown_option_lenient_ok : forall f f' ar cns,
  aug_format f = Ok (f', ar, cns) -> opts_ok f' ->
  forall pre body rest, parse f true (pre ++ long_tok body :: rest) <> Err NoSuchOption /\
                        parse f true (pre ++ short_tok body :: rest) <> Err NoSuchOption.
Proof. intros f f' ar cns Ha Ho pre body rest. split; eapply lenient_no_parse_error; eauto. Qed.
Print Assumptions unknown_option_lenient_ok.

(* clause 2: a value given to a flag -> CannotParseArgsException *)
Theorem flag_given_value_rejected : forall f f' ar cns pre st,
  aug_format f = Ok (f', ar, cns) -> scans f' pre st -> existsb is_dd pre = false ->
  forall o name value rest,
  listed f o -> opt_named o name = true -> no_eq name = true -> o_accepts o = false ->
  parse f false (pre ++ long_tok (name ++ EQ :: value) :: rest) = Err CannotParse.
Proof.
  intros f f' ar cns pre st Ha Hs Hdd o name value rest Hl Hn Hq Hacc.
  exact (malformed_rejected f f' ar cns pre st _ _ _ Ha Hs Hdd (mf_flag_value f o name value rest Hl Hn Hq Hacc)).
Qed.
Print Assumptions flag_given_value_rejected.
Theorem flag_given_value_lenient_ok : forall f f' ar cns,
  aug_format f = Ok (f', ar, cns) -> opts_ok f' ->
  forall pre name value rest, parse f true (pre ++ long_tok (name ++ EQ :: value) :: rest) <> Err CannotParse.
Proof. intros f f' ar cns Ha Ho pre name value rest. eapply lenient_no_parse_error; eauto. Qed.
Print Assumptions flag_given_value_lenient_ok.

(* clause 3: a required option value left out -> CannotParseArgsException *)
Theorem option_value_missing_rejected : forall f f' ar cns pre st,
  aug_format f = Ok (f', ar, cns) -> scans f' pre st -> existsb is_dd pre = false ->
  forall o name rest,
  listed f o -> opt_named o name = true -> name <> [] -> no_eq name = true -> o_required o = true ->
  no_value_next rest = true ->
  parse f false (pre ++ long_tok name :: rest) = Err CannotParse.
Proof.
  intros f f' ar cns pre st Ha Hs Hdd o name rest Hl Hn Hne Hq Hr Hnv.
  exact (malformed_rejected f f' ar cns pre st _ _ _ Ha Hs Hdd (mf_value_missing f o name rest Hl Hn Hne Hq Hr Hnv)).
Qed.
Print Assumptions option_value_missing_rejected.
(* "--name=" *)
Theorem option_value_empty_rejected : forall f f' ar cns pre st,
  aug_format f = Ok (f', ar, cns) -> scans f' pre st -> existsb is_dd pre = false ->
  forall o name rest,
  listed f o -> opt_named o name = true -> no_eq name = true -> o_required o = true ->
  parse f false (pre ++ long_tok (name ++ [EQ]) :: rest) = Err CannotParse.
Proof.
  intros f f' ar cns pre st Ha Hs Hdd o name rest Hl Hn Hq Hr.
  exact (malformed_rejected f f' ar cns pre st _ _ _ Ha Hs Hdd (mf_value_empty f o name rest Hl Hn Hq Hr)).
Qed.
Print Assumptions option_value_empty_rejected.
(* "-n" and, behind known flags, "-abn" *)
Theorem short_option_value_missing_rejected : forall f f' ar cns pre st,
  aug_format f = Ok (f', ar, cns) -> scans f' pre st -> existsb is_dd pre = false ->
  forall o flags c rest,
  listed f o -> o_short o = Some [c] -> o_required o = true ->
  starts_dash (flags ++ [c]) = false -> forallb (is_flag f) flags = true -> no_value_next rest = true ->
  parse f false (pre ++ short_tok (flags ++ [c]) :: rest) = Err CannotParse.
Proof.
  intros f f' ar cns pre st Ha Hs Hdd o flags c rest Hl Hsh Hr Hd Hf Hnv.
  exact (malformed_rejected f f' ar cns pre st _ _ _ Ha Hs Hdd (mf_short_value_missing f o flags c rest Hl Hsh Hr Hd Hf Hnv)).
Qed.
Print Assumptions short_option_value_missing_rejected.
Theorem option_value_missing_lenient_ok : forall f f' ar cns,
  aug_format f = Ok (f', ar, cns) -> opts_ok f' ->
  forall pre body rest, parse f true (pre ++ long_tok body :: rest) <> Err CannotParse /\
                        parse f true (pre ++ short_tok body :: rest) <> Err CannotParse.
Proof. intros f f' ar cns Ha Ho pre body rest. split; eapply lenient_no_parse_error; eauto. Qed.
Print Assumptions option_value_missing_lenient_ok.

(* clause 4: a required argument is missing -> CannotParseArgsException:
   general form: the loop goes through the whole line; the i-th declared argument (0-based) is required and
   at most i positionals remain for the declared arguments *)
Theorem missing_argument_rejected : forall f f' ar cns toks st1 vals' cns' k i n a,
  aug_format f = Ok (f', ar, cns) -> args_named (get_arguments_all f) ->
  scans f' toks st1 ->
  skip_names (flatten (ps_args st1)) cns 0 = (vals', cns', k) ->
  nth_error ar (length cns + i) = Some (n, a) -> a_required a = true -> length vals' <= i ->
  parse f false toks = Err CannotParse.
Proof. exact missing_argument. Qed.
Print Assumptions missing_argument_rejected.
(* option-free lines, formats without multi-valued argument: the hypotheses are on the tokens themselves *)
Theorem missing_argument_plain_rejected : forall f f' ar cns toks vals' cns' k i n a,
  aug_format f = Ok (f', ar, cns) -> args_named (get_arguments_all f) -> no_multi ar = true ->
  forallb plain toks = true -> length toks <= length ar ->
  skip_names toks cns 0 = (vals', cns', k) ->
  nth_error ar (length cns + i) = Some (n, a) -> a_required a = true -> length vals' <= i ->
  parse f false toks = Err CannotParse.
Proof. exact missing_argument_plain. Qed.
Print Assumptions missing_argument_plain_rejected.
Theorem missing_argument_lenient_ok : forall f f' ar cns,
  aug_format f = Ok (f', ar, cns) -> opts_ok f' -> forall toks, parse f true toks <> Err CannotParse.
Proof. intros f f' ar cns Ha Ho toks. eapply lenient_no_parse_error; eauto. Qed.
Print Assumptions missing_argument_lenient_ok.

(* clause 5: more positional arguments than declared (no multi-valued argument) -> CannotParseArgsException:
   found in the loop: every slot is taken when one more positional token comes *)
Theorem extra_positional_rejected : forall f f' ar cns toks p st tok rest,
  aug_format f = Ok (f', ar, cns) ->
  reach f' false true ps_empty toks p st (tok :: rest) ->
  positional p tok = true -> no_multi (get_arguments_all f') = true ->
  length (get_arguments_all f') <= length (ps_args st) ->
  parse f false toks = Err CannotParse.
Proof. exact extra_positional_at. Qed.
Print Assumptions extra_positional_rejected.
(* found when the values are re-aligned against omitted command names *)
Theorem too_many_after_realign_rejected : forall f f' ar cns toks st1 vals' cns' k,
  aug_format f = Ok (f', ar, cns) -> scans f' toks st1 ->
  skip_names (flatten (ps_args st1)) cns 0 = (vals', cns', k) ->
  no_multi ar = true -> length ar - length cns < length vals' ->
  parse f false toks = Err CannotParse.
Proof. exact too_many_after_realign. Qed.
Print Assumptions too_many_after_realign_rejected.
(* option-free lines, either way: more plain tokens than declared arguments once the spelled command names are
   discounted *)
Theorem too_many_plain_rejected : forall f f' ar cns toks vals' cns' k,
  aug_format f = Ok (f', ar, cns) -> args_named (get_arguments_all f) -> no_multi ar = true ->
  forallb plain toks = true -> skip_names toks cns 0 = (vals', cns', k) ->
  length ar - length cns < length vals' ->
  parse f false toks = Err CannotParse.
Proof. exact too_many_plain. Qed.
Print Assumptions too_many_plain_rejected.
Theorem too_many_positionals_lenient_ok : forall f f' ar cns,
  aug_format f = Ok (f', ar, cns) -> opts_ok f' ->
  forall pre tok rest, parse f true (pre ++ tok :: rest) <> Err CannotParse.
Proof. intros f f' ar cns Ha Ho pre tok rest. eapply lenient_no_parse_error; eauto. Qed.
Print Assumptions too_many_positionals_lenient_ok.

(* clause 6: a value that does not convert to the declared type -> ValueError:
   general forms: the line gets through the token loop, the re-alignment and the required-argument check,
   and a value then stored for an argument / option does not convert *)
Theorem bad_argument_value_rejected : forall f f' ar cns toks st1 st2 n v,
  aug_format f = Ok (f', ar, cns) -> scans f' toks st1 ->
  insert_missing ar cns false st1 = Ok st2 -> missing_required ar st2 = false ->
  In (n, v) (ps_args st2) -> bad_arg f n v ->
  parse f false toks = Err ValueError.
Proof. exact bad_argument_value. Qed.
Print Assumptions bad_argument_value_rejected.
Theorem bad_option_value_rejected : forall f f' ar cns toks st1 st2 n v,
  aug_format f = Ok (f', ar, cns) -> opts_ok f' -> scans f' toks st1 ->
  insert_missing ar cns false st1 = Ok st2 -> missing_required ar st2 = false ->
  In (n, v) (ps_opts st1) -> bad_opt f n v ->
  parse f false toks = Err ValueError.
Proof. intros f f' ar cns toks st1 st2 n v Ha Ho. exact (bad_option_value_w f f' ar cns toks st1 st2 n v Ha (opts_ok_weaken f' Ho)). Qed.
Print Assumptions bad_option_value_rejected.
(* "--name=value" put behind a line that the strict parser accepts *)
Theorem bad_option_value_last_rejected : forall f f' ar cns pre r name value o' o k0,
  aug_format f = Ok (f', ar, cns) ->
  parse f false pre = Ok r -> existsb is_dd pre = false ->
  no_eq name = true -> value <> [] ->
  has_option f' name true = true -> get_option f' name true = Ok o' -> o_accepts o' = true -> o_multi o' = false ->
  has_option f name true = true -> get_option f name true = Ok o -> o_accepts o = true -> o_multi o = false ->
  parse_typed (o_type o) (o_nullable o) (VStr value) = Err k0 ->
  parse f false (pre ++ [long_tok (name ++ EQ :: value)]) = Err ValueError.
Proof.
  intros f f' ar cns pre r name value o' o k0 Ha Hok Hdd Hq Hv _ Hg' Hacc' Hm' _ Hg.
  exact (bad_option_value_last f f' ar cns pre r name value o' o k0 Ha Hok Hdd Hq Hv Hg' Hacc' Hm' Hg).
Qed.
Print Assumptions bad_option_value_last_rejected.
(* such a line is rejected in exactly the same way in lenient mode *)
Theorem value_error_mode_independent : forall f f' ar cns toks st1 st2,
  aug_format f = Ok (f', ar, cns) -> scans f' toks st1 ->
  insert_missing ar cns false st1 = Ok st2 -> missing_required ar st2 = false ->
  parse f true toks = parse f false toks.
Proof. exact modes_agree_after_scan. Qed.
Print Assumptions value_error_mode_independent.

(* the first two theorems of this file again, under a hypothesis that formats with multi-valued options meet:
   opts_ok asks conv_input (o_default o) of every option, and a multi-valued option keeps the list [] as default
   (conv_input (VList []) = false; ClassifyLemmas.ex_h_not_opts_ok).  opts_ok_w asks it only of the options whose
   value is not required - the only ones whose default is ever stored: opts_ok f' -> opts_ok_w f'. *)
Theorem strict_error_kinds_w : forall f len toks f' arguments cns,
  aug_format f = Ok (f', arguments, cns) -> opts_ok_w f' ->
  forall k, parse f len toks = Err k -> allowed k /\ (len = true -> k = ValueError).
Proof. exact parse_error_kinds_w. Qed.
Print Assumptions strict_error_kinds_w.
Theorem lenient_total_w : forall f f' ar cns toks,
  aug_format f = Ok (f', ar, cns) -> opts_ok_w f' ->
  parse f true toks <> Err NoSuchOption /\ parse f true toks <> Err CannotParse.
Proof. exact lenient_no_parse_error_w. Qed.
Print Assumptions lenient_total_w.
Theorem bad_option_value_rejected_w : forall f f' ar cns toks st1 st2 n v,
  aug_format f = Ok (f', ar, cns) -> opts_ok_w f' -> scans f' toks st1 ->
  insert_missing ar cns false st1 = Ok st2 -> missing_required ar st2 = false ->
  In (n, v) (ps_opts st1) -> bad_opt f n v ->
  parse f false toks = Err ValueError.
Proof. exact bad_option_value_w. Qed.
Print Assumptions bad_option_value_rejected_w.

(* The clauses on LINE DESCRIPTIONS: a well-formed line with ONE fault.
   Vocabulary of C01 (Model/Spell.v): d : ld is a line description - command-name spellings, option items in their written
   forms, positionals, "--" tail; render d its tokens; values d its positional values; events d what it gives to the
   options; wf_line f d the conditions under which parse f len (render d) = Ok (denote f d) (C01.parse_spells).
   wf_line f d = forms_ok f d (the written forms are unambiguous; Proofs/ClassifyLineLemmas.v: the conjuncts names_ok,
   items_ok, no_clash of wf_line with the conversions of the option texts taken out) && texts_convert d (every option text
   converts) && fits (no more values than arguments - shape - and every value converts) && req_ok (every required argument
   gets a value):  well_formed_line_is.  Each clause below keeps forms_ok and breaks ONE other conjunct.
   fmt_ok f is the format hypothesis of parse_spells (true of every API-built format, C01.api_format_fmt_ok);
   opts_listed_ok f: the options f lists are valid objects (the opts_ok_w of above, read off the option list of f).
   From here on long_tok, no_eq, is_flag, names_ok unqualified are those of Model/Spell.v. *)
From Clikit Require Import Model.Spell Proofs.SpellArgs Proofs.ClassifyLineLemmas.

Theorem well_formed_line_is : forall f d,
  wf_line f d = forms_ok f d && texts_convert d &&
                fits (get_arguments_all f) (values d) && req_ok (get_arguments_all f) (values d).
Proof. exact wf_line_conjuncts. Qed.
Print Assumptions well_formed_line_is.
Theorem fitting_values_fit_in_number : forall A V, fits A V = true -> shape A V = true.
Proof. exact fits_shape. Qed.
Print Assumptions fitting_values_fit_in_number.

(* clause 5: the line carries more positional values than the format declares arguments *)
Theorem surplus_positional_rejected : forall f d,
  fmt_ok f = true -> forms_ok f d = true ->
  no_multi (get_arguments_all f) = true -> length (get_arguments_all f) < length (values d) ->
  parse f false (render d) = Err CannotParse.
Proof. exact line_surplus_positional. Qed.
Print Assumptions surplus_positional_rejected.
Theorem surplus_positional_lenient_ok : forall f d,
  fmt_ok f = true -> opts_listed_ok f = true -> parse f true (render d) <> Err CannotParse.
Proof. intros f d Hf Ho. apply (line_lenient_no_parse_error f Hf Ho). Qed.
Print Assumptions surplus_positional_lenient_ok.

(* clause 4: the values fit in number (shape), but a required argument gets none *)
Theorem missing_required_rejected : forall f d,
  fmt_ok f = true -> forms_ok f d = true ->
  shape (get_arguments_all f) (values d) = true -> req_ok (get_arguments_all f) (values d) = false ->
  parse f false (render d) = Err CannotParse.
Proof. exact line_missing_required. Qed.
Print Assumptions missing_required_rejected.
Theorem missing_required_lenient_ok : forall f d,
  fmt_ok f = true -> opts_listed_ok f = true -> parse f true (render d) <> Err CannotParse.
Proof. intros f d Hf Ho. apply (line_lenient_no_parse_error f Hf Ho). Qed.
Print Assumptions missing_required_lenient_ok.

(* clause 6: the values fit in number and reach every required argument, but a text does not convert; both modes:
   a line of this kind is parsed, in either mode, by converting what it stores - nothing else can go wrong *)
Theorem conversion_is_all_that_is_left : forall f d, fmt_ok f = true -> forms_ok f d = true ->
  shape (get_arguments_all f) (values d) = true -> req_ok (get_arguments_all f) (values d) = true ->
  forall len, parse f len (render d) =
    do a1 <- set_arguments f {| ar_opts := []; ar_args := [] |} (place (get_arguments_all f) (values d));
    set_options f a1 (fold_left SpellOpts.raw_event (events d) []).
Proof. exact parse_form_line. Qed.
Print Assumptions conversion_is_all_that_is_left.
(* a positional text: fits = shape and every text converts *)
Theorem unconvertible_positional_rejected : forall f d, fmt_ok f = true -> forms_ok f d = true ->
  shape (get_arguments_all f) (values d) = true -> req_ok (get_arguments_all f) (values d) = true ->
  fits (get_arguments_all f) (values d) = false ->
  forall len, parse f len (render d) = Err ValueError.
Proof. exact line_unconvertible_positional. Qed.
Print Assumptions unconvertible_positional_rejected.
(* the text s of ONE occurrence of option o (item_text: "--o=s", "--o s", "-os", "-o s", "-abos", "-abo s"); o is
   multi-valued, or no later item mentions o - a single-valued option keeps what its LAST mention gives
   (ClassifyLineLemmas.ValueExamples.overwritten_bad_text_accepted, ClassifyLemmas.overwritten_bad_value_accepted) *)
Theorem unconvertible_option_value_rejected : forall f d its1 it its2 o s, fmt_ok f = true -> forms_ok f d = true ->
  shape (get_arguments_all f) (values d) = true -> req_ok (get_arguments_all f) (values d) = true ->
  ld_items d = its1 ++ it :: its2 -> item_text it = Some (o, s) ->
  res_ok (parse_typed (o_type o) (o_nullable o) (VStr s)) = false ->
  (o_multi o = true \/ SpellDenote.mentions (o_long o) (flat_map item_events its2) = false) ->
  forall len, parse f len (render d) = Err ValueError.
Proof. exact line_unconvertible_item. Qed.
Print Assumptions unconvertible_option_value_rejected.
(* the same on the events of the line *)
Theorem unconvertible_option_event_rejected : forall f d o s es1 es2, fmt_ok f = true -> forms_ok f d = true ->
  shape (get_arguments_all f) (values d) = true -> req_ok (get_arguments_all f) (values d) = true ->
  events d = es1 ++ (o, GText s) :: es2 ->
  res_ok (parse_typed (o_type o) (o_nullable o) (VStr s)) = false ->
  (o_multi o = true \/ SpellDenote.mentions (o_long o) es2 = false) ->
  forall len, parse f len (render d) = Err ValueError.
Proof. exact line_unconvertible_event. Qed.
Print Assumptions unconvertible_option_event_rejected.
(* general form: some positional text does not convert, or the option scratch map ends up holding one that does not *)
Theorem unconvertible_value_rejected : forall f d, fmt_ok f = true -> forms_ok f d = true ->
  shape (get_arguments_all f) (values d) = true -> req_ok (get_arguments_all f) (values d) = true ->
  (fits (get_arguments_all f) (values d) = false \/
   exists n v, In (n, v) (fold_left SpellOpts.raw_event (events d) []) /\ bad_opt f n v) ->
  forall len, parse f len (render d) = Err ValueError.
Proof. exact line_unconvertible_value. Qed.
Print Assumptions unconvertible_value_rejected.

(* clauses 1-3: ONE extra token at the k-th item boundary of a WELL-FORMED line (before its "--" tail):
   prefix_toks d k: the tokens of the command names and of the first k items;  suffix_toks d k: those of the remaining
   items and of the tail;  insert_tok d k tok = prefix_toks d k ++ tok :: suffix_toks d k.
   The bridge between the two vocabularies: the strict loop processes every such prefix without error, and "--" is not in it *)
Theorem scans_rendered_prefix : forall f d k, fmt_ok f = true -> wf_line f d = true ->
  exists g A cns st, aug_format f = Ok (g, A, cns) /\ scans g (prefix_toks d k) st /\ existsb is_dd (prefix_toks d k) = false /\
                     st = line_state A (prefix_line d k).
Proof. exact prefix_scans. Qed.
Print Assumptions scans_rendered_prefix.
Theorem rendered_line_splits : forall d k, render d = prefix_toks d k ++ suffix_toks d k.
Proof.
  intros d k. unfold prefix_toks, suffix_toks, render, prefix_line. cbn [ld_names ld_items ld_tail render_tail].
  rewrite app_nil_r, <- !app_assoc. f_equal. rewrite app_assoc, <- flat_map_app, firstn_skipn. reflexivity.
Qed.
Print Assumptions rendered_line_splits.

Theorem unknown_option_in_line_rejected : forall f d k, fmt_ok f = true -> wf_line f d = true ->
  forall name, name <> [] -> ClassifyLemmas.no_eq name = true -> unknown_name f name = true ->
  parse f false (insert_tok d k (ClassifyLemmas.long_tok name)) = Err NoSuchOption.
Proof.
  intros f d k Hf Hwf name Hne Hq Hu. exact (malformed_in_line_rejected f d k _ _ Hf Hwf (mf_unknown_long f name _ Hne Hq Hu)).
Qed.
Print Assumptions unknown_option_in_line_rejected.
Theorem unknown_option_with_value_in_line_rejected : forall f d k, fmt_ok f = true -> wf_line f d = true ->
  forall name value, ClassifyLemmas.no_eq name = true -> unknown_name f name = true ->
  parse f false (insert_tok d k (ClassifyLemmas.long_tok (name ++ EQ :: value))) = Err NoSuchOption.
Proof.
  intros f d k Hf Hwf name value Hq Hu. exact (malformed_in_line_rejected f d k _ _ Hf Hwf (mf_unknown_long_eq f name value _ Hq Hu)).
Qed.
Print Assumptions unknown_option_with_value_in_line_rejected.
Theorem unknown_short_option_in_line_rejected : forall f d k, fmt_ok f = true -> wf_line f d = true ->
  forall flags c more,
  starts_dash (flags ++ c :: more) = false -> forallb (ClassifyLemmas.is_flag f) flags = true -> unknown_name f [c] = true ->
  parse f false (insert_tok d k (ClassifyLemmas.short_tok (flags ++ c :: more))) = Err NoSuchOption.
Proof.
  intros f d k Hf Hwf flags c more Hd Hfl Hu.
  exact (malformed_in_line_rejected f d k _ _ Hf Hwf (mf_unknown_short f flags c more _ Hd Hfl Hu)).
Qed.
Print Assumptions unknown_short_option_in_line_rejected.

Theorem flag_with_value_in_line_rejected : forall f d k, fmt_ok f = true -> wf_line f d = true ->
  forall o name value,
  listed f o -> opt_named o name = true -> ClassifyLemmas.no_eq name = true -> o_accepts o = false ->
  parse f false (insert_tok d k (ClassifyLemmas.long_tok (name ++ EQ :: value))) = Err CannotParse.
Proof.
  intros f d k Hf Hwf o name value Hl Hn Hq Hacc.
  exact (malformed_in_line_rejected f d k _ _ Hf Hwf (mf_flag_value f o name value _ Hl Hn Hq Hacc)).
Qed.
Print Assumptions flag_with_value_in_line_rejected.

(* no value follows: the end of the line, the "--" separator, another option, an empty token or "-" *)
Theorem value_missing_in_line_rejected : forall f d k, fmt_ok f = true -> wf_line f d = true ->
  forall o name,
  listed f o -> opt_named o name = true -> name <> [] -> ClassifyLemmas.no_eq name = true -> o_required o = true ->
  no_value_next (suffix_toks d k) = true ->
  parse f false (insert_tok d k (ClassifyLemmas.long_tok name)) = Err CannotParse.
Proof.
  intros f d k Hf Hwf o name Hl Hn Hne Hq Hr Hnv.
  exact (malformed_in_line_rejected f d k _ _ Hf Hwf (mf_value_missing f o name _ Hl Hn Hne Hq Hr Hnv)).
Qed.
Print Assumptions value_missing_in_line_rejected.
Theorem value_empty_in_line_rejected : forall f d k, fmt_ok f = true -> wf_line f d = true ->
  forall o name,
  listed f o -> opt_named o name = true -> ClassifyLemmas.no_eq name = true -> o_required o = true ->
  parse f false (insert_tok d k (ClassifyLemmas.long_tok (name ++ [EQ]))) = Err CannotParse.
Proof.
  intros f d k Hf Hwf o name Hl Hn Hq Hr. exact (malformed_in_line_rejected f d k _ _ Hf Hwf (mf_value_empty f o name _ Hl Hn Hq Hr)).
Qed.
Print Assumptions value_empty_in_line_rejected.
Theorem short_value_missing_in_line_rejected : forall f d k, fmt_ok f = true -> wf_line f d = true ->
  forall o flags c,
  listed f o -> o_short o = Some [c] -> o_required o = true ->
  starts_dash (flags ++ [c]) = false -> forallb (ClassifyLemmas.is_flag f) flags = true ->
  no_value_next (suffix_toks d k) = true ->
  parse f false (insert_tok d k (ClassifyLemmas.short_tok (flags ++ [c]))) = Err CannotParse.
Proof.
  intros f d k Hf Hwf o flags c Hl Hsh Hr Hd Hfl Hnv.
  exact (malformed_in_line_rejected f d k _ _ Hf Hwf (mf_short_value_missing f o flags c _ Hl Hsh Hr Hd Hfl Hnv)).
Qed.
Print Assumptions short_value_missing_in_line_rejected.
(* lenient mode: no line at all ends in a parse error (the format hypothesis of the line theorems) *)
Theorem line_lenient_total : forall f, fmt_ok f = true -> opts_listed_ok f = true ->
  forall toks, parse f true toks <> Err CannotParse /\ parse f true toks <> Err NoSuchOption.
Proof. exact line_lenient_no_parse_error. Qed.
Print Assumptions line_lenient_total.

(* Instances of conversion_is_all_that_is_left and lenient_extends_strict, one instance over a format WITH a base (own and inherited elements), and
   the boundary of the hypothesis opts_ok_w.  Definitions and proofs: Proofs/ClassifyMoreExamples.v. *)
From Coq Require Import String.
From Clikit Require Import Proofs.SpellLemmas Proofs.FmtOkLemmas Proofs.ClassifyMoreExamples.
Import SpellExamples FmtOkExamples LineExamples ValueExamples MoreExamples.

(* conversion_is_all_that_is_left:  srv add h1 --num=5 http  over  server add <host> [<port:int>] [<files>...]  (U1): forms,
   number of values and required arguments are fine, so the parse IS the conversion of what the line stores, which fails on
   "http"; with 8080 instead (W2) it succeeds *)
Example conversion_is_all_that_is_left_instance :
  forms_ok F1 U1 = true /\ shape (get_arguments_all F1) (values U1) = true /\ req_ok (get_arguments_all F1) (values U1) = true /\
  (forall len, parse F1 len (render U1) =
     do a1 <- set_arguments F1 {| ar_opts := []; ar_args := [] |} (place (get_arguments_all F1) (values U1));
     set_options F1 a1 (fold_left SpellOpts.raw_event (events U1) [])) /\
  place (get_arguments_all F1) (values U1) = [(s "host", RStr (s "h1")); (s "port", RStr (s "http"))] /\
  set_arguments F1 {| ar_opts := []; ar_args := [] |} (place (get_arguments_all F1) (values U1)) = Err ValueError /\
  (forall len, parse F1 len (render W2) =
     do a1 <- set_arguments F1 {| ar_opts := []; ar_args := [] |} (place (get_arguments_all F1) (values W2));
     set_options F1 a1 (fold_left SpellOpts.raw_event (events W2) [])) /\
  (do a1 <- set_arguments F1 {| ar_opts := []; ar_args := [] |} (place (get_arguments_all F1) (values W2));
   set_options F1 a1 (fold_left SpellOpts.raw_event (events W2) [])) =
    Ok {| ar_opts := [(s "num", VInt 5)]; ar_args := [(s "host", VStr (s "h1")); (s "port", VInt 8080)] |}.
Proof. exact conversion_instance. Qed.
Print Assumptions conversion_is_all_that_is_left_instance.

(* lenient_extends_strict:  srv add h1 --num=5 -vq 8080 -- -x ; and the converse is false *)
Example lenient_extends_strict_instance :
  parse F1 false ok_line =
    Ok {| ar_opts := [(s "num", VInt 5); (s "verbose", VBool true); (s "quiet", VBool true)];
          ar_args := [(s "host", VStr (s "h1")); (s "port", VInt 8080); (s "files", VList [VStr (s "-x")])] |} /\
  parse F1 true ok_line = parse F1 false ok_line /\
  parse F1 false (Tk ["h1"; "--nope"; "--verbose=1"]%string) = Err NoSuchOption /\
  parse F1 true (Tk ["h1"; "--nope"; "--verbose=1"]%string) = Ok {| ar_opts := []; ar_args := [(s "host", VStr (s "h1"))] |}.
Proof. exact MoreExamples.lenient_extends_strict_instance. Qed.
Print Assumptions lenient_extends_strict_instance.

(* a format WITH a base.  G (C01.parse_spells_reachable_not_vacuous; api_format): OWN command name add, arguments
   [<port:int>] [<files>...], options --num/-n (value required, int), --tag/-t (multi-valued), --level;  INHERITED command
   name server/srv, argument <host>, options --verbose/-v, --quiet/-q (flags), --color/-c (value optional).
   D1 is the well-formed line of C01; M1b = srv add -v --num 5;  U1 = srv add h1 --num=5 http;  U3 = srv add h1 --num=five 8080 *)
Example classification_over_a_base :
  f_base G <> None /\ api_format G /\ fmt_ok G = true /\ wf_line G D1 = true /\
  map fst (get_options_all G) = [s "num"; s "tag"; s "level"; s "verbose"; s "quiet"; s "color"] /\
  map fst (f_opts G) = [s "num"; s "tag"; s "level"] /\
  parse G false (insert_tok D1 3 (s "--nope")) = Err NoSuchOption /\
  parse G false (insert_tok D1 4 (s "-vz")) = Err NoSuchOption /\
  parse G false (insert_tok D1 0 (s "--quiet=1")) = Err CannotParse /\
  parse G false (insert_tok D1 2 (s "--num")) = Err CannotParse /\
  parse G false (render M1b) = Err CannotParse /\
  (forall len, parse G len (render U1) = Err ValueError) /\
  (forall len, parse G len (render U3) = Err ValueError) /\
  (forall len toks k, parse G len toks = Err k -> allowed k /\ (len = true -> k = ValueError)) /\
  (forall toks, parse G true toks <> Err CannotParse /\ parse G true toks <> Err NoSuchOption).
Proof. exact over_a_base. Qed.
Print Assumptions classification_over_a_base.

(* OUTSIDE THE DOMAIN of opts_ok_w / opts_listed_ok - a model / code divergence hidden by the hypothesis.
   The hypothesis asks that the default of every option whose value is not required be None, a bool, an int or a str
   (conv_input).  Valid API objects outside it, and the bare option on the line:
     Option("lvl", "l", OPTIONAL_VALUE | INTEGER, default=0.5), "x --lvl":  model Err (Other 9) in both modes - NOT one of
        the three documented kinds, so strict_error_kinds_w would be false without its hypothesis;  Python: succeeds with
        {'lvl': 0} (int(0.5)).
     Option("lst", None, OPTIONAL_VALUE, default=['a']), "x --lst":  model Err (Other 9);  Python: {'lst': "['a']"}.
     Option("ratio", "r", OPTIONAL_VALUE | FLOAT, default=0.5), "x --ratio":  model Ok {'ratio': 0.5} = Python; this one
        the hypothesis excludes without need.
   The C02 generator uses no such default, so the tie does not see the divergence. *)
Example strict_error_kinds_w_outside_domain :
  opt_ok_wb OutsideDomain.o_lvl = false /\ opt_ok_wb OutsideDomain.o_lst = false /\ opt_ok_wb OutsideDomain.o_ratio = false /\
  opts_listed_ok OutsideDomain.fB = false /\ ~ opts_ok_w OutsideDomain.fB' /\ fmt_ok OutsideDomain.fB = true /\
  parse OutsideDomain.fB false (T ["x"; "--lvl"]%string) = Err (Other 9) /\
  parse OutsideDomain.fB true (T ["x"; "--lvl"]%string) = Err (Other 9) /\
  ~ allowed (Other 9) /\
  parse OutsideDomain.fC false (T ["x"; "--lst"]%string) = Err (Other 9) /\
  parse OutsideDomain.fC true (T ["x"; "--lst"]%string) = Err (Other 9) /\
  parse OutsideDomain.fA false (T ["x"; "--ratio"]%string) =
    Ok {| ar_opts := [(S_ "ratio", VFloat (S_ "0.5"))]; ar_args := [(S_ "src", VStr (S_ "x"))] |} /\
  parse OutsideDomain.fB false (T ["x"; "--lvl=7"]%string) =
    Ok {| ar_opts := [(S_ "lvl", VInt 7)]; ar_args := [(S_ "src", VStr (S_ "x"))] |}.
Proof. exact OutsideDomain.outside_domain. Qed.
Print Assumptions strict_error_kinds_w_outside_domain.
