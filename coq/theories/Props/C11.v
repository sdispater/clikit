(* C11 - decoration changes only the look: same text, right codes, none when plain.
   good c: the character is neither ESC nor a backslash (pastel renders backslash escapes inside a styled region
   differently in its two modes; such messages are outside the claim). *)
From Clikit Require Import Base.Prelude Base.Res Model.Conv Model.Markup Model.OutputM Model.Trace Proofs.MarkupLemmas Proofs.OutputLemmas
  Proofs.LiteralLemmas Proofs.ListLemmas.

(* An ANSI and a plain formatter built alike carry the same style table. *)
Theorem built_alike : forall b set fa fp,
  new_formatter (FAnsi b) set = Ok fa -> new_formatter FPlain set = Ok fp ->
  is_ansi fa /\ f_kind fp = FPlain /\ f_styles fa = f_styles fp /\ f_stack fa = f_stack fp.
Proof.
  intros b set fa fp. unfold new_formatter. destruct (style_set set []) as [ss|e]; cbn [bind]; [|discriminate].
  destruct (register ss pastel_defaults) as [sty|e]; cbn [bind]; [|discriminate].
  intros H1 H2. inversion H1; inversion H2; subst. repeat split.
Qed.
Print Assumptions built_alike.
Theorem added_alike : forall fa fp c fa' fp',
  is_ansi fa -> f_kind fp = FPlain -> f_styles fa = f_styles fp -> f_stack fa = f_stack fp ->
  add_style fa c = Ok fa' -> add_style fp c = Ok fp' ->
  is_ansi fa' /\ f_kind fp' = FPlain /\ f_styles fa' = f_styles fp' /\ f_stack fa' = f_stack fp'.
Proof.
  intros fa fp c fa' fp' Hk Hp Hs Hk2. unfold add_style, is_ansi in *. rewrite Hp. destruct (f_kind fa) eqn:Ek; try contradiction.
  destruct (convert c) as [p|e]; cbn [bind]; [|discriminate].
  destruct (c_tag c); intros H1 H2; inversion H1; inversion H2; subst; cbn; rewrite ?Ek, ?Hp; repeat split; auto; congruence.
Qed.
Print Assumptions added_alike.

(* For EVERY message without ESC and backslash - balanced or not - the four renderings either all fail alike or:
   the decorated rendering with its escape sequences stripped, the plain rendering and both tag-stripped texts are
   the same string, which is the message with exactly its recognised tags removed, and has no escape byte. *)
Theorem ansi_plain_strip : forall fa fp m style,
  is_ansi fa -> f_kind fp = FPlain -> f_styles fa = f_styles fp -> f_stack fa = f_stack fp -> Forall good m ->
  match format fa m None, remove_format fa m, format fp m style, remove_format fp m with
  | Ok (_, a), Ok (_, ra), Ok (_, pl), Ok (_, rp) =>
      strip_sgr a = pl /\ ra = pl /\ rp = pl /\ pl = strip_tags (f_styles fa) m /\ no_esc pl
  | Err e1, Err e2, Err e3, Err e4 => e1 = e2 /\ e2 = e3 /\ e3 = e4
  | _, _, _, _ => False
  end.
Proof.
  intros fa fp m style Hk Hp Hst Hsk Hm. unfold format, remove_format, is_ansi in *. rewrite Hp. destruct (f_kind fa); try contradiction.
  rewrite <- Hst, <- Hsk. pose proof (colorize_lockstep (f_styles fa) (f_stack fa) m Hm) as HL.
  pose proof (colorize_plain_P (fun c => c <> ESC) (f_styles fa) (f_stack fa) m) as HP.
  destruct (colorize (f_styles fa) true (f_stack fa) m) as [[s1 o1]|e1], (colorize (f_styles fa) false (f_stack fa) m) as [[s2 o2]|e2];
    cbn [bind fst snd]; try contradiction; [|auto].
  destruct HL as (_ & H1 & H2). repeat split; auto. exact (HP s2 o2 (good_no_esc m Hm) eq_refl).
Qed.
Print Assumptions ansi_plain_strip.

(* the scanner loses nothing: the pieces between and including the tags are the message *)
Theorem scanner_lossless : forall m, flat_map (fun sg => fst sg ++ raw_text (snd sg)) (fst (lex m)) ++ snd (lex m) = m.
Proof. exact lex_lossless. Qed.
Print Assumptions scanner_lossless.

(* Every colour and attribute of a style is rendered as exactly its SGR codes - whether the style is registered at
   construction, added later, or passed for a single call. *)
Theorem sgr_exact : forall c cf cb text,
  colour_code fg_code (c_fg c) cf -> colour_code bg_code (c_bg c) cb ->
  Forall good text -> no_lt text -> text <> [] ->
  let codes := opt_list cf ++ opt_list cb ++ attr_codes c in
  (* passed for a single call *)
  (forall f, is_ansi f -> f_stack f = [] -> exists f', format f text (Some c) = Ok (f', sgr_wrap codes text)) /\
  (* registered at construction under its tag *)
  (forall b t, c_tag c = Some t -> t <> [] -> tag_name t -> py_lower t = t ->
     exists f f', new_formatter (FAnsi b) [c] = Ok f /\ format f (open_tag t ++ text ++ close_tag t) None = Ok (f', sgr_wrap codes text)) /\
  (* added later *)
  (forall f t, is_ansi f -> f_stack f = [] -> c_tag c = Some t -> tag_name t -> py_lower t = t ->
     exists f1 f', add_style f c = Ok f1 /\ format f1 (open_tag t ++ text ++ close_tag t) None = Ok (f', sgr_wrap codes text)).
Proof.
  intros c cf cb text Hf Hb Hg Hlt Hne codes. destruct (convert_codes c cf cb Hf Hb) as (p & Hc & Hcodes). subst codes. rewrite <- Hcodes.
  split; [|split].
  - intros f Hk Hs. destruct (format_percall f c p text Hk Hs Hc Hg Hlt Hne) as (f' & H & _). eauto.
  - intros b t Ht Hne' Hn Hl. destruct (new_formatter_registers b c t p Ht Hne' Hc) as (f & H1 & H2 & H3 & H4).
    rewrite <- Hl in H4. destruct (format_registered f t p text H2 H3 H4 Hn Hg Hlt Hne) as (f' & H & _). eauto.
  - intros f t Hk Hs Ht Hn Hl. destruct (add_style_registers f c t p Hk Ht Hc) as (f1 & H1 & H2 & H3 & H4).
    rewrite <- Hl in H4. rewrite Hs in H3. destruct (format_registered f1 t p text H2 H3 H4 Hn Hg Hlt Hne) as (f' & H & _). eauto.
Qed.
Print Assumptions sgr_exact.

(* Every line-writing method emits its text followed by exactly one newline. *)
Theorem line_newline : forall o s,
  (forall o', do_write o WWriteLine s = Ok o' -> exists body, o_buf o' = o_buf o ++ body ++ [NL]) /\
  (exists o', do_write o WWriteLineRaw s = Ok o' /\ o_buf o' = o_buf o ++ rstrip_nl s ++ [NL]) /\
  (exists k, s = rstrip_nl s ++ repeat NL k /\ match rev (rstrip_nl s) with c :: _ => c <> NL | [] => True end) /\
  ((match rev s with c :: _ => c <> NL | [] => True end) -> rstrip_nl s = s).
Proof.
  intros o s. split; [|split; [|split]].
  - intros o' H. destruct (write_line_shape o s o' H) as (body & Hb & _). eauto.
  - destruct (write_line_raw_shape o s) as (o' & H1 & H2 & _). eauto.
  - apply rstrip_nl_spec.
  - apply rstrip_nl_id.
Qed.
Print Assumptions line_newline.
(* line_newline leaves the body of write_line open; these pin it.  On EVERY output that is not a decorated section - any
   indentation, decorated or not, any formatter state - write_line succeeds exactly when write does and leaves exactly what
   write leaves followed by ONE line feed: the line feeds inside the body are those the rendering of the text itself has
   (write_line "a\n" ends in two: the text's own and the one write_line adds). *)
Theorem write_line_is_write_plus_one_newline : forall o s, o_sec o && o_on o = false ->
  do_write o WWriteLine s = (do o1 <- do_write o WWrite s; Ok (buf_push o1 (o_fmt o1) [NL])).
Proof. exact write_line_is_write_nl. Qed.
Print Assumptions write_line_is_write_plus_one_newline.
(* ... the body in full: the text, indented by exactly the indentation in force when that is positive, as the output's
   formatter renders it (format on a decorated output, remove_format otherwise) *)
Theorem write_line_emits_rendered_text_and_newline : forall o s o', o_sec o && o_on o = false ->
  do_write o WWriteLine s = Ok o' ->
  exists f' out, line_render o (o_fmt o) s = Ok (f', out) /\ o' = buf_push o f' (out ++ [NL]).
Proof.
  intros o s o' Hs H. cbn [do_write] in H. rewrite (write_nonsec o s true Hs) in H. bind_inv H x Hx. injection H as <-.
  destruct x. eauto.
Qed.
Print Assumptions write_line_emits_rendered_text_and_newline.
(* a decorated section output ends the line whichever of the two is called, once; the body is the formatted indented text
   (after add_content measured its lines on the same formatter) *)
Theorem section_write_line : forall o s, o_sec o && o_on o = true ->
  do_write o WWrite s = do_write o WWriteLine s /\
  (forall o', do_write o WWriteLine s = Ok o' ->
     exists f0 f' out, add_content_effect o s = Ok f0 /\ format f0 (line_shown o s) None = Ok (f', out) /\
                       o' = buf_push o f' (out ++ [NL])).
Proof.
  intros o s Hs. split; [exact (section_write_is_write_line o s Hs)|]. intros o' H. cbn [do_write] in H.
  rewrite (write_sec o s true Hs) in H. bind_inv H f0 H0. bind_inv H x Hx. injection H as <-. destruct x as [f' out]. exists f0, f', out. auto.
Qed.
Print Assumptions section_write_line.
(* a section taken inside a program starts with the indentation in force and hands the outputs back as they were:
   indent_scopes / scopes_are_lexical below hold for programs WITH SInSection steps *)
Example insection_inherits_indentation :
  forall st, indents (in_sections st) = indents st /\ indents (out_sections st (in_sections st)) = indents st.
Proof. intros st. split; reflexivity. Qed.

(* on an undecorated, unindented output the body of write_line is the tag-stripped text itself *)
Theorem write_line_plain_text : forall o s o', o_on o = false -> o_sec o = false -> (o_indent o <= 0)%Z -> f_kind (o_fmt o) = FPlain ->
  do_write o WWriteLine s = Ok o' ->
  exists sk out, colorize (f_styles (o_fmt o)) false (f_stack (o_fmt o)) s = Ok (sk, out) /\ o_buf o' = o_buf o ++ out ++ [NL].
Proof.
  intros o s o' Hon Hsec Hi Hk H. cbn [do_write] in H. rewrite write_nonsec in H by now rewrite Hsec.
  unfold line_render, line_shown in H. rewrite Hon in H. replace (0 <? o_indent o)%Z with false in H by (symmetry; apply Z.ltb_ge, Hi).
  bind_inv H x Hx. injection H as <-. destruct x as [f' out]. apply remove_format_colorize in Hx as [Hx _]; [|now rewrite Hk]. eauto.
Qed.
Print Assumptions write_line_plain_text.

(* Every non-empty line is prefixed by exactly the indentation in force; empty lines and the line structure are kept. *)
Theorem indent_prefix : forall n s, split_on NL (indent_text n s) = map (indent_line n) (split_on NL s).
Proof.
  intros n s. unfold indent_text. apply split_join.
  - pose proof (split_on_nonempty NL s). destruct (split_on NL s); [congruence|discriminate].
  - apply Forall_map. eapply Forall_impl; [|apply split_lines_no_nl]. intros l Hl.
    unfold indent_line. destruct l; [constructor|]. apply Forall_app; split; [apply spaces_no_nl|exact Hl].
Qed.
Print Assumptions indent_prefix.

(* Under ANY nesting of indentation scopes at IO and single-output level, left normally or by an exception:
   the indentation that held before a statement holds again after it ... *)
Theorem indent_scopes : forall s st, indents (fst (exec s st)) = indents st.
Proof. exact exec_keeps_indents. Qed.
Print Assumptions indent_scopes.
(* ... and the save/restore discipline of Indent is lexical scoping: running the program with the indentation in force
   handed down as a parameter (never restored) writes the same streams and propagates the same exceptions. *)
Theorem scopes_are_lexical : forall prog st,
  let '(a, r1) := exec_list prog st in let '(b, r2) := lexec_list prog (indents st) st in
  r1 = r2 /\ a = set_env b (indents st).
Proof.
  intros prog st. pose proof (exec_list_sim_lexec prog st st (same_but_indent_refl st)) as H. pose proof (exec_list_keeps_indents prog st) as HK.
  destruct (exec_list prog st) as [a r1], (lexec_list prog (indents st) st) as [b r2]. destruct H as [-> H]. split; [reflexivity|].
  cbn [fst] in HK. rewrite <- (set_env_same a), HK. apply same_but_indent_env, H.
Qed.
Print Assumptions scopes_are_lexical.

(* premises are satisfiable *)
Example good_message : Forall good [60; 98; 62; 104; 105; 60; 47; 98; 62]%N /\ tag_name [98%N] /\ py_lower [98%N] = [98%N].
Proof. repeat split; repeat constructor; discriminate. Qed.

(* Decoration changes only the look - also for messages WITH backslashes (ansi_plain_strip above excludes them): whenever
   the message does not end in a backslash, no text before a tag ends in one (so no tag is escaped), and nothing holds
   ESC, the decorated and the undecorated rendering fail alike or leave the same style stack and the same text under
   the escape codes.  (What is excluded is exactly pastel's own quirk: an ESCAPED whole tag inside an active style is
   shown with its backslash on a decorated output only - see DESIGN.md C20, fix f100be7.) *)
Theorem ansi_plain_strip_backslashes : forall sty sk m,
  ends_with_bsl m = false -> Forall seg_fine (fst (lex m)) -> Forall good (snd (lex m)) ->
  match colorize sty true sk m, colorize sty false sk m with
  | Ok (s1, o1), Ok (s2, o2) => s1 = s2 /\ strip_sgr o1 = o2
  | Err e1, Err e2 => e1 = e2
  | _, _ => False
  end.
Proof. exact colorize_lockstep_gen. Qed.
Print Assumptions ansi_plain_strip_backslashes.
(* an instance with backslashes: "a\\b <b>c\\d</b> e\\<" *)
Example backslashes_in_lockstep :
  let m := [97;92;98;32;60;98;62;99;92;100;60;47;98;62;32;101;92;60]%N in
  ends_with_bsl m = false /\ strip_sgr (match colorize Examples.demo_sty true [] m with Ok (_, o) => o | Err _ => [] end)
                             = match colorize Examples.demo_sty false [] m with Ok (_, o) => o | Err _ => [1%N] end.
Proof. vm_compute. split; reflexivity. Qed.

(* "nor the markup of a registered style".  ansi_plain_strip says what the plain rendering IS: the message with exactly its recognised tags removed (strip_tags), with
   no escape byte when the message has none.  Whether that text holds a piece that READS like the tag of a style is another
   matter: it depends on the "<" the message holds outside its tags - the quantifier of the property allows them ("'<'/'>' as
   plain characters").  occurs p s: p is a piece (infix) of s.
   (1) When every "<" of the message opens a tag the scanner finds (texts_without_lt: no "<" in the texts between the tags nor
   behind the last one), the result holds no <t> and no </t> for ANY style name t the table resolves - registered (at
   construction or added later: the theorem is for every style table) or written inline - and no </>.  For every style table,
   style stack and message without ESC and backslash; balanced or not (the hypothesis is that the rendering succeeds). *)
From Clikit Require Import Proofs.MarkupPlainLemmas.
Theorem plain_emits_no_style_markup : forall sty sk m sk' out,
  Forall good m -> texts_without_lt m -> colorize sty false sk m = Ok (sk', out) ->
  (forall t, tag_name t -> resolvable sty t -> ~ occurs (open_tag t) out /\ ~ occurs (close_tag t) out)
  /\ ~ occurs CLOSE_ANY out.
Proof. exact plain_holds_no_style_markup. Qed.
Print Assumptions plain_emits_no_style_markup.
(* a style registered in the table is one the table resolves *)
Theorem registered_styles_resolve : forall sty t p, aget str_eqb (py_lower t) sty = Some p -> resolvable sty t.
Proof. intros sty t p H. exists p. unfold resolve. now rewrite H. Qed.
Print Assumptions registered_styles_resolve.
(* through the formatters: remove_format of the plain and of the ANSI formatter, format of the plain one ... *)
Theorem remove_format_emits_no_style_markup : forall f m f' out, f_kind f <> FNull ->
  Forall good m -> texts_without_lt m -> remove_format f m = Ok (f', out) ->
  (forall t, tag_name t -> resolvable (f_styles f) t -> ~ occurs (open_tag t) out /\ ~ occurs (close_tag t) out) /\ ~ occurs CLOSE_ANY out.
Proof.
  intros f m f' out Hk Hg Hl H. apply (remove_format_colorize _ _ _ _ Hk) in H as [H _].
  exact (plain_emits_no_style_markup _ _ _ _ _ Hg Hl H).
Qed.
Print Assumptions remove_format_emits_no_style_markup.
Theorem format_plain_emits_no_style_markup : forall f m style f' out, f_kind f = FPlain ->
  Forall good m -> texts_without_lt m -> format f m style = Ok (f', out) ->
  (forall t, tag_name t -> resolvable (f_styles f) t -> ~ occurs (open_tag t) out /\ ~ occurs (close_tag t) out) /\ ~ occurs CLOSE_ANY out.
Proof.
  intros f m style f' out Hk Hg Hl H. apply (format_plain_colorize _ _ _ _ _ Hk) in H as [H _].
  exact (plain_emits_no_style_markup _ _ _ _ _ Hg Hl H).
Qed.
Print Assumptions format_plain_emits_no_style_markup.
(* ... and at the stream: write_line on an undecorated output (formatting off, plain formatter, not a section, unindented)
   appends the text and ONE line break; the text holds no escape byte and no style markup *)
Theorem undecorated_write_line_emits_neither_escape_nor_markup : forall o s o',
  o_on o = false -> o_sec o = false -> (o_indent o <= 0)%Z -> f_kind (o_fmt o) = FPlain ->
  Forall good s -> texts_without_lt s -> do_write o WWriteLine s = Ok o' ->
  exists out, o_buf o' = o_buf o ++ out ++ [NL] /\ no_esc out /\
    (forall t, tag_name t -> resolvable (f_styles (o_fmt o)) t -> ~ occurs (open_tag t) out /\ ~ occurs (close_tag t) out) /\
    ~ occurs CLOSE_ANY out.
Proof.
  intros o s o' Hon Hsec Hi Hk Hg Hl H. destruct (write_line_plain_text o s o' Hon Hsec Hi Hk H) as (sk & out & Hc & Hb).
  exists out. split; [exact Hb|]. split; [exact (colorize_plain_P _ _ _ _ _ _ (good_no_esc s Hg) Hc)|].
  exact (plain_emits_no_style_markup _ _ _ _ _ Hg Hl Hc).
Qed.
Print Assumptions undecorated_write_line_emits_neither_escape_nor_markup.
Theorem texts_without_lt_decided : forall m, texts_without_ltb m = true -> texts_without_lt m.
Proof.
  unfold texts_without_ltb, texts_without_lt. intros m H. apply andb_prop in H as [H1 H2]. split; [|now apply no_ltb_spec].
  apply Forall_forall. intros sg Hsg. rewrite forallb_forall in H1. apply no_ltb_spec, H1, Hsg.
Qed.
Print Assumptions texts_without_lt_decided.
Theorem occursb_decides : forall p s, occursb p s = true <-> occurs p s.
Proof. exact occursb_spec. Qed.
Print Assumptions occursb_decides.
(* non-vacuity: "a <b>x <fg=red>y</></b> <nope>z" - nested named and inline styles, an unknown tag, no stray "<" - meets the
   hypotheses on the style table with clikit's <b>; the plain rendering is "a x y <nope>z": the unknown tag stays, no <b> *)
Definition ex_wf_msg : str := [97;32;60;98;62;120;32;60;102;103;61;114;101;100;62;121;60;47;62;60;47;98;62;32;60;110;111;112;101;62;122]%N.
Example plain_emits_no_style_markup_instance :
  Forall good ex_wf_msg /\ texts_without_ltb ex_wf_msg = true /\
  colorize Examples.demo_sty false [] ex_wf_msg = Ok ([], [97;32;120;32;121;32;60;110;111;112;101;62;122]%N) /\
  tag_name st_b /\ resolvable Examples.demo_sty st_b.
Proof.
  split; [repeat constructor; discriminate|]. split; [vm_compute; reflexivity|]. split; [vm_compute; reflexivity|].
  split; [repeat constructor|exact Examples.resolve_b].
Qed.

(* (2) REFUTED without "no stray <" - for a message with BALANCED tags, inside the quantifier of the property.
   "<<b></b>b>": the plain character "<", the balanced pair <b></b> around nothing, the plain characters "b>".  The scanner finds
   the two tags; both renderings succeed and leave the style stack empty; the decorated rendering with its escape sequences
   stripped, the plain rendering and the tag-stripped text are the same string - the first half of the property holds - and
   that string is "<b>": it READS like the opening tag of the registered style b.
   Observed alike on pastel / clikit (PlainFormatter().format / .remove_format("<<b></b>b>") = "<b>"; AnsiFormatter stripped of
   ESC[...m the same; a BufferedIO with a PlainFormatter: write_line writes "<b>" and the line break).
   A READING, not a defect: every tag the message carried was removed (strip_tags); the characters that spell "<b>" are plain
   characters of the message.  "never emits the markup of a registered style" is claimed in this sense (ansi_plain_strip:
   the output is the message without its recognised tags) and, for messages whose "<" all open tags, in the literal sense
   (plain_emits_no_style_markup). *)
Definition ex_respell : str := [60;60;98;62;60;47;98;62;98;62]%N.   (* <<b></b>b> *)
Theorem plain_can_spell_a_style_tag_refuted :
  exists sty m t p, Forall good m /\ tag_name t /\ aget str_eqb (py_lower t) sty = Some p /\
    (* balanced: both renderings succeed from the empty style stack and leave it empty *)
    (exists o1, colorize sty true [] m = Ok ([], o1) /\ strip_sgr o1 = strip_tags sty m) /\
    colorize sty false [] m = Ok ([], strip_tags sty m) /\
    occurs (open_tag t) (strip_tags sty m) /\ texts_without_ltb m = false.
Proof.
  exists Examples.demo_sty, ex_respell, st_b. eexists. split; [repeat constructor; discriminate|]. split; [repeat constructor|].
  split; [vm_compute; reflexivity|]. split; [eexists; split; vm_compute; reflexivity|]. split; [vm_compute; reflexivity|].
  split; [apply occursb_spec; vm_compute; reflexivity|vm_compute; reflexivity].
Qed.
Print Assumptions plain_can_spell_a_style_tag_refuted.
(* the stream-level statement applied: an undecorated, unindented output with the plain formatter over clikit's <b> *)
Definition ex_plain_out : outp :=
  {| o_indent := 0; o_on := false; o_sec := false;
     o_fmt := match new_formatter FPlain [Examples.cs_b] with Ok f => f | Err _ => {| f_kind := FNull; f_styles := []; f_stack := [] |} end;
     o_buf := [] |}.
Example undecorated_write_line_instance :
  f_kind (o_fmt ex_plain_out) = FPlain /\
  match do_write ex_plain_out WWriteLine ex_wf_msg with
  | Ok o' => str_eqb (o_buf o') ([97;32;120;32;121;32;60;110;111;112;101;62;122;10]%N)    (* a x y <nope>z NL *)
  | Err _ => false end = true.
Proof. vm_compute. split; reflexivity. Qed.
(* The line-writing clause at IO level (Model/OutputIO.v): "Every line-writing method emits the text followed by exactly one
   newline."  The eight writing methods of IO - which output, which method there: Model/GateIO.v io_delegate, the table C10
   shares - over the output model above.  io_write st m s: the call io.<m>(s) on an I/O in state st.
   (GateIO is imported before OutputM again so that `exec` stays the program model's.) *)
From Clikit Require Import Model.Gate Model.GateIO Model.OutputM Model.OutputIO Proofs.OutputIOLemmas.

(* the line-writing methods of IO are exactly these four (harness: the same four are what reflection finds ending the line) *)
Theorem io_line_methods : filter is_line_method all_io_methods = [IoWriteLine; IoWriteLineRaw; IoErrorLine; IoErrorLineRaw].
Proof. reflexivity. Qed.
Print Assumptions io_line_methods.

(* io.write_line(s) is io.write(s) followed by ONE line feed on the standard output, io.error_line(s) is io.error(s) followed
   by ONE line feed on the error output: same success or failure, same formatter state, the other output untouched - on every
   I/O whose output is not a decorated section, at any indentation, decorated or not *)
Theorem io_write_line_is_write_plus_one_newline : forall st s,
  (o_sec (io_out st) && o_on (io_out st) = false ->
   io_write st IoWriteLine s = (do st1 <- io_write st IoWrite s; Ok (push_out st1 [NL]))) /\
  (o_sec (io_err st) && o_on (io_err st) = false ->
   io_write st IoErrorLine s = (do st1 <- io_write st IoError s; Ok (push_err st1 [NL]))).
Proof.
  intros st s. split; intros H; unfold io_write; cbn [io_delegate fst snd wmeth_of]; rewrite (write_line_is_write_nl _ _ H);
    [destruct (do_write (io_out st) WWrite s)|destruct (do_write (io_err st) WWrite s)]; reflexivity.
Qed.
Print Assumptions io_write_line_is_write_plus_one_newline.
(* ... on the I/O of a decorated section (io.section() of a decorated I/O) write and write_line are one and the same call: the
   section ends the line itself, once (section_write_line above gives the body) *)
Theorem io_section_write_and_write_line_agree : forall st s,
  (o_sec (io_out st) && o_on (io_out st) = true -> io_write st IoWrite s = io_write st IoWriteLine s) /\
  (o_sec (io_err st) && o_on (io_err st) = true -> io_write st IoError s = io_write st IoErrorLine s).
Proof.
  intros st s. split; intros H; unfold io_write; cbn [io_delegate fst snd wmeth_of]; now rewrite (section_write_is_write_line _ _ H).
Qed.
Print Assumptions io_section_write_and_write_line_agree.
(* the raw line methods: exactly the text without its own trailing line feeds, then one line feed; never fail *)
Theorem io_write_line_raw_is_text_plus_one_newline : forall st s,
  io_write st IoWriteLineRaw s =
    Ok {| io_out := with_buf (io_out st) (o_fmt (io_out st)) (o_buf (io_out st) ++ rstrip_nl s ++ [NL]); io_err := io_err st |} /\
  io_write st IoErrorLineRaw s =
    Ok {| io_out := io_out st; io_err := with_buf (io_err st) (o_fmt (io_err st)) (o_buf (io_err st) ++ rstrip_nl s ++ [NL]) |}.
Proof. intros st s. split; reflexivity. Qed.
Print Assumptions io_write_line_raw_is_text_plus_one_newline.
(* EVERY line-writing method of IO, on every I/O (sections included), whenever the call returns: the stream of the output the
   method belongs to has grown by a body and one FINAL line feed, that output's indentation is what it was, the other output
   is untouched *)
Theorem io_line_methods_end_the_line : forall m st s st', is_line_method m = true -> io_write st m s = Ok st' ->
  let t := fst (fst (io_delegate m)) in
  (exists body, o_buf (out_of t st') = o_buf (out_of t st) ++ body ++ [NL]) /\
  o_indent (out_of t st') = o_indent (out_of t st) /\ other_of t st' = other_of t st.
Proof.
  intros m st s st' Hm H. unfold io_write in H.
  destruct m; try discriminate Hm; cbn [io_delegate fst snd wmeth_of out_of other_of] in *; bind_inv H o Ho; injection H as <-;
    cbn [io_out io_err].
  1, 3: destruct (write_line_shape _ _ _ Ho) as (body & Hb & Hi); eauto.
  all: injection Ho as <-; cbn; eauto.
Qed.
Print Assumptions io_line_methods_end_the_line.
(* in the program model (indent_scopes, scopes_are_lexical above) a call of an IO method IS a write statement, and running it
   is the call: the programs the driver runs hold IO-level calls, compiled by the model itself (run_C11IO) *)
Theorem io_call_is_a_write_statement : forall m text,
  (exists t wm, io_stmt m text = Some (SWrite t wm text)) /\
  (forall stm st, io_stmt m text = Some stm ->
     exec stm st = match io_write st m text with Ok st' => (st', false) | Err _ => (st, true) end).
Proof.
  intros m text. split; [destruct m; cbn; eauto|]. intros stm st. unfold io_stmt, io_write.
  destruct (wmeth_of (snd (fst (io_delegate m)))) as [wm|]; cbn [option_map]; [|discriminate].
  intros H. injection H as <-. destruct (fst (fst (io_delegate m))); cbn [target_of exec].
  - destruct (do_write (io_out st) wm text); reflexivity.
  - destruct (do_write (io_err st) wm text); reflexivity.
Qed.
Print Assumptions io_call_is_a_write_statement.

(* instances: an undecorated I/O at indentation 2; write_line "a\n" ends in two line feeds (the text's own and the one the
   method adds), error_line_raw "b\n\n" in one; the other stream stays empty *)
Definition io_plain : iost :=
  let o := {| o_indent := 2; o_on := false; o_sec := false; o_fmt := {| f_kind := FPlain; f_styles := []; f_stack := [] |}; o_buf := [] |} in
  {| io_out := o; io_err := o |}.
Example io_line_instances :
  (match io_write io_plain IoWriteLine [97; 10]%N with Ok st => o_buf (io_out st) = [32; 32; 97; 10; 10]%N /\ o_buf (io_err st) = [] | Err _ => False end) /\
  (match io_write io_plain IoWrite [97; 10]%N with Ok st => o_buf (io_out st) = [32; 32; 97; 10]%N | Err _ => False end) /\
  (match io_write io_plain IoErrorLineRaw [98; 10; 10]%N with Ok st => o_buf (io_err st) = [98; 10]%N /\ o_buf (io_out st) = [] | Err _ => False end) /\
  o_sec (io_out io_plain) && o_on (io_out io_plain) = false /\ map is_line_method all_io_methods = [false; true; false; true; false; true; false; true].
Proof. vm_compute. repeat split. Qed.
