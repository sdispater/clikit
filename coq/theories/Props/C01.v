(* C01 - parsing a well-formed command line recovers exactly the intended values.

   FULL STATEMENT (parse_spells), proved below:
     forall f (d : line description: command-name spellings, option items in the forms --n=v / --n v / -nv / -n v /
     bare / grouped, positionals, optional "--" tail), fmt_ok f = true -> wf_line f d = true -> forall lenient,
       parse f lenient (render d) = Ok (denote f d).
   Line descriptions, render, wf_line (the side conditions), denote (the intended assignment) and fmt_ok (the
   hypothesis on the format: the parser's augmented format is what it is meant to be) are the executable
   definitions of Model/Spell.v; the proof is in Proofs/SpellOpts.v, SpellArgs.v, SpellLemmas.v (SpellNames.v for command
   names among the options, FmtOkLemmas.v for fmt_ok of every format built through the API, NamesResolveLemmas.v for the
   names under which such a format finds its options and arguments).  parse_spells_stage1
   and parse_spells_stage2 are its restrictions to lines of options only and to lines without command names.
   parse_spells_not_vacuous exhibits a format (command names with aliases, required / typed optional /
   multi-valued arguments, six options of every value mode) and a line using every item form that satisfy the
   hypotheses.
   Also proved: the read side (access by long name, short name or position agrees; everything not set reports its
   default), that nothing after "--" is read as an option, and - shared with C02/C05 - that lenient and strict
   parsing agree on every line strict parsing accepts and that the result does not depend on the parser object's
   history. *)
From Clikit Require Import Base.Prelude Base.Res Model.Conv Model.Format Model.Parser Model.Spell
     Proofs.ParserLemmas Proofs.SpellDenote Proofs.SpellLemmas Proofs.FormatLemmas Proofs.FmtOkLemmas.
From Clikit Require Proofs.SpellNames.

Theorem access_agrees_options : forall f a n m o,
  get_option f n true = Ok o -> get_option f m true = Ok o -> args_option f a n = args_option f a m.
Proof. exact option_access_agrees. Qed.
Print Assumptions access_agrees_options.
Theorem access_agrees_option_set : forall f a n m o,
  has_option f n true = true -> has_option f m true = true ->
  get_option f n true = Ok o -> get_option f m true = Ok o ->
  args_is_option_set f a n = args_is_option_set f a m.
Proof. exact option_set_agrees. Qed.
Print Assumptions access_agrees_option_set.
Theorem access_agrees_arguments : forall f a r1 r2 ar,
  get_argument f r1 true = Ok ar -> get_argument f r2 true = Ok ar -> args_argument f a r1 = args_argument f a r2.
Proof. exact argument_access_agrees. Qed.
Print Assumptions access_agrees_arguments.
Theorem access_agrees_argument_set : forall f a r1 r2 ar,
  has_argument f r1 true = true -> has_argument f r2 true = true ->
  get_argument f r1 true = Ok ar -> get_argument f r2 true = Ok ar ->
  args_is_argument_set f a r1 = args_is_argument_set f a r2.
Proof. exact argument_set_agrees. Qed.
Print Assumptions access_agrees_argument_set.

Theorem unset_option_reports_default : forall f a n o,
  get_option f n true = Ok o -> sget (o_long o) (ar_opts a) = None ->
  args_option f a n = Ok (if o_accepts o then o_default o else VBool false).
Proof. exact unset_option_default. Qed.
Print Assumptions unset_option_reports_default.
Theorem unset_argument_reports_default : forall f a r ar,
  get_argument f r true = Ok ar -> sget (a_name ar) (ar_args a) = None -> args_argument f a r = Ok (a_default ar).
Proof. exact unset_argument_default. Qed.
Print Assumptions unset_argument_reports_default.

Theorem tail_is_never_read_as_options : forall f len fuel st toks,
  ps_opts (fst (loop fuel f len false st toks)) = ps_opts st.
Proof. exact loop_after_dd_keeps_options. Qed.
Print Assumptions tail_is_never_read_as_options.

Theorem spelled_lines_mode_independent : forall f toks r, parse f false toks = Ok r -> parse f true toks = Ok r.
Proof. exact lenient_extends_strict_lemma. Qed.
Print Assumptions spelled_lines_mode_independent.

(* ---- a well-formed line parses to the assignment it spells ---- *)
(* option items only (all five written forms and grouped short options) *)
Theorem parse_spells_stage1 : forall f d, fmt_ok f = true -> wf_line f d = true ->
  no_positionals d = true -> no_names d = true ->
  forall lenient, parse f lenient (render d) = Ok (denote f d).
Proof. intros f d Hf Hwf _ _. exact (parse_spells_lemma f d Hf Hwf). Qed.
Print Assumptions parse_spells_stage1.
(* + positional arguments, interleaved, and the "--" tail *)
Theorem parse_spells_stage2 : forall f d, fmt_ok f = true -> wf_line f d = true -> no_names d = true ->
  forall lenient, parse f lenient (render d) = Ok (denote f d).
Proof. intros f d Hf Hwf _. exact (parse_spells_lemma f d Hf Hwf). Qed.
Print Assumptions parse_spells_stage2.
(* the full statement: + leading command names or aliases, given or omitted *)
Theorem parse_spells : forall f d, fmt_ok f = true -> wf_line f d = true ->
  forall lenient, parse f lenient (render d) = Ok (denote f d).
Proof. exact parse_spells_lemma. Qed.
Print Assumptions parse_spells.
(* the hypotheses are satisfiable, by a format and a line that exercise every clause *)
Theorem parse_spells_not_vacuous :
  fmt_ok SpellExamples.F1 = true /\ wf_line SpellExamples.F1 SpellExamples.D1 = true /\
  fmt_ok SpellExamples.F2 = true /\ wf_line SpellExamples.F2 SpellExamples.D1 = true.
Proof. exact (conj SpellExamples.F1_ok (conj SpellExamples.D1_wf (conj SpellExamples.F2_ok (proj1 SpellExamples.D1_parses_over_base)))). Qed.
Print Assumptions parse_spells_not_vacuous.
Theorem spelling_parses : forall f asg line, fmt_ok f = true -> spells f asg line ->
  forall lenient, parse f lenient line = Ok asg.
Proof. intros f asg line Hf (d & Hwf & <- & <-). now apply parse_spells_lemma. Qed.
Print Assumptions spelling_parses.

(* ---- what the spelled assignment [denote f d] reports through the read side of Args ---- *)
(* marks as set exactly what was given *)
Theorem spelled_options_marked_set : forall f d n o, get_option f n true = Ok o -> has_option f n true = true ->
  args_is_option_set f (denote f d) n = mentions (o_long o) (events d).
Proof. exact (fun f d => asg_option_set f (events d) (values d)). Qed.
Print Assumptions spelled_options_marked_set.
(* reports the declared default for every option not given *)
Theorem unspelled_option_default : forall f d n o, get_option f n true = Ok o ->
  mentions (o_long o) (events d) = false -> args_option f (denote f d) n = Ok (opt_default_value o).
Proof. exact (fun f d => asg_option_unset f (events d) (values d)). Qed.
Print Assumptions unspelled_option_default.
(* a single-valued option reports the converted value of its last occurrence (True for a flag, the converted
   default for an omitted optional value) *)
Theorem spelled_single_option : forall f d n o es1 e es2, get_option f n true = Ok o ->
  events d = es1 ++ e :: es2 -> ev_key e = o_long o -> mentions (o_long o) es2 = false ->
  (match snd e with GText _ => o_multi (fst e) = false | _ => True end) ->
  args_option f (denote f d) n = Ok (event_value e).
Proof. exact (fun f d => asg_option_single f (events d) (values d)). Qed.
Print Assumptions spelled_single_option.
(* a multi-valued option reports all its values, converted, in line order *)
Theorem spelled_multi_option : forall f d n o, fmt_ok f = true -> wf_line f d = true ->
  get_option f n true = Ok o -> get_option f (o_long o) true = Ok o ->
  o_multi o = true -> mentions (o_long o) (events d) = true ->
  args_option f (denote f d) n = Ok (VList (map (fun s => conv_opt o (VStr s)) (texts_of (o_long o) (events d)))).
Proof.
  intros f d n o Hf Hwf Hg Hgl. destruct (SpellNames.wf_line_inv f d Hf Hwf) as (_ & _ & Hev).
  exact (asg_option_multi f (events d) (values d) n o Hg Hgl Hev).
Qed.
Print Assumptions spelled_multi_option.
(* the i-th declared argument, by name or by position: set iff a value reached it; reports the converted value
   (all remaining values for a multi-valued argument) or the declared default *)
Theorem spelled_argument_set : forall f d i a r, fmt_ok f = true -> wf_line f d = true ->
  nth_error (get_arguments_all f) i = Some (a_name a, a) ->
  get_argument f r true = Ok a -> has_argument f r true = true ->
  args_is_argument_set f (denote f d) r = (i <? length (values d)).
Proof.
  intros f d i a r Hf Hwf. destruct (SpellNames.wf_line_inv f d Hf Hwf) as (Hnd & Hfit & _).
  exact (asg_argument_set f (events d) (values d) Hnd Hfit i a r).
Qed.
Print Assumptions spelled_argument_set.
Theorem spelled_argument_value : forall f d i a r, fmt_ok f = true -> wf_line f d = true ->
  nth_error (get_arguments_all f) i = Some (a_name a, a) ->
  get_argument f r true = Ok a -> has_argument f r true = true ->
  args_argument f (denote f d) r =
  Ok (if i <? length (values d)
      then (if a_multi a then VList (map (conv_arg a) (skipn i (values d))) else conv_arg a (nth i (values d) []))
      else a_default a).
Proof.
  intros f d i a r Hf Hwf Hn Hg _. destruct (SpellNames.wf_line_inv f d Hf Hwf) as (Hnd & Hfit & _).
  exact (asg_argument_value f (events d) (values d) Hnd Hfit i a r Hn Hg).
Qed.
Print Assumptions spelled_argument_value.

(* ---- fmt_ok is not an extra assumption: it holds for every format the public API can build ----
   fmt_inv f = args_wf f (C06: order rules, flags agree with the listing, distinct names, also over the base chain)
            /\ akeys_inv f (every argument is listed under its own name)
            /\ opts_inv f  (options are listed under their long names, short names are indexed, no two listed options
                            of the format and its bases share a long or short name).
   The invariant holds for the empty builder (over no base or over a base that satisfies it), is kept by every builder
   operation (bop_valid: the arguments added carry exactly one of REQUIRED / OPTIONAL, which Argument() guarantees, C07)
   and by build_format; hence by induction for every stack of base formats.  names_wf of C06 is not needed.
   FmtOkExamples (Proofs/FmtOkLemmas.v) computes fmt_ok on instances: a format over a base, twelve command names with
   arguments named cmd11 / cmd12 / cmd111 / cmd1113, a multi-valued last argument. *)
Theorem fmt_inv_empty_builder :
  fmt_inv (empty_builder None) /\ forall bf, fmt_inv bf -> fmt_inv (empty_builder (Some bf)).
Proof. exact (conj empty_builder_inv_none empty_builder_inv_some). Qed.
Print Assumptions fmt_inv_empty_builder.
Theorem fmt_inv_step : forall f o, fmt_inv f -> bop_valid o = true -> fmt_inv (fst (bstep f o)).
Proof. exact (bstep_preserves fmt_invariant). Qed.
Print Assumptions fmt_inv_step.
Theorem fmt_inv_build_format : forall f, fmt_inv f -> fmt_inv (build_format f).
Proof. exact build_format_inv. Qed.
Print Assumptions fmt_inv_build_format.
(* the structural theorem *)
Theorem wf_implies_fmt_ok : forall f, fmt_inv f -> fmt_ok f = true.
Proof. exact wf_implies_fmt_ok_lemma. Qed.
Print Assumptions wf_implies_fmt_ok.
(* any operation sequence on a builder over any base that satisfies the invariant, then .format: the result satisfies
   the invariant again (so it can serve as a base) and fmt_ok *)
Theorem reachable_fmt_ok : forall base ops,
  match base with Some bf => fmt_inv bf | None => True end -> forallb bop_valid ops = true ->
  fmt_inv (build_format (brun (empty_builder base) ops)) /\
  fmt_ok (build_format (brun (empty_builder base) ops)) = true.
Proof. exact reachable_fmt_ok_lemma. Qed.
Print Assumptions reachable_fmt_ok.
(* ArgsFormat(elements, base) *)
Theorem format_of_elements_fmt_ok : forall es base f,
  match base with Some bf => fmt_inv bf | None => True end -> forallb element_valid es = true ->
  format_of_elements es base = Ok f -> fmt_inv f /\ fmt_ok f = true.
Proof. exact format_of_elements_fmt_ok_lemma. Qed.
Print Assumptions format_of_elements_fmt_ok.
(* api_format: builder over no base or over an api_format, any valid operations, then .format *)
Theorem api_format_fmt_ok : forall f, api_format f -> fmt_ok f = true.
Proof. exact api_format_fmt_ok_lemma. Qed.
Print Assumptions api_format_fmt_ok.
(* parse_spells with fmt_ok replaced by reachability *)
Theorem parse_spells_reachable : forall f d, api_format f -> wf_line f d = true ->
  forall lenient, parse f lenient (render d) = Ok (denote f d).
Proof. intros f d Hf. apply parse_spells_lemma. now apply api_format_fmt_ok_lemma. Qed.
Print Assumptions parse_spells_reachable.
Theorem parse_spells_wf : forall f d, fmt_inv f -> wf_line f d = true ->
  forall lenient, parse f lenient (render d) = Ok (denote f d).
Proof. exact parse_spells_inv_lemma. Qed.
Print Assumptions parse_spells_wf.
(* a concrete reachable format (command names, arguments and options spread over a base; a SetArguments and two
   rejected additions among the operations) and a line using every item form satisfy the hypotheses *)
Example parse_spells_reachable_not_vacuous :
  api_format FmtOkExamples.G /\ wf_line FmtOkExamples.G SpellExamples.D1 = true /\
  fmt_ok FmtOkExamples.G = true /\
  forall lenient, parse FmtOkExamples.G lenient (render SpellExamples.D1) = Ok (denote FmtOkExamples.G SpellExamples.D1).
Proof. exact (conj FmtOkExamples.G_api (conj FmtOkExamples.G_line_ok (conj FmtOkExamples.G_fmt_ok_computed FmtOkExamples.G_parses))). Qed.
Print Assumptions parse_spells_reachable_not_vacuous.

(* names_resolve.  The four access_agrees_* and the two unset_*_reports_default theorems above take
   "both names resolve to the same element" as hypotheses, which is the clause itself.  Below it is a theorem.
   fmt_inv alone does NOT give it (names_resolve_needs_short_index: a hand-made format that satisfies fmt_inv
   and fmt_ok, and resolves -v to --quiet): opts_inv says that the short name of a listed option is indexed, not
   to what.  The missing piece, short_inv, says that an entry (s, o) of the short-name index - at every level of
   the base chain - is a listed option whose short name is s; ArgsFormat.__init__ REBUILDS that index from the
   listing, so short_inv holds for every built format.  names_inv f = fmt_inv f /\ short_inv f. *)
From Coq Require Import String.
From Clikit Require Import Proofs.NamesResolveLemmas.
Local Open Scope string_scope.

Theorem names_inv_reachable : forall base ops,
  match base with Some bf => names_inv bf | None => True end -> forallb bop_valid ops = true ->
  names_inv (build_format (brun (empty_builder base) ops)).
Proof. exact reachable_names_inv. Qed.
Print Assumptions names_inv_reachable.
Theorem names_inv_api_format : forall f, api_format f -> names_inv f.
Proof. exact api_format_names_inv. Qed.
Print Assumptions names_inv_api_format.
Theorem names_inv_format_of_elements : forall es base f,
  match base with Some bf => names_inv bf | None => True end -> forallb element_valid es = true ->
  format_of_elements es base = Ok f -> names_inv f.
Proof.
  intros es base f Hb Hv H. rewrite (format_of_elements_built _ _ _ H).
  apply reachable_names_inv; [exact Hb|now apply elements_valid_ops].
Qed.
Print Assumptions names_inv_format_of_elements.

(* every listed option (own or inherited) is listed under its long name; its long name and - if it has one - its
   short name resolve to it; and a name that resolves at all is the long or the short name of a listed option *)
Theorem names_resolve_options : forall f, names_inv f ->
  (forall k o, In (k, o) (get_options f true) ->
     k = o_long o /\ get_option f (o_long o) true = Ok o /\ has_option f (o_long o) true = true /\
     forall s, o_short o = Some s -> get_option f s true = Ok o /\ has_option f s true = true) /\
  (forall n o, get_option f n true = Ok o ->
     In (o_long o, o) (get_options f true) /\ (n = o_long o \/ o_short o = Some n)).
Proof. exact names_resolve_options_lemma. Qed.
Print Assumptions names_resolve_options.
(* the i-th listed argument (base first): position i and its name resolve to it; and conversely *)
Theorem names_resolve_arguments : forall f, names_inv f ->
  (forall i n a, nth_error (get_arguments f true) i = Some (n, a) ->
     n = a_name a /\
     get_argument f (APos (Z.of_nat i)) true = Ok a /\ get_argument f (AName n) true = Ok a /\
     has_argument f (APos (Z.of_nat i)) true = true /\ has_argument f (AName n) true = true) /\
  (forall r a, get_argument f r true = Ok a ->
     exists i, nth_error (get_arguments f true) i = Some (a_name a, a) /\
               (r = AName (a_name a) \/ r = APos (Z.of_nat i))).
Proof. exact names_resolve_arguments_lemma. Qed.
Print Assumptions names_resolve_arguments.

(* access_agrees_* / unset_*_reports_default restated for formats of the API: the only hypotheses left say which
   option / argument is meant ("the option listed as k with short name s", "the argument listed at position i") *)
Theorem access_agrees_options_reachable : forall f a k o s, api_format f ->
  In (k, o) (get_options f true) -> o_short o = Some s ->
  args_option f a k = args_option f a s /\ args_is_option_set f a k = args_is_option_set f a s.
Proof. intros f a k o s H. apply access_agrees_options_inv. now apply api_format_names_inv. Qed.
Print Assumptions access_agrees_options_reachable.
(* whatever name resolves reads what the long name of the resolved option reads *)
Theorem access_by_any_name_reachable : forall f a n o, api_format f -> get_option f n true = Ok o ->
  args_option f a n = args_option f a (o_long o) /\ args_is_option_set f a n = args_is_option_set f a (o_long o).
Proof. intros f a n o H. apply access_by_any_name_inv. now apply api_format_names_inv. Qed.
Print Assumptions access_by_any_name_reachable.
Theorem access_agrees_arguments_reachable : forall f a i n ar, api_format f ->
  nth_error (get_arguments f true) i = Some (n, ar) ->
  args_argument f a (APos (Z.of_nat i)) = args_argument f a (AName n) /\
  args_is_argument_set f a (APos (Z.of_nat i)) = args_is_argument_set f a (AName n).
Proof. intros f a i n ar H. apply access_agrees_arguments_inv. now apply api_format_names_inv. Qed.
Print Assumptions access_agrees_arguments_reachable.
Theorem unset_option_reports_default_reachable : forall f a k o n, api_format f ->
  In (k, o) (get_options f true) -> sget (o_long o) (ar_opts a) = None ->
  n = o_long o \/ o_short o = Some n ->
  args_option f a n = Ok (if o_accepts o then o_default o else VBool false) /\ args_is_option_set f a n = false.
Proof. intros f a k o n H. apply unset_option_default_inv. now apply api_format_names_inv. Qed.
Print Assumptions unset_option_reports_default_reachable.
Theorem unset_argument_reports_default_reachable : forall f a i n ar, api_format f ->
  nth_error (get_arguments f true) i = Some (n, ar) -> sget n (ar_args a) = None ->
  args_argument f a (APos (Z.of_nat i)) = Ok (a_default ar) /\ args_argument f a (AName n) = Ok (a_default ar) /\
  args_is_argument_set f a (APos (Z.of_nat i)) = false /\ args_is_argument_set f a (AName n) = false.
Proof. intros f a i n ar H. apply unset_argument_default_inv. now apply api_format_names_inv. Qed.
Print Assumptions unset_argument_reports_default_reachable.
(* the same for any format satisfying the invariant (a format used as a base; a hand-made one) *)
Theorem access_agrees_options_wf : forall f a k o s, names_inv f ->
  In (k, o) (get_options f true) -> o_short o = Some s ->
  args_option f a k = args_option f a s /\ args_is_option_set f a k = args_is_option_set f a s.
Proof. exact access_agrees_options_inv. Qed.
Print Assumptions access_agrees_options_wf.
Theorem access_agrees_arguments_wf : forall f a i n ar, names_inv f ->
  nth_error (get_arguments f true) i = Some (n, ar) ->
  args_argument f a (APos (Z.of_nat i)) = args_argument f a (AName n) /\
  args_is_argument_set f a (APos (Z.of_nat i)) = args_is_argument_set f a (AName n).
Proof. exact access_agrees_arguments_inv. Qed.
Print Assumptions access_agrees_arguments_wf.

(* fmt_inv and fmt_ok do not suffice: a format with a stale short-name index
   (own options --verbose/-v, --quiet/-q; short index { v -> quiet, q -> quiet }) *)
Example names_resolve_needs_short_index :
  fmt_inv NamesResolveExamples.Fbad /\ fmt_ok NamesResolveExamples.Fbad = true /\ ~ short_inv NamesResolveExamples.Fbad /\
  get_option NamesResolveExamples.Fbad (o_long SpellExamples.o_verbose) true = Ok SpellExamples.o_verbose /\
  o_short SpellExamples.o_verbose = Some [118]%N /\
  get_option NamesResolveExamples.Fbad [118]%N true = Ok SpellExamples.o_quiet.
Proof.
  destruct NamesResolveExamples.Fbad_resolves_differently as (H1 & H2 & H3 & H4 & H5).
  exact (conj H1 (conj H2 (conj H3 (conj H4 (conj eq_refl H5))))).
Qed.
Print Assumptions names_resolve_needs_short_index.
(* instance over a base (G of parse_spells_reachable_not_vacuous: own --num/-n --tag/-t --level, arguments port files;
   inherited --verbose/-v --quiet/-q --color/-c, argument host): inherited --color / -c, own --tag / -t, positions
   0 and 2, read from the assignment the line D1 spells *)
Example access_agrees_reachable_instance :
  let G := FmtOkExamples.G in let A := denote G SpellExamples.D1 in let s := SpellExamples.s in
  api_format G /\
  map fst (get_options G true) = [s "num"; s "tag"; s "level"; s "verbose"; s "quiet"; s "color"] /\
  map fst (get_arguments G true) = [s "host"; s "port"; s "files"] /\
  args_option G A (s "color") = args_option G A (s "c") /\ args_option G A (s "c") = Ok (VStr (s "auto")) /\
  args_option G A (s "tag") = args_option G A (s "t") /\
  args_argument G A (APos 2) = args_argument G A (AName (s "files")) /\
  args_argument G A (APos 0) = Ok (VStr (s "h1")).
Proof. exact NamesResolveExamples.G_instance. Qed.
Print Assumptions access_agrees_reachable_instance.

(* parse_spells_not_vacuous completed: D1 (above) lacks IFlag short, IVal ShortSep and IGroup None / GGlued / GBare.
   D2 = -n 12 | h2 | -qvcred (IGroup .. GGlued) | --level=null | -n7   (command names omitted)
   D3 = server | -vqv (IGroup None) | h3 | -q (IFlag short) | -vc (IGroup .. GBare) | --
   Both satisfy wf_line over F1 (no base) and over the API-built G (over a base); with D1 every constructor of
   item, vform and glast, both values of the long flags and both tail forms occur. *)
Example parse_spells_not_vacuous_all_forms :
  let s := SpellExamples.s in
  ld_items SpellExamples.D2 =
    [IVal SpellExamples.o_num ShortSep (s "12"); IPos (s "h2");
     IGroup [SpellExamples.o_quiet; SpellExamples.o_verbose] (Some (SpellExamples.o_color, GGlued (s "red")));
     IVal SpellExamples.o_level LongEq (s "null"); IVal SpellExamples.o_num ShortGlued (s "7")] /\
  ld_items SpellExamples.D3 =
    [IGroup [SpellExamples.o_verbose; SpellExamples.o_quiet; SpellExamples.o_verbose] None; IPos (s "h3");
     IFlag SpellExamples.o_quiet false; IGroup [SpellExamples.o_verbose] (Some (SpellExamples.o_color, GBare))] /\
  render SpellExamples.D2 = [s "-n"; s "12"; s "h2"; s "-qvcred"; s "--level=null"; s "-n7"] /\
  render SpellExamples.D3 = [s "server"; s "-vqv"; s "h3"; s "-q"; s "-vc"; s "--"] /\
  wf_line SpellExamples.F1 SpellExamples.D2 = true /\ wf_line SpellExamples.F1 SpellExamples.D3 = true /\
  wf_line FmtOkExamples.G SpellExamples.D2 = true /\ wf_line FmtOkExamples.G SpellExamples.D3 = true /\
  (forall lenient, parse FmtOkExamples.G lenient (render SpellExamples.D2) = Ok (denote FmtOkExamples.G SpellExamples.D2)) /\
  (forall lenient, parse FmtOkExamples.G lenient (render SpellExamples.D3) = Ok (denote FmtOkExamples.G SpellExamples.D3)) /\
  denote FmtOkExamples.G SpellExamples.D3 =
    {| ar_opts := [(s "verbose", VBool true); (s "quiet", VBool true); (s "color", VStr (s "auto"))];
       ar_args := [(s "host", VStr (s "h3"))] |}.
Proof. exact NamesResolveExamples.all_forms. Qed.
Print Assumptions parse_spells_not_vacuous_all_forms.

(* Command names ANYWHERE among the option items.
   parse_spells above is stated for line descriptions [ld] that write every command-name spelling first.  The parser
   accepts more: to its token loop a spelling is a positional token, and the re-alignment matches the command names
   against the first positional values of the line wherever they stand - behind options ('-v server --port 80 add x')
   and even behind "--" ('-v -- server add x').  Model/Spell.v has the generalised descriptions [ld2] (an item is an
   item of [ld] or a command-name spelling [IName s]; "--" is followed by further spellings, then values), with
   [render2], [denote2] and the side conditions [wf_line2]: those of [wf_line] with the spellings in their places
   (before "--" a spelling is a positional token of the loop: it does not look like an option and does not follow an
   omitted optional value), + [names_first] (no positional value in front of a spelling: it would be tried as the command
   name), + [names_match] (the spellings are non-empty names / aliases of the first command names, in order).  In the
   real parser a separated option value that equals a command name is consumed by the option and needs no condition; an
   omitted optional value swallows a following spelling (SpellNamesExamples.E1, Y1).
   FULL STATEMENT for the generalised grammar, proved (Proofs/SpellNames.v): *)
From Clikit Require Import Proofs.SpellNames.

Theorem parse_spells_interleaved : forall f d, fmt_ok f = true -> wf_line2 f d = true ->
  forall lenient, parse f lenient (render2 d) = Ok (denote2 f d).
Proof. exact parse_spells2_lemma. Qed.
Print Assumptions parse_spells_interleaved.
(* with fmt_ok replaced by reachability through the builder API / by the format invariant *)
Theorem parse_spells_interleaved_reachable : forall f d, api_format f -> wf_line2 f d = true ->
  forall lenient, parse f lenient (render2 d) = Ok (denote2 f d).
Proof. intros f d Hf. apply parse_spells2_lemma. now apply api_format_fmt_ok_lemma. Qed.
Print Assumptions parse_spells_interleaved_reachable.
Theorem parse_spells_interleaved_wf : forall f d, fmt_inv f -> wf_line2 f d = true ->
  forall lenient, parse f lenient (render2 d) = Ok (denote2 f d).
Proof. intros f d Hf. apply parse_spells2_lemma. now apply wf_implies_fmt_ok_lemma. Qed.
Print Assumptions parse_spells_interleaved_wf.
Theorem interleaved_spelling_parses : forall f asg line, fmt_ok f = true -> spells2 f asg line ->
  forall lenient, parse f lenient line = Ok asg.
Proof. intros f asg line Hf (d & Hwf & <- & <-). now apply parse_spells2_lemma. Qed.
Print Assumptions interleaved_spelling_parses.

(* the old grammar is the part of the new one with all spellings in front: same tokens, same assignment, and the side
   conditions of the old grammar imply the new ones - so parse_spells is a corollary of parse_spells_interleaved *)
Theorem old_grammar_embeds : forall f d,
  render2 (embed d) = render d /\ denote2 f (embed d) = denote f d /\ (wf_line f d = true -> wf_line2 f (embed d) = true).
Proof. exact embed_facts. Qed.
Print Assumptions old_grammar_embeds.
Theorem parse_spells_from_interleaved : forall f d, fmt_ok f = true -> wf_line f d = true ->
  forall lenient, parse f lenient (render d) = Ok (denote f d).
Proof. exact SpellNames.parse_spells_from_interleaved. Qed.
Print Assumptions parse_spells_from_interleaved.
(* where a spelling stands does not matter to the assignment: it is the one of the line with all spellings in front *)
Theorem interleaved_assignment_ignores_name_positions : forall f d, denote2 f d = denote f (names_to_front d).
Proof. exact denote2_front. Qed.
Print Assumptions interleaved_assignment_ignores_name_positions.

(* the hypotheses are satisfiable: F1 (command names server / srv and add, three arguments, six options) and F2 (the same
   over a base) with the line
     -q --verbose srv --num=-5 --tag add -tx -n 12 -vqt y add -vq h1 -qvcred 8080 -c --level -vc -- -a '' b
   (options before the first command name and between the two, an alias, every constructor of item / vform / glast, a
   separated value equal to the next command name); E2 = -v server -n7 -- add h2 80 -- add (second command name behind
   "--"); E3 = -q -- srv add h (both behind "--"); E4 = -v server --num=3 server (second name omitted) *)
Example parse_spells_interleaved_not_vacuous :
  let s := SpellExamples.s in
  fmt_ok SpellExamples.F1 = true /\ wf_line2 SpellExamples.F1 SpellNamesExamples.E1 = true /\
  fmt_ok SpellExamples.F2 = true /\ wf_line2 SpellExamples.F2 SpellNamesExamples.E1 = true /\
  render2 SpellNamesExamples.E1 =
    [s "-q"; s "--verbose"; s "srv"; s "--num=-5"; s "--tag"; s "add"; s "-tx"; s "-n"; s "12"; s "-vqt"; s "y"; s "add";
     s "-vq"; s "h1"; s "-qvcred"; s "8080"; s "-c"; s "--level"; s "-vc"; s "--"; s "-a"; s ""; s "b"] /\
  names2 SpellNamesExamples.E1 = [s "srv"; s "add"] /\
  denote2 SpellExamples.F1 SpellNamesExamples.E1 =
    {| ar_opts := [(s "quiet", VBool true); (s "verbose", VBool true); (s "num", VInt 12);
                   (s "tag", VList [VStr (s "add"); VStr (s "x"); VStr (s "y")]); (s "color", VStr (s "auto")); (s "level", VInt 3)];
       ar_args := [(s "host", VStr (s "h1")); (s "port", VInt 8080); (s "files", VList [VStr (s "-a"); VStr (s ""); VStr (s "b")])] |} /\
  wf_line2 SpellExamples.F1 SpellNamesExamples.E2 = true /\ wf_line2 SpellExamples.F1 SpellNamesExamples.E3 = true /\
  wf_line2 SpellExamples.F1 SpellNamesExamples.E4 = true.
Proof.
  exact (conj SpellExamples.F1_ok (conj SpellNamesExamples.E1_wf (conj SpellExamples.F2_ok (conj (proj1 SpellNamesExamples.E1_over_base)
        (conj SpellNamesExamples.E1_tokens (conj (proj1 SpellNamesExamples.E1_names) (conj SpellNamesExamples.E1_value
        (conj (proj1 SpellNamesExamples.E2_parses) (conj (proj1 SpellNamesExamples.E3_parses) (proj1 SpellNamesExamples.E4_parses)))))))))).
Qed.
Print Assumptions parse_spells_interleaved_not_vacuous.
(* the side conditions added are needed: lines they exclude, and the parser does not return the described assignment -
   Y1 = --color server add h (an omitted optional value swallows the spelling), Y2 = h server add (a value in front of
   the spellings), Y3 = h -- server add, Y4 = -v add h (the second command name without the first) *)
Example interleaved_side_conditions_needed :
  (wf_line2 SpellExamples.F1 SpellNamesExamples.Y1 = false /\
   forall lenient, parse SpellExamples.F1 lenient (render2 SpellNamesExamples.Y1) <> Ok (denote2 SpellExamples.F1 SpellNamesExamples.Y1)) /\
  (wf_line2 SpellExamples.F1 SpellNamesExamples.Y2 = false /\
   forall lenient, parse SpellExamples.F1 lenient (render2 SpellNamesExamples.Y2) <> Ok (denote2 SpellExamples.F1 SpellNamesExamples.Y2)) /\
  (wf_line2 SpellExamples.F1 SpellNamesExamples.Y3 = false /\
   forall lenient, parse SpellExamples.F1 lenient (render2 SpellNamesExamples.Y3) <> Ok (denote2 SpellExamples.F1 SpellNamesExamples.Y3)) /\
  (wf_line2 SpellExamples.F1 SpellNamesExamples.Y4 = false /\
   forall lenient, parse SpellExamples.F1 lenient (render2 SpellNamesExamples.Y4) <> Ok (denote2 SpellExamples.F1 SpellNamesExamples.Y4)).
Proof.
  exact (conj SpellNamesExamples.Y1_excluded (conj SpellNamesExamples.Y2_excluded
        (conj SpellNamesExamples.Y3_excluded SpellNamesExamples.Y4_excluded))).
Qed.
Print Assumptions interleaved_side_conditions_needed.

(* what the assignment [denote2 f d] reports through the read side of Args (as the spelled_* theorems above) *)
Theorem interleaved_options_marked_set : forall f d n o, get_option f n true = Ok o -> has_option f n true = true ->
  args_is_option_set f (denote2 f d) n = mentions (o_long o) (events2 d).
Proof. exact (fun f d => asg_option_set f (events2 d) (values2 d)). Qed.
Print Assumptions interleaved_options_marked_set.
Theorem interleaved_unspelled_option_default : forall f d n o, get_option f n true = Ok o ->
  mentions (o_long o) (events2 d) = false -> args_option f (denote2 f d) n = Ok (opt_default_value o).
Proof. exact (fun f d => asg_option_unset f (events2 d) (values2 d)). Qed.
Print Assumptions interleaved_unspelled_option_default.
Theorem interleaved_single_option : forall f d n o es1 e es2, get_option f n true = Ok o ->
  events2 d = (es1 ++ e :: es2)%list -> ev_key e = o_long o -> mentions (o_long o) es2 = false ->
  (match snd e with GText _ => o_multi (fst e) = false | _ => True end) ->
  args_option f (denote2 f d) n = Ok (event_value e).
Proof. exact (fun f d => asg_option_single f (events2 d) (values2 d)). Qed.
Print Assumptions interleaved_single_option.
Theorem interleaved_multi_option : forall f d n o, fmt_ok f = true -> wf_line2 f d = true ->
  get_option f n true = Ok o -> get_option f (o_long o) true = Ok o ->
  o_multi o = true -> mentions (o_long o) (events2 d) = true ->
  args_option f (denote2 f d) n = Ok (VList (map (fun s => conv_opt o (VStr s)) (texts_of (o_long o) (events2 d)))).
Proof.
  intros f d n o Hf Hwf Hg Hgl. destruct (wf_line2_inv f d Hf Hwf) as (_ & _ & Hev).
  exact (asg_option_multi f (events2 d) (values2 d) n o Hg Hgl Hev).
Qed.
Print Assumptions interleaved_multi_option.
Theorem interleaved_argument_set : forall f d i a r, fmt_ok f = true -> wf_line2 f d = true ->
  nth_error (get_arguments_all f) i = Some (a_name a, a) ->
  get_argument f r true = Ok a -> has_argument f r true = true ->
  args_is_argument_set f (denote2 f d) r = (i <? List.length (values2 d))%nat.
Proof.
  intros f d i a r Hf Hwf. destruct (wf_line2_inv f d Hf Hwf) as (Hnd & Hfit & _).
  exact (asg_argument_set f (events2 d) (values2 d) Hnd Hfit i a r).
Qed.
Print Assumptions interleaved_argument_set.
Theorem interleaved_argument_value : forall f d i a r, fmt_ok f = true -> wf_line2 f d = true ->
  nth_error (get_arguments_all f) i = Some (a_name a, a) ->
  get_argument f r true = Ok a -> has_argument f r true = true ->
  args_argument f (denote2 f d) r =
  Ok (if (i <? List.length (values2 d))%nat
      then (if a_multi a then VList (map (conv_arg a) (List.skipn i (values2 d))) else conv_arg a (nth i (values2 d) []))
      else a_default a).
Proof.
  intros f d i a r Hf Hwf Hn Hg _. destruct (wf_line2_inv f d Hf Hwf) as (Hnd & Hfit & _).
  exact (asg_argument_value f (events2 d) (values2 d) Hnd Hfit i a r Hn Hg).
Qed.
Print Assumptions interleaved_argument_value.
