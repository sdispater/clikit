(* C15 - section outputs keep the screen equal to the stacked section contents.
   The texts are MARKUP and the sections are indented (Model/Section.v): a text is measured by its visible length
   (remove_format), written through the formatter (SGR sequences on the stream), kept as raw indented markup.
     vis sty l           the visible text of a content line l (the undecorated formatter on l, empty style stack)
     stacked w sty st    the rows of every section's content lines, in creation order: fill w [] (vis sty l) for each line
     screen w sty st     these rows, followed by the empty row the cursor stands in
   GOOD MARKUP (good_lineb, a check that can be run; the harness decides it independently and compares): a line without
   ESC and tab that does not end with a backslash, has no tag right after a backslash, and that the undecorated formatter
   accepts from an empty style stack and leaves with an empty style stack (so no tag spans a line break).
   good_opsb sty ops: every line of every text written by ops is good markup (whatever the indentations). *)
From Clikit Require Import Base.Prelude Base.Res Base.Term Model.Conv Model.Markup Model.Section
  Proofs.TermLemmas Proofs.MarkupLemmas Proofs.SectionLemmas Proofs.SectionAboveLemmas.

(* For EVERY sequence of section creations, indentations, writes, overwrites and full or partial clears of good markup,
   every terminal width >= 1 and every decorating formatter (any style table) whose style stack is empty: no call raises;
   interpreting the emitted bytes - text, SGR sequences, cursor-up and erase codes - on the terminal leaves the screen
   showing exactly the VISIBLE contents of all sections in creation order, indented and wrapped at the width, with the
   cursor on the row below; every section's row count equals the rows its visible content occupies; every content line
   is good; the style stack is empty again. *)
Theorem screen_is_stack : forall w, 1 <= w -> forall f0 ops, is_ansi f0 -> f_stack f0 = [] ->
  good_opsb (f_styles f0) ops = true ->
  exists st f es, srun true w [] f0 ops = Ok (st, f, es) /\
    feed w term_init es = screen w (f_styles f0) st /\ Forall (sec_ok w (f_styles f0)) st /\ fmt_ok (f_styles f0) f.
Proof. exact screen_is_stack_lemma. Qed.
Print Assumptions screen_is_stack.

(* The special case of plain texts (no '<', backslash, ESC, tab) and indentation 0:
   for EVERY op sequence the screen is the raw content lines wrapped at the width, and every row count is theirs. *)
Theorem screen_is_stack_plain : forall w, 1 <= w -> forall f0 ops, is_ansi f0 -> f_stack f0 = [] -> Forall plain_op ops ->
  exists st f es, srun true w [] f0 ops = Ok (st, f, es) /\
    feed w term_init es = plain_screen w st /\
    Forall (fun s => sc_lines s = length (flat_map (fill w []) (sc_content s)) /\ sc_indent s = 0) st.
Proof.
  intros w w_pos f0 ops Hk Hs Hp.
  destruct (screen_is_stack w w_pos f0 ops Hk Hs (plain_ops_good (f_styles f0) ops Hp)) as (st & f & es & E & Ht & Hok & _).
  pose proof (run_plain w ops [] f0 st f es Hp (Forall_nil _) E) as Hc.
  exists st, f, es. split; [exact E|]. split.
  - rewrite Ht. unfold screen, plain_screen. now rewrite (plain_stacked w (f_styles f0) st Hc).
  - unfold all_plain in Hc. rewrite Forall_forall in *. intros s Hin. destruct (Hok s Hin) as [Hl _]. destruct (Hc s Hin) as [Hpl Hi].
    split; [|exact Hi]. now rewrite Hl, (plain_sec_rows _ _ s Hpl).
Qed.
Print Assumptions screen_is_stack_plain.

(* The row accounting of the code (math.ceil(len / width) or 1, of the visible text) is the number of rows the terminal uses. *)
Theorem rows_accounting : forall w, 1 <= w -> forall line, count_rows w line = length (fill w [] line).
Proof. exact count_rows_fill. Qed.
Print Assumptions rows_accounting.

(* One line of good markup: remove_format gives its visible text, format gives the same text under SGR sequences, the
   rows counted for it are those of the visible text - and the style stack stays empty each time. *)
Theorem good_line_shown : forall w sty f l, fmt_ok sty f -> good_lineb sty l = true ->
  (exists f', remove_format f l = Ok (f', vis sty l) /\ fmt_ok sty f') /\
  (exists f' a, format f l None = Ok (f', a) /\ fmt_ok sty f' /\ strip_sgr a = vis sty l) /\
  (exists f', measure w f [l] 0 = Ok (f', count_rows w (vis sty l)) /\ fmt_ok sty f').
Proof.
  intros w sty f l Hf Hg. destruct (good_line_ok sty l Hg) as [_ Hl]. pose proof (remove_format_ok sty f l _ Hf (proj2 Hl)) as E.
  split; [exists f; auto|]. split.
  - destruct (deco_of_plain sty l _ f Hl Hf) as (a & Ea & Hs). exists f, a. auto.
  - exists f. split; [|exact Hf]. cbn [measure]. now rewrite E.
Qed.
Print Assumptions good_line_shown.

(* The terminal makes of decorated bytes what it makes of the text under the SGR sequences: they occupy no cell. *)
Theorem sgr_occupies_no_cell : forall w t s, feed w t (emits_of_ansi s) = feed w t (emits_of_text (strip_sgr s)).
Proof. exact feed_ansi. Qed.
Print Assumptions sgr_occupies_no_cell.

(* On an output without ANSI support the same operations emit no control code, only text and line breaks. *)
Theorem plain_degrades : forall w ops st f r, srun false w st f ops = Ok r -> forallb plain_emit (snd r) = true.
Proof.
  intros w. induction ops as [|o r IH]; intros st f x; cbn [srun]; [intros H; inversion H; reflexivity|].
  destruct (sstep_plain w st f o) as [[[st1 f1] e1]|e] eqn:E1; cbn [bind fst snd]; [|discriminate].
  destruct (srun false w st1 f1 r) as [[[st2 f2] e2]|e] eqn:E2; cbn [bind fst snd]; [|discriminate].
  intros H. inversion H; subst. cbn [snd]. rewrite forallb_app. apply andb_true_intro. split.
  - exact (sstep_plain_emits w st f o _ E1).
  - exact (IH st1 f1 _ E2).
Qed.
Print Assumptions plain_degrades.

(* ... and what it emits is EXACTLY the appended lines: for every sequence of good markup, any indentations, any
   undecorating formatter with an empty style stack, the stream of the run is plain_out - for every write / write_line /
   overwrite on an existing section the visible text of its indented lines joined by line feeds (one more line feed after
   write_line / overwrite), nothing at all for section(), indent and clear - and no call raises. *)
Theorem plain_appended : forall w sty ops st f, pfmt_ok sty f -> good_opsb sty ops = true ->
  exists st' f', srun false w st f ops = Ok (st', f', plain_out sty (map sc_indent st) ops) /\ pfmt_ok sty f'.
Proof.
  intros w sty. induction ops as [|o r IH]; intros st f Hf Hg; cbn [srun]; [eauto|].
  cbn [good_opsb forallb] in Hg. apply andb_prop in Hg as [Hg1 Hg2].
  destruct (sstep_plain_appends w sty st f o Hf Hg1) as (st1 & es & E & Hout). rewrite E. cbn [bind fst snd].
  destruct (IH st1 f Hf Hg2) as (st' & f' & E' & Hf'). rewrite E', Hout. cbn [bind fst snd]. eauto.
Qed.
Print Assumptions plain_appended.
(* ... none of which is an escape byte (plain_degrades alone would let a Ch 27 through) *)
Theorem plain_no_escape_byte : forall sty ops inds, good_opsb sty ops = true ->
  Forall (fun e => e <> Ch ESC) (plain_out sty inds ops).
Proof.
  intros sty. induction ops as [|o r IH]; intros inds Hg; [constructor|].
  cbn [good_opsb forallb] in Hg. apply Bool.andb_true_iff in Hg as [Hg1 Hg2].
  assert (forall i text nl, good_textb sty text = true ->
            Forall (fun e => e <> Ch ESC) (plain_out sty inds (SWrite i text nl :: r))) as HW.
  { intros i text nl Ht. cbn [plain_out]. apply Forall_app. split; [|apply IH; exact Hg2]. destruct (nth_error inds i); [|constructor].
    apply Forall_app. split; [apply emits_no_esc, vis_text_no_esc, Ht|]. destruct nl; repeat constructor; discriminate. }
  destruct o as [ind|i0 text0|i text nl|i text|i n|i n]; cbn [good_opb] in Hg1;
    [apply IH; exact Hg2|discriminate|exact (HW i text nl Hg1)|exact (HW i text true Hg1)|apply IH; exact Hg2..].
Qed.
Print Assumptions plain_no_escape_byte.

(* output.section() hands the new section the indentation its output has at that moment (Output.section():
   section.indent(self._indent)): in a program of calls on the output and on its sections, every section() becomes a
   creation under the indentation set by the last output.indent(n) before it. *)
Theorem section_takes_the_outputs_indentation : forall ind n r,
  compile ind (PIndent n :: PSection :: r) = SCreate n :: compile n r /\
  compile ind (PSection :: r) = SCreate ind :: compile ind r /\
  (forall w st f, sstep w st f (SCreate n) = Ok (st ++ [new_sec n], f, []) /\ sc_indent (new_sec n) = n).
Proof. intros ind n r. repeat split. Qed.
Print Assumptions section_takes_the_outputs_indentation.

(* A run in which a call raises (the formatter refuses a text): everything the driver tells of it - sections, formatter,
   stream - is the complete run of the calls before the failing one, and the failing call is the one at that position. *)
Theorem failing_run_is_told_up_to_the_failing_call : forall ansi w ops st f st' f' es j k,
  srun_part ansi w st f ops = (st', f', es, Some (j, k)) ->
  srun ansi w st f (firstn j ops) = Ok (st', f', es) /\
  exists o, nth_error ops j = Some o /\ (if ansi then sstep w st' f' o else sstep_plain w st' f' o) = Err k.
Proof.
  intros ansi w. induction ops as [|o r IH]; intros st f st' f' es j k; cbn [srun_part]; [discriminate|].
  destruct (if ansi then sstep w st f o else sstep_plain w st f o) as [[[st1 f1] e1]|k1] eqn:E1; cbn [fst snd].
  - destruct (srun_part ansi w st1 f1 r) as [[[st3 f3] e3] [[j3 k3]|]] eqn:E2; cbn [option_map fst snd]; [|discriminate].
    intros H. inversion H; subst. destruct (IH _ _ _ _ _ _ _ E2) as (Hr & o' & Hn & He).
    split; [|exists o'; split; assumption]. cbn [firstn srun]. rewrite E1. cbn [bind fst snd]. rewrite Hr. reflexivity.
  - intros H. inversion H; subst. split; [reflexivity|]. exists o. split; [reflexivity|exact E1].
Qed.
Print Assumptions failing_run_is_told_up_to_the_failing_call.
Theorem complete_run_is_told_in_full : forall ansi w ops st f st' f' es,
  srun ansi w st f ops = Ok (st', f', es) <-> srun_part ansi w st f ops = (st', f', es, None).
Proof.
  intros ansi w. induction ops as [|o r IH]; intros st f st' f' es; cbn [srun srun_part].
  - split; intros H; inversion H; reflexivity.
  - destruct (if ansi then sstep w st f o else sstep_plain w st f o) as [[[st1 f1] e1]|k]; cbn [bind fst snd].
    2: split; discriminate.
    specialize (IH st1 f1).
    destruct (srun ansi w st1 f1 r) as [[[st2 f2] e2]|k2]; cbn [bind fst snd];
      destruct (srun_part ansi w st1 f1 r) as [[[st3 f3] e3] [[j k3]|]]; cbn [option_map].
    + pose proof (proj1 (IH st2 f2 e2) eq_refl) as X. discriminate X.
    + pose proof (proj1 (IH st2 f2 e2) eq_refl) as X. inversion X; subst. split; intros H; inversion H; reflexivity.
    + split; discriminate.
    + pose proof (proj2 (IH st3 f3 e3) eq_refl) as X. discriminate X.
Qed.
Print Assumptions complete_run_is_told_in_full.

Definition demo_f : formatter := match new_formatter (FAnsi true) [] with Ok f => f | Err _ => {| f_kind := FAnsi true; f_styles := []; f_stack := [] |} end.
Definition t_info : str := [60;105;110;102;111;62;49;50;51;52;53;60;47;105;110;102;111;62;54;55;56;57;48]%N.   (* <info>12345</info>67890 *)
Definition t_inline : str := [112;60;102;103;61;114;101;100;62;113;60;47;62;114;32;97;92;60;98]%N.             (* p<fg=red>q</>r a\<b *)
(* raw length 23 at width 10: ONE row, the screen shows 1234567890 *)
Example c15_tagged_one_row :
  match srun true 10 [] demo_f [SCreate 0; SWrite 0 t_info true] with
  | Ok (st, _, es) => map sc_lines st = [1] /\ rows (feed 10 term_init es) = [[49;50;51;52;53;54;55;56;57;48]%N; []]
  | Err _ => False
  end.
Proof. vm_compute. split; reflexivity. Qed.
(* the premises of screen_is_stack are satisfiable: tags, an inline style, an escaped '<', indentation, a partial clear *)
Example c15_good_ops :
  good_opsb (f_styles demo_f)
    [SCreate 0; SCreate 0; SIndent 0 3; SWrite 0 t_info true; SWrite 1 t_inline true; SOverwrite 0 t_inline; SClear 1 (Some 1)] = true
  /\ is_ansi demo_f /\ f_stack demo_f = [].
Proof. vm_compute. repeat split. Qed.
Example c15_wrapped_partial_clear :
  let ops := [SCreate 0; SCreate 0; SWrite 0 (repeat 97%N 25) true; SWrite 1 [98; 98]%N true; SWrite 0 [99]%N true; SClear 0 (Some 2)] in
  match srun true 10 [] demo_f ops with Ok (st, _, es) => rows (feed 10 term_init es) = [[98; 98]%N; []] | Err _ => False end.
Proof. vm_compute. reflexivity. Qed.
(* an EMPTY line under an indentation wider than the terminal (12 at width 10) is one row: add_content, like
   Output.write, gives an empty line no blanks (before /repo c052dce it kept 12 blanks for it, counted 2 rows, and the
   clear erased "top" of the section above).  Inside the class of screen_is_stack; the screen equals the stack. *)
Example c15_indented_empty_line_too_wide :
  let ops := [SCreate 0; SCreate 0; SWrite 0 [116;111;112]%N true; SIndent 1 12; SWrite 1 [] true; SWrite 1 [121]%N true; SClear 1 (Some 1)] in
  match srun true 10 [] demo_f ops with
  | Ok (st, _, es) => feed 10 term_init es = screen 10 (f_styles demo_f) st
                      /\ stacked 10 (f_styles demo_f) st = [[116;111;112]%N; []]
                      /\ map sc_lines st = [1; 1] /\ good_opsb (f_styles demo_f) ops = true
  | Err _ => False
  end.
Proof. vm_compute. repeat split. Qed.

(* plain_appended at work: an undecorated output, a section created under output.indent(2), a tagged two-line text *)
Definition demo_p : formatter := match new_formatter FPlain [] with Ok f => f | Err _ => {| f_kind := FPlain; f_styles := []; f_stack := [] |} end.
Example c15_plain_appended_instance :
  let ops := compile 0 [PIndent 2; PSection; POp (SWrite 0 [60;105;110;102;111;62;97;60;47;105;110;102;111;62;10;10;99]%N true); POp (SClear 0 None)] in   (* <info>a</info> LF LF c *)
  good_opsb (f_styles demo_p) ops = true /\ pfmt_ok (f_styles demo_p) demo_p /\
  plain_out (f_styles demo_p) [] ops = [Ch 32; Ch 32; Ch 97; Nl; Nl; Ch 32; Ch 32; Ch 99; Nl]%N.
Proof. vm_compute. repeat split. discriminate. Qed.

(* ROWS ABOVE THE SECTIONS.  The statements above start from an empty terminal, where the first section begins on the first
   row: a cursor movement that goes too far up is clamped there and leaves no trace.  On a terminal that already shows
   complete rows P above the cursor (below P: the rows P, the cursor at the start of the row under them) the same run of
   good markup leaves P as it was and stacks the sections under it - for every width, style table, op sequence and P.
   (The oracle of harness/props/C15.py replays the bytes below three rows: clause rows-above-the-sections-disturbed.)
   The third conjunct repeats screen_is_stack for the same run, so that both terminals speak of the same st and es. *)
Theorem rows_above_are_kept : forall w, 1 <= w -> forall f0 ops P, is_ansi f0 -> f_stack f0 = [] ->
  good_opsb (f_styles f0) ops = true ->
  exists st f es, srun true w [] f0 ops = Ok (st, f, es) /\
    feed w (below P) es = below (P ++ stacked w (f_styles f0) st) /\
    feed w term_init es = screen w (f_styles f0) st.
Proof.
  intros w w_pos f0 ops P Hk Hs Hg. destruct (run_from_empty w w_pos f0 ops Hk Hs Hg) as (st & es & E & _ & HP).
  exists st, f0, es. split; [exact E|]. split; [exact (HP P)|exact (HP [])].
Qed.
Print Assumptions rows_above_are_kept.
(* the premises are met by a run that wraps a line, overwrites the upper section and clears the lower one, below two rows *)
Example c15_rows_above_instance :
  let ops := [SCreate 0; SCreate 0; SWrite 0 (repeat 97%N 25) true; SWrite 1 [98; 98]%N true; SOverwrite 0 [99]%N; SClear 1 None] in
  let P := [[35]%N; [35; 35]%N] in
  match srun true 10 [] demo_f ops with
  | Ok (st, _, es) => rows (feed 10 (below P) es) = P ++ [[99]%N; []] /\ cr (feed 10 (below P) es) = 3
                      /\ good_opsb (f_styles demo_f) ops = true
  | Err _ => False
  end.
Proof. vm_compute. repeat split. Qed.
(* a text that ENDS with a line break ("s" LF): its last content line is an empty one - two rows, and the overwrite that
   follows takes both away (counting splitlines() instead would leave a stale row) *)
Example c15_text_ending_in_a_line_break :
  let ops := [SCreate 0; SWrite 0 [115; 10]%N true; SOverwrite 0 [116]%N] in
  match srun true 10 [] demo_f [SCreate 0; SWrite 0 [115; 10]%N true], srun true 10 [] demo_f ops with
  | Ok (st1, _, _), Ok (st, _, es) => map sc_lines st1 = [2] /\ map sc_content st1 = [[[115]%N; []]]
                                      /\ rows (feed 10 term_init es) = [[116]%N; []] /\ good_opsb (f_styles demo_f) ops = true
  | _, _ => False
  end.
Proof. vm_compute. repeat split. Qed.
